(* C07 — oracle soundness: on an implementation that behaves like the model
   the run-time check answers 0 (so the oracle never asks for more than the
   theorems give); and the listings the printers produce read back as the
   state they list. *)
From Yv Require Import Common.Base C07.Model C07.Spec C07.Proofs C07.Run.

Local Open Scope N_scope.

(* the lemmas about words at the real table, for quoter and lexer alike:
   [qws] = [lws] = [ws], so the agreement hypothesis is trivial *)
Lemma ws_quote_decodes s : spec_decode ws (quote ws s) = Some s.
Proof. apply quote_decodes. trivial. Qed.

Lemma ws_quote_word s : operand_word ws false (quote ws s) s.
Proof. apply quote_multi_word; [trivial | apply rust_ws_ascii_ok]. Qed.

(* "--", "-o", "+o": words that stand for themselves *)
Lemma ws_self_word w : spec_decode ws w = Some w -> operand_word ws false w w.
Proof. apply spec_multi_word, rust_ws_ascii_ok. Qed.

Lemma ws_name_word name : simple_word name = true -> operand_word ws false name name.
Proof. apply name_multi_word, rust_ws_ascii_ok. Qed.

Lemma str_eqb_refl s : str_eqb s s = true.
Proof. apply str_eqb_eq. reflexivity. Qed.

Lemma strs_eqb_refl l : list_eqb str_eqb l l = true.
Proof. apply list_eqb_spec; [apply str_eqb_eq | reflexivity]. Qed.

Lemma predict_args_quote s : predict_args (quote ws s) = PFields [s].
Proof.
  unfold predict_args.
  pose proof (run_line_operand ws rust_ws_ascii_ok false s_args _ s [] eq_refl (ws_quote_word s) I) as E.
  rewrite app_nil_r in E. rewrite E. reflexivity.
Qed.

Lemma predict_assign_quote s : predict_assign (quote ws s) = PFields [s].
Proof.
  unfold predict_assign.
  pose proof (run_line_assign ws rust_ws_ascii_ok [120] _ s [] eq_refl (ws_quote_decodes s) I) as E.
  rewrite app_nil_r in E. change ([120] ++ c_eq :: quote ws s) with (s_x_eq ++ quote ws s) in E.
  rewrite E. reflexivity.
Qed.

(* [x=Q] as the operand of [typeset] and of [args] *)
Lemma run_line_x_eq d cmd s :
  utility d cmd = true ->
  run_line ws (cmd ++ c_sp :: s_x_eq ++ quote ws s) = COk (mkSimple [] [OField cmd; OField (s_x_eq ++ s)]) [].
Proof.
  intros Hc.
  pose proof (run_line_assign_operand ws rust_ws_ascii_ok d cmd [120] _ s [] Hc eq_refl (ws_quote_decodes s) I) as E.
  rewrite app_nil_r in E. exact E.
Qed.

Lemma predict_decl_quote s : predict_decl (quote ws s) = PFields [s].
Proof. unfold predict_decl. rewrite (run_line_x_eq true) by reflexivity. reflexivity. Qed.

Lemma predict_argeq_quote s : predict_args (s_x_eq ++ quote ws s) = PFields [s_x_eq ++ s].
Proof. unfold predict_args. rewrite (run_line_x_eq false) by reflexivity. reflexivity. Qed.

Lemma shape_of_code_code sh : shape_of_code (shape_code sh) = Some sh.
Proof. destruct sh; reflexivity. Qed.

Lemma shape_eqb_refl sh : shape_eqb sh sh = true.
Proof. destruct sh; reflexivity. Qed.

Lemma shape_code_bit2 sh : N.testbit (shape_code sh) 2 = false.
Proof. destruct sh; reflexivity. Qed.

Lemma nl_rest_ok t : rest_ok (c_nl :: t).
Proof. cbn. repeat split; discriminate. Qed.

Lemma run_lines_step fuel line c text :
  run_line ws (line ++ c_nl :: text) = COk c (c_nl :: text) ->
  run_lines ws (S fuel) (line ++ c_nl :: text) = option_map (cons c) (run_lines ws fuel text).
Proof.
  intros E. cbn [run_lines]. destruct line; cbn [app] in *; rewrite E, N.eqb_refl; reflexivity.
Qed.

(* a block of complete lines that reads as the commands [cs], whatever
   follows.  [run_lines] spends one unit of fuel per command; the length bound
   is what makes [lines_fuel] enough ([lines_ok_run]). *)
Definition lines_ok (t : str) (cs : list simple) : Prop :=
  (length cs <= length t)%nat
  /\ forall fuel text,
       run_lines ws (length cs + fuel) (t ++ text) = option_map (app cs) (run_lines ws fuel text).

Lemma lines_ok_nil : lines_ok [] [].
Proof. split; [cbn; lia|]. intros fuel text. cbn. destruct (run_lines ws fuel text); reflexivity. Qed.

Lemma lines_ok_app t1 c1 t2 c2 : lines_ok t1 c1 -> lines_ok t2 c2 -> lines_ok (t1 ++ t2) (c1 ++ c2).
Proof.
  intros [L1 H1] [L2 H2]. split; [rewrite !app_length; lia|].
  intros fuel text. rewrite app_length, <- Nat.add_assoc, <- app_assoc, H1, H2.
  destruct (run_lines ws fuel text); cbn [option_map]; [rewrite app_assoc|]; reflexivity.
Qed.

Lemma lines_ok_line t line c :
  t = line ++ [c_nl] ->
  (forall text, run_line ws (line ++ c_nl :: text) = COk c (c_nl :: text)) ->
  lines_ok t [c].
Proof.
  intros -> H. split; [rewrite app_length; cbn; lia|].
  intros fuel text. rewrite <- app_assoc. cbn [app length Nat.add].
  rewrite (run_lines_step fuel line c text (H text)).
  destruct (run_lines ws fuel text); reflexivity.
Qed.

Lemma lines_ok_flat_map {A} (f : A -> str) (g : A -> list simple) l :
  (forall x, In x l -> lines_ok (f x) (g x)) -> lines_ok (flat_map f l) (flat_map g l).
Proof.
  induction l as [|x l IH]; intros H; [apply lines_ok_nil|].
  cbn [flat_map]. apply lines_ok_app; [apply H; left; reflexivity|].
  apply IH. intros y Hy. apply H. right; assumption.
Qed.

Lemma lines_ok_run t cs : lines_ok t cs -> run_lines ws (lines_fuel t) t = Some cs.
Proof.
  intros [L H]. unfold lines_fuel.
  replace (S (length t)) with (length cs + S (length t - length cs))%nat by lia.
  rewrite <- (app_nil_r t) at 2. rewrite H. cbn. rewrite app_nil_r. reflexivity.
Qed.

(* a listing with one line per entry *)
Lemma lines_ok_run_entries (text : str * str -> str) (cmd : str * str -> simple) st :
  Forall (fun p => lines_ok (text p) [cmd p]) st ->
  run_lines ws (lines_fuel (flat_map text st)) (flat_map text st) = Some (map cmd st).
Proof.
  intros H. apply lines_ok_run.
  assert (E : forall l, flat_map (fun p => [cmd p]) l = map cmd l)
    by (induction l; cbn; congruence).
  rewrite <- E. apply lines_ok_flat_map. apply Forall_forall. exact H.
Qed.

(* set: name=Qvalue *)
Lemma set_line_ok p :
  simple_word (fst p) = true ->
  lines_ok (fst p ++ c_eq :: quote ws (snd p) ++ [c_nl]) [mkSimple [(fst p, OField (snd p))] []].
Proof.
  intros H. apply (lines_ok_line _ (fst p ++ c_eq :: quote ws (snd p))).
  - rewrite <- app_assoc. reflexivity.
  - intros text. rewrite <- app_assoc.
    apply (run_line_assign ws rust_ws_ascii_ok _ _ _ _ H (ws_quote_decodes _) (nl_rest_ok _)).
Qed.

Lemma command_line_ok t cmd ts fs :
  t = cmd ++ spaced ts ++ [c_nl] -> plain_cmd cmd = true -> Forall2 (operand_word ws false) ts fs ->
  lines_ok t [mkSimple [] (OField cmd :: map OField fs)].
Proof.
  intros -> Hc Hts. apply (lines_ok_line _ (cmd ++ spaced ts)); [rewrite app_assoc; reflexivity|].
  intros text. rewrite <- app_assoc.
  apply (run_line_operands ws rust_ws_ascii_ok false); [assumption | assumption | apply nl_rest_ok].
Qed.

(* trap: trap -- Qaction COND *)
Lemma trap_line_ok p :
  simple_word (fst p) = true ->
  lines_ok (s_trap_dd ++ quote ws (snd p) ++ c_sp :: fst p ++ [c_nl])
    [mkSimple [] [OField s_trap; OField s_dd; OField (snd p); OField (fst p)]].
Proof.
  intros H. apply (command_line_ok _ s_trap [s_dd; quote ws (snd p); fst p] [s_dd; snd p; fst p]).
  - cbn [spaced flat_map]. rewrite app_nil_r, <- !app_assoc. reflexivity.
  - reflexivity.
  - repeat constructor;
      [apply ws_self_word; reflexivity | apply ws_quote_word | apply ws_name_word, H].
Qed.

(* alias: Qname=Qvalue, evaluated as operands of one alias command *)
Lemma alias_operands st :
  Forall (fun p => pair_safe ws (fst p) (snd p) = true) st ->
  Forall2 (operand_word ws false)
    (s_dd :: map (fun p => quote ws (fst p) ++ c_eq :: quote ws (snd p)) st)
    (s_dd :: map (fun p => fst p ++ c_eq :: snd p) st).
Proof.
  intros H. constructor; [apply ws_self_word; reflexivity|].
  apply quote_pairs_multi_word; [trivial | apply rust_ws_ascii_ok | exact H].
Qed.

Definition set_cmd (flag name : str) : simple := mkSimple [] [OField s_set; OField flag; OField name].

Lemma set_o_line_ok flag name :
  flag = s_minus_o \/ flag = s_plus_o -> simple_word name = true ->
  lines_ok (set_o_line flag name) [set_cmd flag name].
Proof.
  intros Hf Hn. apply (command_line_ok _ s_set [flag; name] [flag; name]).
  - unfold set_o_line. cbn [spaced flat_map]. rewrite app_nil_r, <- !app_assoc. reflexivity.
  - reflexivity.
  - repeat constructor; [|apply ws_name_word, Hn].
    apply ws_self_word. destruct Hf as [-> | ->]; reflexivity.
Qed.

Lemma comment_line_ok t line :
  t = c_hash :: line ++ [c_nl] -> mem c_nl line = false -> lines_ok t [mkSimple [] []].
Proof.
  intros -> H. apply (lines_ok_line _ (c_hash :: line)); [reflexivity|]. intros text.
  unfold run_line, words_fuel. cbn [app length read_words skip_blanks].
  change (N.eqb c_hash c_bs) with false. cbn iota.
  assert (Hb : is_blank ws c_hash = false) by reflexivity. rewrite Hb, N.eqb_refl.
  rewrite skip_comment_line by assumption. reflexivity.
Qed.

(* what the lines of `set +o` read as: nothing for [portable] (printed
   apart, first and last), the empty command for a commented line
   ([comment_line_ok]) *)
Definition opt_cmds (p : str * str) : list simple :=
  if str_eqb (fst p) s_portable then []
  else [if existsb (str_eqb (fst p)) unmodifiable then mkSimple [] []
        else set_cmd (opt_flag p) (fst p)].

Definition set_o_cmds (st : snapshot) : list simple :=
  set_cmd s_plus_o s_portable :: flat_map opt_cmds st
  ++ (if portable_on st then [set_cmd s_minus_o s_portable] else []).

Lemma opt_line_ok p : simple_word (fst p) = true -> lines_ok (opt_line p) (opt_cmds p).
Proof.
  intros Hn. unfold opt_line, opt_cmds.
  destruct (str_eqb (fst p) s_portable); [apply lines_ok_nil|].
  assert (Hf : opt_flag p = s_minus_o \/ opt_flag p = s_plus_o)
    by (unfold opt_flag; destruct (str_eqb (snd p) s_on); auto).
  destruct (existsb (str_eqb (fst p)) unmodifiable).
  - apply (comment_line_ok _ (s_set ++ spaced [opt_flag p; fst p])).
    + unfold set_o_line. cbn [spaced flat_map]. rewrite app_nil_r, <- !app_assoc. reflexivity.
    + cbn [spaced flat_map]. rewrite !mem_app, !mem_cons, (name_no_char c_nl (fst p)) by trivial.
      destruct Hf as [-> | ->]; reflexivity.
  - apply set_o_line_ok; assumption.
Qed.

Lemma set_o_lines_ok st :
  Forall (fun p => simple_word (fst p) = true) st -> lines_ok (set_o_text st) (set_o_cmds st).
Proof.
  intros H. unfold set_o_text, set_o_cmds.
  apply (lines_ok_app _ [_]); [apply set_o_line_ok; [right; reflexivity | reflexivity]|].
  apply lines_ok_app.
  - apply lines_ok_flat_map. intros p Hp. apply opt_line_ok.
    rewrite Forall_forall in H. apply H. assumption.
  - destruct (portable_on st); [apply set_o_line_ok; [left; reflexivity | reflexivity] | apply lines_ok_nil].
Qed.
