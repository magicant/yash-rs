(* C07 — the reader model reads every word the specification accepts as the
   field it denotes.  Three layers: a text [q] that the decoder of Spec.v
   takes for [s] is lexed into the units [units_of q s] ([lexes_to]: only the
   lexer); those units are harmless ([units_ok]: only the expansion tests); a
   text that is one word and expands to one fixed field is an
   [operand_word], and a command name followed by operand words is what
   [run_line] says it is ([run_line_operands]).  The quoter enters in the
   last section only, through [quote_decodes] of Quoter.v and [quote_units]. *)
From Yv Require Import Common.Base C07.Model C07.Spec.
From Yv Require Export C07.Quoter C07.Fuel.

Local Open Scope N_scope.

(* Facts about lexing are stated as [lex (t ++ r) = cons_all U (lex r)]: they
   hold whether or not the rest [r] lexes, and compose by [cons_all_app]. *)
Definition cons_all (us : list wunit) (r : lexres) : lexres := fold_right cons_u r us.

Lemma cons_all_word us us' rest : cons_all us (LWord us' rest) = LWord (us ++ us') rest.
Proof.
  induction us as [|u us IH]; [reflexivity|].
  cbn [cons_all fold_right app]. fold (cons_all us (LWord us' rest)). rewrite IH. reflexivity.
Qed.

Lemma cons_all_app a b r : cons_all (a ++ b) r = cons_all a (cons_all b r).
Proof. unfold cons_all. apply fold_right_app. Qed.

Lemma cons_all_cons u a r : cons_all (u :: a) r = cons_u u (cons_all a r).
Proof. reflexivity. Qed.

Lemma strip_app a b : strip (a ++ b) = strip a ++ strip b.
Proof. unfold strip. apply flat_map_app. Qed.

Lemma strip_lits s : strip (map Lit s) = s.
Proof. induction s as [|c s IH]; [reflexivity | cbn; f_equal; exact IH]. Qed.

Lemma strip_quos s : strip (map Quo s) = s.
Proof. induction s as [|c s IH]; [reflexivity | cbn; f_equal; exact IH]. Qed.

(* quoted units: none of them is an unquoted character *)
Definition no_lit : list wunit -> Prop := Forall (fun u => forall c, is_lit c u = false).

Lemma no_lit_quos s : no_lit (Mark :: map Quo s).
Proof. constructor; [reflexivity|]. induction s; constructor; [reflexivity | assumption]. Qed.

Lemma no_lit_existsb c us : no_lit us -> existsb (is_lit c) us = false.
Proof.
  induction 1 as [|u us Hu _ IH]; [reflexivity|]. cbn [existsb]. rewrite Hu, IH. reflexivity.
Qed.

Lemma no_lit_tilde_after_colon us : no_lit us -> tilde_after_colon us = false.
Proof.
  induction 1 as [|u us Hu _ IH]; [reflexivity|]. cbn [tilde_after_colon]. rewrite Hu. exact IH.
Qed.

Lemma no_lit_bracket_pair us : no_lit us -> bracket_pair us = false.
Proof.
  induction 1 as [|u us Hu _ IH]; [reflexivity|]. cbn [bracket_pair]. rewrite Hu. exact IH.
Qed.

Lemma existsb_units (p : wunit -> bool) (f : N -> wunit) k s :
  (forall c, p (f c) = N.eqb c k) -> existsb p (map f s) = mem k s.
Proof.
  intros Hf. induction s as [|c s IH]; [reflexivity|].
  cbn [map existsb]. rewrite Hf, IH, mem_cons, (N.eqb_sym c k). reflexivity.
Qed.

(* unquoted units: the reader's tests on the units are the specification's
   tests on the string ([mem], [bracket_hazard], [colon_tilde]) *)
Lemma lits_existsb k s : existsb (is_lit k) (map Lit s) = mem k s.
Proof. apply existsb_units. reflexivity. Qed.

Lemma lits_bracket_pair s : bracket_pair (map Lit s) = bracket_hazard s.
Proof.
  induction s as [|c s IH]; [reflexivity|].
  cbn [map bracket_pair bracket_hazard is_lit].
  rewrite IH, (existsb_units _ _ c_rbrk) by reflexivity. reflexivity.
Qed.

Lemma lits_tilde_after_colon s :
  colon_tilde s = false -> tilde_after_colon (map Lit s) = false.
Proof.
  induction s as [|a t IH]; [reflexivity|].
  destruct t as [|b t'].
  - intros _. cbn. rewrite andb_false_r. reflexivity.
  - change (colon_tilde (a :: b :: t')) with
      ((N.eqb a c_colon && N.eqb b c_tilde) || colon_tilde (b :: t')).
    rewrite orb_false_iff. intros [H1 H2].
    change (map Lit (a :: b :: t')) with (Lit a :: map Lit (b :: t')).
    cbn [tilde_after_colon]. rewrite (IH H2).
    cbn [map tilde_at is_lit].
    destruct (N.eqb a c_colon); [|reflexivity].
    cbn [andb] in H1. rewrite H1. reflexivity.
Qed.

Lemma literal_of_lits s : literal_of (map Lit s) = Some s.
Proof. induction s as [|c s IH]; [reflexivity|]. cbn [map literal_of]. rewrite IH. reflexivity. Qed.

Lemma literal_of_app_lits a V :
  literal_of (map Lit a ++ V) = option_map (app a) (literal_of V).
Proof.
  induction a as [|c a IH]; cbn [map app literal_of].
  - destruct (literal_of V); reflexivity.
  - rewrite IH. destruct (literal_of V); reflexivity.
Qed.

Lemma split_eq_lits_none w : mem c_eq w = false -> split_eq (map Lit w) = None.
Proof.
  induction w as [|c w IH]; [reflexivity|].
  rewrite mem_cons, orb_false_iff. intros [H1 H2].
  cbn [map split_eq is_lit]. rewrite N.eqb_sym, H1, IH by assumption. reflexivity.
Qed.

Lemma split_eq_assign name U :
  mem c_eq name = false ->
  split_eq (map Lit name ++ Lit c_eq :: U) = Some (map Lit name, U).
Proof.
  induction name as [|c w IH]; [reflexivity|].
  rewrite mem_cons, orb_false_iff. intros [H1 H2].
  cbn [map app split_eq is_lit]. rewrite N.eqb_sym, H1, IH by assumption. reflexivity.
Qed.

Lemma bracket_pair_split a b :
  bracket_pair (a ++ b)
  = bracket_pair a || (existsb (is_lit c_lbrk) a && existsb (has_char c_rbrk) b) || bracket_pair b.
Proof.
  induction a as [|u a IH]; [reflexivity|].
  cbn [app bracket_pair existsb]. rewrite IH, existsb_app.
  destruct (is_lit c_lbrk u), (existsb (has_char c_rbrk) a), (existsb (has_char c_rbrk) b),
    (bracket_pair a), (existsb (is_lit c_lbrk) a); reflexivity.
Qed.

(* the first unit is no unquoted tilde: no tilde expansion at the front.
   Also says that [U] is not empty, which [as_assign_bare] needs of a name. *)
Definition no_tilde_head (U : list wunit) : Prop :=
  match U with
  | u :: _ => is_lit c_tilde u = false
  | [] => False
  end.

Lemma tilde_at_head b U V : no_tilde_head U -> tilde_at b (U ++ V) = false.
Proof. destruct U as [|u t]; [contradiction|]. intros H. cbn [app tilde_at]. rewrite H. reflexivity. Qed.

(* What makes the units [U] of a word harmless: they strip to [s], no tilde
   expansion at the front, no unquoted colon followed by a tilde prefix, and
   nothing in them is a pattern. *)
Record units_ok (U : list wunit) (s : str) : Prop := {
  uo_strip : strip U = s;
  uo_head : no_tilde_head U;
  uo_colon : tilde_after_colon U = false;
  uo_star : existsb (is_lit c_star) U = false;
  uo_quest : existsb (is_lit c_quest) U = false;
  uo_bracket : bracket_pair U = false
}.

Lemma ok_no_tilde U s : units_ok U s -> tilde_front U = false /\ tilde_everywhere U = false.
Proof.
  intros [_ Hh Hc _ _ _]. unfold tilde_front, tilde_everywhere. rewrite Hc, <- (app_nil_r U).
  rewrite !tilde_at_head by assumption. auto.
Qed.

Lemma ok_no_glob U s : units_ok U s -> glob_active U = false.
Proof. intros [_ _ _ H1 H2 H3]. unfold glob_active. rewrite H1, H2, H3. reflexivity. Qed.

Lemma read_multi_ok U s : units_ok U s -> read_multi U = OField s.
Proof.
  intros H. unfold read_multi.
  rewrite (proj1 (ok_no_tilde U s H)), (ok_no_glob U s H), (uo_strip U s H). reflexivity.
Qed.

Lemma read_value_ok U s : units_ok U s -> read_value U = OField s.
Proof.
  intros H. unfold read_value. rewrite (proj2 (ok_no_tilde U s H)), (uo_strip U s H). reflexivity.
Qed.

(* [A=B] of two such words is a pattern only through a bracket expression
   that opens in A and closes in B *)
Lemma read_multi_pair A n B v :
  units_ok A n -> units_ok B v ->
  existsb (is_lit c_lbrk) A = false \/ existsb (has_char c_rbrk) B = false ->
  read_multi (A ++ Lit c_eq :: B) = OField (n ++ c_eq :: v).
Proof.
  intros [As Ah _ A1 A2 A3] [Bs _ _ B1 B2 B3] Hsafe. unfold read_multi, glob_active, tilde_front.
  rewrite tilde_at_head, !existsb_app, bracket_pair_split by assumption.
  cbn [existsb bracket_pair is_lit has_char]. rewrite A1, A2, A3, B1, B2, B3.
  change (N.eqb c_eq c_star) with false. change (N.eqb c_eq c_quest) with false.
  change (N.eqb c_eq c_lbrk) with false. change (N.eqb c_eq c_rbrk) with false.
  cbn [andb orb].
  replace (existsb (is_lit c_lbrk) A && existsb (has_char c_rbrk) B) with false
    by (destruct Hsafe as [-> | ->]; [reflexivity | symmetry; apply andb_false_r]).
  rewrite strip_app. cbn [strip flat_map app]. fold (strip B). rewrite As, Bs. reflexivity.
Qed.

(* a word that is no assignment is an ordinary operand of a declaration
   utility too *)
Lemma read_decl_not_assign U : as_assign U = None -> read_decl U = read_multi U.
Proof. unfold read_decl, read_multi. intros ->. destruct (tilde_front U); reflexivity. Qed.

Lemma as_assign_no_eq U : split_eq U = None -> as_assign U = None.
Proof. unfold as_assign. intros ->. destruct (tilde_front U); reflexivity. Qed.

(* the name of an assignment is literal: a word that opens with a quotation
   is none *)
Lemma as_assign_quoted X : as_assign (Mark :: X) = None.
Proof. unfold as_assign. cbn. destruct (split_eq X) as [[a b]|]; reflexivity. Qed.

Lemma as_assign_bare n V :
  no_tilde_head (map Lit n) -> mem c_eq n = false ->
  as_assign (map Lit n ++ Lit c_eq :: V) = Some (n, V).
Proof.
  intros Hh He. unfold as_assign, tilde_front.
  rewrite tilde_at_head, split_eq_assign by assumption. cbn beta iota.
  pose proof (literal_of_lits n) as L. destruct n; [contradiction|].
  cbn [map] in *. rewrite L. reflexivity.
Qed.

Lemma read_decl_assign n V v :
  no_tilde_head (map Lit n) -> mem c_eq n = false -> units_ok V v ->
  read_decl (map Lit n ++ Lit c_eq :: V) = OField (n ++ c_eq :: v).
Proof.
  intros Hh He [Vs Vh Vc _ _ _]. unfold read_decl, tilde_front, tilde_everywhere.
  rewrite as_assign_bare, tilde_at_head by assumption.
  rewrite <- (app_nil_r V) at 1. rewrite tilde_at_head, Vc by assumption.
  rewrite strip_app, strip_lits. cbn [strip flat_map app]. fold (strip V). rewrite Vs. reflexivity.
Qed.

Lemma no_eq_not_keyword l : In c_eq l -> existsb (str_eqb l) keywords = false.
Proof.
  intros Hin. destruct (existsb (str_eqb l) keywords) eqn:E; [|reflexivity].
  apply existsb_exists in E. destruct E as [k [Hk He]]. apply str_eqb_eq in He. subst k.
  apply mem_true_iff in Hin.
  assert (H : forallb (fun k => negb (mem c_eq k)) keywords = true) by reflexivity.
  rewrite forallb_forall in H. apply H in Hk. rewrite Hin in Hk. discriminate.
Qed.

Lemma keyword_assign_word name U :
  is_keyword (map Lit name ++ Lit c_eq :: U) = false.
Proof.
  unfold is_keyword. rewrite literal_of_app_lits. cbn [literal_of].
  destruct (literal_of U) as [u|]; cbn [option_map]; [|reflexivity].
  apply no_eq_not_keyword. apply in_or_app. right. left. reflexivity.
Qed.

(* the characters that start a quotation or an expansion in an unquoted word *)
Definition quoting_chars : list N := [c_bs; c_sq; c_dq; c_dollar; c_bq].

Section Reader.
  Variable lws : N -> bool.
  Hypothesis Hok : ascii_ok lws.

  Notation lex := (lex lws).

  (* a character the unquoted mode turns into [Lit] *)
  Definition lit_char (c : N) : bool :=
    negb (mem c quoting_chars) && negb (is_token_delimiter lws c).

  Lemma lex_unquoted c r :
    mem c quoting_chars = false ->
    lex MUnq (c :: r)
    = if is_token_delimiter lws c then LWord [] (c :: r) else cons_u (Lit c) (lex MUnq r).
  Proof.
    intros H. cbn [Model.lex]. rewrite !(mem_neq c _ quoting_chars H) by reflexivity. reflexivity.
  Qed.

  Lemma lex_lit c r : lit_char c = true -> lex MUnq (c :: r) = cons_u (Lit c) (lex MUnq r).
  Proof.
    unfold lit_char. rewrite andb_true_iff, !negb_true_iff. intros [H1 H2].
    rewrite lex_unquoted, H2 by assumption. reflexivity.
  Qed.

  Lemma lex_lits p r :
    forallb lit_char p = true -> lex MUnq (p ++ r) = cons_all (map Lit p) (lex MUnq r).
  Proof.
    induction p as [|c p IH]; [reflexivity|].
    cbn [forallb]. rewrite andb_true_iff. intros [Hc Hp].
    cbn [app map]. rewrite lex_lit, IH by assumption. reflexivity.
  Qed.

  (* no delimiter is a quoting character: those are neither operator
     characters nor white space *)
  Lemma delimiter_not_quoting c :
    is_token_delimiter lws c = true -> mem c quoting_chars = false.
  Proof.
    intros Hd. destruct (mem c quoting_chars) eqn:E; [|reflexivity].
    rewrite delimiter_alt in Hd. unfold is_operator_char in Hd.
    rewrite (mem_none (fun x => mem x quoting_chars) c operator_chars) in Hd by trivial.
    rewrite (ok_special lws Hok c) in Hd; [discriminate|].
    apply mem_true_iff. apply mem_true_iff in E. revert E. apply mem_incl. reflexivity.
  Qed.

  Lemma lex_stop rest : terminator_ok lws rest -> lex MUnq rest = LWord [] rest.
  Proof.
    destruct rest as [|c r]; [reflexivity|]. intros [Hd _].
    rewrite lex_unquoted, Hd by (apply delimiter_not_quoting; assumption). reflexivity.
  Qed.

  Lemma lex_sq_open r : lex MUnq (c_sq :: r) = cons_u Mark (lex MSq r).
  Proof. reflexivity. Qed.

  Lemma lex_sq_body s r :
    mem c_sq s = false -> lex MSq (s ++ c_sq :: r) = cons_all (map Quo s) (lex MUnq r).
  Proof.
    induction s as [|c s IH].
    - intros _. cbn [app Model.lex map]. rewrite N.eqb_refl. reflexivity.
    - rewrite mem_cons, orb_false_iff. intros [Hc Hs].
      cbn [app Model.lex map]. rewrite N.eqb_sym, Hc, IH by assumption. reflexivity.
  Qed.

  Lemma lex_dq_open r : lex MUnq (c_dq :: r) = cons_u Mark (lex MDq r).
  Proof. reflexivity. Qed.

  Lemma lex_dq_body e : forall s r,
    dq_decode e = Some s -> lex MDq (e ++ c_dq :: r) = cons_all (map Quo s) (lex MUnq r).
  Proof.
    induction e as [|c e IH IH'] using tail2_ind; intros s r Hd.
    - cbn in Hd. injection Hd as <-. reflexivity.
    - (* a decoded character [x] in front of a rest [e0] of the body *)
      assert (Hstep : forall x e0,
                (forall s', dq_decode e0 = Some s' ->
                            lex MDq (e0 ++ c_dq :: r) = cons_all (map Quo s') (lex MUnq r)) ->
                option_map (cons x) (dq_decode e0) = Some s ->
                cons_u (Quo x) (lex MDq (e0 ++ c_dq :: r)) = cons_all (map Quo s) (lex MUnq r)).
      { intros x e0 H0 H. destruct (dq_decode e0) as [s'|]; [|discriminate].
        injection H as <-. rewrite (H0 s' eq_refl). reflexivity. }
      cbn [dq_decode] in Hd. cbn [app Model.lex].
      destruct (N.eqb c c_bs).
      + destruct e as [|d e']; [discriminate|]. cbn [app tl] in *.
        destruct (N.eqb d c_nl); [apply IH'; assumption|].
        destruct (mem d dq_escaped); [exact (Hstep d e' (fun s' => IH' s' r) Hd)|].
        exact (Hstep c_bs (d :: e') (fun s' => IH s' r) Hd).
      + destruct (N.eqb c c_dq || N.eqb c c_dollar || N.eqb c c_bq) eqn:Esp; [discriminate|].
        rewrite !orb_false_iff in Esp. destruct Esp as [[-> ->] ->]. cbn [orb].
        exact (Hstep c e (fun s' => IH s' r) Hd).
  Qed.

  (* the units the lexer makes of a text [q] that denotes [s] ([lex_spec]);
     when the decoder accepts [q] its first character tells the notation *)
  Definition units_of (q s : str) : list wunit :=
    match q with
    | c :: _ => if N.eqb c c_sq || N.eqb c c_dq then Mark :: map Quo s else map Lit s
    | [] => []
    end.

  Lemma plain_char_facts c :
    plain_char lws c = true ->
    is_token_delimiter lws c = false
    /\ mem c [c_sq; c_dq; c_bs; c_dollar; c_bq; c_star; c_quest] = false.
  Proof. unfold plain_char. rewrite andb_true_iff, !negb_true_iff. tauto. Qed.

  Lemma plain_lit c : plain_char lws c = true -> lit_char c = true.
  Proof.
    intros H. destruct (plain_char_facts c H) as [Hd Hm]. unfold lit_char.
    rewrite Hd, (mem_sub c quoting_chars _ Hm eq_refl). reflexivity.
  Qed.

  Lemma inert_facts s :
    inert lws s = true ->
    match s with c :: _ => N.eqb c c_hash = false /\ N.eqb c c_tilde = false | [] => False end
    /\ forallb (plain_char lws) s = true
    /\ colon_tilde s = false /\ bracket_hazard s = false.
  Proof.
    destruct s as [|c t]; [discriminate|]. unfold inert.
    rewrite !andb_true_iff, !negb_true_iff. tauto.
  Qed.

  (* the three notations: a word in quotes, with quoted units, or a bare
     inert word, with unquoted units *)
  Lemma spec_decode_cases q s :
    spec_decode lws q = Some s ->
    (units_of q s = Mark :: map Quo s
     /\ ((q = c_sq :: s ++ [c_sq] /\ mem c_sq s = false)
         \/ exists body, q = c_dq :: body ++ [c_dq] /\ dq_decode body = Some s))
    \/ (units_of q s = map Lit s /\ q = s /\ inert lws s = true).
  Proof.
    unfold spec_decode, units_of. destruct q as [|c q']; [discriminate|].
    destruct (N.eqb_spec c c_sq) as [-> | _]; [|destruct (N.eqb_spec c c_dq) as [-> | _]].
    - destruct (split_last q') as [[body z]|] eqn:El; [|discriminate].
      apply split_last_inv in El. subst q'.
      destruct (N.eqb_spec z c_sq) as [-> | _]; [|discriminate].
      destruct (mem c_sq body) eqn:Em; [discriminate|]. intros H. injection H as <-.
      left. split; [reflexivity | left; auto].
    - destruct (split_last q') as [[body z]|] eqn:El; [|discriminate].
      apply split_last_inv in El. subst q'.
      destruct (N.eqb_spec z c_dq) as [-> | _]; [|discriminate].
      left. split; [reflexivity | right; eauto].
    - destruct (inert lws (c :: q')) eqn:Ei; [|discriminate]. intros H. injection H as <-. auto.
  Qed.

  Lemma lex_spec q s :
    spec_decode lws q = Some s -> forall r, lex MUnq (q ++ r) = cons_all (units_of q s) (lex MUnq r).
  Proof.
    intros H r.
    destruct (spec_decode_cases q s H) as [[-> [(-> & Hm) | (b & -> & Hd)]] | (-> & -> & Hi)].
    - cbn [app]. rewrite lex_sq_open, <- app_assoc. cbn [app].
      rewrite lex_sq_body by assumption. reflexivity.
    - cbn [app]. rewrite lex_dq_open, <- app_assoc. cbn [app].
      rewrite (lex_dq_body b s r Hd). reflexivity.
    - apply lex_lits. apply (forallb_impl (plain_char lws)); [apply plain_lit|].
      apply (inert_facts s Hi).
  Qed.

  Lemma plain_not_mem k s :
    forallb (plain_char lws) s = true ->
    mem k [c_sq; c_dq; c_bs; c_dollar; c_bq; c_star; c_quest] = true ->
    mem k s = false.
  Proof.
    intros Hf Hk. apply mem_false_iff. intros Hin.
    rewrite forallb_forall in Hf. destruct (plain_char_facts k (Hf k Hin)) as [_ H]. congruence.
  Qed.

  Lemma units_facts q s : spec_decode lws q = Some s -> units_ok (units_of q s) s.
  Proof.
    intros H. destruct (spec_decode_cases q s H) as [[-> _] | (-> & _ & Hi)].
    - pose proof (no_lit_quos s) as Hn. split;
        [ apply strip_quos
        | reflexivity
        | apply no_lit_tilde_after_colon; assumption
        | apply no_lit_existsb; assumption
        | apply no_lit_existsb; assumption
        | apply no_lit_bracket_pair; assumption ].
    - destruct (inert_facts s Hi) as (Hh & Hp & Hc & Hb).
      destruct s as [|c t]; [contradiction|]. split.
      + apply strip_lits.
      + apply Hh.
      + apply lits_tilde_after_colon; assumption.
      + rewrite lits_existsb. apply plain_not_mem; trivial.
      + rewrite lits_existsb. apply plain_not_mem; trivial.
      + rewrite lits_bracket_pair. exact Hb.
  Qed.

  (* a text [t] that is one word wherever it is followed by a terminator:
     it does not start with anything the token loop treats itself, and the
     lexer turns it into the units [U] *)
  Definition word_start (t : str) : Prop :=
    match t with
    | c :: _ => N.eqb c c_bs = false /\ N.eqb c c_hash = false
                /\ is_token_delimiter lws c = false
    | [] => False
    end.

  Definition lexes_to (t : str) (U : list wunit) : Prop :=
    word_start t /\ forall r, lex MUnq (t ++ r) = cons_all U (lex MUnq r).

  Lemma word_start_app t r : word_start t -> word_start (t ++ r).
  Proof. destruct t; [contradiction | trivial]. Qed.

  Lemma not_delimiter c :
    is_token_delimiter lws c = false -> is_operator_char c = false /\ is_blank lws c = false.
  Proof. apply orb_false_iff. Qed.

  Lemma skip_blanks_start t : word_start t -> skip_blanks lws t = t.
  Proof.
    destruct t as [|c t]; [contradiction|]. intros (H1 & _ & H3).
    cbn [skip_blanks]. rewrite H1, (proj2 (not_delimiter c H3)). reflexivity.
  Qed.

  (* the word is lexed up to the terminator, which does not make it an
     IO_NUMBER *)
  Lemma lex_word t U rest :
    lexes_to t U -> terminator_ok lws rest ->
    lex MUnq (t ++ rest) = LWord U rest
    /\ all_digits U && match rest with d :: _ => N.eqb d c_lt || N.eqb d c_gt | [] => false end
       = false.
  Proof.
    intros [_ Hl] Ht. rewrite Hl, lex_stop, cons_all_word, app_nil_r by assumption.
    split; [reflexivity|]. destruct rest as [|d r]; [apply andb_false_r|].
    destruct Ht as (_ & Hlt & Hgt). apply N.eqb_neq in Hlt, Hgt. rewrite Hlt, Hgt.
    apply andb_false_r.
  Qed.

  Lemma blank_sp : is_blank lws c_sp = true.
  Proof. unfold is_blank. rewrite (ok_space lws Hok). reflexivity. Qed.

  Lemma read_words_sp fuel inp : read_words lws fuel (c_sp :: inp) = read_words lws fuel inp.
  Proof.
    destruct fuel; [reflexivity|]. cbn [read_words skip_blanks].
    change (N.eqb c_sp c_bs) with false. cbn iota. rewrite blank_sp. reflexivity.
  Qed.

  (* an operator character is no white space: it starts no blank, no comment
     and no line continuation *)
  Lemma operator_char_facts c :
    is_operator_char c = true ->
    N.eqb c c_bs = false /\ N.eqb c c_hash = false /\ is_blank lws c = false.
  Proof.
    intros H. unfold is_operator_char in H.
    assert (Hn : forall k, mem k operator_chars = false -> N.eqb c k = false)
      by (intros k Hk; rewrite N.eqb_sym; apply (mem_neq k c operator_chars); assumption).
    repeat split; [apply Hn; reflexivity | apply Hn; reflexivity |].
    apply mem_true_iff in H. destruct H as [<- | H]; [reflexivity|].
    unfold is_blank. rewrite (ok_special lws Hok c); [apply andb_false_r|].
    apply mem_true_iff. revert H. apply mem_incl. reflexivity.
  Qed.

  Lemma rest_ok_terminator rest : rest_ok rest -> terminator_ok lws rest.
  Proof.
    destruct rest as [|c r]; [trivial|]. intros (H1 & H2 & H3).
    split; [unfold is_token_delimiter; rewrite H1; reflexivity | auto].
  Qed.

  Lemma read_words_end fuel rest : rest_ok rest -> read_words lws (S fuel) rest = WOk [] rest.
  Proof.
    destruct rest as [|c r]; [reflexivity|]. intros (Ho & _ & _).
    destruct (operator_char_facts c Ho) as (H1 & H2 & Hb).
    cbn [read_words skip_blanks]. rewrite H1, Hb, H2, Ho. reflexivity.
  Qed.

  Lemma read_words_word fuel t U rest :
    lexes_to t U -> terminator_ok lws rest ->
    read_words lws (S fuel) (t ++ rest) =
      match read_words lws fuel rest with
      | WOk ws rest' => WOk (U :: ws) rest'
      | e => e
      end.
  Proof.
    intros Hw Ht. destruct (lex_word t U rest Hw Ht) as [Hl Hn]. destruct Hw as [Hs _].
    cbn [read_words]. rewrite skip_blanks_start by (apply word_start_app; assumption).
    destruct t as [|c t']; [contradiction|]. destruct Hs as (_ & H2 & H3).
    cbn [app] in *. rewrite H2, (proj1 (not_delimiter c H3)), Hl, Hn. reflexivity.
  Qed.

  Lemma spaced_cons q qs : spaced (q :: qs) = c_sp :: q ++ spaced qs.
  Proof. reflexivity. Qed.

  Lemma sp_terminator rest : terminator_ok lws (c_sp :: rest).
  Proof.
    split; [|split; discriminate]. unfold is_token_delimiter. rewrite blank_sp. apply orb_true_r.
  Qed.

  Lemma spaced_terminator qs rest :
    terminator_ok lws rest -> terminator_ok lws (spaced qs ++ rest).
  Proof. destruct qs as [|q qs]; [trivial|]. intros _. apply sp_terminator. Qed.

  Lemma read_words_spaced : forall ts Us, Forall2 lexes_to ts Us ->
    forall rest fuel, rest_ok rest -> (length (spaced ts ++ rest) < fuel)%nat ->
    read_words lws fuel (spaced ts ++ rest) = WOk Us rest.
  Proof.
    induction 1 as [|t U ts Us Ht _ IH]; intros rest fuel Hr Hf.
    - cbn [spaced flat_map app] in *. destruct fuel; [lia|]. apply read_words_end; assumption.
    - rewrite spaced_cons in *. cbn [app] in *. rewrite read_words_sp.
      destruct fuel; [lia|]. rewrite <- app_assoc in *.
      rewrite (read_words_word fuel t U)
        by (try assumption; apply spaced_terminator, rest_ok_terminator; assumption).
      rewrite IH; [reflexivity | assumption |].
      cbn [length] in Hf. rewrite app_length in Hf. lia.
  Qed.

  Lemma read_words_command cmd U ts Us rest :
    lexes_to cmd U -> Forall2 lexes_to ts Us -> rest_ok rest ->
    read_words lws (words_fuel (cmd ++ spaced ts ++ rest)) (cmd ++ spaced ts ++ rest)
    = WOk (U :: Us) rest.
  Proof.
    intros Hc Hts Hr. unfold words_fuel.
    rewrite (read_words_word _ cmd U)
      by (try assumption; apply spaced_terminator, rest_ok_terminator; assumption).
    rewrite (read_words_spaced ts Us Hts); [reflexivity | assumption |].
    rewrite (app_length cmd).
    destruct cmd as [|c cmd']; [destruct Hc as [[] _]|]. cbn [length]. lia.
  Qed.

  Lemma spec_word_start q s : spec_decode lws q = Some s -> word_start q.
  Proof.
    intros H. destruct (spec_decode_cases q s H) as [[_ [(-> & _) | (b & -> & _)]] | (_ & -> & Hi)].
    1,2: repeat split; try reflexivity; rewrite delimiter_alt, (ok_special lws Hok) by reflexivity;
      reflexivity.
    destruct (inert_facts s Hi) as (Hh & Hp & _). destruct s as [|c t]; [contradiction|].
    cbn [forallb] in Hp. apply andb_true_iff in Hp. destruct Hp as [Hc _].
    destruct (plain_char_facts c Hc) as [Hd Hm].
    repeat split; [apply (mem_neq c _ _ Hm); reflexivity | apply Hh | assumption].
  Qed.

  Lemma spec_lexes_to q s : spec_decode lws q = Some s -> lexes_to q (units_of q s).
  Proof. intros H. split; [eapply spec_word_start; eassumption | apply lex_spec; assumption]. Qed.

  Lemma lit_char_eq : lit_char c_eq = true.
  Proof.
    unfold lit_char. rewrite delimiter_alt, (ok_special lws Hok c_eq eq_refl). reflexivity.
  Qed.

  Lemma lexes_to_eq a A b B :
    lexes_to a A -> lexes_to b B -> lexes_to (a ++ c_eq :: b) (A ++ Lit c_eq :: B).
  Proof.
    intros [Hs Ha] [_ Hb]. split; [apply word_start_app; assumption|].
    intros r. rewrite <- app_assoc, Ha. cbn [app].
    rewrite (lex_lit c_eq), Hb, cons_all_app by apply lit_char_eq. reflexivity.
  Qed.

  Lemma name_char_plain c : name_char c = true -> plain_char lws c = true.
  Proof.
    intros H. unfold plain_char. rewrite delimiter_alt, (ok_name lws Hok c H).
    unfold is_operator_char. rewrite !(mem_none name_char c) by trivial. reflexivity.
  Qed.

  Lemma name_no_char k name :
    name_char k = false -> simple_word name = true -> mem k name = false.
  Proof.
    intros Hk H. apply (mem_none (fun c => N.eqb c k) k); [|apply N.eqb_refl].
    destruct name as [|c t]; [discriminate|]. revert H. apply forallb_impl. intros x Hx.
    destruct (N.eqb_spec x k) as [-> | _]; [congruence | reflexivity].
  Qed.

  (* a name is a bare inert word; that it has neither [=] nor [[]
     ([name_no_char]) is what makes name=Q an assignment and never a pattern *)
  Lemma name_decodes name :
    simple_word name = true -> spec_decode lws name = Some name /\ units_of name name = map Lit name.
  Proof.
    intros H. pose proof (fun k Hk => name_no_char k name Hk H) as Hn.
    destruct name as [|c t]; [discriminate|]. unfold simple_word in H.
    assert (Hc : forall k, name_char k = false -> N.eqb c k = false).
    { intros k Hk. specialize (Hn k Hk). rewrite mem_cons, N.eqb_sym in Hn.
      apply orb_false_iff in Hn. tauto. }
    assert (Hi : inert lws (c :: t) = true).
    { unfold inert. rewrite !Hc, no_tilde_no_colon_tilde, no_open_no_hazard by (try apply Hn; reflexivity).
      rewrite (forallb_impl _ _ _ name_char_plain H). reflexivity. }
    unfold spec_decode, units_of. rewrite !Hc, Hi by reflexivity. auto.
  Qed.

  (* how the operands of a command are expanded: those of a declaration
     utility ([d] = true) by [read_decl], all others by [read_multi] *)
  Definition reader (d : bool) : list wunit -> outcome := if d then read_decl else read_multi.

  Definition utility (d : bool) (cmd : str) : bool := if d then decl_cmd cmd else plain_cmd cmd.

  (* a text that is read as one word and, as an operand of such a command,
     becomes exactly the field [f] *)
  Definition operand_word (d : bool) (t f : str) : Prop :=
    exists U, lexes_to t U /\ reader d U = OField f.

  Lemma operand_words_units d : forall ts fs, Forall2 (operand_word d) ts fs ->
    exists Us, Forall2 lexes_to ts Us /\ map (reader d) Us = map OField fs.
  Proof.
    induction 1 as [|t f ts fs [U [HU HR]] _ [Us [IH1 IH2]]].
    - exists []. split; constructor.
    - exists (U :: Us). split; [constructor; assumption|]. cbn [map]. rewrite HR, IH2. reflexivity.
  Qed.

  Lemma utility_facts d cmd :
    utility d cmd = true ->
    simple_word cmd = true
    /\ is_keyword (map Lit cmd) = false
    /\ names_decl_util (map Lit cmd) = Some d.
  Proof.
    unfold is_keyword, names_decl_util. rewrite literal_of_lits. destruct d; cbn [utility].
    - unfold decl_cmd. rewrite existsb_exists. intros [k [Hk He]].
      apply str_eqb_eq in He. subst k. cbn [In] in Hk.
      repeat (destruct Hk as [Hk | Hk]; [subst cmd; repeat split; reflexivity|]). contradiction.
    - unfold plain_cmd. rewrite !andb_true_iff, !negb_true_iff. intros [[H1 H2] H3].
      cbn [existsb] in H3. rewrite !orb_false_iff in H3. destruct H3 as (E1 & E2 & E3 & E4 & _).
      rewrite E1, E2, E3, E4. auto.
  Qed.

  Lemma spec_multi_word q s : spec_decode lws q = Some s -> operand_word false q s.
  Proof.
    intros H. exists (units_of q s).
    split; [apply spec_lexes_to | apply read_multi_ok, units_facts]; assumption.
  Qed.

  Lemma name_units_ok name : simple_word name = true -> units_ok (map Lit name) name.
  Proof. intros H. destruct (name_decodes name H) as [Hr <-]. apply units_facts, Hr. Qed.

  Lemma name_lexes_to name : simple_word name = true -> lexes_to name (map Lit name).
  Proof.
    intros H. destruct (name_decodes name H) as [Hr <-]. apply spec_lexes_to, Hr.
  Qed.

  Lemma name_multi_word w : simple_word w = true -> operand_word false w w.
  Proof. intros H. apply spec_multi_word, name_decodes, H. Qed.

  Lemma as_assign_name name :
    simple_word name = true -> as_assign (map Lit name) = None.
  Proof.
    intros H. apply as_assign_no_eq, split_eq_lits_none, name_no_char; trivial.
  Qed.

  Lemma as_assign_name_eq name V :
    simple_word name = true -> as_assign (map Lit name ++ Lit c_eq :: V) = Some (name, V).
  Proof.
    intros H. apply as_assign_bare; [apply (name_units_ok name H) | apply name_no_char; trivial].
  Qed.

  (* Every round trip of Properties.v that has a command name in front is an
     instance of this, for a suitable proof of [operand_word] per operand. *)
  Theorem run_line_operands d cmd ts fs rest :
    utility d cmd = true -> Forall2 (operand_word d) ts fs -> rest_ok rest ->
    run_line lws (cmd ++ spaced ts ++ rest)
    = COk (mkSimple [] (OField cmd :: map OField fs)) rest.
  Proof.
    intros Hc Hq Hr. destruct (utility_facts d cmd Hc) as (Hw & Hk & Hd).
    destruct (operand_words_units d ts fs Hq) as [Us [HU HM]].
    unfold run_line.
    rewrite (read_words_command cmd (map Lit cmd) ts Us rest (name_lexes_to cmd Hw) HU Hr).
    unfold build_simple. rewrite Hk. cbn [take_assigns].
    rewrite as_assign_name, Hd, (read_multi_ok _ cmd (name_units_ok cmd Hw)) by assumption.
    fold (reader d). rewrite HM. reflexivity.
  Qed.

  Corollary run_line_operand d cmd t f rest :
    utility d cmd = true -> operand_word d t f -> rest_ok rest ->
    run_line lws (cmd ++ c_sp :: t ++ rest) = COk (mkSimple [] [OField cmd; OField f]) rest.
  Proof.
    intros Hc Ht Hr.
    pose proof (run_line_operands d cmd [t] [f] rest Hc (Forall2_cons _ _ Ht (Forall2_nil _)) Hr) as E.
    cbn [spaced flat_map] in E. rewrite app_nil_r in E. exact E.
  Qed.

  Lemma pair_multi_word qn n qv v :
    spec_decode lws qn = Some n -> spec_decode lws qv = Some v ->
    existsb (is_lit c_lbrk) (units_of qn n) = false
    \/ existsb (has_char c_rbrk) (units_of qv v) = false ->
    operand_word false (qn ++ c_eq :: qv) (n ++ c_eq :: v).
  Proof.
    intros Hn Hv Hsafe. exists (units_of qn n ++ Lit c_eq :: units_of qv v).
    split; [apply lexes_to_eq; apply spec_lexes_to; assumption|].
    apply read_multi_pair; try apply units_facts; assumption.
  Qed.

  (* As an operand of a declaration utility Qname=Qvalue is an assignment if
     the name is bare and an ordinary word if the name is quoted; the field is
     the same.  No condition like that of [pair_multi_word]: an assignment is
     expanded without pathname expansion, and a quoted name has no unquoted
     bracket. *)
  Lemma pair_decl_word qn n qv v :
    spec_decode lws qn = Some n -> spec_decode lws qv = Some v ->
    units_of qn n = Mark :: map Quo n \/ (units_of qn n = map Lit n /\ mem c_eq n = false) ->
    operand_word true (qn ++ c_eq :: qv) (n ++ c_eq :: v).
  Proof.
    intros Hn Hv HU. exists (units_of qn n ++ Lit c_eq :: units_of qv v).
    split; [apply lexes_to_eq; apply spec_lexes_to; assumption|].
    pose proof (units_facts qn n Hn) as Hon. pose proof (units_facts qv v Hv) as Hov.
    cbn [reader]. destruct HU as [E | [E He]]; rewrite E in *.
    - cbn [app]. rewrite read_decl_not_assign by apply as_assign_quoted.
      apply (read_multi_pair (Mark :: map Quo n)); try assumption.
      left. apply no_lit_existsb, no_lit_quos.
    - apply read_decl_assign; try assumption. apply Hon.
  Qed.

  (* name=Q, in either kind of command *)
  Lemma assign_operand d name q s :
    simple_word name = true -> spec_decode lws q = Some s ->
    operand_word d (name ++ c_eq :: q) (name ++ c_eq :: s).
  Proof.
    intros H Hq. destruct (name_decodes name H) as [Hn HU]. destruct d.
    - apply pair_decl_word; try assumption. right. split; [assumption|].
      apply name_no_char; trivial.
    - apply pair_multi_word; try assumption. left.
      rewrite HU, lits_existsb. apply name_no_char; trivial.
  Qed.

  Lemma spec_decl_word q s :
    spec_decode lws q = Some s -> as_assign (units_of q s) = None -> operand_word true q s.
  Proof.
    intros Hq He. exists (units_of q s). split; [apply spec_lexes_to; assumption|].
    cbn [reader]. rewrite read_decl_not_assign by assumption. apply read_multi_ok, units_facts, Hq.
  Qed.

  (* name=Q behind a command name, which may be a declaration utility *)
  Theorem run_line_assign_operand d cmd name q s rest :
    utility d cmd = true -> simple_word name = true -> spec_decode lws q = Some s -> rest_ok rest ->
    run_line lws (cmd ++ c_sp :: name ++ c_eq :: q ++ rest)
    = COk (mkSimple [] [OField cmd; OField (name ++ c_eq :: s)]) rest.
  Proof.
    intros Hc Hn Hq Hr.
    pose proof (run_line_operand d cmd _ _ rest Hc (assign_operand d name q s Hn Hq) Hr) as E.
    rewrite <- app_assoc in E. exact E.
  Qed.

  (* name=Q as the whole command *)
  Theorem run_line_assign name q s rest :
    simple_word name = true -> spec_decode lws q = Some s -> rest_ok rest ->
    run_line lws (name ++ c_eq :: q ++ rest)
    = COk (mkSimple [(name, OField s)] []) rest.
  Proof.
    intros Hn Hq Hr. unfold run_line.
    pose proof (read_words_command (name ++ c_eq :: q) _ [] [] rest
                  (lexes_to_eq _ _ _ _ (name_lexes_to name Hn) (spec_lexes_to q s Hq))
                  (Forall2_nil _) Hr) as E.
    cbn [spaced flat_map app] in E. rewrite <- app_assoc in E. cbn [app] in E.
    rewrite E. unfold build_simple. rewrite keyword_assign_word. cbn [take_assigns].
    rewrite as_assign_name_eq by assumption.
    rewrite (read_value_ok _ s (units_facts q s Hq)). reflexivity.
  Qed.

  Lemma read_elems_sp fuel inp : read_elems lws fuel (c_sp :: inp) = read_elems lws fuel inp.
  Proof.
    destruct fuel; [reflexivity|]. cbn [read_elems skip_blanks].
    change (N.eqb c_sp c_bs) with false. cbn iota. rewrite blank_sp. reflexivity.
  Qed.

  Lemma read_elems_end fuel rest : read_elems lws (S fuel) (c_rpar :: rest) = EOk [] rest.
  Proof.
    destruct (operator_char_facts c_rpar eq_refl) as (H1 & H2 & Hb).
    cbn [read_elems skip_blanks]. rewrite H1, Hb, H2. reflexivity.
  Qed.

  (* a comment ends in front of a newline or with the input *)
  Lemma skip_comment_stop inp : hd c_nl (skip_comment inp) = c_nl.
  Proof.
    induction inp as [|c r IH]; [reflexivity|]. cbn [skip_comment].
    destruct (N.eqb_spec c c_nl) as [-> | _]; [reflexivity | exact IH].
  Qed.

  Lemma skip_comment_line line text :
    mem c_nl line = false -> skip_comment (line ++ c_nl :: text) = c_nl :: text.
  Proof.
    induction line as [|c l IH]; intros H.
    - cbn. reflexivity.
    - rewrite mem_cons, orb_false_iff in H. destruct H as [H1 H2].
      cbn [app skip_comment]. rewrite N.eqb_sym, H1. apply IH. assumption.
  Qed.

  (* The loop over the elements of an array differs from the loop over the
     words of a command only where that one stops: it goes on after a comment
     or a newline and ends at a closing parenthesis.  So where the word loop
     stops in front of a closing parenthesis, both have read the same words. *)
  Lemma read_elems_words : forall fuel inp ws rest,
    read_words lws fuel inp = WOk ws (c_rpar :: rest) -> read_elems lws fuel inp = EOk ws rest.
  Proof.
    induction fuel as [|fuel IH]; intros inp ws rest; [discriminate|].
    cbn [read_words read_elems]. destruct (skip_blanks lws inp) as [|c r]; [discriminate|].
    destruct (N.eqb c c_hash).
    - intros H. injection H as _ H. pose proof (skip_comment_stop r) as E.
      rewrite H in E. discriminate.
    - destruct (is_operator_char c) eqn:Eo.
      + intros H. injection H as <- -> ->. reflexivity.
      + rewrite !(mem_neq c _ operator_chars Eo) by reflexivity.
        destruct (lex MUnq (c :: r)) as [us rest0| |]; try discriminate.
        destruct (all_digits us && _); [discriminate|].
        destruct (read_words lws fuel rest0) as [ws0 rest'| | |] eqn:E; try discriminate.
        intros H. injection H as <- ->. rewrite (IH _ _ _ E). reflexivity.
  Qed.

  Lemma read_elems_body ts Us rest :
    Forall2 lexes_to ts Us ->
    read_elems lws (S (length (array_body ts ++ c_rpar :: rest))) (array_body ts ++ c_rpar :: rest)
    = EOk Us rest.
  Proof.
    intros H. destruct H as [|t U ts Us Ht Hts]; [apply read_elems_end|].
    cbn [array_body]. rewrite <- app_assoc. apply read_elems_words, read_words_command; try assumption.
    cbn. repeat split; discriminate.
  Qed.

  Theorem run_array_line_multi name ts fs rest :
    simple_word name = true -> Forall2 (operand_word false) ts fs ->
    run_array_line lws (name ++ c_eq :: c_lpar :: array_body ts ++ c_rpar :: rest)
    = AOk name (map OField fs) rest.
  Proof.
    intros Hn Hts. destruct (operand_words_units false ts fs Hts) as [Us [HU HM]].
    pose proof (name_lexes_to name Hn) as [Hs Hl].
    unfold run_array_line.
    rewrite skip_blanks_start by (apply word_start_app; assumption).
    rewrite Hl. cbn [app]. rewrite (lex_lit c_eq) by apply lit_char_eq.
    rewrite (lex_stop (c_lpar :: _)) by (cbn; repeat split; discriminate).
    cbn [cons_u]. rewrite cons_all_word.
    rewrite as_assign_name_eq by assumption.
    rewrite N.eqb_refl, (read_elems_body ts Us rest HU). cbn [reader] in HM. rewrite HM.
    reflexivity.
  Qed.
End Reader.

Section Main.
  Variables qws lws : N -> bool.
  Hypothesis Hsub : forall c, lws c = true -> qws c = true.
  Hypothesis Hok : ascii_ok lws.

  (* quoted words give quoted units, bare words unquoted ones *)
  Lemma quote_units s :
    units_of (quote qws s) s
    = if str_needs_quoting qws s then Mark :: map Quo s else map Lit s.
  Proof.
    unfold quote, quote_shape. destruct (str_needs_quoting qws s) eqn:Hn; cbn [negb].
    - destruct (negb (mem c_sq s)); reflexivity.
    - destruct s as [|c t]; [discriminate|]. destruct (bare_head qws c t Hn) as [H1 H2].
      cbn [render units_of]. rewrite H1, H2. reflexivity.
  Qed.

  Lemma quote_multi_word s : operand_word lws false (quote qws s) s.
  Proof. apply spec_multi_word; [assumption | apply quote_decodes, Hsub]. Qed.

  Lemma quotes_multi_word ss : Forall2 (operand_word lws false) (map (quote qws) ss) ss.
  Proof.
    rewrite <- (map_id ss) at 2. apply Forall2_maps. intros s _. apply quote_multi_word.
  Qed.

  Lemma quote_units_rbrk v :
    mem c_rbrk v = false -> existsb (has_char c_rbrk) (units_of (quote qws v) v) = false.
  Proof.
    intros H. rewrite quote_units. destruct (str_needs_quoting qws v); cbn [existsb has_char orb];
      rewrite (existsb_units _ _ c_rbrk) by reflexivity; exact H.
  Qed.

  Lemma quote_pair_multi_word n v :
    pair_safe qws n v = true ->
    operand_word lws false (quote qws n ++ c_eq :: quote qws v) (n ++ c_eq :: v).
  Proof.
    intros Hs. apply pair_multi_word; try assumption; try apply (quote_decodes _ _ Hsub).
    unfold pair_safe in Hs. rewrite quote_units.
    destruct (str_needs_quoting qws n); [left; apply no_lit_existsb, no_lit_quos|].
    rewrite lits_existsb. destruct (mem c_lbrk n); [right | left; reflexivity].
    apply quote_units_rbrk. apply negb_true_iff. exact Hs.
  Qed.

  Lemma quote_pairs_multi_word st :
    Forall (fun p => pair_safe qws (fst p) (snd p) = true) st ->
    Forall2 (operand_word lws false)
      (map (fun p => quote qws (fst p) ++ c_eq :: quote qws (snd p)) st)
      (map (fun p => fst p ++ c_eq :: snd p) st).
  Proof.
    intros H. apply Forall2_maps. intros p Hp. apply quote_pair_multi_word.
    rewrite Forall_forall in H. apply H, Hp.
  Qed.

  Lemma quote_decl_word s : operand_word lws true (quote qws s) s.
  Proof.
    apply spec_decl_word; [assumption | apply quote_decodes, Hsub|]. rewrite quote_units.
    destruct (str_needs_quoting qws s) eqn:Hn; [apply as_assign_quoted|].
    apply as_assign_no_eq, split_eq_lits_none, (bare_no_char qws); trivial.
  Qed.

  Lemma quote_pair_decl_word n v :
    operand_word lws true (quote qws n ++ c_eq :: quote qws v) (n ++ c_eq :: v).
  Proof.
    apply pair_decl_word; try assumption; try apply (quote_decodes _ _ Hsub). rewrite quote_units.
    destruct (str_needs_quoting qws n) eqn:Hn; [left; reflexivity | right].
    split; [reflexivity | apply (bare_no_char qws); trivial].
  Qed.

  Lemma operand_decl_word o :
    operand_ok o = true -> operand_word lws true (operand_text qws o) (operand_field o).
  Proof.
    destruct o as [s | n v | n v]; cbn [operand_ok operand_text operand_field]; intros H.
    - apply quote_decl_word.
    - apply assign_operand; [assumption | assumption | apply quote_decodes, Hsub].
    - apply quote_pair_decl_word.
  Qed.
End Main.
