(* C07 — property theorems only.  Each follows in a few lines from the
   lemmas of Proofs.v / OracleProofs.v / UmaskProofs.v / GenTie.v; the driver
   pins the statements with [Check] and prints the assumptions on every run.

   Reading guide.  [qws] is the white-space predicate of the quoter, [lws]
   that of the lexer (both are [char::is_whitespace] in yash-rs, = [rust_ws],
   theorem [rust_whitespace_table]); the only relation the round trip needs is
   [forall c, lws c = true -> qws c = true] — every blank of the lexer is
   white space for the quoter — plus ASCII facts about [lws] ([ascii_ok]).
   [run_line lws text] is the reader model: the simple command at the start of
   [text] as assignments and fields, [OField f] = exactly the field [f]
   whatever HOME and the file system contain. *)
From Yv Require Import Common.Base C07.Model C07.Spec C07.Proofs C07.Run C07.OracleProofs C07.UmaskProofs C07.GenTie Gen.Gen_C07.
Local Open Scope N_scope.

(* the model's white-space table is the 25 code points of Unicode White_Space *)
Theorem rust_whitespace_table : forall c, rust_ws c = true <-> In c ws_table.
Proof. exact rust_ws_table. Qed.

(* the ASCII facts assumed of the lexer's predicate hold of the real one *)
Theorem rust_ws_is_ascii_ok : ascii_ok rust_ws.
Proof. exact rust_ws_ascii_ok. Qed.

(* the lexer's token delimiters (operator characters and blanks) and its
   blanks: white space except the newline - CR, VT and FF are blanks *)
Theorem rust_delimiter_table : forall c, is_token_delimiter rust_ws c = true <-> In c delim_table.
Proof.
  intros c. rewrite delimiter_alt, orb_true_iff, rust_ws_table. unfold is_operator_char.
  rewrite mem_true_iff, <- in_app_iff. split; revert c; apply mem_incl; reflexivity.
Qed.

Theorem rust_blank_class : forall c, is_blank rust_ws c = true <-> In c ws_table /\ c <> c_nl.
Proof.
  intros c. unfold is_blank. rewrite andb_true_iff, negb_true_iff, N.eqb_neq, rust_ws_table. tauto.
Qed.

(* every delimiter of the lexer is a character the quoter quotes *)
Theorem delimiter_needs_quoting : forall qws lws, (forall c, lws c = true -> qws c = true) ->
  forall c, is_token_delimiter lws c = true -> char_needs_quoting qws c = true.
Proof.
  intros qws lws Hsub c H. destruct (char_needs_quoting qws c) eqn:E; [reflexivity|].
  apply (unquoted_char_plain qws lws Hsub) in E. unfold plain_char in E. rewrite H in E.
  discriminate.
Qed.
Example cr_vt_ff_are_blanks_and_quoted :
  forallb (fun c => is_blank rust_ws c && char_needs_quoting rust_ws c
                    && shape_eqb (quote_shape rust_ws [97; c; 98]) Single) [13; 11; 12; 9; 32; 160] = true.
Proof. reflexivity. Qed.

(* no tilde position in a bare word: not in front, not after ANY colon *)
Theorem bare_no_tilde_position : forall qws s, str_needs_quoting qws s = false ->
  (forall t, s <> c_tilde :: t) /\ (forall a b, s <> a ++ c_colon :: c_tilde :: b).
Proof.
  intros qws s H. destruct (bare_facts qws s H) as (H1 & _ & H3 & _). split.
  - intros t ->. destruct H1 as [_ H1]. discriminate H1.
  - intros a b ->. rewrite has_pair_at in H3. discriminate.
Qed.

(* a quoted word is lexed as units that are never subject to tilde expansion
   (front or after colons) nor to pathname expansion, and strip to [s] *)
Theorem quoted_word_is_literal : forall qws lws, (forall c, lws c = true -> qws c = true) ->
  ascii_ok lws -> forall s,
  exists U,
    (forall rest, terminator_ok lws rest -> lex lws MUnq (quote qws s ++ rest) = LWord U rest)
    /\ tilde_front U = false /\ tilde_everywhere U = false
    /\ glob_active U = false /\ strip U = s.
Proof.
  intros qws lws Hsub Hok s. pose proof (quote_decodes qws lws Hsub s) as Hq.
  pose proof (units_facts lws _ _ Hq) as HU. exists (units_of (quote qws s) s).
  split; [|split; [|split; [|split]]].
  - intros rest Hr. apply (lex_word lws Hok); [apply spec_lexes_to|]; assumption.
  - apply (ok_no_tilde _ s HU).
  - apply (ok_no_tilde _ s HU).
  - apply (ok_no_glob _ s HU).
  - apply HU.
Qed.

(* what the quoter leaves bare has nothing special in it *)
Theorem bare_is_inert : forall qws lws, (forall c, lws c = true -> qws c = true) ->
  forall s, str_needs_quoting qws s = false -> inert lws s = true.
Proof. exact bare_inert. Qed.
Example bare_is_inert_nonvacuous : str_needs_quoting rust_ws [97; 58; 47; 91; 123] = false.
Proof. reflexivity. Qed.

(* the quoter's output is one of the three notations for its argument *)
Theorem quote_meets_spec : forall qws lws, (forall c, lws c = true -> qws c = true) ->
  forall s, spec_reads lws (quote qws s) s = true.
Proof. intros qws lws Hsub s. apply spec_reads_decode, quote_decodes, Hsub. Qed.

(* the reader model reads every word the specification accepts as that field:
   as command arguments ... *)
Theorem spec_words_read_back : forall lws, ascii_ok lws -> forall cmd qs ss rest,
  plain_cmd cmd = true ->
  Forall2 (fun q s => spec_reads lws q s = true) qs ss ->
  rest_ok rest ->
  run_line lws (cmd ++ spaced qs ++ rest) = COk (mkSimple [] (OField cmd :: map OField ss)) rest.
Proof.
  intros lws Hok cmd qs ss rest Hc Hq Hr. apply (run_line_operands lws Hok false); try assumption.
  revert Hq. apply Forall2_impl. intros q s H. apply spec_multi_word, spec_reads_decode, H.
  exact Hok.
Qed.
Example spec_words_read_back_nonvacuous :
  plain_cmd s_args = true /\ rest_ok [c_nl; 97]
  /\ Forall2 (fun q s => spec_reads rust_ws q s = true)
       [[39; 97; 32; 42; 39]; [34; 39; 92; 36; 34]; [45; 120]] [[97; 32; 42]; [39; 36]; [45; 120]].
Proof. repeat split; try discriminate; repeat constructor. Qed.

(* ... as the value of an assignment ... *)
Theorem spec_assign_reads_back : forall lws, ascii_ok lws -> forall name q s rest,
  simple_word name = true -> spec_reads lws q s = true -> rest_ok rest ->
  run_line lws (name ++ c_eq :: q ++ rest) = COk (mkSimple [(name, OField s)] []) rest.
Proof.
  intros lws Hok name q s rest Hn Hq Hr.
  apply run_line_assign; try assumption. apply spec_reads_decode, Hq.
Qed.

(* ... behind name= in an operand of a declaration utility ... *)
Theorem spec_decl_reads_back : forall lws, ascii_ok lws -> forall d name q s rest,
  decl_cmd d = true -> simple_word name = true -> spec_reads lws q s = true -> rest_ok rest ->
  run_line lws (d ++ c_sp :: name ++ c_eq :: q ++ rest)
  = COk (mkSimple [] [OField d; OField (name ++ c_eq :: s)]) rest.
Proof.
  intros lws Hok d name q s rest Hd Hn Hq Hr.
  apply (run_line_assign_operand lws Hok true); try assumption. apply spec_reads_decode, Hq.
Qed.

(* ... and behind name= in an operand of any other command *)
Theorem spec_argeq_reads_back : forall lws, ascii_ok lws -> forall cmd name q s rest,
  plain_cmd cmd = true -> simple_word name = true -> spec_reads lws q s = true -> rest_ok rest ->
  run_line lws (cmd ++ c_sp :: name ++ c_eq :: q ++ rest)
  = COk (mkSimple [] [OField cmd; OField (name ++ c_eq :: s)]) rest.
Proof.
  intros lws Hok cmd name q s rest Hd Hn Hq Hr.
  apply (run_line_assign_operand lws Hok false); try assumption. apply spec_reads_decode, Hq.
Qed.
Example spec_contexts_nonvacuous :
  simple_word [120; 95; 49] = true /\ decl_cmd s_typeset = true /\ decl_cmd s_export = true
  /\ decl_cmd s_readonly = true /\ spec_reads rust_ws [39; 126; 39] [126] = true.
Proof. repeat split. Qed.

(* THE ROUND TRIP: for every list of strings, the command line made of a
   command name and the quoted strings reads back as exactly those fields *)
Theorem quote_read_back : forall qws lws, (forall c, lws c = true -> qws c = true) ->
  ascii_ok lws -> forall cmd ss rest,
  plain_cmd cmd = true -> rest_ok rest ->
  run_line lws (cmd ++ spaced (map (quote qws) ss) ++ rest)
  = COk (mkSimple [] (OField cmd :: map OField ss)) rest.
Proof.
  intros qws lws Hsub Hok cmd ss rest Hc Hr. apply spec_words_read_back; try assumption.
  rewrite <- (map_id ss) at 2. apply Forall2_maps. intros s _. apply quote_meets_spec, Hsub.
Qed.

Example quote_read_back_nonvacuous :
  (forall c, rust_ws c = true -> rust_ws c = true) /\ ascii_ok rust_ws
  /\ plain_cmd s_args = true /\ rest_ok [c_semi; 97]
  /\ run_line rust_ws (s_args ++ spaced (map (quote rust_ws) [[97; 32; 98]; [39; 36]; []; [126]; [97; 12288]]) ++ [c_semi; 97])
     = COk (mkSimple [] (map OField [s_args; [97; 32; 98]; [39; 36]; []; [126]; [97; 12288]])) [c_semi; 97].
Proof.
  split; [auto|]. split; [exact rust_ws_ascii_ok|]. split; [reflexivity|].
  split; [repeat split; discriminate|]. vm_compute. reflexivity.
Qed.

Theorem quote_read_back_assign : forall qws lws, (forall c, lws c = true -> qws c = true) ->
  ascii_ok lws -> forall name s rest,
  simple_word name = true -> rest_ok rest ->
  run_line lws (name ++ c_eq :: quote qws s ++ rest) = COk (mkSimple [(name, OField s)] []) rest.
Proof.
  intros qws lws Hsub Hok name s rest Hn Hr.
  apply spec_assign_reads_back; try assumption. apply quote_meets_spec, Hsub.
Qed.

Theorem quote_read_back_decl : forall qws lws, (forall c, lws c = true -> qws c = true) ->
  ascii_ok lws -> forall d name s rest,
  decl_cmd d = true -> simple_word name = true -> rest_ok rest ->
  run_line lws (d ++ c_sp :: name ++ c_eq :: quote qws s ++ rest)
  = COk (mkSimple [] [OField d; OField (name ++ c_eq :: s)]) rest.
Proof.
  intros qws lws Hsub Hok d name s rest Hd Hn Hr.
  apply spec_decl_reads_back; try assumption. apply quote_meets_spec, Hsub.
Qed.

Theorem quote_read_back_argeq : forall qws lws, (forall c, lws c = true -> qws c = true) ->
  ascii_ok lws -> forall cmd name s rest,
  plain_cmd cmd = true -> simple_word name = true -> rest_ok rest ->
  run_line lws (cmd ++ c_sp :: name ++ c_eq :: quote qws s ++ rest)
  = COk (mkSimple [] [OField cmd; OField (name ++ c_eq :: s)]) rest.
Proof.
  intros qws lws Hsub Hok cmd name s rest Hc Hn Hr.
  apply spec_argeq_reads_back; try assumption. apply quote_meets_spec, Hsub.
Qed.

(* [spec_decode lws] is a left inverse of the quoter; [lws] serves only to
   name that decoder *)
Theorem quote_injective : forall qws lws, (forall c, lws c = true -> qws c = true) ->
  forall s1 s2, quote qws s1 = quote qws s2 -> s1 = s2.
Proof.
  intros qws lws Hsub s1 s2 E. pose proof (quote_decodes qws lws Hsub s1) as H1.
  rewrite E, (quote_decodes qws lws Hsub s2) in H1. injection H1 as ->. reflexivity.
Qed.

Theorem words_fuel_suffices : forall lws inp, read_words lws (words_fuel inp) inp <> WOutOfFuel.
Proof. intros lws inp. apply read_words_fuel. unfold words_fuel. lia. Qed.

(* ORACLE SOUNDNESS: if the implementation returns what the model returns and
   the shell reads what the theorems say, the run-time check answers 0 *)
Theorem oracle_sound_quote : forall s,
  run_case (KQuote s (quote ws s) (Some [s]) (Some [s]) (Some [s]) (Some [s_x_eq ++ s])) = 0%N.
Proof.
  intros s. unfold run_case, quote_oracle, quote_model_agrees, reading_eqb. cbn [option_eqb].
  rewrite !strs_eqb_refl. cbn [first_false].
  rewrite (quote_meets_spec ws ws (fun _ H => H) s).
  rewrite str_eqb_refl, predict_args_quote, predict_assign_quote, predict_decl_quote,
    predict_argeq_quote.
  cbn [agrees]. rewrite !strs_eqb_refl. reflexivity.
Qed.

Theorem oracle_sound_exh : forall s, exh_one s (shape_code (quote_shape ws s)) = 0%N.
Proof.
  intros s. unfold exh_one. rewrite shape_code_bit2, shape_of_code_code, shape_eqb_refl.
  reflexivity.
Qed.

(* Qname=Qvalue as an operand of an ordinary command (the alias listing
   format): read back as name=value unless the bare name has an opening
   bracket and the value a closing one *)
Theorem quote_pairs_read_back : forall qws lws, (forall c, lws c = true -> qws c = true) ->
  ascii_ok lws -> forall cmd st rest,
  plain_cmd cmd = true -> rest_ok rest ->
  Forall (fun p => pair_safe qws (fst p) (snd p) = true) st ->
  run_line lws (cmd ++ spaced (map (fun p => quote qws (fst p) ++ c_eq :: quote qws (snd p)) st) ++ rest)
  = COk (mkSimple [] (OField cmd :: map (fun p => OField (fst p ++ c_eq :: snd p)) st)) rest.
Proof.
  intros qws lws Hsub Hok cmd st rest Hc Hr Hst.
  rewrite <- (map_map (fun p => fst p ++ c_eq :: snd p) OField).
  apply (run_line_operands lws Hok false); try assumption.
  apply quote_pairs_multi_word; assumption.
Qed.
Example quote_pairs_read_back_nonvacuous :
  Forall (fun p => pair_safe rust_ws (fst p) (snd p) = true)
    [([97; 91], [120]); ([97; 32; 91], [93]); ([97], [93; 91])].
Proof. repeat constructor. Qed.

(* the lines `export -p`, `readonly -p` and `typeset -p` print:
   <utility> [-x] [-r] [--] name=Qvalue  or  ... name , and Qname=Qvalue for a
   name that needs quoting ([OpPair]).  Every operand is one of these three
   forms; the line reads back as the utility with exactly those operands *)
Theorem decl_line_reads_back : forall qws lws, (forall c, lws c = true -> qws c = true) ->
  ascii_ok lws -> forall d os rest,
  decl_cmd d = true -> rest_ok rest -> forallb operand_ok os = true ->
  run_line lws (d ++ spaced (map (operand_text qws) os) ++ rest)
  = COk (mkSimple [] (OField d :: map (fun o => OField (operand_field o)) os)) rest.
Proof.
  intros qws lws Hsub Hok d os rest Hd Hr Hos. rewrite <- (map_map operand_field OField).
  apply (run_line_operands lws Hok true); try assumption.
  apply Forall2_maps. intros o Ho. apply operand_decl_word; try assumption.
  rewrite forallb_forall in Hos. apply Hos, Ho.
Qed.
Example decl_line_reads_back_nonvacuous :
  forallb operand_ok [OpWord [45; 120]; OpWord [45; 114]; OpWord [45; 45]; OpAssign [110; 49] [97; 32; 126]; OpWord [97; 32; 98]] = true
  /\ run_line rust_ws (s_typeset ++ spaced (map (operand_text rust_ws)
        [OpWord [45; 120]; OpWord [45; 45]; OpAssign [110; 49] [97; 58; 126]]) ++ [c_nl])
     = COk (mkSimple [] (map OField [s_typeset; [45; 120]; [45; 45]; [110; 49; 61; 97; 58; 126]])) [c_nl].
Proof. split; [reflexivity | vm_compute; reflexivity]. Qed.
(* names that need quoting, with the -- separator:  typeset -r -- '-r x'=3 *)
Example decl_line_quoted_name :
  run_line rust_ws (s_typeset ++ spaced (map (operand_text rust_ws)
        [OpWord [45; 114]; OpWord [45; 45]; OpPair [45; 114; 32; 120] [51]; OpPair [99; 91] [93]]) ++ [c_nl])
  = COk (mkSimple [] (map OField [s_typeset; [45; 114]; [45; 45]; [45; 114; 32; 120; 61; 51]; [99; 91; 61; 93]])) [c_nl].
Proof. vm_compute. reflexivity. Qed.

(* ARRAYS.  name=(Q1 Q2 ...) as `set`, `typeset -p`, ... print an array: the
   reader model reads it as the array assignment with exactly those elements
   (elements are expanded like command words; none is a pattern or a tilde) *)
Theorem array_line_reads_back : forall qws lws, (forall c, lws c = true -> qws c = true) ->
  ascii_ok lws -> forall name vs rest,
  simple_word name = true ->
  run_array_line lws (name ++ c_eq :: c_lpar :: array_body (map (quote qws) vs) ++ c_rpar :: rest)
  = AOk name (map OField vs) rest.
Proof.
  intros qws lws Hsub Hok name vs rest Hn. apply run_array_line_multi; try assumption.
  apply quotes_multi_word; assumption.
Qed.
Example array_line_nonvacuous :
  run_array_line rust_ws ([97; 114; 114] ++ c_eq :: c_lpar
        :: array_body (map (quote rust_ws) [[49]; []; [39; 92]; [42]; [126]; [97; 13; 98]]) ++ [c_rpar; c_nl])
  = AOk [97; 114; 114] (map OField [[49]; []; [39; 92]; [42]; [126]; [97; 13; 98]]) [c_nl]
  /\ run_array_line rust_ws ([120] ++ c_eq :: c_lpar :: array_body [] ++ [c_rpar]) = AOk [120] [] [].
Proof. split; vm_compute; reflexivity. Qed.

(* LISTINGS.  The texts [set_text] / [trap_text] are what the model says
   `set` and `trap` print for a state (compared with the real output on every
   run); the reader model reads them back as that state.  The alias listing
   ([alias_text]) is not evaluated as a script but as the operands of one
   `alias --` command: [alias_listing_reads_back]. *)
Theorem set_listing_reads_back : forall st,
  Forall (fun p => simple_word (fst p) = true) st ->
  run_lines ws (lines_fuel (set_text st)) (set_text st)
  = Some (map (fun p => mkSimple [(fst p, OField (snd p))] []) st).
Proof.
  intros st H. apply lines_ok_run_entries. revert H. apply Forall_impl. exact set_line_ok.
Qed.

Theorem trap_listing_reads_back : forall st,
  Forall (fun p => simple_word (fst p) = true) st ->
  run_lines ws (lines_fuel (trap_text st)) (trap_text st)
  = Some (map (fun p => mkSimple [] [OField s_trap; OField s_dd; OField (snd p); OField (fst p)]) st).
Proof.
  intros st H. apply lines_ok_run_entries. revert H. apply Forall_impl. exact trap_line_ok.
Qed.
Example listing_nonvacuous :
  Forall (fun p => simple_word (fst p) = true) [([73; 78; 84], [101; 99; 104; 111; 32; 39; 34]); ([69; 88; 73; 84], [])].
Proof. repeat constructor. Qed.

(* the `set +o` listing (first `set +o portable`, unmodifiable options as
   comments, `set -o portable` last if it was on) reads back as those commands *)
Theorem set_o_listing_reads_back : forall st,
  Forall (fun p => simple_word (fst p) = true) st ->
  run_lines ws (lines_fuel (set_o_text st)) (set_o_text st) = Some (set_o_cmds st).
Proof. intros st H. apply lines_ok_run, set_o_lines_ok, H. Qed.
Example set_o_listing_nonvacuous :
  run_lines ws (lines_fuel (set_o_text [(s_portable, s_on); ([115; 116; 100; 105; 110], [111; 102; 102]); ([118; 105], s_on)]))
    (set_o_text [(s_portable, s_on); ([115; 116; 100; 105; 110], [111; 102; 102]); ([118; 105], s_on)])
  = Some [set_cmd s_plus_o s_portable; mkSimple [] []; set_cmd s_minus_o [118; 105]; set_cmd s_minus_o s_portable].
Proof. vm_compute. reflexivity. Qed.

(* UMASK (bound in the statement: masks below 0o1000).  Whatever the current
   mask is, giving the output of `umask -S` / `umask` for the mask [m] back to
   `umask` sets the mask [m]: printer, operand parser and clause evaluation of
   the model.  The printed text is parsed symbolically and both masks enter
   through the algebra of who=literal clauses; the bound is used only in that
   such a mask has nothing above its nine low bits, and three octal digits *)
Theorem umask_symbolic_round_trip : forall m cur, (m < 512)%N -> (cur < 512)%N ->
  umask_set cur (show_symbolic m) = ROk m.
Proof.
  exact (round_trip show_symbolic _ (fun m _ => parse_format_symbolic (not16 m))
           (fun m => symbolic_summary (not16 m))).
Qed.

Theorem umask_octal_round_trip : forall m cur, (m < 512)%N -> (cur < 512)%N ->
  umask_set cur (show_octal m) = ROk m.
Proof. exact (round_trip show_octal _ parse_show_octal (fun m => octal_summary (not16 m))). Qed.

Theorem umask_fuel_suffices : forall bits operand, umask_set bits operand <> RFuel.
Proof.
  intros bits operand. unfold umask_set, parse_operand.
  assert (H : parse_clauses operand <> RFuel)
    by (apply parse_clauses_from_fuel; lia).
  destruct operand as [|c t].
  - destruct (parse_clauses []); try discriminate. contradiction.
  - destruct (is_ascii_digit c).
    + destruct (parse_octal (c :: t)); discriminate.
    + destruct (parse_clauses (c :: t)); try discriminate. contradiction.
Qed.

(* the alias listing, given to one `alias --` command as the harness does *)
Theorem alias_listing_reads_back : forall st,
  Forall (fun p => pair_safe ws (fst p) (snd p) = true) st ->
  run_line ws (alias_eval_text st)
  = COk (mkSimple [] (OField s_alias :: OField s_dd
                        :: map (fun p => OField (fst p ++ c_eq :: snd p)) st)) [].
Proof.
  intros st Hst. unfold alias_eval_text. rewrite <- (app_nil_r (spaced _)).
  rewrite (run_line_operands ws rust_ws_ascii_ok false s_alias _ _ [] eq_refl (alias_operands st Hst) I).
  cbn [map]. rewrite map_map. reflexivity.
Qed.

(* without that condition it is false of the faithful model: alias "a[" with
   value "]x" is listed as  a[=]x , a pattern (finding F15) *)
Theorem alias_listing_refuted : exists n v,
  run_line ws (alias_eval_text [(n, v)])
  = COk (mkSimple [] [OField s_alias; OField s_dd; OGlob]) [].
Proof. exists [97; 91], [93; 120]. vm_compute. reflexivity. Qed.

(* TIE TO THE SOURCE BY TRANSLATION: the quoter written over the tables that
   translator/c07_quote.py reads out of yash-quote/src/lib.rs on every run
   (Gen/Gen_C07.v) is the model's quoter, and the round trip holds of it *)
Theorem always_quoted_is_source_table : always_quoted = gen_always_quoted.
Proof. reflexivity. Qed.
Theorem dq_escaped_is_source_table : dq_escaped = gen_dq_escaped.
Proof. reflexivity. Qed.
Theorem quote_is_source_quote : forall qws s, quote qws s = quote_src qws s.
Proof. exact quote_is_source_quote. Qed.
Theorem source_quote_read_back : forall qws lws, (forall c, lws c = true -> qws c = true) ->
  ascii_ok lws -> forall cmd ss rest,
  plain_cmd cmd = true -> rest_ok rest ->
  run_line lws (cmd ++ spaced (map (quote_src qws) ss) ++ rest)
  = COk (mkSimple [] (OField cmd :: map OField ss)) rest.
Proof.
  intros qws lws Hsub Hok cmd ss rest Hc Hr.
  rewrite <- (map_ext _ _ (quote_is_source_quote qws)). apply quote_read_back; assumption.
Qed.

Print Assumptions rust_whitespace_table.
Print Assumptions rust_ws_is_ascii_ok.
Print Assumptions bare_is_inert.
Print Assumptions quote_meets_spec.
Print Assumptions spec_words_read_back.
Print Assumptions spec_assign_reads_back.
Print Assumptions spec_decl_reads_back.
Print Assumptions spec_argeq_reads_back.
Print Assumptions quote_read_back.
Print Assumptions quote_read_back_assign.
Print Assumptions quote_read_back_decl.
Print Assumptions quote_read_back_argeq.
Print Assumptions quote_injective.
Print Assumptions words_fuel_suffices.
Print Assumptions oracle_sound_quote.
Print Assumptions oracle_sound_exh.
Print Assumptions quote_pairs_read_back.
Print Assumptions set_listing_reads_back.
Print Assumptions trap_listing_reads_back.
Print Assumptions alias_listing_reads_back.
Print Assumptions alias_listing_refuted.
Print Assumptions decl_line_reads_back.
Print Assumptions rust_delimiter_table.
Print Assumptions rust_blank_class.
Print Assumptions delimiter_needs_quoting.
Print Assumptions bare_no_tilde_position.
Print Assumptions quoted_word_is_literal.
Print Assumptions set_o_listing_reads_back.
Print Assumptions umask_symbolic_round_trip.
Print Assumptions umask_octal_round_trip.
Print Assumptions umask_fuel_suffices.
Print Assumptions array_line_reads_back.
Print Assumptions always_quoted_is_source_table.
Print Assumptions dq_escaped_is_source_table.
Print Assumptions quote_is_source_quote.
Print Assumptions source_quote_read_back.
