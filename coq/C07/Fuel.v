(* C07 — the fuel of [read_words] never runs out: what the lexer leaves is no
   longer than its input, and shorter when a word starts. *)
From Yv Require Import Common.Base C07.Model.

Local Open Scope N_scope.

(* how much of the input a lexing result leaves; a failure counts as
   leaving nothing, so the bounds below hold of it trivially *)
Definition rest_len (r : lexres) : nat :=
  match r with
  | LWord _ rest => length rest
  | _ => O
  end.

Lemma rest_len_cons_u u r : rest_len (cons_u u r) = rest_len r.
Proof. destruct r; reflexivity. Qed.

(* [lex], [skip_blanks] and [dq_decode] go on with the tail of their input or,
   after a backslash, with the tail of that *)
Lemma tail2_ind {A} (P : list A -> Prop) :
  P [] -> (forall x l, P l -> P (tl l) -> P (x :: l)) -> forall l, P l.
Proof.
  intros H0 Hs l. enough (H : P l /\ P (tl l)) by apply H.
  induction l as [|x l [IH1 IH2]]; split; cbn [tl]; auto.
Qed.

Section Fuel.
  Variable lws : N -> bool.

  (* Every branch of [lex] fails, stops with its input as the rest, or goes
     on in some mode. *)
  Lemma lex_rest_len inp : forall m, (rest_len (lex lws m inp) <= length inp)%nat.
  Proof.
    induction inp as [|c r Hr Hr'] using tail2_ind; intros m; [destruct m; cbn; lia|].
    pose proof (Hr MUnq). pose proof (Hr MSq). pose proof (Hr MDq).
    pose proof (Hr' MUnq). pose proof (Hr' MDq). cbn [lex length].
    destruct m;
      [ destruct (N.eqb c c_bs);
          [ destruct r as [|d r']; [|destruct (N.eqb d c_nl)]
          | destruct (N.eqb c c_sq);
              [|destruct (N.eqb c c_dq);
                  [|destruct (N.eqb c c_dollar || N.eqb c c_bq);
                      [|destruct (is_token_delimiter lws c)]]] ]
      | destruct (N.eqb c c_sq)
      | destruct (N.eqb c c_bs);
          [ destruct r as [|d r'];
              [|destruct (N.eqb d c_nl); [|destruct (mem d dq_escaped)]]
          | destruct (N.eqb c c_dq); [|destruct (N.eqb c c_dollar || N.eqb c c_bq)] ] ];
      rewrite ?rest_len_cons_u; cbn [rest_len length tl] in *; lia.
  Qed.

  (* A word that does not start at a delimiter consumes at least one
     character.  The disjunction is the shape in which [skip_blanks_spec]
     describes the first character behind the blanks: [lex] asks for a
     backslash before it asks for a delimiter, and nothing is assumed of [lws]
     here that would keep a backslash from being a blank. *)
  Lemma lex_progress c r :
    N.eqb c c_bs = true \/ is_token_delimiter lws c = false ->
    (rest_len (lex lws MUnq (c :: r)) <= length r)%nat.
  Proof.
    intros Hd. pose proof (lex_rest_len r MUnq). pose proof (lex_rest_len r MSq).
    pose proof (lex_rest_len r MDq). pose proof (lex_rest_len (tl r) MUnq).
    assert (length (tl r) <= length r)%nat by (destruct r; cbn; lia).
    cbn [lex].
    destruct (N.eqb c c_bs);
      [ destruct r as [|d r']; [|destruct (N.eqb d c_nl)]
      | destruct Hd as [Hd | Hd]; [discriminate|]; rewrite Hd;
        destruct (N.eqb c c_sq);
          [|destruct (N.eqb c c_dq); [|destruct (N.eqb c c_dollar || N.eqb c c_bq)]] ];
      rewrite ?rest_len_cons_u; cbn [rest_len length tl] in *; lia.
  Qed.

  Lemma skip_blanks_spec inp :
    (length (skip_blanks lws inp) <= length inp)%nat
    /\ match skip_blanks lws inp with
       | c :: _ => N.eqb c c_bs = true \/ is_blank lws c = false
       | [] => True
       end.
  Proof.
    induction inp as [|c r IH IH'] using tail2_ind; [cbn; split; [lia | exact I]|].
    cbn [skip_blanks]. destruct (N.eqb c c_bs) eqn:Ebs.
    - destruct r as [|d r']; [split; [lia | left; assumption]|].
      destruct (N.eqb d c_nl); [|split; [lia | left; assumption]].
      cbn [tl length] in *. split; [lia | apply IH'].
    - destruct (is_blank lws c) eqn:Eb; [|split; [lia | right; assumption]].
      cbn [length]. split; [lia | apply IH].
  Qed.

  Lemma read_words_fuel : forall fuel inp, (length inp < fuel)%nat ->
    read_words lws fuel inp <> WOutOfFuel.
  Proof.
    induction fuel as [|fuel IH]; intros inp Hlen; [lia|].
    cbn [read_words].
    destruct (skip_blanks_spec inp) as [H1 H2].
    destruct (skip_blanks lws inp) as [|c r] eqn:Es; [discriminate|].
    destruct (N.eqb c c_hash); [discriminate|].
    destruct (is_operator_char c) eqn:Eo; [discriminate|].
    assert (Hp : (rest_len (lex lws MUnq (c :: r)) <= length r)%nat).
    { apply lex_progress. destruct H2 as [H2 | H2]; [left; assumption|].
      right. unfold is_token_delimiter. rewrite Eo, H2. reflexivity. }
    destruct (lex lws MUnq (c :: r)) as [us rest| |]; try discriminate.
    destruct (all_digits us && _); [discriminate|].
    cbn [length rest_len] in *.
    specialize (IH rest ltac:(lia)).
    destruct (read_words lws fuel rest); try discriminate. contradiction.
  Qed.
End Fuel.
