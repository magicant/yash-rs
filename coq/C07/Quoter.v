(* C07 — the quoter against the specification: what it leaves bare is inert,
   and its output is one of the three notations for its argument.  Before
   that, the small lemmas about tables of characters and about lists that
   the other files use, the white-space table, and what the single clauses
   of [inert] and the pieces of the decoder do. *)
From Yv Require Import Common.Base C07.Model C07.Spec.

Local Open Scope N_scope.

Lemma mem_true_iff c l : mem c l = true <-> In c l.
Proof.
  unfold mem. rewrite existsb_exists. split.
  - intros [x [Hin Hx]]. apply N.eqb_eq in Hx. subst; assumption.
  - intros Hin. exists c. split; [assumption | apply N.eqb_refl].
Qed.

Lemma mem_false_iff c l : mem c l = false <-> ~ In c l.
Proof.
  rewrite <- mem_true_iff. destruct (mem c l); split; intros H; congruence.
Qed.

Lemma mem_app c l1 l2 : mem c (l1 ++ l2) = mem c l1 || mem c l2.
Proof. unfold mem. apply existsb_app. Qed.

Lemma mem_cons c x l : mem c (x :: l) = N.eqb c x || mem c l.
Proof. reflexivity. Qed.

Lemma mem_neq c k l : mem c l = false -> mem k l = true -> N.eqb c k = false.
Proof. intros Hc Hk. destruct (N.eqb_spec c k) as [-> | _]; congruence. Qed.

(* inclusion of one concrete table in another, by looking up each entry *)
Lemma mem_incl l1 l2 : forallb (fun x => mem x l2) l1 = true -> incl l1 l2.
Proof. rewrite forallb_forall. intros H c Hc. apply mem_true_iff, H, Hc. Qed.

(* inclusion of an interval of code points in a table, likewise *)
Lemma interval_incl lo n l :
  forallb (fun i => mem (lo + N.of_nat i) l) (seq 0 n) = true ->
  forall c, lo <= c -> c < lo + N.of_nat n -> In c l.
Proof.
  rewrite forallb_forall. intros H c H1 H2. apply mem_true_iff.
  replace c with (lo + N.of_nat (N.to_nat (c - lo))) by lia. apply H, in_seq. lia.
Qed.

Lemma mem_sub c l1 l2 :
  mem c l2 = false -> forallb (fun x => mem x l2) l1 = true -> mem c l1 = false.
Proof. rewrite !mem_false_iff. intros Hn H Hc. exact (Hn (mem_incl _ _ H c Hc)). Qed.

Lemma mem_none (p : N -> bool) c l :
  forallb (fun x => negb (p x)) l = true -> p c = true -> mem c l = false.
Proof.
  rewrite forallb_forall, mem_false_iff. intros H Hp Hin. apply H in Hin.
  rewrite Hp in Hin. discriminate.
Qed.

Lemma forallb_impl {A} (f g : A -> bool) l :
  (forall x, f x = true -> g x = true) -> forallb f l = true -> forallb g l = true.
Proof. intros H. rewrite !forallb_forall. auto. Qed.

Lemma Forall2_impl {A B} (R1 R2 : A -> B -> Prop) l l' :
  (forall a b, R1 a b -> R2 a b) -> Forall2 R1 l l' -> Forall2 R2 l l'.
Proof. intros H. induction 1; constructor; auto. Qed.

Lemma Forall2_maps {A B C} (R : B -> C -> Prop) (f : A -> B) (g : A -> C) l :
  (forall x, In x l -> R (f x) (g x)) -> Forall2 R (map f l) (map g l).
Proof.
  induction l as [|x l IH]; intros H; constructor; [apply H; left; reflexivity|].
  apply IH. intros y Hy. apply H. right; assumption.
Qed.

Lemma rust_ws_table c : rust_ws c = true <-> In c ws_table.
Proof.
  split.
  - unfold rust_ws. intros H. apply orb_true_iff in H. destruct H as [H | H].
    + apply mem_true_iff in H. revert c H. apply mem_incl. reflexivity.
    + apply andb_true_iff in H. rewrite !N.leb_le in H.
      apply (interval_incl 8192 11); [reflexivity | lia | lia].
  - revert c. apply forallb_forall. reflexivity.
Qed.

(* the newline is an operator character, so its exclusion from the blanks
   does not show in the delimiter class *)
Lemma delimiter_alt lws c : is_token_delimiter lws c = is_operator_char c || lws c.
Proof.
  unfold is_token_delimiter, is_blank. destruct (N.eqb_spec c c_nl) as [-> | _]; reflexivity.
Qed.

Lemma rust_ws_ascii_ok : ascii_ok rust_ws.
Proof.
  split.
  - reflexivity.
  - intros c H. apply negb_true_iff. apply mem_true_iff in H. revert c H.
    apply forallb_forall. reflexivity.
  - intros c H. destruct (rust_ws c) eqn:E; [|reflexivity]. apply rust_ws_table in E.
    apply mem_true_iff in E. rewrite (mem_none name_char c ws_table) in E by trivial.
    discriminate.
Qed.

Lemma has_pair_colon_tilde s : colon_tilde s = has_pair c_colon c_tilde s.
Proof.
  induction s as [|a t IH]; [reflexivity|].
  destruct t as [|b t'].
  - cbn. rewrite andb_false_r. reflexivity.
  - change (colon_tilde (a :: b :: t')) with
      ((N.eqb a c_colon && N.eqb b c_tilde) || colon_tilde (b :: t')).
    rewrite IH. reflexivity.
Qed.

Lemma has_pair_at a b x y : has_pair a b (x ++ a :: b :: y) = true.
Proof.
  induction x as [|c x IH]; cbn [app has_pair].
  - rewrite !N.eqb_refl. reflexivity.
  - rewrite IH. apply orb_true_r.
Qed.

Lemma no_close_no_hazard t : mem c_rbrk t = false -> bracket_hazard t = false.
Proof.
  induction t as [|x t IH]; [reflexivity|].
  rewrite mem_cons, orb_false_iff. intros [_ Hm].
  cbn [bracket_hazard]. rewrite Hm, andb_false_r, IH by assumption. reflexivity.
Qed.

Lemma no_open_no_hazard s : mem c_lbrk s = false -> bracket_hazard s = false.
Proof.
  induction s as [|c s IH]; [reflexivity|].
  rewrite mem_cons, orb_false_iff. intros [H1 H2].
  cbn [bracket_hazard]. rewrite N.eqb_sym, H1, IH by assumption. reflexivity.
Qed.

Lemma open_close_hazard s :
  open_then_close c_lbrk c_rbrk s = false -> bracket_hazard s = false.
Proof.
  unfold open_then_close. induction s as [|x t IH]; [reflexivity|].
  cbn [after_first bracket_hazard]. destruct (N.eqb x c_lbrk) eqn:E.
  - intros Hm. rewrite Hm, andb_false_r. cbn. apply no_close_no_hazard; assumption.
  - intros H. cbn. apply IH; assumption.
Qed.

Lemma no_tilde_no_colon_tilde s : mem c_tilde s = false -> colon_tilde s = false.
Proof.
  intros H. rewrite has_pair_colon_tilde. induction s as [|a t IH]; [reflexivity|].
  rewrite mem_cons, orb_false_iff in H. destruct H as [_ H]. cbn [has_pair].
  rewrite (IH H), orb_false_r. destruct t as [|b t']; [apply andb_false_r|].
  rewrite mem_cons, orb_false_iff in H. destruct H as [H _].
  rewrite (N.eqb_sym b), H. apply andb_false_r.
Qed.

Lemma spec_reads_decode lws q s : spec_reads lws q s = true <-> spec_decode lws q = Some s.
Proof. unfold spec_reads. apply option_eqb_spec. apply str_eqb_eq. Qed.

Lemma split_last_snoc l x : split_last (l ++ [x]) = Some (l, x).
Proof.
  induction l as [|a l IH]; [reflexivity|].
  cbn [app split_last]. rewrite IH. destruct (l ++ [x]) eqn:E.
  - destruct l; discriminate.
  - reflexivity.
Qed.

Lemma split_last_inv l b z : split_last l = Some (b, z) -> l = b ++ [z].
Proof.
  revert b. induction l as [|x t IH]; intros b; [discriminate|].
  cbn [split_last]. destruct t as [|y t'].
  - intros H. injection H as <- <-. reflexivity.
  - destruct (split_last (y :: t')) as [[b' z']|] eqn:E; [|discriminate].
    intros H. injection H as <- <-. rewrite (IH b' eq_refl). reflexivity.
Qed.

Lemma dq_decode_escape s : dq_decode (dq_escape s) = Some s.
Proof.
  induction s as [|c s IH]; [reflexivity|].
  unfold dq_escape. cbn [flat_map]. fold (dq_escape s).
  destruct (mem c dq_escaped) eqn:E; cbn [app dq_decode].
  - rewrite N.eqb_refl, N.eqb_sym, (mem_neq c_nl c dq_escaped), E, IH by trivial. reflexivity.
  - rewrite !(mem_neq c _ dq_escaped E), IH by reflexivity. reflexivity.
Qed.

Section Agreement.
  Variables qws lws : N -> bool.
  (* the agreement the property is about: every blank of the lexer is
     white space for the quoter *)
  Hypothesis Hsub : forall c, lws c = true -> qws c = true.

  (* the operator characters and the characters special in a word are all
     among those the quoter lists *)
  Lemma unquoted_char_plain c :
    char_needs_quoting qws c = false -> plain_char lws c = true.
  Proof.
    unfold char_needs_quoting. rewrite orb_false_iff. intros [Hm Hq].
    assert (Hl : lws c = false).
    { destruct (lws c) eqn:E; [apply Hsub in E; congruence | reflexivity]. }
    unfold plain_char. rewrite delimiter_alt, Hl. unfold is_operator_char.
    rewrite !(mem_sub c _ always_quoted) by trivial. reflexivity.
  Qed.

  (* what [str_needs_quoting] has looked at when it answers no, but for its
     clause on braces: the reader gives braces no meaning ([inert] has no
     clause for them) *)
  Lemma bare_facts s :
    str_needs_quoting qws s = false ->
    match s with c :: _ => N.eqb c c_hash = false /\ N.eqb c c_tilde = false | [] => False end
    /\ (forall x, In x s -> char_needs_quoting qws x = false)
    /\ has_pair c_colon c_tilde s = false
    /\ open_then_close c_lbrk c_rbrk s = false.
  Proof.
    destruct s as [|c t]; [discriminate|]. unfold str_needs_quoting.
    rewrite !orb_false_iff. intros [[[[[H1 H2] H3] H4] _] H6]. repeat split; try assumption.
    intros x Hx. destruct (char_needs_quoting qws x) eqn:E; [|reflexivity].
    rewrite <- H3. symmetry. apply existsb_exists. exists x. auto.
  Qed.

  Lemma bare_no_char k s :
    str_needs_quoting qws s = false -> mem k always_quoted = true -> mem k s = false.
  Proof.
    intros H Hk. apply mem_false_iff. intros Hin. destruct (bare_facts s H) as (_ & Hc & _).
    specialize (Hc k Hin). unfold char_needs_quoting in Hc. rewrite Hk in Hc. discriminate.
  Qed.

  Lemma bare_head c t :
    str_needs_quoting qws (c :: t) = false -> N.eqb c c_sq = false /\ N.eqb c c_dq = false.
  Proof.
    intros H. rewrite <- !(N.eqb_sym c_sq), <- !(N.eqb_sym c_dq). split.
    - apply (proj1 (orb_false_iff _ _) (bare_no_char c_sq _ H eq_refl)).
    - apply (proj1 (orb_false_iff _ _) (bare_no_char c_dq _ H eq_refl)).
  Qed.

  Lemma bare_inert s : str_needs_quoting qws s = false -> inert lws s = true.
  Proof.
    intros H. destruct (bare_facts s H) as (H1 & H2 & H3 & H4).
    destruct s as [|c t]; [contradiction|]. destruct H1 as [H0 H1]. unfold inert.
    rewrite H0, H1, has_pair_colon_tilde, H3, open_close_hazard by assumption.
    cbn [negb andb]. rewrite !andb_true_r.
    apply forallb_forall. intros x Hx. apply unquoted_char_plain, H2, Hx.
  Qed.

  Lemma quote_decodes s : spec_decode lws (quote qws s) = Some s.
  Proof.
    unfold quote, quote_shape.
    destruct (str_needs_quoting qws s) eqn:Hn; cbn [negb].
    - destruct (mem c_sq s) eqn:Hs; cbn [negb render]; unfold spec_decode.
      + change (N.eqb c_dq c_sq) with false. cbn iota.
        rewrite N.eqb_refl, split_last_snoc, N.eqb_refl. apply dq_decode_escape.
      + rewrite N.eqb_refl, split_last_snoc, N.eqb_refl, Hs. reflexivity.
    - cbn [render]. pose proof (bare_inert s Hn) as Hi.
      destruct s as [|c t]; [discriminate|]. destruct (bare_head c t Hn) as [H1 H2].
      unfold spec_decode. rewrite H1, H2, Hi. reflexivity.
  Qed.
End Agreement.
