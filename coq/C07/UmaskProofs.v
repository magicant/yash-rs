(* C07 — the umask listings: print then parse gives the mask back. *)
From Yv Require Import Common.Base C07.Umask.

Local Open Scope N_scope.

(* clauses  who=literal , which is all the printers print, as pairs
   (who, literal) *)
Definition set_clauses : list (N * N) -> list clause :=
  map (fun p => mkClause (fst p) [(USet, PLiteral (snd p) false)]).

(* the literal that the letters printed by [sym3] stand for *)
Definition lit3 (m r w x : N) : N :=
  N.lor (if N.eqb (N.land m r) 0 then 0 else 292)
    (N.lor (if N.eqb (N.land m w) 0 then 0 else 146) (if N.eqb (N.land m x) 0 then 0 else 73)).

(* a clause ends at a comma or at the end of the operand *)
Definition ends_clause (rest : str) : Prop :=
  match rest with
  | [] => True
  | c :: _ => c = 44
  end.

(* the eight strings [sym3] can print, each in front of a comma or the end *)
Lemma parse_set_literal n m r w x rest : ends_clause rest ->
  parse_actions (S (S n)) (61 :: sym3 m r w x ++ rest) []
  = ROk ([(USet, PLiteral (lit3 m r w x) false)], rest).
Proof.
  intros H. unfold sym3, lit3.
  destruct (N.eqb (N.land m r) 0), (N.eqb (N.land m w) 0), (N.eqb (N.land m x) 0);
    destruct rest as [|c t]; cbn in H; subst; reflexivity.
Qed.

(* one clause of `umask -S`, for a who-letter [c] that stands for the bits [who] *)
Lemma parse_set_clause fuel c who m r w x rest acc :
  (forall s, who_of (c :: 61 :: s) = (who, 61 :: s)) -> ends_clause rest ->
  parse_clauses_from (S fuel) (c :: 61 :: sym3 m r w x ++ rest) acc
  = let acc' := mkClause who [(USet, PLiteral (lit3 m r w x) false)] :: acc in
    match rest with
    | [] => ROk (rev acc')
    | _ :: t => parse_clauses_from fuel t acc'
    end.
Proof.
  intros Hc Hr. cbn [parse_clauses_from]. rewrite Hc. cbn [length].
  rewrite parse_set_literal by assumption. destruct rest as [|d t]; cbn in Hr; subst; reflexivity.
Qed.

Lemma parse_format_symbolic a :
  parse_operand (format_symbolic a)
  = ROk (set_clauses [(448, lit3 a 256 128 64); (56, lit3 a 32 16 8); (7, lit3 a 4 2 1)]).
Proof.
  unfold format_symbolic. rewrite <- (app_nil_r (sym3 a 4 2 1)).
  unfold parse_operand, parse_clauses. cbn [app length].
  change (is_ascii_digit 117) with false. cbn iota.
  rewrite (parse_set_clause _ 117 448) by (cbn; trivial). cbn beta iota zeta.
  rewrite (parse_set_clause _ 103 56) by (cbn; trivial). cbn beta iota zeta.
  rewrite (parse_set_clause _ 111 7) by (cbn; trivial). reflexivity.
Qed.

(* the character of an octal digit, as [show_octal] prints it *)
Lemma octal_digit x (d := N.land x 7) :
  is_ascii_digit (48 + d) = true /\ is_octal_digit (48 + d) = true /\ 48 + d - 48 = d.
Proof.
  assert (H : d < 8)
    by (subst d; change 7 with (N.ones 3); rewrite N.land_ones; apply N.mod_lt; discriminate).
  unfold is_ascii_digit, is_octal_digit. rewrite !andb_true_iff, !N.leb_le. lia.
Qed.

Lemma parse_show_octal m :
  m < 512 -> parse_operand (show_octal m) = ROk (set_clauses [(511, not16 m)]).
Proof.
  intros Hm. unfold parse_operand, show_octal, parse_octal.
  destruct (octal_digit (N.shiftr m 6)) as (A2 & O2 & V2).
  destruct (octal_digit (N.shiftr m 3)) as (_ & O1 & V1). destruct (octal_digit m) as (_ & O0 & V0).
  cbn [forallb fold_left]. rewrite A2, O2, O1, O0, V2, V1, V0. cbn [andb].
  (* the three octal digits of a number below 8^3 *)
  assert (E : ((0 * 8 + N.land (N.shiftr m 6) 7) * 8 + N.land (N.shiftr m 3) 7) * 8 + N.land m 7 = m).
  { change 7 with (N.ones 3). rewrite !N.land_ones, !N.shiftr_div_pow2.
    change (2 ^ 6) with (8 * 8). change (2 ^ 3) with 8. rewrite <- N.div_div by discriminate.
    pose proof (N.div_mod' m 8). pose proof (N.div_mod' (m / 8) 8).
    rewrite (N.mod_small (m / 8 / 8))
      by (apply N.div_lt_upper_bound; [discriminate|]; apply N.div_lt_upper_bound; [discriminate | lia]).
    lia. }
  rewrite E. replace (m <=? 65535) with true by (symmetry; apply N.leb_le; lia). reflexivity.
Qed.

(* A clause  who=literal  replaces the bits of [who] by those of the literal.
   A sequence of them therefore maps a mask r to  K | (r & W)  with K and W
   computed from the clauses alone. *)
Fixpoint summary (l : list (N * N)) (K W : N) : N * N :=
  match l with
  | [] => (K, W)
  | (who, k) :: t => summary t (N.lor (N.land k who) (N.land K (not16 who))) (N.land W (not16 who))
  end.

Lemma eval_set_clauses c l K W :
  c = N.lor K (N.land c W) ->
  eval_clauses c (set_clauses l) = N.lor (fst (summary l K W)) (N.land c (snd (summary l K W))).
Proof.
  (* the current mask is the start value of the fold and a parameter of its
     step; only the start value varies in the induction *)
  unfold eval_clauses. set (step := fun (r : N) (cl : clause) => _). generalize c at 1 3 as r.
  revert K W. induction l as [|[who k] l IH]; intros K W r Hr; [exact Hr|].
  cbn [set_clauses map fold_left summary]. apply IH. subst r step.
  cbn [fold_left cl_actions cl_who fst snd andb].
  rewrite N.lor_0_r, N.land_lor_distr_l, <- N.land_assoc, N.lor_assoc. reflexivity.
Qed.

(* a single bit of a mask, as [sym3] and [lit3] test it *)
Lemma land_bit a b k : b = 2 ^ k -> (if N.eqb (N.land a b) 0 then 0 else b) = N.land a b.
Proof.
  intros ->. destruct (N.eqb_spec (N.land a (2 ^ k)) 0) as [E | E]; [symmetry; exact E|].
  apply N.bits_inj. intros n. rewrite N.land_spec, N.pow2_bits_eqb.
  destruct (N.eqb_spec k n) as [<- | _]; [|symmetry; apply andb_false_r].
  rewrite andb_true_r. destruct (N.testbit a k) eqn:T; [reflexivity|]. contradiction E.
  apply N.bits_inj. intros n. rewrite N.land_spec, N.pow2_bits_eqb, N.bits_0.
  destruct (N.eqb_spec k n) as [<- | _]; [rewrite T; reflexivity | apply andb_false_r].
Qed.

(* within the bits [who] of its group, the literal printed for a mask is the
   mask: r, w, x are the three bits of the group, 0o444, 0o222, 0o111 their
   copies in all groups *)
Lemma lit3_group a r w x who kr kw kx :
  r = 2 ^ kr -> w = 2 ^ kw -> x = 2 ^ kx ->
  N.land 292 who = r -> N.land 146 who = w -> N.land 73 who = x -> N.lor r (N.lor w x) = who ->
  N.land (lit3 a r w x) who = N.land a who.
Proof.
  intros Hr Hw Hx H1 H2 H3 Hwho. unfold lit3. rewrite !N.land_lor_distr_l.
  assert (E : forall (b : bool) c v, N.land c who = v ->
                N.land (if b then 0 else c) who = if b then 0 else v)
    by (intros [] c v <-; reflexivity).
  rewrite (E _ _ _ H1), (E _ _ _ H2), (E _ _ _ H3).
  rewrite (land_bit a r kr Hr), (land_bit a w kw Hw), (land_bit a x kx Hx).
  rewrite <- !N.land_lor_distr_r, Hwho. reflexivity.
Qed.

(* both printed forms replace the nine low bits by those of the complement
   of the mask and keep the bits above *)
Lemma symbolic_summary a :
  summary [(448, lit3 a 256 128 64); (56, lit3 a 32 16 8); (7, lit3 a 4 2 1)] 0 65535
  = (N.land a 511, 65024).
Proof.
  cbn [summary]. f_equal.
  rewrite (lit3_group a 256 128 64 448 8 7 6), (lit3_group a 32 16 8 56 5 4 3),
    (lit3_group a 4 2 1 7 2 1 0) by reflexivity.
  rewrite N.land_0_l, N.lor_0_r, !N.land_lor_distr_l, <- !N.land_assoc, <- !N.land_lor_distr_r.
  reflexivity.
Qed.

Lemma octal_summary a : summary [(511, a)] 0 65535 = (N.land a 511, 65024).
Proof. cbn [summary]. rewrite N.land_0_l, N.lor_0_r. reflexivity. Qed.

Lemma land_lxor_distr a b c : N.land (N.lxor a b) c = N.lxor (N.land a c) (N.land b c).
Proof.
  apply N.bits_inj. intros n. rewrite N.land_spec, !N.lxor_spec, !N.land_spec.
  destruct (N.testbit a n), (N.testbit b n), (N.testbit c n); reflexivity.
Qed.

(* a mask below 0o1000 has only its nine low bits: it is a u16, and so is
   its complement, which has the bits above set *)
Lemma low_mask m :
  m < 512 ->
  N.land (not16 m) 65024 = 65024 /\ N.land (not16 m) 65535 = not16 m /\ N.land m 65535 = m.
Proof.
  intros H.
  assert (E : N.land m 511 = m)
    by (change 511 with (N.ones 9); rewrite N.land_ones; apply N.mod_small, H).
  assert (E16 : N.land m 65535 = m) by (rewrite <- E, <- N.land_assoc; reflexivity).
  assert (Eh : N.land m 65024 = 0) by (rewrite <- E, <- N.land_assoc; apply N.land_0_r).
  unfold not16. rewrite E16, !land_lxor_distr, E16, Eh. repeat split; reflexivity.
Qed.

(* keeping the bits above and taking the low ones from the complement of [m]
   gives that complement; complementing again gives [m] *)
Lemma not16_restores m : m < 512 -> not16 (N.lor (N.land (not16 m) 511) 65024) = m.
Proof.
  intros H. destruct (low_mask m H) as (H1 & H2 & H3).
  rewrite <- H1, <- N.land_lor_distr_r. change (N.lor 511 65024) with 65535.
  rewrite H2. unfold not16 at 1. rewrite H2. unfold not16.
  rewrite H3, N.lxor_assoc, N.lxor_nilpotent, N.lxor_0_r. reflexivity.
Qed.

Lemma round_trip show l :
  (forall m, m < 512 -> parse_operand (show m) = ROk (set_clauses (l m))) ->
  (forall m, summary (l m) 0 65535 = (N.land (not16 m) 511, 65024)) ->
  forall m cur, m < 512 -> cur < 512 -> umask_set cur (show m) = ROk m.
Proof.
  intros Hp Hl m cur Hm Hc. unfold umask_set. rewrite Hp by assumption.
  destruct (low_mask cur Hc) as (H1 & H2 & _).
  rewrite (eval_set_clauses _ _ 0 65535) by (rewrite N.lor_0_l, H2; reflexivity).
  rewrite Hl. cbn [fst snd]. rewrite H1, not16_restores by assumption. reflexivity.
Qed.

Lemma span_length p s : (length (snd (span p s)) <= length s)%nat.
Proof.
  induction s as [|c r IH]; [cbn; lia|]. cbn [span]. destruct (p c); [|cbn; lia].
  destruct (span p r) as [a b]. cbn [snd length] in *. lia.
Qed.

Lemma parse_perm_length s p r : parse_perm s = Some (p, r) -> (length r <= length s)%nat.
Proof.
  unfold parse_perm. pose proof (span_length perm_alpha s) as H.
  destruct (span perm_alpha s) as [al rest]. cbn [snd] in H.
  destruct (existsb _ al).
  - destruct al as [|c [|d t]]; try discriminate.
    destruct (N.eqb c 117); [|destruct (N.eqb c 103)]; intros E; injection E as _ <-; exact H.
  - intros E. injection E as _ <-. exact H.
Qed.

Lemma parse_op_length s o r : parse_op s = Some (o, r) -> length s = S (length r).
Proof.
  destruct s as [|c t]; [discriminate|]. cbn [parse_op].
  destruct (N.eqb c 43); [|destruct (N.eqb c 45); [|destruct (N.eqb c 61); [|discriminate]]];
    intros E; injection E as _ <-; reflexivity.
Qed.

Lemma parse_actions_fuel : forall fuel s acc, (length s < fuel)%nat ->
  parse_actions fuel s acc <> RFuel
  /\ forall a r, parse_actions fuel s acc = ROk (a, r) -> (length r <= length s)%nat.
Proof.
  induction fuel as [|fuel IH]; intros s acc Hf; [lia|].
  cbn [parse_actions]. destruct (parse_op s) as [[o r]|] eqn:Eo.
  - apply parse_op_length in Eo.
    destruct (parse_perm r) as [[p r']|] eqn:Ep.
    + apply parse_perm_length in Ep.
      destruct (IH r' ((o, p) :: acc) ltac:(lia)) as [H1 H2]. split; [exact H1|].
      intros a r0 E. apply H2 in E. lia.
    + split; [discriminate|]. intros a r0 E. discriminate.
  - destruct acc; split; try discriminate.
    intros a r0 E. injection E as _ <-. lia.
Qed.

Lemma parse_who_length s m : (length (snd (parse_who s m)) <= length s)%nat.
Proof.
  revert m. induction s as [|c r IH]; intros m; [cbn; lia|]. cbn [parse_who].
  destruct (N.eqb c 117); [specialize (IH (N.lor m 448)); cbn [length]; lia|].
  destruct (N.eqb c 103); [specialize (IH (N.lor m 56)); cbn [length]; lia|].
  destruct (N.eqb c 111); [specialize (IH (N.lor m 7)); cbn [length]; lia|].
  destruct (N.eqb c 97); [specialize (IH (N.lor m 511)); cbn [length]; lia|].
  cbn. lia.
Qed.

Lemma parse_clauses_from_fuel : forall fuel s acc, (length s < fuel)%nat ->
  parse_clauses_from fuel s acc <> RFuel.
Proof.
  induction fuel as [|fuel IH]; intros s acc Hf; [lia|].
  cbn [parse_clauses_from]. unfold who_of.
  pose proof (parse_who_length s 0) as Hw. destruct (parse_who s 0) as [m r]. cbn [snd] in Hw.
  destruct (parse_actions_fuel (S (length r)) r [] ltac:(lia)) as [H1 H2].
  destruct (parse_actions (S (length r)) r []) as [[acts r']| |]; try discriminate; [|contradiction].
  specialize (H2 acts r' eq_refl).
  destruct r' as [|c r'']; [discriminate|].
  destruct (N.eqb c 44); [|discriminate]. apply IH. cbn [length] in H2. lia.
Qed.
