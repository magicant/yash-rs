(* C15 — the relay of forwarder.rs on its own: what polling and try_receive
   do in each of its states; it delivers exactly once; the oracle for one
   Sender/Receiver pair accepts what the model does.  [waiting_rel] and
   [fin_rel] are how the Level-B files speak of relays. *)
From Yv Require Import Common.Base C15.Model C15.Spec.

(* the relay holds no value yet; it holds one, or held one *)
Definition waiting_rel (r : relay) : Prop := r = RlPending \/ exists w, r = RlPolled w.
Definition fin_rel (r : relay) : bool :=
  match r with RlComputed _ | RlDone => true | _ => false end.

Lemma waiting_not_computed r v : waiting_rel r -> r <> RlComputed v.
Proof. intros [->|[w ->]]; discriminate. Qed.

Lemma waiting_not_done r : waiting_rel r -> r <> RlDone.
Proof. intros [->|[w ->]]; discriminate. Qed.

Lemma waiting_iff_not_fin r : waiting_rel r <-> fin_rel r = false.
Proof.
  split; [intros [->|[w ->]]; reflexivity|].
  destruct r; cbn; intros H; try discriminate; [left; reflexivity | right; eexists; reflexivity].
Qed.

Lemma relay_poll_cases (r : relay) (t : tid) :
  (waiting_rel r /\ relay_poll r t = (RlPolled t, None, false)) \/
  (exists v, r = RlComputed v /\ relay_poll r t = (RlDone, Some v, false)) \/
  (r = RlDone /\ relay_poll r t = (RlDone, None, true)).
Proof.
  destruct r as [|w|v|]; cbn.
  - left. split; [left; reflexivity | reflexivity].
  - left. split; [right; eexists; reflexivity | reflexivity].
  - right. left. exists v. split; reflexivity.
  - right. right. split; reflexivity.
Qed.

Lemma relay_try_cases (r : relay) :
  (waiting_rel r /\ relay_try r = (r, TNotSent)) \/
  (exists v, r = RlComputed v /\ relay_try r = (RlDone, TOk v)) \/
  (r = RlDone /\ relay_try r = (RlDone, TAlready)).
Proof.
  destruct r as [|w|v|]; cbn.
  - left. split; [left; reflexivity | reflexivity].
  - left. split; [right; eexists; reflexivity | reflexivity].
  - right. left. exists v. split; reflexivity.
  - right. right. split; reflexivity.
Qed.

Definition holder (r : relay) : option tid :=
  match r with RlPolled w => Some w | _ => None end.

(* the last conjunct hands over the state reached, for whoever continues the
   run (relay_exactly_once_from appends the send) *)
Lemma before_send (ops : list rop) : forall r, waiting_rel r -> no_send ops ->
  deliveries (relay_run r ops) = [] /\
  ~ In RoPanic (relay_run r ops) /\
  exists r', waiting_rel r' /\ holder r' = last_poller ops (holder r) /\
    forall ops2, relay_run r (ops ++ ops2) = relay_run r ops ++ relay_run r' ops2.
Proof.
  induction ops as [|o ops IH]; intros r Hw Hn.
  - cbn. split; [reflexivity|]. split; [intros []|]. exists r. split; [exact Hw|]. split; reflexivity.
  - unfold no_send in Hn. cbn in Hn. apply andb_true_iff in Hn. destruct Hn as [Ho Hn].
    destruct o as [v|w|]; [discriminate| |].
    + assert (E : relay_op r (RPoll w) = (RlPolled w, RoPending)).
      { destruct Hw as [->|[w0 ->]]; reflexivity. }
      cbn [relay_run app]. rewrite E.
      destruct (IH (RlPolled w)) as [H1 [H2 [r' [H3 [H4 H5]]]]]; [right; eexists; reflexivity | exact Hn |].
      split; [exact H1|]. split; [intros [H|H]; [discriminate | exact (H2 H)]|].
      exists r'. split; [exact H3|]. split; [exact H4|].
      intros ops2. cbn. rewrite H5. reflexivity.
    + assert (E : relay_op r RTry = (r, RoTry TNotSent)).
      { destruct Hw as [->|[w0 ->]]; reflexivity. }
      cbn [relay_run app]. rewrite E.
      destruct (IH r Hw Hn) as [H1 [H2 [r' [H3 [H4 H5]]]]].
      split; [exact H1|]. split; [intros [H|H]; [discriminate | exact (H2 H)]|].
      exists r'. split; [exact H3|]. split; [exact H4|].
      intros ops2. cbn. rewrite H5. reflexivity.
Qed.

(* from RlDone try_receive answers TAlready and a poll is the panic;
   [relay_run] goes on after RoPanic, which delivers nothing *)
Lemma after_done (ops : list rop) : no_send ops ->
  deliveries (relay_run RlDone ops) = [].
Proof.
  induction ops as [|o ops IH]; intros Hn; [reflexivity|].
  unfold no_send in Hn. cbn in Hn. apply andb_true_iff in Hn. destruct Hn as [Ho Hn].
  destruct o as [v|w|]; [discriminate| |]; cbn; apply IH; exact Hn.
Qed.

Lemma after_send (v : N) (ops : list rop) : no_send ops ->
  deliveries (relay_run (RlComputed v) ops) = if existsb is_receive ops then [v] else [].
Proof.
  intros Hn. destruct ops as [|o ops]; [reflexivity|].
  unfold no_send in Hn. cbn in Hn. apply andb_true_iff in Hn. destruct Hn as [Ho Hn].
  destruct o as [v'|w|]; [discriminate| |]; cbn; rewrite after_done; auto.
Qed.

Lemma relay_exactly_once_from r ops1 v ops2 : waiting_rel r -> no_send ops1 -> no_send ops2 ->
  let outs := relay_run r (ops1 ++ RSend v :: ops2) in
  deliveries outs = (if existsb is_receive ops2 then [v] else []) /\
  nth_error outs (length ops1) = Some (RoSent (last_poller ops1 (holder r))).
Proof.
  intros Hw H1 H2 outs.
  destruct (before_send ops1 r Hw H1) as [D1 [_ [r' [W [Hh Happ]]]]].
  unfold outs. rewrite Happ.
  assert (L : length (relay_run r ops1) = length ops1).
  { clear. revert r. induction ops1 as [|o l IH]; intros r; [reflexivity|].
    cbn. destruct (relay_op r o). cbn. rewrite IH. reflexivity. }
  assert (Dapp : forall a b, deliveries (a ++ b) = deliveries a ++ deliveries b).
  { induction a as [|x a IH]; intros b; [reflexivity|].
    destruct x as [| | |res|]; cbn; try apply IH; [rewrite IH; reflexivity|].
    destruct res; cbn; try apply IH. rewrite IH. reflexivity. }
  assert (E : relay_op r' (RSend v) = (RlComputed v, RoSent (holder r'))).
  { destruct W as [->|[w ->]]; reflexivity. }
  split.
  - rewrite Dapp, D1. cbn [app relay_run]. rewrite E. cbn [deliveries]. apply after_send. exact H2.
  - rewrite nth_error_app2; [|rewrite L; apply le_n]. rewrite L, Nat.sub_diag.
    cbn [relay_run]. rewrite E. cbn. rewrite Hh. reflexivity.
Qed.

(* what the pair oracle has seen so far (a value sent, delivered), given the
   relay and which halves are left *)
Definition PairInv (s : fstate) (sent : option N) (delivered : bool) : Prop :=
  match f_rel s with
  | RlPending | RlPolled _ => sent = None /\ delivered = false
  | RlComputed v => sent = Some v /\ delivered = false /\ f_sender s = false
  | RlDone => delivered = true /\ f_sender s = false
  end.

(* the sender goes (consumed by a refused send, or dropped); what became of the receiver does not matter *)
Lemma PairInv_no_sender r sa ra ra' sent delivered :
  PairInv (mkF r sa ra) sent delivered -> PairInv (mkF r false ra') sent delivered.
Proof.
  unfold PairInv. cbn [f_rel f_sender]. destruct r; intros H; try exact H.
  - destruct H as [A [B _]]. repeat split; assumption.
  - destruct H as [A _]. split; [exact A | reflexivity].
Qed.

Lemma pair_oracle_sound_gen : forall ops s sent delivered,
  PairInv s sent delivered -> f_oracle sent delivered (combine ops (f_run s ops)) = true.
Proof.
  induction ops as [|o ops IH]; intros s sent delivered Hi; [reflexivity|].
  cbn [f_run]. destruct s as [r sa ra]. unfold PairInv in Hi. cbn [f_rel f_sender] in Hi.
  destruct o as [v|w| | |]; cbn [f_op f_sender f_receiver f_rel].
  - (* send *)
    destruct sa; cbn [negb].
    + destruct ra; cbn [negb].
      * destruct r as [|w0|v0|]; cbn [relay_send combine f_oracle].
        -- destruct Hi as [-> ->]. apply IH. cbn. repeat split; reflexivity.
        -- destruct Hi as [-> ->]. apply IH. cbn. repeat split; reflexivity.
        -- destruct Hi as [_ [_ X]]. discriminate.
        -- destruct Hi as [_ X]. discriminate.
      * cbn [combine f_oracle]. rewrite N.eqb_refl. cbn [andb]. apply IH.
        exact (PairInv_no_sender r true false false _ _ Hi).
    + cbn [combine f_oracle]. apply IH. exact Hi.
  - (* poll *)
    destruct ra; cbn [negb]; [|cbn [combine f_oracle]; apply IH; exact Hi].
    destruct r as [|w0|v0|]; cbn [relay_poll combine f_oracle].
    + apply IH. exact Hi.
    + apply IH. exact Hi.
    + destruct Hi as [-> [-> Hs]]. rewrite N.eqb_refl. cbn [andb negb]. apply IH.
      unfold PairInv. cbn. split; [reflexivity | exact Hs].
    + destruct Hi as [-> _]. reflexivity.
  - (* try *)
    destruct ra; cbn [negb]; [|cbn [combine f_oracle]; apply IH; exact Hi].
    destruct r as [|w0|v0|]; cbn [combine f_oracle].
    + destruct sa; cbn [f_oracle]; apply IH; exact Hi.
    + destruct sa; cbn [f_oracle]; apply IH; exact Hi.
    + destruct Hi as [-> [-> Hs]]. rewrite N.eqb_refl. cbn [andb negb]. apply IH.
      unfold PairInv. cbn. split; [reflexivity | exact Hs].
    + apply IH. exact Hi.
  - destruct sa; cbn [combine f_oracle]; apply IH; [|exact Hi].
    exact (PairInv_no_sender r true ra ra _ _ Hi).
  - destruct ra; cbn [combine f_oracle]; apply IH; exact Hi.
Qed.
