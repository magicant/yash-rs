(* C15 — a step budget computed from the script table and the plan suffices. *)
From Yv Require Import Common.Base C15.Model C15.Spec C15.ProofsA C15.ProofsB1 C15.ProofsB2 C15.ProofsB3.
From Coq Require Import Arith.

Section Budget.
Variable W : nat -> nat.
Variable scripts : list script.
Hypothesis HW : cert scripts W.

Definition pcs (sh : shared) : list (list action) := map pc (tasks sh).
Definition wsum (sh : shared) : nat := list_sum (map (wc W) (pcs sh)).

Lemma map_pc_upd (f : task -> task) l : (forall k, pc (f k) = pc k) -> forall n, map pc (upd n f l) = map pc l.
Proof.
  intros Hf. induction l as [|x l IH]; intros [|n]; cbn; try reflexivity; [rewrite Hf; reflexivity | rewrite IH; reflexivity].
Qed.

Lemma pcs_set_rel r x sh : pcs (set_rel r x sh) = pcs sh.
Proof. unfold pcs, set_rel. cbn. apply map_pc_upd. reflexivity. Qed.
Lemma pcs_set_recvs t rv sh : pcs (set_recvs t rv sh) = pcs sh.
Proof. unfold pcs, set_recvs. cbn. apply map_pc_upd. reflexivity. Qed.
Lemma pcs_add_task p sh : pcs (add_task p sh) = pcs sh ++ [p].
Proof. unfold pcs, add_task. cbn. rewrite map_app. reflexivity. Qed.

(* what the tasks with these scripts cost: one step each to finish, and their scripts *)
Definition newcost (l : list (list action)) : nat := length l + list_sum (map (wc W) l).

Lemma newcost_app a b : newcost (a ++ b) = newcost a + newcost b.
Proof. unfold newcost. rewrite app_length, map_app, list_sum_app. lia. Qed.

Lemma wc_cons a l : wc W (a :: l) = act_cost W a + wc W l.
Proof. reflexivity. Qed.

Lemma act_cost_pos a : 1 <= act_cost W a.
Proof. destruct a; cbn; lia. Qed.

(* what one poll costs: the tasks it spawns are paid for by the spawn actions,
   and the script pays at least one more for every action it advances over:
   only a poll that returns Pending where it started does nothing and pays
   nothing *)
Lemma poll_cost t : forall acts sh, WF sh -> t < nt sh ->
  let r := poll_loop scripts t sh acts in
  exists newpcs,
    pcs (p_sh r) = pcs sh ++ newpcs /\ count_spawn (p_effs r) = length newpcs /\
    wc W (p_pc r) + newcost newpcs <= wc W acts /\
    (wc W (p_pc r) + newcost newpcs < wc W acts \/ (p_out r = OPend -> p_effs r = [] /\ newpcs = [])).
Proof.
  apply (poll_loop_chain scripts t (fun sh acts r => exists newpcs,
    pcs (p_sh r) = pcs sh ++ newpcs /\ count_spawn (p_effs r) = length newpcs /\
    wc W (p_pc r) + newcost newpcs <= wc W acts /\
    (wc W (p_pc r) + newcost newpcs < wc W acts \/ (p_out r = OPend -> p_effs r = [] /\ newpcs = [])))).
  - intros sh acts r _ _ [v | n rest -> | k rest -> _ | x rv' rest -> _ _]; exists [].
    + unfold complete.
      destruct (relay_send (rel (get_task sh t)) v) as [[r' w] [|]]; cbn [p_sh p_effs p_pc p_out];
        rewrite ?pcs_set_rel, app_nil_r.
      * repeat split; try (cbn; lia). right. discriminate.
      * repeat split; try (cbn; lia); [destruct w; reflexivity | right; discriminate].
    + cbn [p_sh p_pc p_effs p_out]. rewrite app_nil_r, count_spawn_wakes, wc_cons.
      repeat split; [cbn; lia | left; cbn; lia].
    + cbn [p_sh p_pc p_effs p_out]. rewrite app_nil_r.
      repeat split; [cbn; lia | right; split; reflexivity].
    + cbn [p_sh p_pc p_effs p_out]. rewrite pcs_set_rel, app_nil_r.
      repeat split; [cbn; lia | right; split; reflexivity].
  - intros sh a rest sh' evs effs r _ _ Hn [np [H1 [H2 [H3 _]]]].
    assert (Hstep : exists np0, pcs sh' = pcs sh ++ np0 /\ count_spawn effs = length np0 /\
               newcost np0 + 1 <= act_cost W a).
    { pose proof (act_cost_pos a) as Hp.
      destruct Hn as [ |k [|]|s ->|x rv' v ev _ _ _|x rv' _ _];
        try (exists []; rewrite ?pcs_set_recvs, ?pcs_set_rel, ?count_spawn_wakes, app_nil_r; repeat split; exact Hp).
      exists [script_of scripts s]. rewrite pcs_set_recvs, pcs_add_task.
      split; [reflexivity|]. split; [reflexivity|]. unfold newcost. cbn. pose proof (HW s). lia. }
    destruct Hstep as [np0 [G1 [G2 G3]]].
    exists (np0 ++ np). cbn [emit p_sh p_pc p_effs p_out].
    split; [rewrite H1, G1, app_assoc; reflexivity|].
    split; [rewrite count_spawn_app, app_length, G2, H2; reflexivity|].
    rewrite newcost_app, wc_cons. split; [|left]; lia.
Qed.

(* The loop is bounded lexicographically: every step lowers [rest_cost] (the
   scripts still to run, and one step for every unfinished task), or keeps it
   and shortens the queue.  [measure K] packs the pair into one number, for
   any [K] above the queue lengths that can occur: the potential [pot], which
   no step raises and a driver action raises by at most its [plan_pot],
   bounds the number of tasks and with it the queue. *)
Definition rest_cost (st : sys) : nat := wsum (ss st) + (ntasks (sx st) - length (dones (sx st))).
Definition pot (st : sys) : nat := ntasks (sx st) + wsum (ss st).
Definition measure (K : nat) (st : sys) : nat := K * rest_cost st + length (queue (sx st)).

Lemma map_pc_set_pc t p l : map pc (upd t (fun k => mkTask p (recvs k) (rel k)) l) = upd t (fun _ => p) (map pc l).
Proof. revert t. induction l as [|x l IH]; intros [|t]; cbn; try reflexivity. rewrite IH. reflexivity. Qed.

Lemma list_sum_upd (f : list action -> nat) x : forall l t, t < length l ->
  list_sum (map f (upd t (fun _ => x) l)) + f (nth t l []) = list_sum (map f l) + f x.
Proof.
  induction l as [|y l IH]; intros [|t] Ht; cbn [length] in Ht; try lia.
  - cbn. lia.
  - assert (Ht' : t < length l) by lia. specialize (IH t Ht'). cbn [upd map nth]. unfold list_sum in *. cbn [fold_right]. lia.
Qed.

Lemma measure_drop K R R' q q' :
  R' < R /\ q' < K \/ R' <= R /\ q' < q -> K * R' + q' < K * R + q.
Proof. intros [[H1 H2]|[H1 H2]]; nia. Qed.

Lemma step_lex st : InvB st -> snd (sys_step scripts st) <> SIdle ->
  let st' := fst (sys_step scripts st) in
  pot st' <= pot st /\
  (rest_cost st' < rest_cost st \/ rest_cost st' <= rest_cost st /\ length (queue (sx st')) < length (queue (sx st))).
Proof.
  intros I. pose proof I as [Iwf Ilen Ifin Ilive Inp Ire].
  destruct (reach_bounds _ Ire) as [_ [_ Bd']].
  destruct (sys_step_view scripts st I) as [Hq | t q Hq Hd | t q r Hq Hd Er Sm]; cbn [fst snd]; intros Hne.
  - contradiction.
  - unfold pot, rest_cost. cbn [sx ss ntasks dones queue]. rewrite Hq. cbn [length]. lia.
  - destruct (InvB_head st t q I Hq Hd) as [Htl _].
    assert (Htn : t < ntasks (sx st)) by (rewrite <- Ilen; exact Htl).
    destruct (poll_cost t (pc (get_task (ss st) t)) (ss st) Iwf Htl) as [np [H1 [H2 [H3 H4]]]].
    rewrite <- Er in H1, H2, H3, H4.
    set (e := mkExec q (ntasks (sx st)) (dones (sx st))) in *.
    destruct (fold_eff (p_effs r) e) as [Fn [Fd _]]. cbn [e ntasks dones] in Fn, Fd.
    set (e' := fold_left apply_effect (p_effs r) e) in *.
    set (shf := set_pc t (p_pc r) (p_sh r)).
    assert (Hlen : t < length (pcs (ss st) ++ np)).
    { rewrite app_length. unfold pcs. rewrite map_length. fold (nt (ss st)). lia. }
    assert (Hws : wsum shf + wc W (pc (get_task (ss st) t)) =
                  wsum (ss st) + list_sum (map (wc W) np) + wc W (p_pc r)).
    { unfold wsum at 1. unfold shf, pcs, set_pc. cbn [tasks]. rewrite map_pc_set_pc. fold (pcs (p_sh r)).
      rewrite H1. pose proof (list_sum_upd (wc W) (p_pc r) (pcs (ss st) ++ np) t Hlen) as L.
      rewrite map_app, list_sum_app in L.
      assert (Hn : nth t (pcs (ss st) ++ np) [] = pc (get_task (ss st) t)).
      { rewrite app_nth1 by (unfold pcs; rewrite map_length; exact Htl).
        unfold pcs, get_task. change (@nil action) with (pc dummy_task). apply map_nth. }
      rewrite Hn in L. unfold wsum. lia. }
    assert (Hkey : wsum shf + length np + wc W (pc (get_task (ss st) t)) =
                   wsum (ss st) + (wc W (p_pc r) + newcost np)) by (unfold newcost; lia).
    assert (Hdl : length (dones (sx st)) < ntasks (sx st)) by (apply (Bd' t); assumption).
    clear Hws H1 Hlen.
    unfold pot, rest_cost. cbn [sx ss]. fold shf.
    assert (Hf : ntasks (finish e' t (out_ready (p_out r))) = ntasks (sx st) + length np /\
                 queue (finish e' t (out_ready (p_out r))) = queue e' /\
                 length (dones (finish e' t (out_ready (p_out r)))) =
                   (if out_ready (p_out r) then 1 else 0) + length (dones (sx st))).
    { unfold finish. destruct (out_ready (p_out r)); cbn [ntasks queue dones length]; rewrite Fn, Fd, H2; repeat split; lia. }
    destruct Hf as [-> [-> ->]]. rewrite Hq. cbn [length].
    split; [lia|]. destruct H4 as [Hlt|Hnil]; [left; lia|].
    destruct (p_out r) eqn:Ho.
    + (* pending where it started: nothing was done to the executor *)
      destruct (Hnil eq_refl) as [E1 ->]. unfold e'. rewrite E1. cbn [fold_left e queue length out_ready] in *. right. lia.
    + (* ready: one more task has finished *)
      left. cbn [out_ready]. lia.
    + destruct (summary_nopanic Sm Ho).
Qed.

Lemma step_measure st : InvB st -> snd (sys_step scripts st) <> SIdle ->
  let st' := fst (sys_step scripts st) in
  pot st' <= pot st /\ forall K, pot st < K -> measure K st' < measure K st.
Proof.
  intros I Hne st'. destruct (step_lex st I Hne) as [P L]. fold st' in P, L. split; [exact P|].
  intros K HK. apply measure_drop. destruct L as [L|L]; [left | right; exact L]. split; [exact L|].
  destruct (reach_bounds _ (ib_reach _ (InvB_step scripts st I))) as [Bq _]. fold st' in Bq. unfold pot in *. lia.
Qed.

Lemma loop_fuel K stepmode : forall fuel st n,
  InvB st -> pot st < K -> measure K st < fuel ->
  ~ In LFuel (snd (run_loop fuel scripts stepmode st n)) /\
  pot (fst (run_loop fuel scripts stepmode st n)) <= pot st.
Proof.
  apply (run_loop_ind scripts stepmode (fun fuel st n out => pot st < K -> measure K st < fuel ->
           ~ In LFuel (snd out) /\ pot (fst out) <= pot st)); cbn [fst snd].
  - intros st n _ _ HM. destruct (Nat.nlt_0_r _ HM).
  - intros fuel st n _ _ _ _. split; [|apply le_n]. intros [H|[]]. destruct stepmode; discriminate.
  - (* the measure has dropped below the budget that is left *)
    intros fuel st n sr out I E _ Hne IH HK HM.
    pose proof (step_measure st I) as M. rewrite <- E in M.
    destruct (M Hne) as [P1 P2]. specialize (P2 K HK).
    destruct IH as [A B]; [lia | lia |]. split; [|lia].
    intros Hin. apply in_app_or in Hin. destruct Hin as [Hin|Hin]; [|exact (A Hin)].
    apply turn_recs_in in Hin. exact Hin.
Qed.

Lemma measure_bound K st : InvB st -> pot st < K -> measure K st < K * K.
Proof.
  intros I HK. destruct (reach_bounds _ (ib_reach st I)) as [Bq _]. unfold measure, rest_cost, pot in *.
  assert (wsum (ss st) + (ntasks (sx st) - length (dones (sx st))) <= ntasks (sx st) + wsum (ss st)) by lia.
  nia.
Qed.

Lemma x_fuel K fuel st x : InvB st -> K * K <= fuel ->
  pot st + plan_pot W [x] < K ->
  ~ In LFuel (snd (sys_x fuel scripts st x)) /\
  pot (fst (sys_x fuel scripts st x)) <= pot st + plan_pot W [x].
Proof.
  intros I HF HK. destruct x as [s|k|k| | |]; cbn [sys_x fst snd plan_pot] in *.
  - split; [intros [H|[]]; discriminate|]. unfold pot, wsum, pcs, add_task. cbn [sx ss enqueue ntasks tasks].
    rewrite !map_app, list_sum_app.
    change (list_sum (map (wc W) (map pc [mkTask (script_of scripts s) [] RlPending])))
      with (wc W (script_of scripts s) + 0).
    pose proof (HW s). lia.
  - split; [intros [H|[]]; discriminate|]. unfold pot, wsum, pcs. cbn [sx ss set_flag tasks].
    destruct (fold_wake (ext_wakes k st) (sx st)) as [A _]. rewrite A. lia.
  - split; [intros [H|[]]; discriminate|]. unfold pot, wsum, pcs. cbn [sx ss].
    destruct (fold_wake (ext_wakes k st) (sx st)) as [A _]. rewrite A. lia.
  - generalize (step_measure st I).
    destruct (sys_step_view scripts st I) as [Hq | t q Hq Hd | t q r Hq Hd Er _]; cbn [fst snd]; intros M.
    + split; [intros [H|[]]; discriminate | lia].
    + split; [intros [H|[]]; discriminate|]. destruct (M ltac:(discriminate)). lia.
    + split; [intros [H|[H|[]]]; discriminate|]. destruct (M ltac:(discriminate)). lia.
  - assert (HK' : pot st < K) by lia.
    destruct (loop_fuel K true fuel st 0 I HK') as [A B]; [pose proof (measure_bound K st I HK'); lia|].
    split; [exact A | lia].
  - assert (HK' : pot st < K) by lia.
    destruct (loop_fuel K false fuel st 0 I HK') as [A B]; [pose proof (measure_bound K st I HK'); lia|].
    split; [exact A | lia].
Qed.

Lemma plan_pot_cons x plan : plan_pot W (x :: plan) = plan_pot W [x] + plan_pot W plan.
Proof. destruct x; cbn; lia. Qed.

Lemma plan_fuel K fuel : K * K <= fuel -> forall plan st, InvB st ->
  pot st + plan_pot W plan < K ->
  ~ In LFuel (snd (sys_plan fuel scripts st plan)).
Proof.
  intros HF. apply (sys_plan_ind fuel scripts (fun plan st out =>
    pot st + plan_pot W plan < K -> ~ In LFuel (snd out))); cbn [snd].
  - intros st _ _ [].
  - intros x plan st out I IH HK. rewrite plan_pot_cons in HK.
    destruct (x_fuel K fuel st x I HF ltac:(lia)) as [A B].
    intros Hin. apply in_app_or in Hin. destruct Hin as [Hin|Hin]; [exact (A Hin) | apply IH; [lia | exact Hin]].
Qed.
End Budget.

Lemma fuel_suffices_l : forall scripts W plan fuel,
  cert scripts W -> fuel_bound W plan <= fuel ->
  ~ In LFuel (fst (model_run fuel scripts plan)).
Proof.
  intros scripts W plan fuel HW HF. unfold model_run.
  pose proof (plan_fuel W scripts HW (plan_pot W plan + 1) fuel HF plan sys0 InvB_init) as P.
  destruct (sys_plan fuel scripts sys0 plan) as [st log]. cbn [fst snd] in *. apply P.
  unfold pot, wsum, pcs. cbn. lia.
Qed.

Lemma wc_ext W1 W2 acts : (forall s, In (ASpawn s) acts -> W1 s = W2 s) -> wc W1 acts = wc W2 acts.
Proof.
  induction acts as [|a acts IH]; intros H; [reflexivity|]. unfold wc in *. cbn [map list_sum fold_right].
  unfold list_sum in IH. rewrite IH by (intros s Hs; apply H; right; exact Hs). f_equal.
  destruct a; try reflexivity. cbn. rewrite (H s); [reflexivity | left; reflexivity].
Qed.

Lemma script_of_overflow scripts s : length scripts <= s -> script_of scripts s = [].
Proof. intros H. unfold script_of. apply nth_overflow. exact H. Qed.

Lemma wdepth_stable scripts : spawns_up scripts -> forall d s,
  length scripts - s <= d -> wdepth (S d) scripts s = wdepth d scripts s.
Proof.
  intros Hup. induction d as [|d IH]; intros s Hs.
  - cbn [wdepth]. rewrite script_of_overflow by lia. reflexivity.
  - change (wdepth (S (S d)) scripts s) with (wc (wdepth (S d) scripts) (script_of scripts s)).
    change (wdepth (S d) scripts s) with (wc (wdepth d scripts) (script_of scripts s)).
    apply wc_ext. intros s' Hin. apply IH. specialize (Hup s s' Hin). lia.
Qed.

Lemma wtable_cert_l : forall scripts, spawns_up scripts -> cert scripts (wtable scripts).
Proof.
  intros scripts Hup s. unfold wtable.
  change (wdepth (S (length scripts)) scripts s) with (wc (wdepth (length scripts) scripts) (script_of scripts s)).
  rewrite (wc_ext (wdepth (S (length scripts)) scripts) (wdepth (length scripts) scripts)); [apply le_n|].
  intros s' Hin. apply wdepth_stable; [exact Hup | lia].
Qed.

Lemma fuel_suffices_table_l : forall scripts plan fuel,
  spawns_up scripts -> fuel_bound (wtable scripts) plan <= fuel ->
  ~ In LFuel (fst (model_run fuel scripts plan)).
Proof.
  intros scripts plan fuel Hup HF. apply (fuel_suffices_l scripts (wtable scripts)); [apply wtable_cert_l; exact Hup | exact HF].
Qed.
