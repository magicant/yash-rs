(* C15 — proofs about the executor machine (Level A): every list of
   operations, every behaviour of the polled futures; [InvA] carries all of
   them.  At the end, the [reach_*] lemmas through which Level B keeps its
   executor state a state of this machine. *)
From Yv Require Import Common.Base C15.Model C15.Spec.
From Coq Require Import Arith.

Lemma mem_In (t : nat) (l : list nat) : mem t l = true <-> In t l.
Proof.
  unfold mem. rewrite existsb_exists. split.
  - intros [x [Hin Heq]]. apply Nat.eqb_eq in Heq. subst. exact Hin.
  - intros Hin. exists t. split; [exact Hin | apply Nat.eqb_refl].
Qed.

Lemma mem_false (t : nat) (l : list nat) : mem t l = false <-> ~ In t l.
Proof.
  rewrite <- mem_In. destruct (mem t l).
  - split; [discriminate | intros H; exfalso; apply H; reflexivity].
  - split; [intros _; discriminate | reflexivity].
Qed.

Lemma NoDup_snoc (x : nat) (l : list nat) : NoDup l -> ~ In x l -> NoDup (l ++ [x]).
Proof.
  intros Hnd Hx. induction l as [|y l IH]; cbn.
  - constructor; [intros []|constructor].
  - inversion Hnd as [|y' l' Hy Hl]; subst. constructor.
    + rewrite in_app_iff. intros [H|[H|[]]]; [exact (Hy H)|]. subst. apply Hx. left. reflexivity.
    + apply IH; [exact Hl|]. intros H. apply Hx. right. exact H.
Qed.

Lemma wake_queue_eq e w : queue (wake e w) = if mem w (queue e) then queue e else queue e ++ [w].
Proof. unfold wake. destruct (mem w (queue e)); reflexivity. Qed.

Lemma wake_queue e w u : In u (queue (wake e w)) <-> In u (queue e) \/ u = w.
Proof.
  rewrite wake_queue_eq. destruct (mem w (queue e)) eqn:Hm.
  - apply mem_In in Hm. split; [intros H; left; exact H | intros [H| ->]; assumption].
  - rewrite in_app_iff. cbn. split; [intros [H|[H|[]]]; auto | intros [H|H]; auto].
Qed.

Lemma wake_ntasks e w : ntasks (wake e w) = ntasks e.
Proof. unfold wake. destruct (mem w (queue e)); reflexivity. Qed.

Lemma wake_dones e w : dones (wake e w) = dones e.
Proof. unfold wake. destruct (mem w (queue e)); reflexivity. Qed.

Lemma finish_queue e t r : queue (finish e t r) = queue e.
Proof. destruct r; reflexivity. Qed.

Lemma finish_ntasks e t r : ntasks (finish e t r) = ntasks e.
Proof. destruct r; reflexivity. Qed.

Lemma finish_dones e t r u : In u (dones (finish e t r)) <-> (r = true /\ u = t) \/ In u (dones e).
Proof.
  destruct r; cbn.
  - split; [intros [<-|H]; [left; split; reflexivity | right; exact H] | intros [[_ ->]|H]; [left; reflexivity | right; exact H]].
  - split; [intros H; right; exact H | intros [[H _]|H]; [discriminate | exact H]].
Qed.

Lemma finish_is_done e t r u :
  mem u (dones (finish e t r)) = (if r then Nat.eqb u t else false) || mem u (dones e).
Proof. destruct r; reflexivity. Qed.

Lemma wake_nodup e w : NoDup (queue e) -> NoDup (queue (wake e w)).
Proof.
  intros H. rewrite wake_queue_eq. destruct (mem w (queue e)) eqn:Hm; [exact H|].
  apply NoDup_snoc; [exact H | apply mem_false; exact Hm].
Qed.

(* A step changes nothing or records one event: [fires m e m'] says what
   happens to the machine when it records [e]. *)
Inductive fires (m : mach) : gevent -> mach -> Prop :=
| FiEnq : fires m (GEnq (ntasks (mex m)))
            (mkMach (enqueue (mex m)) (running m) (GEnq (ntasks (mex m)) :: trace m))
| FiWake t : t < ntasks (mex m) ->
    fires m (GWake t) (mkMach (wake (mex m) t) (running m) (GWake t :: trace m))
| FiIdle : running m = None -> queue (mex m) = [] ->
    fires m GIdle (mkMach (mex m) None (GIdle :: trace m))
| FiSkip t q : running m = None -> queue (mex m) = t :: q -> In t (dones (mex m)) ->
    fires m (GSkip t) (mkMach (mkExec q (ntasks (mex m)) (dones (mex m))) None (GSkip t :: trace m))
| FiBegin t q : running m = None -> queue (mex m) = t :: q -> ~ In t (dones (mex m)) ->
    fires m (GBegin t) (mkMach (mkExec q (ntasks (mex m)) (dones (mex m))) (Some t) (GBegin t :: trace m))
| FiEnd t r : running m = Some t ->
    fires m (GEnd t r) (mkMach (finish (mex m) t r) None (GEnd t r :: trace m)).

Lemma mstep_fires m o : mstep m o = m \/ exists e, fires m e (mstep m o).
Proof.
  destruct o as [| t | | r]; cbn [mstep].
  - right. eexists. apply FiEnq.
  - destruct (Nat.ltb_spec t (ntasks (mex m))); [right; eexists; apply FiWake; assumption | left; reflexivity].
  - destruct (running m) eqn:Hr; [left; reflexivity|]. right. unfold pop.
    destruct (queue (mex m)) as [|t q] eqn:Hq; [eexists; apply FiIdle; assumption|].
    unfold is_done. cbn [dones]. destruct (mem t (dones (mex m))) eqn:Hd; eexists.
    + eapply FiSkip; [assumption | exact Hq | apply mem_In; exact Hd].
    + eapply FiBegin; [assumption | exact Hq | apply mem_false; exact Hd].
  - destruct (running m) eqn:Hr; [|left; reflexivity]. right. eexists. apply FiEnd. exact Hr.
Qed.

Lemma fires_trace m e m' : fires m e m' -> trace m' = e :: trace m.
Proof. intros []; reflexivity. Qed.

Record InvA (m : mach) : Prop := {
  ia_nodup : NoDup (queue (mex m));
  ia_range : forall t, In t (queue (mex m)) -> t < ntasks (mex m);
  ia_pending : forall t, pending_wake t (trace m) = true <-> In t (queue (mex m));
  ia_running : forall t, running m = Some t -> ~ In t (dones (mex m)) /\ t < ntasks (mex m);
  ia_dones : forall t, In (GEnd t true) (trace m) -> In t (dones (mex m));
  ia_dnodup : NoDup (dones (mex m));
  ia_drange : forall t, In t (dones (mex m)) -> t < ntasks (mex m)
}.

Lemma InvA_init : InvA mach0.
Proof.
  constructor; cbn.
  - constructor.
  - intros t [].
  - intros t. split; [discriminate | intros []].
  - intros t H. discriminate.
  - intros t [].
  - constructor.
  - intros t [].
Qed.

Lemma InvA_step (m : mach) (o : op) : InvA m -> InvA (mstep m o).
Proof.
  intros HI. destruct (mstep_fires m o) as [->|[e F]]; [exact HI|].
  pose proof HI as [Hnd Hrg Hpd Hrn Hdn Hdd Hdr].
  assert (Hdn' : forall e, (forall t, e <> GEnd t true) ->
            forall t, In (GEnd t true) (e :: trace m) -> In t (dones (mex m))).
  { intros e' He t [H|H]; [exfalso; exact (He t H) | apply Hdn; exact H]. }
  (* the queue after its head t was taken *)
  assert (Hpop : forall t q, queue (mex m) = t :: q ->
            NoDup q /\ (forall u, In u q -> u < ntasks (mex m)) /\
            forall u, (if Nat.eqb t u then false else pending_wake u (trace m)) = true <-> In u q).
  { intros t q Hq. rewrite Hq in *. inversion Hnd as [|t' q' Ht Hq']; subst.
    split; [exact Hq'|]. split; [intros u H; apply Hrg; right; exact H|].
    intros u. destruct (Nat.eqb_spec t u) as [E|E].
    - subst. split; [discriminate | intros H; contradiction].
    - rewrite Hpd. split; [intros [H|H]; [contradiction | exact H] | intros H; right; exact H]. }
  destruct F as [ |t0 Hlt| Hr Hq | t q Hr Hq Hd | t q Hr Hq Hd | u r Hr]; constructor;
    cbn [mex running trace pending_wake];
    rewrite ?wake_ntasks, ?wake_dones, ?finish_queue, ?finish_ntasks; try assumption; try discriminate;
    try (apply Hdn'; discriminate); try apply (Hpop t q Hq).
  - (* spawn *) cbn. apply NoDup_snoc; [exact Hnd|]. intros H. apply Hrg in H. lia.
  - cbn. intros t H. rewrite in_app_iff in H. destruct H as [H|[H|[]]]; [apply Hrg in H|]; lia.
  - cbn. intros t. rewrite in_app_iff. destruct (Nat.eqb_spec (ntasks (mex m)) t) as [E|E].
    + split; [intros _; right; left; exact E | reflexivity].
    + rewrite Hpd. split; [intros H; left; exact H|].
      intros [H|[H|[]]]; [exact H | contradiction].
  - cbn. intros t H. destruct (Hrn t H) as [H1 H2]. split; [exact H1 | lia].
  - cbn. intros t H. apply Hdr in H. lia.
  - (* wake *) apply wake_nodup. exact Hnd.
  - intros t H. apply wake_queue in H. destruct H as [H| ->]; [apply Hrg; exact H | exact Hlt].
  - intros t. rewrite wake_queue. destruct (Nat.eqb_spec t0 t) as [E|E].
    + split; [intros _; right; symmetry; exact E | reflexivity].
    + rewrite Hpd. split; [intros H; left; exact H | intros [H|H]; [exact H | congruence]].
  - (* begin *) cbn. intros u H. inversion H; subst. split; [exact Hd | apply Hrg; rewrite Hq; left; reflexivity].
  - (* end *) intros t H. apply finish_dones. destruct H as [H|H]; [inversion H; left; split; reflexivity | right; apply Hdn; exact H].
  - destruct (Hrn u Hr) as [Hu _]. unfold finish. destruct r; [constructor|]; assumption.
  - destruct (Hrn u Hr) as [_ Hu]. intros t H. apply finish_dones in H. destruct H as [[_ ->]|H]; [exact Hu | apply Hdr; exact H].
Qed.

Lemma InvA_run (ops : list op) : forall m, InvA m -> InvA (mrun m ops).
Proof.
  induction ops as [|o ops IH]; intros m H; cbn; [exact H|].
  apply IH. apply InvA_step. exact H.
Qed.

Lemma InvA_reach (ops : list op) : InvA (mrun mach0 ops).
Proof. apply InvA_run. apply InvA_init. Qed.

(* why Executor::wake_count(), the length of the queue, is the number of
   distinct tasks with a pending wake-up (what clause cCount of the oracle
   demands of the real executor) *)
Lemma wake_count_l : forall ops,
  let m := mrun mach0 ops in
  NoDup (queue (mex m)) /\
  forall t, In t (queue (mex m)) <-> pending_wake t (trace m) = true.
Proof.
  intros ops m. pose proof (InvA_reach ops) as I. split; [apply (ia_nodup _ I)|].
  intros t. symmetry. apply (ia_pending _ I).
Qed.

(* traces are newest first: [tr2] is what happened after the poll of t returned Ready *)
Definition NoPollAfterEnd (m : mach) : Prop :=
  forall t tr1 tr2, trace m = tr2 ++ GEnd t true :: tr1 -> ~ In (GBegin t) tr2.

Lemma npe_step (m : mach) (o : op) : InvA m -> NoPollAfterEnd m -> NoPollAfterEnd (mstep m o).
Proof.
  intros HI Hn. destruct (mstep_fires m o) as [->|[e F]]; [exact Hn|].
  intros t tr1 tr2 Heq. rewrite (fires_trace _ _ _ F) in Heq.
  destruct tr2 as [|e' tr2]; [intros []|]. inversion Heq as [[E1 E2]]. subst e'. intros [Hin|Hin].
  - (* the new event would be the poll of a task that has finished *)
    assert (Hd : In t (dones (mex m))).
    { apply (ia_dones m HI). rewrite E2. apply in_or_app. right. left. reflexivity. }
    subst e. inversion F. contradiction.
  - exact (Hn t tr1 tr2 E2 Hin).
Qed.

Lemma npe_run (ops : list op) : forall m, InvA m -> NoPollAfterEnd m -> NoPollAfterEnd (mrun m ops).
Proof.
  induction ops as [|o ops IH]; intros m HI Hn; cbn; [exact Hn|].
  apply IH; [apply InvA_step; exact HI | apply npe_step; assumption].
Qed.

Lemma bracket_app (l1 l2 : list gevent) (cur : option tid) :
  bracket cur (l1 ++ l2) = match bracket cur l1 with Some c => bracket c l2 | None => None end.
Proof.
  revert cur. induction l1 as [|e l1 IH]; intros cur; cbn; [reflexivity|].
  destruct e; destruct cur; cbn; try reflexivity; try apply IH.
  destruct (Nat.eqb t0 t); [apply IH | reflexivity].
Qed.

Lemma bracket_step (m : mach) (o : op) :
  bracket None (rev (trace m)) = Some (running m) ->
  bracket None (rev (trace (mstep m o))) = Some (running (mstep m o)).
Proof.
  intros H. destruct (mstep_fires m o) as [->|[e F]]; [exact H|].
  rewrite (fires_trace _ _ _ F). cbn [rev]. rewrite bracket_app, H.
  destruct F as [ |t _|Hr _|t q Hr _ _|t q Hr _ _|t r Hr]; cbn; rewrite ?Hr; try reflexivity.
  rewrite Nat.eqb_refl. reflexivity.
Qed.

Lemma bracket_run (ops : list op) : forall m,
  bracket None (rev (trace m)) = Some (running m) ->
  bracket None (rev (trace (mrun m ops))) = Some (running (mrun m ops)).
Proof.
  induction ops as [|o ops IH]; intros m H; cbn; [exact H|]. apply IH, bracket_step, H.
Qed.

Definition queue_grows (m m' : mach) : Prop :=
  running m' = running m /\ exists suf, queue (mex m') = queue (mex m) ++ suf.

Lemma queue_grows_refl m : queue_grows m m.
Proof. split; [reflexivity | exists []; rewrite app_nil_r; reflexivity]. Qed.

Lemma queue_grows_trans m1 m2 m3 : queue_grows m1 m2 -> queue_grows m2 m3 -> queue_grows m1 m3.
Proof.
  intros [R1 [s1 Q1]] [R2 [s2 Q2]]. split; [congruence|].
  exists (s1 ++ s2). rewrite Q2, Q1, app_assoc. reflexivity.
Qed.

Lemma effect_queue_grows (m : mach) (f : effect) : queue_grows m (mstep m (op_of_effect f)).
Proof.
  destruct f as [t|]; cbn [op_of_effect mstep].
  - destruct (Nat.ltb t (ntasks (mex m))); [|apply queue_grows_refl].
    split; [reflexivity|]. cbn. rewrite wake_queue_eq. destruct (mem t (queue (mex m))).
    + exists []. rewrite app_nil_r. reflexivity.
    + exists [t]. reflexivity.
  - split; [reflexivity|]. cbn. exists [ntasks (mex m)]. reflexivity.
Qed.

Lemma effects_queue_grows (fs : list effect) : forall m, queue_grows m (mrun m (map op_of_effect fs)).
Proof.
  induction fs as [|f fs IH]; intros m; cbn; [apply queue_grows_refl|].
  eapply queue_grows_trans; [apply effect_queue_grows | apply IH].
Qed.

(* what fifo_bounded_wait iterates: whatever the polled future does to the
   executor lands behind the rest of the queue ([queue_grows] through its effects) *)
Lemma gstep_queue (m : mach) (beh : behaviour) (h : tid) (q : list tid) :
  running m = None -> queue (mex m) = h :: q ->
  running (gstep m beh) = None /\ exists suf, queue (mex (gstep m beh)) = q ++ suf.
Proof.
  intros Hr Hq. unfold gstep. cbn [mstep]. rewrite Hr. unfold pop. rewrite Hq.
  destruct (is_done _ h); cbn [running].
  - split; [reflexivity|]. cbn. exists []. rewrite app_nil_r. reflexivity.
  - set (m1 := mkMach _ (Some h) _).
    destruct (effects_queue_grows (fst (beh h)) m1) as [R [suf Q]].
    cbn [mstep]. rewrite R. cbn [running m1]. split; [reflexivity|].
    cbn [mex]. unfold finish. exists suf.
    destruct (snd (beh h)); cbn [queue]; rewrite Q; reflexivity.
Qed.

Lemma taken_next_head (m : mach) (t : tid) (q : list tid) :
  running m = None -> queue (mex m) = t :: q -> taken_next m t.
Proof.
  intros Hr Hq. unfold taken_next. cbn [mstep]. rewrite Hr. unfold pop. rewrite Hq.
  destruct (is_done _ t); [right|left]; reflexivity.
Qed.

(* What a script system does to its executor (Level B) are runs of the
   machine that end between two polls. *)
Lemma mrun_app m a b : mrun m (a ++ b) = mrun (mrun m a) b.
Proof. unfold mrun. apply fold_left_app. Qed.

Lemma mrun_effects (effs : list effect) : forall m,
  (forall u, In (FWake u) effs -> u < ntasks (mex m)) ->
  mex (mrun m (map op_of_effect effs)) = fold_left apply_effect effs (mex m) /\
  running (mrun m (map op_of_effect effs)) = running m.
Proof.
  induction effs as [|f effs IH]; intros m H; [split; reflexivity|].
  cbn [map mrun fold_left]. destruct f as [w|]; cbn [op_of_effect mstep apply_effect].
  - assert (Hw : w < ntasks (mex m)) by (apply H; left; reflexivity).
    apply Nat.ltb_lt in Hw. rewrite Hw.
    set (m1 := mkMach (wake (mex m) w) (running m) (GWake w :: trace m)).
    destruct (IH m1) as [A B].
    + intros u Hu. cbn. rewrite wake_ntasks. apply H. right. exact Hu.
    + split; [exact A | exact B].
  - set (m1 := mkMach (enqueue (mex m)) (running m) (GEnq (ntasks (mex m)) :: trace m)).
    destruct (IH m1) as [A B].
    + intros u Hu. cbn. assert (u < ntasks (mex m)) by (apply H; right; exact Hu). lia.
    + split; [exact A | exact B].
Qed.

Lemma reach_init : reach exec0.
Proof. exists []. split; reflexivity. Qed.

(* a script system takes these two facts about its executor from the invariant of the machine *)
Lemma reach_range e : reach e ->
  (forall t, In t (queue e) -> t < ntasks e) /\ (forall t, In t (dones e) -> t < ntasks e).
Proof.
  intros [ops [<- _]]. pose proof (InvA_reach ops) as I. split; [apply (ia_range _ I) | apply (ia_drange _ I)].
Qed.

Lemma nodup_range_length (l : list nat) n : NoDup l -> (forall x, In x l -> x < n) -> length l <= n.
Proof.
  intros Hnd Hr. rewrite <- (seq_length n 0). apply NoDup_incl_length; [exact Hnd|].
  intros x Hx. apply in_seq. specialize (Hr x Hx). lia.
Qed.

Lemma reach_bounds e : reach e ->
  length (queue e) <= ntasks e /\ length (dones e) <= ntasks e /\
  (forall t, ~ In t (dones e) -> t < ntasks e -> length (dones e) < ntasks e).
Proof.
  intros [ops [<- _]]. pose proof (InvA_reach ops) as I.
  pose proof (ia_dnodup _ I) as D1. pose proof (ia_drange _ I) as D2.
  split; [apply nodup_range_length; [apply (ia_nodup _ I) | apply (ia_range _ I)]|].
  split; [apply nodup_range_length; assumption|].
  intros t Ht Hn. assert (L : length (t :: dones (mex (mrun mach0 ops))) <= ntasks (mex (mrun mach0 ops))).
  { apply nodup_range_length; [constructor; assumption|]. intros x [<-|Hx]; [exact Hn | apply D2; exact Hx]. }
  cbn in L. lia.
Qed.

Lemma reach_enqueue e : reach e -> reach (enqueue e).
Proof.
  intros [ops [E R]]. exists (ops ++ [OpSpawn]). rewrite mrun_app. cbn. rewrite E. split; [reflexivity | exact R].
Qed.

Lemma reach_wakes (ws : list tid) : forall e, reach e -> (forall u, In u ws -> u < ntasks e) ->
  reach (fold_left wake ws e).
Proof.
  induction ws as [|w ws IH]; intros e He H; [exact He|].
  cbn [fold_left]. apply IH.
  - destruct He as [ops [E R]]. exists (ops ++ [OpWake w]). rewrite mrun_app. cbn [mrun fold_left mstep].
    rewrite E. assert (Hw : w < ntasks e) by (apply H; left; reflexivity).
    apply Nat.ltb_lt in Hw. rewrite Hw. cbn. split; [reflexivity | exact R].
  - intros u Hu. rewrite wake_ntasks. apply H. right. exact Hu.
Qed.

Lemma reach_skip e t q : reach e -> queue e = t :: q -> mem t (dones e) = true ->
  reach (mkExec q (ntasks e) (dones e)).
Proof.
  intros [ops [E R]] Hq Hd. exists (ops ++ [OpBegin]). rewrite mrun_app. cbn [mrun fold_left mstep].
  rewrite R, E. unfold pop. rewrite Hq. unfold is_done. cbn [dones]. rewrite Hd. split; reflexivity.
Qed.

Lemma reach_poll e t q effs ready : reach e -> queue e = t :: q -> mem t (dones e) = false ->
  (forall u, In (FWake u) effs -> u < ntasks e) ->
  reach (finish (fold_left apply_effect effs (mkExec q (ntasks e) (dones e))) t ready).
Proof.
  intros [ops [E R]] Hq Hd Hr.
  exists (ops ++ [OpBegin] ++ map op_of_effect effs ++ [OpEnd ready]).
  rewrite mrun_app, mrun_app.
  set (m0 := mrun mach0 ops) in *.
  assert (Hb : mstep m0 OpBegin = mkMach (mkExec q (ntasks e) (dones e)) (Some t) (GBegin t :: trace m0)).
  { cbn [mstep]. rewrite R, E. unfold pop. rewrite Hq. unfold is_done. cbn [dones]. rewrite Hd. reflexivity. }
  replace (mrun m0 [OpBegin]) with (mstep m0 OpBegin) by reflexivity. rewrite Hb.
  set (m1 := mkMach _ (Some t) _).
  destruct (mrun_effects effs m1) as [A B]; [intros u Hu; cbn; apply Hr; exact Hu|].
  rewrite mrun_app. cbn [mrun fold_left mstep]. fold (mrun m1 (map op_of_effect effs)).
  rewrite B. cbn [running m1]. cbn [mex]. rewrite A. split; reflexivity.
Qed.
