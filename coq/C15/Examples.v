(* C15 — non-vacuity: concrete states that satisfy the hypotheses of the
   implication-shaped theorems. *)
From Yv Require Import Common.Base C15.Model C15.Spec.

(* three tasks queued; the first keeps re-waking itself and the second wakes
   everybody twice: the third is taken by the third step all the same *)
Definition ex_mach : mach := mrun mach0 [OpSpawn; OpSpawn; OpSpawn].
Definition ex_behs : list behaviour :=
  [fun t => ([FWake t; FWake t; FSpawn], false); fun _ => ([FWake 0; FWake 1; FWake 2; FWake 2], false)].

Example ex_fifo_hyp :
  running ex_mach = None /\ nth_error (queue (mex ex_mach)) (length ex_behs) = Some 2.
Proof. vm_compute. split; reflexivity. Qed.

Example ex_fifo_concl : queue (mex (gsteps ex_mach ex_behs)) = [2; 0; 3; 1].
Proof. vm_compute. reflexivity. Qed.

(* a task finished and was woken again afterwards: skipped, not polled *)
Definition ex_ops : list op :=
  [OpSpawn; OpSpawn; OpBegin; OpWake 0; OpWake 0; OpEnd true; OpBegin; OpWake 0; OpEnd false; OpBegin; OpBegin].

Example ex_trace : rev (trace (mrun mach0 ex_ops)) =
  [GEnq 0; GEnq 1; GBegin 0; GWake 0; GWake 0; GEnd 0 true; GBegin 1; GWake 0; GEnd 1 false;
   GSkip 0; GIdle].
Proof. vm_compute. reflexivity. Qed.

Example ex_pending_hyp :
  pending_wake 0 (trace (mrun mach0 [OpSpawn; OpSpawn; OpBegin; OpWake 0])) = true /\
  running (mrun mach0 [OpSpawn; OpSpawn; OpBegin; OpWake 0; OpEnd false]) = None.
Proof. vm_compute. split; reflexivity. Qed.

(* a stall with two unfinished tasks: task 0 (script 1) awaits task 1
   (script 0), which waits on a flag nobody sets *)
Definition ex_scripts : list script := [[AWait 0; ADone 1%N]; [ASpawn 0; AJoin; ADone 2%N]].
Definition ex_plan : list xact := [XSpawn 1; XDrain].
Definition ex_stalled : sys := fst (sys_plan 100 ex_scripts sys0 ex_plan).

Example ex_stall_hyp :
  queue (sx ex_stalled) = [] /\ ntasks (sx ex_stalled) = 2 /\ dones (sx ex_stalled) = [].
Proof. vm_compute. repeat split; reflexivity. Qed.

Example ex_stall_polled : rel (get_task (ss ex_stalled) 1) = RlPolled 0.
Proof. vm_compute. reflexivity. Qed.

(* relay protocol: polled twice, then the send, then three receive attempts *)
Example ex_relay :
  relay_run RlPending ([RPoll 3; RTry; RPoll 4] ++ RSend 7%N :: [RTry; RTry]) =
  [RoPending; RoTry TNotSent; RoPending; RoSent (Some 4); RoTry (TOk 7%N); RoTry TAlready].
Proof. vm_compute. reflexivity. Qed.

Example ex_relay_hyp : no_send [RPoll 3; RTry; RPoll 4] /\ no_send [RTry; RTry].
Proof. split; reflexivity. Qed.

(* a run in which a result is received (by join) and another one by the driver *)
Definition ex_join_scripts : list script := [[ASpawn 1; AJoin; ADone 5%N]; [AYield 0; ADone 7%N]].
Definition ex_join_log : list rec := snd (sys_plan 100 ex_join_scripts sys0 [XSpawn 0; XRun]).

Example ex_join_deliv :
  log_complete 1 ex_join_log = [7%N] /\ log_deliv 1 ex_join_log = [7%N] /\
  log_complete 0 ex_join_log = [5%N] /\ log_deliv 0 ex_join_log = [] /\
  final_obs (fst (sys_plan 100 ex_join_scripts sys0 [XSpawn 0; XRun])) [0] = [(0, (TOk 5%N, TAlready))].
Proof. vm_compute. repeat split; reflexivity. Qed.

(* the executor stalls with an unfinished task that nobody woke *)
Example ex_stallA_hyp :
  queue (mex (mrun mach0 [OpSpawn; OpBegin; OpEnd false])) = [] /\
  dones (mex (mrun mach0 [OpSpawn; OpBegin; OpEnd false])) = [].
Proof. vm_compute. split; reflexivity. Qed.

(* the two scheduler machines on a sequence with duplicate wakes *)
Example ex_sched :
  s_run (0, []) [QWake 2; QWake 5; QWake 2; QTake; QWake 2; QTake; QTake; QTake] =
  [None; None; None; Some 2; None; Some 5; Some 2; None].
Proof. vm_compute. reflexivity. Qed.

(* a certificate for a table whose scripts spawn downwards (not covered by
   [wtable], covered by [fuel_suffices]) *)
Example ex_cert : cert ex_scripts (fun s => match s with 0 => 2 | 1 => 7 | _ => 0 end).
Proof. intros [|[|s]]; vm_compute; try lia. destruct s; vm_compute; lia. Qed.

(* a script that spawns itself: the budget is exhausted *)
Example ex_self_spawn :
  existsb (fun r => match r with LFuel => true | _ => false end)
          (fst (model_run 60 [[ASpawn 0]] [XSpawn 0; XRun])) = true.
Proof. vm_compute. reflexivity. Qed.

Example ex_wtable : spawns_up ex_join_scripts /\ fuel_bound (wtable ex_join_scripts) [XSpawn 0; XRun] = 64.
Proof.
  split; [|vm_compute; reflexivity].
  intros [|[|i]] s H; cbn in H.
  - destruct H as [H|[H|[H|[]]]]; inversion H. lia.
  - destruct H as [H|[H|[]]]; inversion H.
  - destruct i; destruct H.
Qed.
