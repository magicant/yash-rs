(* C15 — Level B, part 3: the invariant of the whole system is kept by every
   step and every driver action; stall; no panic.  Then the log: each result
   reaches its receiver at most once, with the value the task completed with. *)
From Yv Require Import Common.Base C15.Model C15.Spec C15.ProofsA C15.ProofsR C15.ProofsB1 C15.ProofsB2.
From Coq Require Import Arith.

(* [ib_live] is the stall theorem for any queue, empty or not: an unfinished
   task is queued or blocked.  [ib_fin] ties the executor's [dones] to the
   relays: a task has finished exactly when its relay got its value. *)
Record InvB (st : sys) : Prop := {
  ib_wf : WF (ss st);
  ib_len : nt (ss st) = ntasks (sx st);
  ib_fin : forall t, t < ntasks (sx st) ->
             (In t (dones (sx st)) <-> fin_rel (rel (get_task (ss st) t)) = true);
  ib_live : forall t, t < ntasks (sx st) -> ~ In t (dones (sx st)) ->
             In t (queue (sx st)) \/ is_blocked (ss st) t;
  ib_nopanic : spanic st = false;
  ib_reach : reach (sx st)
}.

Lemma InvB_init : InvB sys0.
Proof.
  constructor; cbn; try reflexivity.
  - apply WF_init.
  - intros t H. lia.
  - intros t H. lia.
  - apply reach_init.
Qed.

Lemma InvB_head st t q : InvB st -> queue (sx st) = t :: q -> ~ In t (dones (sx st)) ->
  t < nt (ss st) /\ waiting_rel (rel (get_task (ss st) t)).
Proof.
  intros I Hq Hd. assert (Htn : t < ntasks (sx st)) by (apply (proj1 (reach_range _ (ib_reach st I))); rewrite Hq; left; reflexivity).
  split; [rewrite (ib_len st I); exact Htn|]. apply waiting_iff_not_fin.
  destruct (fin_rel (rel (get_task (ss st) t))) eqn:F; [|reflexivity].
  destruct Hd. apply (ib_fin st I); assumption.
Qed.

(* One call of Executor::step from a state that satisfies the invariant: the
   queue is empty, or its head has finished and is passed over, or its head is
   polled, and that poll has a [Summary] (so it does not panic). *)
Inductive StepView (scripts : list script) (st : sys) : sys * stepres -> Prop :=
| SvIdle : queue (sx st) = [] -> StepView scripts st (st, SIdle)
| SvSkip t q : queue (sx st) = t :: q -> In t (dones (sx st)) ->
    StepView scripts st (mkSys (mkExec q (ntasks (sx st)) (dones (sx st))) (ss st) (spanic st), SSkip)
| SvPoll t q r : queue (sx st) = t :: q -> ~ In t (dones (sx st)) ->
    r = poll_loop scripts t (ss st) (pc (get_task (ss st) t)) -> Summary t (ss st) r ->
    StepView scripts st
      (mkSys (finish (fold_left apply_effect (p_effs r) (mkExec q (ntasks (sx st)) (dones (sx st))))
                     t (out_ready (p_out r)))
             (set_pc t (p_pc r) (p_sh r)) (spanic st),
       SPolled t (p_evs r) (out_ready (p_out r))).

Lemma sys_step_view scripts st : InvB st -> StepView scripts st (sys_step scripts st).
Proof.
  intros I. unfold sys_step, pop. destruct (queue (sx st)) as [|t q] eqn:Hq; [apply SvIdle; exact Hq|].
  unfold is_done. cbn [dones]. destruct (mem t (dones (sx st))) eqn:Hd.
  - eapply SvSkip; [exact Hq | apply mem_In; exact Hd].
  - apply mem_false in Hd. destruct (InvB_head st t q I Hq Hd) as [Htl Hwt].
    pose proof (poll_summary scripts t (pc (get_task (ss st) t)) (ss st) (ib_wf st I) Htl Hwt) as S.
    pose proof (SvPoll scripts st t q _ Hq Hd eq_refl S) as V.
    unfold poll_task. cbn [p_sh p_pc p_evs p_effs p_out].
    destruct (p_out (poll_loop scripts t (ss st) (pc (get_task (ss st) t)))) eqn:Ho;
      [exact V | exact V | destruct (summary_nopanic S Ho)].
Qed.

Lemma InvB_step scripts st : InvB st -> InvB (fst (sys_step scripts st)).
Proof.
  intros I. pose proof I as [Iwf Ilen Ifin Ilive Inp Ire]. destruct (reach_range _ Ire) as [_ Id].
  destruct (sys_step_view scripts st I) as [Hq | t q Hq Hd | t q r Hq Hd _ S]; cbn [fst].
  - exact I.
  - (* finished task passed over *)
    rewrite Hq in *. constructor; cbn [sx ss spanic queue ntasks dones]; try assumption.
    + intros u Hu Hnd. destruct (Ilive u Hu Hnd) as [[H|H]|H]; [subst; contradiction | left; exact H | right; exact H].
    + eapply reach_skip; [exact Ire | exact Hq | apply mem_In; exact Hd].
  - (* the future of t is polled *)
    destruct S as [shl evs1 effs1 rl Htl Hwt X Wl Htl' SF]. cbn [emit p_sh p_pc p_evs p_effs p_out].
    assert (Htn : t < ntasks (sx st)) by (rewrite <- Ilen; exact Htl).
    set (e := mkExec q (ntasks (sx st)) (dones (sx st))).
    pose proof (ex_rel_own X Iwf Htl) as Hrelt.
    set (effs := effs1 ++ p_effs rl).
    destruct (fold_eff effs e) as [Fn [Fd Fq]].
    set (e' := fold_left apply_effect effs e) in *.
    cbn [e ntasks dones queue] in Fn, Fd, Fq.
    assert (Hcs : count_spawn effs = count_spawn effs1).
    { unfold effs. rewrite count_spawn_app, (sf_nospawn SF). lia. }
    set (shf := set_pc t (p_pc rl) (p_sh rl)).
    assert (Hntl : nt shl = ntasks e') by (rewrite (ex_nt X), Fn, Hcs, Ilen; reflexivity).
    assert (Hntf : nt shf = ntasks e') by (unfold shf; rewrite nt_set_pc, (sf_nt SF); exact Hntl).
    assert (Hle : ntasks (sx st) <= ntasks e') by lia.
    (* wake-ups only target existing tasks *)
    assert (Hwr : forall u, In (FWake u) effs -> u < ntasks (sx st)).
    { intros u H. rewrite <- Ilen. unfold effs in H. apply in_app_or in H. destruct H as [H|H].
      - destruct (ex_wake_src X u H) as [k Hk]. eapply wf_waiters; eassumption.
      - destruct (sf_wake_src SF u H) as [->|E]; [exact Htl|].
        rewrite Hrelt in E. eapply wf_polled; eassumption. }
    assert (Hfin : forall u, u < ntasks e' -> u <> t ->
                    fin_rel (rel (get_task shf u)) =
                    if u <? ntasks (sx st) then fin_rel (rel (get_task (ss st) u)) else false).
    { intros u Hu N. unfold shf. rewrite rel_set_pc, (sf_fin SF) by exact N.
      destruct (Nat.ltb_spec u (ntasks (sx st))); [apply (ex_fin X) | apply (ex_new X)]; lia. }
    assert (Hwf : WF shf) by (apply WF_set_pc; apply (sf_wf SF)).
    assert (Hlive : forall u, u < ntasks e' -> u <> t -> ~ In u (dones (sx st)) ->
                      In u (queue e') \/ is_blocked shf u).
    { intros u Hu N Hnd. destruct (Nat.lt_ge_cases u (ntasks (sx st))) as [L|L];
        [|left; apply Fq; right; right; split; assumption].
      destruct (Ilive u L Hnd) as [H|H].
      { rewrite Hq in H. destruct H as [H|H]; [congruence | left; apply Fq; left; exact H]. }
      rewrite <- Ilen in L.
      destruct (poll_keeps_blocked t (ss st) shl evs1 effs1 rl u Iwf X SF N L H) as [K|K];
        [left; apply Fq; right; left; exact K | right; exact K]. }
    (* t itself *)
    assert (Ht : if out_ready (p_out rl) then fin_rel (rel (get_task shf t)) = true
                 else fin_rel (rel (get_task shf t)) = false /\ (In t (queue e') \/ is_blocked shf t)).
    { unfold shf at 1 2. rewrite rel_set_pc. destruct (p_out rl) eqn:Hout; cbn [out_ready].
      - destruct (sf_pend SF Hout) as [_ [Hw Hb]]. split; [apply waiting_iff_not_fin; exact Hw|].
        destruct Hb as [H|H]; [left; apply Fq; right; left; unfold effs; apply in_or_app; right; exact H | right; exact H].
      - destruct (sf_ready SF Hout) as [v [_ E]]. rewrite E. reflexivity.
      - destruct (sf_nopanic SF Hout). }
    assert (Hdn : forall u, In u (dones (finish e' t (out_ready (p_out rl)))) <->
                   (out_ready (p_out rl) = true /\ u = t) \/ In u (dones (sx st))).
    { intros u. rewrite finish_dones, Fd. reflexivity. }
    constructor; cbn [sx ss spanic]; fold shf; rewrite ?finish_queue, ?finish_ntasks.
    + exact Hwf.
    + exact Hntf.
    + intros u Hu. rewrite Hdn. destruct (Nat.eq_dec u t) as [->|N].
      * destruct (out_ready (p_out rl)).
        -- rewrite Ht. split; [reflexivity | intros _; left; split; reflexivity].
        -- destruct Ht as [Ht _]. rewrite Ht. split; [intros [[H _]|H]; [discriminate | contradiction] | discriminate].
      * rewrite Hfin by assumption. destruct (Nat.ltb_spec u (ntasks (sx st))) as [L|L].
        -- rewrite <- (Ifin u L). split; [intros [[_ H]|H]; [contradiction | exact H] | intros H; right; exact H].
        -- split; [intros [[_ H]|H]; [contradiction | apply Id in H; lia] | discriminate].
    + intros u Hu Hnd. rewrite Hdn in Hnd. destruct (Nat.eq_dec u t) as [->|N].
      * destruct (out_ready (p_out rl)); [destruct Hnd; left; split; reflexivity | apply Ht].
      * apply Hlive; [exact Hu | exact N|]. intros H. apply Hnd. right. exact H.
    + exact Inp.
    + exact (reach_poll (sx st) t q effs _ Ire Hq (proj2 (mem_false _ _) Hd) Hwr).
Qed.

(* what one turn of a run loop that does not end it appends to the log, and
   the count of [true] answers it passes on *)
Definition turn_recs (stepmode : bool) (st' : sys) (res : stepres) : list rec :=
  match res with
  | SPolled t evs r => LPoll t evs r :: (if stepmode then [LStep (Some r) (wake_count st')] else [])
  | _ => if stepmode then [LStep (Some true) (wake_count st')] else []
  end.

Definition turn_count (n : nat) (res : stepres) : nat :=
  match res with SPolled _ _ r => if r then S n else n | _ => S n end.

Lemma turn_recs_in stepmode st' res x : In x (turn_recs stepmode st' res) ->
  match x with LPoll _ _ _ | LStep _ _ => True | _ => False end.
Proof.
  destruct res; destruct stepmode; cbn; intros H; repeat destruct H as [<-|H]; try exact I; destruct H.
Qed.

(* Induction over the turns of a run loop started in a state that satisfies
   the invariant: [P fuel st n out] holds of [out = run_loop fuel .. st n] if
   it holds when the budget is exhausted, when the loop stalls, and is carried
   back over every turn ([sr] is what that call of step returns). *)
Lemma run_loop_ind (scripts : list script) (stepmode : bool) (P : nat -> sys -> nat -> sys * list rec -> Prop) :
  (forall st n, InvB st -> P 0 st n (st, [LFuel])) ->
  (forall fuel st n, InvB st -> queue (sx st) = [] ->
     P (S fuel) st n (st, [if stepmode then LStep None (wake_count st) else LRun n (wake_count st)])) ->
  (forall fuel st n sr out, InvB st -> sr = sys_step scripts st -> StepView scripts st sr -> snd sr <> SIdle ->
     P fuel (fst sr) (turn_count n (snd sr)) out ->
     P (S fuel) st n (fst out, turn_recs stepmode (fst sr) (snd sr) ++ snd out)) ->
  forall fuel st n, InvB st -> P fuel st n (run_loop fuel scripts stepmode st n).
Proof.
  intros Hfuel Hidle Hturn. induction fuel as [|fuel IH]; intros st n I; [apply Hfuel; exact I|].
  cbn [run_loop].
  generalize (InvB_step scripts st I) (Hturn fuel st n _ (run_loop fuel scripts stepmode (fst (sys_step scripts st))
                (turn_count n (snd (sys_step scripts st)))) I eq_refl (sys_step_view scripts st I)).
  destruct (sys_step_view scripts st I) as [Hq | t q Hq Hd | t q r Hq Hd Er _];
    cbn [fst snd turn_recs turn_count]; intros I' Ht.
  - apply Hidle; assumption.
  - pose proof (IH _ (S n) I') as Hr. destruct (run_loop fuel scripts stepmode _ (S n)).
    apply Ht; [discriminate | exact Hr].
  - pose proof (IH _ (if out_ready (p_out r) then S n else n) I') as Hr. destruct (run_loop fuel scripts stepmode _ _).
    apply Ht; [discriminate | exact Hr].
Qed.

Lemma InvB_loop scripts stepmode : forall fuel st n, InvB st ->
  InvB (fst (run_loop fuel scripts stepmode st n)).
Proof.
  apply (run_loop_ind scripts stepmode (fun _ _ _ out => InvB (fst out))).
  - intros st n I. exact I.
  - intros _ st n I _. exact I.
  - intros _ st n sr out _ _ _ _ I. exact I.
Qed.

(* XSignal k ([setf = true]) and XPulse k *)
Lemma InvB_ext_wake st k (setf : bool) : InvB st ->
  InvB (mkSys (fold_left wake (waiters_of k (ss st)) (sx st))
              (if setf then set_flag k (ss st) else ss st) (spanic st)).
Proof.
  intros I. pose proof I as [Iwf Ilen Ifin Ilive Inp Ire].
  destruct (fold_wake (waiters_of k (ss st)) (sx st)) as [A [B C]].
  set (e' := fold_left wake (waiters_of k (ss st)) (sx st)) in *.
  assert (Hws : forall u, In u (waiters_of k (ss st)) -> u < ntasks (sx st)).
  { intros u H. apply in_waiters_of in H. rewrite <- Ilen. eapply wf_waiters; eassumption. }
  set (sh' := if setf then set_flag k (ss st) else ss st).
  assert (Ht : tasks sh' = tasks (ss st)) by (unfold sh'; destruct setf; reflexivity).
  assert (Hw : waiters sh' = waiters (ss st)) by (unfold sh'; destruct setf; reflexivity).
  assert (Hg : forall u, get_task sh' u = get_task (ss st) u) by (intros u; unfold get_task; rewrite Ht; reflexivity).
  constructor; cbn [sx ss spanic]; fold e'; fold sh'.
  - revert Iwf. apply WF_same.
    + unfold nt. rewrite Ht. reflexivity.
    + intros u. rewrite Hg. reflexivity.
    + intros u. rewrite Hg. reflexivity.
    + exact Hw.
  - unfold nt. rewrite Ht, A. exact Ilen.
  - intros u Hu. rewrite A in Hu. rewrite B, Hg. apply Ifin. exact Hu.
  - intros u Hu Hnd. rewrite A in Hu. rewrite B in Hnd.
    destruct (Ilive u Hu Hnd) as [H|H]; [left; apply C; left; exact H|].
    unfold is_blocked in *. rewrite Hg.
    destruct (pc (get_task (ss st) u)) as [|a rest]; [destruct H|].
    destruct a as [n0|k1|k0|k0|s0| | |v0]; try contradiction.
    + destruct H as [H1 H2]. rewrite Hw.
      destruct (in_dec Nat.eq_dec u (waiters_of k (ss st))) as [Hin|Hin]; [left; apply C; right; exact Hin|].
      right. split; [|exact H2]. unfold sh'. destruct setf; [|exact H1].
      cbn. intros [F|F]; [|exact (H1 F)]. subst k1. apply Hin. apply in_waiters_of. exact H2.
    + right. destruct H as [r [rv' [H1 H2]]]. exists r, rv'. rewrite !Hg. split; assumption.
  - exact Inp.
  - apply reach_wakes; [exact Ire | exact Hws].
Qed.

Lemma InvB_spawn st p : InvB st ->
  InvB (mkSys (enqueue (sx st)) (add_task p (ss st)) (spanic st)).
Proof.
  intros I. pose proof I as [Iwf Ilen Ifin Ilive Inp Ire]. destruct (reach_range _ Ire) as [_ Id].
  constructor; cbn [sx ss spanic enqueue queue ntasks dones].
  - apply WF_add_task. exact Iwf.
  - rewrite nt_add_task, Ilen. reflexivity.
  - intros u Hu. rewrite get_add_task, Ilen. destruct (Nat.ltb_spec u (ntasks (sx st))) as [L|L].
    + apply Ifin. exact L.
    + assert (u = ntasks (sx st)) by lia. subst u. rewrite Nat.eqb_refl. cbn.
      split; [intros H; apply Id in H; lia | discriminate].
  - intros u Hu Hnd. destruct (Nat.lt_ge_cases u (ntasks (sx st))) as [L|L].
    + destruct (Ilive u L Hnd) as [H|H]; [left; apply in_or_app; left; exact H|].
      right. unfold is_blocked in *. rewrite get_add_task_old by (rewrite Ilen; exact L).
      destruct (pc (get_task (ss st) u)) as [|a rest]; [destruct H|].
      destruct a as [n0|k1|k0|k0|s0| | |v0]; try contradiction.
      * exact H.
      * destruct H as [r [rv' [H1 H2]]]. exists r, rv'. split; [exact H1|].
        assert (r < nt (ss st)) by apply (WF_head _ _ _ _ Iwf H1).
        rewrite get_add_task_old by assumption. exact H2.
    + left. apply in_or_app. right. left. lia.
  - exact Inp.
  - apply reach_enqueue. exact Ire.
Qed.

Lemma InvB_x fuel scripts st x : InvB st -> InvB (fst (sys_x fuel scripts st x)).
Proof.
  intros I. destruct x as [s|k|k| | |]; cbn [sys_x].
  - cbn [fst]. apply InvB_spawn. exact I.
  - cbn [fst]. unfold ext_wakes. apply (InvB_ext_wake st k true I).
  - cbn [fst]. unfold ext_wakes. apply (InvB_ext_wake st k false I).
  - pose proof (InvB_step scripts st I) as I'.
    destruct (sys_step scripts st) as [st' res]. cbn [fst] in I'. destruct res; exact I'.
  - apply InvB_loop. exact I.
  - apply InvB_loop. exact I.
Qed.

(* Induction over the actions of a plan started in a state that satisfies the
   invariant (no action of which then panics). *)
Lemma sys_plan_ind fuel scripts (P : list xact -> sys -> sys * list rec -> Prop) :
  (forall st, InvB st -> P [] st (st, [])) ->
  (forall x plan st out, InvB st -> P plan (fst (sys_x fuel scripts st x)) out ->
     P (x :: plan) st (fst out, snd (sys_x fuel scripts st x) ++ snd out)) ->
  forall plan st, InvB st -> P plan st (sys_plan fuel scripts st plan).
Proof.
  intros Hnil Hcons. induction plan as [|x plan IH]; intros st I; [apply Hnil; exact I|].
  cbn [sys_plan]. pose proof (InvB_x fuel scripts st x I) as I1.
  pose proof (Hcons x plan st _ I (IH _ I1)) as H.
  destruct (sys_x fuel scripts st x) as [st1 l1]. cbn [fst snd] in *. rewrite (ib_nopanic st1 I1).
  destruct (sys_plan fuel scripts st1 plan). exact H.
Qed.

Lemma InvB_plan fuel scripts : forall plan st, InvB st -> InvB (fst (sys_plan fuel scripts st plan)).
Proof.
  apply (sys_plan_ind fuel scripts (fun _ _ out => InvB (fst out))).
  - intros st I. exact I.
  - intros x plan st out _ I. exact I.
Qed.

Lemma InvB_reach fuel scripts plan : InvB (fst (sys_plan fuel scripts sys0 plan)).
Proof. apply InvB_plan, InvB_init. Qed.

Lemma InvB_stall st : InvB st -> queue (sx st) = [] ->
  forall t, t < ntasks (sx st) -> ~ In t (dones (sx st)) -> is_blocked (ss st) t.
Proof.
  intros I Hq t Ht Hd. destruct (ib_live st I t Ht Hd) as [H|H]; [rewrite Hq in H; destruct H | exact H].
Qed.

Lemma InvB_polled st r w : InvB st -> rel (get_task (ss st) r) = RlPolled w ->
  r < ntasks (sx st) /\ w < ntasks (sx st) /\ ~ In r (dones (sx st)).
Proof.
  intros I H.
  assert (Hr : r < ntasks (sx st)).
  { destruct (Nat.lt_ge_cases r (ntasks (sx st))) as [L|L]; [exact L|].
    rewrite get_dummy in H by (rewrite (ib_len st I); exact L). discriminate. }
  split; [exact Hr|]. split.
  - rewrite <- (ib_len st I). eapply wf_polled; [apply (ib_wf st I) | exact H].
  - intros Hd. apply (ib_fin st I r Hr) in Hd. rewrite H in Hd. discriminate.
Qed.

(* what the log says of task r (values received from it, values it completed
   with), given the state of its relay *)
Definition relLog (x : relay) (d c : list N) : Prop :=
  match x with
  | RlComputed v => d = [] /\ c = [v]
  | RlDone => exists v, d = [v] /\ c = [v]
  | _ => d = [] /\ c = []
  end.

Lemma relLog_waiting x d c : waiting_rel x -> relLog x d c <-> d = [] /\ c = [].
Proof. intros [->|[w ->]]; reflexivity. Qed.

(* the log so far agrees with the relays *)
Record LogInv (st : sys) (log : list rec) : Prop := {
  li_rel : forall r, r < ntasks (sx st) ->
             relLog (rel (get_task (ss st) r)) (log_deliv r log) (log_complete r log);
  li_future : forall r, ntasks (sx st) <= r -> log_deliv r log = [] /\ log_complete r log = []
}.

Lemma log_deliv_app r a b : log_deliv r (a ++ b) = log_deliv r a ++ log_deliv r b.
Proof.
  induction a as [|x a IH]; [reflexivity|]. destruct x; cbn; try exact IH.
  rewrite IH, app_assoc. reflexivity.
Qed.

Lemma log_complete_app r a b : log_complete r (a ++ b) = log_complete r a ++ log_complete r b.
Proof.
  induction a as [|x a IH]; [reflexivity|]. destruct x; cbn; try exact IH.
  rewrite IH, app_assoc. reflexivity.
Qed.

Lemma LogInv_init : LogInv sys0 [].
Proof. constructor; cbn; [intros r H; lia | intros r _; split; reflexivity]. Qed.

(* the log entries that do not record a poll change nothing *)
Lemma LogInv_nopoll st log l :
  (forall r, log_deliv r l = []) -> (forall r, log_complete r l = []) ->
  LogInv st log -> LogInv st (log ++ l).
Proof.
  intros H1 H2 [A D].
  constructor; intros r Hr; rewrite log_deliv_app, log_complete_app, H1, H2, !app_nil_r; [apply A | apply D]; exact Hr.
Qed.

Lemma LogInv_step scripts st log : InvB st -> LogInv st log ->
  let st' := fst (sys_step scripts st) in
  match snd (sys_step scripts st) with
  | SIdle | SSkip => LogInv st' log
  | SPolled t evs ready => LogInv st' (log ++ [LPoll t evs ready])
  | SPanicked _ _ => False
  end.
Proof.
  intros I L. pose proof I as [Iwf Ilen Ifin Ilive Inp Ire]. pose proof L as [La Ld].
  destruct (sys_step_view scripts st I) as [Hq | t q Hq Hd | t q r Hq Hd _ S]; cbn [fst snd].
  - exact L.
  - constructor; cbn [sx ss ntasks]; assumption.
  - destruct S as [shl evs1 effs1 rl Htl Hwt X Wl Htl' SF]. cbn [emit p_sh p_pc p_evs p_effs p_out].
    assert (Htn : t < ntasks (sx st)) by (rewrite <- Ilen; exact Htl).
    set (e := mkExec q (ntasks (sx st)) (dones (sx st))).
    destruct (fold_eff (effs1 ++ p_effs rl) e) as [Fn _]. cbn [e ntasks] in Fn.
    assert (Hn' : ntasks (finish (fold_left apply_effect (effs1 ++ p_effs rl) e) t (out_ready (p_out rl))) = nt shl).
    { rewrite finish_ntasks, Fn, count_spawn_app, (sf_nospawn SF), (ex_nt X), Ilen. lia. }
    (* what the new entry adds for task x *)
    assert (Hnew : forall x rd,
              log_deliv x (log ++ [LPoll t (evs1 ++ p_evs rl) rd]) = log_deliv x log ++ deliv_events x evs1 /\
              log_complete x (log ++ [LPoll t (evs1 ++ p_evs rl) rd]) =
                log_complete x log ++ (if Nat.eqb t x then complete_events (p_evs rl) else [])).
    { intros x rd. rewrite log_deliv_app, log_complete_app. cbn [log_deliv log_complete].
      rewrite !app_nil_r, deliv_events_app, (sf_deliv SF), app_nil_r, complete_events_app, (ex_nocomplete X).
      split; reflexivity. }
    constructor; cbn [sx ss]; rewrite Hn'; intros x Hx; destruct (Hnew x (out_ready (p_out rl))) as [-> ->].
    + rewrite rel_set_pc. destruct (Nat.eq_dec x t) as [->|N].
      * (* t itself: nothing in the log so far, nothing taken from it *)
        rewrite Nat.eqb_refl. destruct (proj1 (relLog_waiting _ _ _ Hwt) (La t Htn)) as [-> ->].
        destruct (ex_deliv X t Htl) as [[-> _]|[v [_ [E _]]]]; [|destruct (waiting_not_computed _ v Hwt E)].
        destruct (p_out rl) eqn:Hout.
        -- destruct (sf_pend SF Hout) as [-> [Hw _]]. apply relLog_waiting; [exact Hw | split; reflexivity].
        -- destruct (sf_ready SF Hout) as [v [-> ->]]. split; reflexivity.
        -- destruct (sf_nopanic SF Hout).
      * destruct (Nat.eqb_spec t x) as [E|_]; [congruence|]. rewrite app_nil_r.
        destruct (Nat.lt_ge_cases x (nt (ss st))) as [Lx|Lx].
        -- (* existed before *)
           assert (Lx' : x < ntasks (sx st)) by (rewrite <- Ilen; exact Lx). specialize (La x Lx').
           destruct (ex_deliv X x Lx) as [[-> D2]|[v [-> [D2 D3]]]];
             (destruct (sf_other SF x N) as [S|[S1 S2]]; [rewrite S|]).
           ++ rewrite D2, app_nil_r. exact La.
           ++ rewrite D2 in S1. apply (relLog_waiting _ _ _ S1) in La. rewrite app_nil_r.
              apply relLog_waiting; assumption.
           ++ rewrite D2 in La. destruct La as [-> ->]. rewrite D3. exists v. split; reflexivity.
           ++ rewrite D3 in S1. destruct (waiting_not_done _ S1 eq_refl).
        -- (* spawned in this poll *)
           destruct (Ld x) as [-> ->]; [rewrite <- Ilen; exact Lx|]. rewrite (ex_deliv_new X x Lx).
           apply relLog_waiting; [|split; reflexivity]. apply waiting_iff_not_fin.
           rewrite (sf_fin SF x N). apply (ex_new X); assumption.
    + assert (Lx : nt (ss st) <= x) by (rewrite (ex_nt X) in Hx; lia).
      destruct (Ld x) as [-> ->]; [rewrite <- Ilen; exact Lx|]. rewrite (ex_deliv_new X x Lx).
      destruct (Nat.eqb_spec t x) as [E|_]; [lia | split; reflexivity].
Qed.

Lemma LogInv_snoc_nopoll st log x :
  (match x with LPoll _ _ _ => False | _ => True end) -> LogInv st log -> LogInv st (log ++ [x]).
Proof.
  intros Hx. apply LogInv_nopoll; intros r; destruct x; try reflexivity; destruct Hx.
Qed.

Lemma LogInv_loop scripts stepmode : forall fuel st n, InvB st -> forall log, LogInv st log ->
  LogInv (fst (run_loop fuel scripts stepmode st n)) (log ++ snd (run_loop fuel scripts stepmode st n)).
Proof.
  apply (run_loop_ind scripts stepmode (fun _ st n out => forall log, LogInv st log ->
           LogInv (fst out) (log ++ snd out))); cbn [fst snd].
  - intros st n _ log L. apply LogInv_snoc_nopoll; [exact Logic.I | exact L].
  - intros _ st n _ _ log L. apply LogInv_snoc_nopoll; [destruct stepmode; exact Logic.I | exact L].
  - intros _ st n sr out I -> _ Hne IH log L. rewrite app_assoc. apply IH.
    pose proof (LogInv_step scripts st log I L) as L'. cbn zeta in L'.
    assert (Hs : forall l, LogInv (fst (sys_step scripts st)) l ->
              LogInv (fst (sys_step scripts st)) (l ++ if stepmode then [LStep (Some true) (wake_count (fst (sys_step scripts st)))] else [])).
    { intros l. apply LogInv_nopoll; intros r; destruct stepmode; reflexivity. }
    destruct (snd (sys_step scripts st)) as [| |t evs r|t evs]; cbn [turn_recs]; [contradiction | | | destruct L'].
    + apply Hs. exact L'.
    + change (LPoll t evs r :: ?x) with ([LPoll t evs r] ++ x). rewrite app_assoc.
      apply LogInv_nopoll; [| |exact L']; intros r0; destruct stepmode; reflexivity.
Qed.

Lemma LogInv_same_tasks st st' log :
  ntasks (sx st') = ntasks (sx st) -> tasks (ss st') = tasks (ss st) ->
  LogInv st log -> LogInv st' log.
Proof.
  intros Hn Ht [A D].
  assert (Hg : forall r, get_task (ss st') r = get_task (ss st) r) by (intros r; unfold get_task; rewrite Ht; reflexivity).
  constructor; intros r; rewrite Hn, ?Hg; [apply A | apply D].
Qed.

Lemma LogInv_x fuel scripts st x log : InvB st -> LogInv st log ->
  LogInv (fst (sys_x fuel scripts st x)) (log ++ snd (sys_x fuel scripts st x)).
Proof.
  intros I L. destruct x as [s|k|k| | |]; cbn [sys_x].
  - (* spawn from outside *)
    cbn [fst snd]. apply LogInv_snoc_nopoll; [exact Logic.I|].
    pose proof L as [A D]. pose proof (ib_len st I) as Ilen.
    constructor; cbn [sx ss enqueue ntasks]; intros r Hr; [|apply D; lia].
    rewrite get_add_task, Ilen. destruct (Nat.ltb_spec r (ntasks (sx st))) as [Lr|Lr]; [apply A; exact Lr|].
    replace r with (ntasks (sx st)) by lia. rewrite Nat.eqb_refl. apply D. apply le_n.
  - cbn [fst snd]. apply LogInv_snoc_nopoll; [exact Logic.I|].
    revert L. apply LogInv_same_tasks; cbn [sx ss]; [|reflexivity].
    apply (fold_wake (ext_wakes k st) (sx st)).
  - cbn [fst snd]. apply LogInv_snoc_nopoll; [exact Logic.I|].
    revert L. apply LogInv_same_tasks; cbn [sx ss]; [|reflexivity].
    apply (fold_wake (ext_wakes k st) (sx st)).
  - pose proof (LogInv_step scripts st log I L) as L'. cbn zeta in L'.
    destruct (sys_step scripts st) as [st' res]. cbn [fst snd] in L'.
    destruct res as [| |t evs r|t evs]; cbn [fst snd].
    + apply LogInv_snoc_nopoll; [exact Logic.I | exact L'].
    + apply LogInv_snoc_nopoll; [exact Logic.I | exact L'].
    + replace (log ++ [LPoll t evs r; LStep (Some r) (wake_count st')])
        with ((log ++ [LPoll t evs r]) ++ [LStep (Some r) (wake_count st')])
        by (rewrite <- app_assoc; reflexivity).
      apply LogInv_snoc_nopoll; [exact Logic.I | exact L'].
    + destruct L'.
  - apply LogInv_loop; assumption.
  - apply LogInv_loop; assumption.
Qed.

Lemma LogInv_plan fuel scripts : forall plan st, InvB st -> forall log, LogInv st log ->
  LogInv (fst (sys_plan fuel scripts st plan)) (log ++ snd (sys_plan fuel scripts st plan)).
Proof.
  apply (sys_plan_ind fuel scripts (fun _ st out => forall log, LogInv st log ->
           LogInv (fst out) (log ++ snd out))); cbn [fst snd].
  - intros st _ log L. rewrite app_nil_r. exact L.
  - intros x plan st out I IH log L. rewrite app_assoc. apply IH, LogInv_x; assumption.
Qed.

Lemma LogInv_reach fuel scripts plan :
  LogInv (fst (sys_plan fuel scripts sys0 plan)) (snd (sys_plan fuel scripts sys0 plan)).
Proof. apply (LogInv_plan fuel scripts plan sys0 InvB_init [] LogInv_init). Qed.

Lemma LogInv_once st log r : LogInv st log ->
  (log_complete r log = [] /\ log_deliv r log = []) \/
  (exists v, log_complete r log = [v] /\ (log_deliv r log = [] \/ log_deliv r log = [v])).
Proof.
  intros L.
  destruct (Nat.lt_ge_cases r (ntasks (sx st))) as [Lr|Lr]; [|left; apply and_comm, (li_future st log L r Lr)].
  pose proof (li_rel st log L r Lr) as R. destruct (rel (get_task (ss st) r)); cbn in R.
  - left. apply and_comm, R.
  - left. apply and_comm, R.
  - right. exists v. destruct R as [-> ->]. split; [reflexivity | left; reflexivity].
  - right. destruct R as [v [-> ->]]. exists v. split; [reflexivity | right; reflexivity].
Qed.

Lemma LogInv_final_obs st log r a b : LogInv st log -> r < ntasks (sx st) ->
  In (r, (a, b)) (final_obs st [r]) ->
  (a = TNotSent /\ b = TNotSent /\ log_complete r log = []) \/
  (exists v, a = TOk v /\ b = TAlready /\ log_complete r log = [v] /\ log_deliv r log = []) \/
  (a = TAlready /\ b = TAlready).
Proof.
  intros L Lr Hin. cbn in Hin. destruct Hin as [Hin|[]].
  pose proof (li_rel st log L r Lr) as R. destruct (rel (get_task (ss st) r)); cbn in R, Hin; inversion Hin; subst.
  - left. split; [reflexivity|]. split; [reflexivity | apply R].
  - left. split; [reflexivity|]. split; [reflexivity | apply R].
  - right. left. exists v. destruct R as [-> ->]. repeat split; reflexivity.
  - right. right. split; reflexivity.
Qed.
