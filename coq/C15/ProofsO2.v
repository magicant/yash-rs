(* C15 — oracle soundness, part 2: one whole poll of a script task, one call
   of step, the run loops, driver actions, whole plans, the receivers of the
   driver; the oracle follows every log the model produces from the start
   ([model_O]). *)
From Yv Require Import Common.Base C15.Model C15.Spec C15.ProofsA C15.ProofsR C15.ProofsB1 C15.ProofsB2 C15.ProofsB3 C15.ProofsO1.
From Coq Require Import Arith.

Definition is_complete_ev (ev : pevent) : bool :=
  match ev with PComplete _ => true | _ => false end.

Lemma ends_with_complete_snoc evs ev : ends_with_complete (evs ++ [ev]) = is_complete_ev ev.
Proof. unfold ends_with_complete. rewrite rev_app_distr. cbn. destruct ev; reflexivity. Qed.

(* what is known after the events of a poll (or of its last action) *)
Record PollO (t : tid) (e' : exec) (r : pres) (o o' : ost) : Prop := {
  po_sim : SimO e' (p_sh r) o' (Some t);
  po_polls : o_polls o' = o_polls o;
  po_skips : o_skips o' = o_skips o;
  po_done : o_done o' = o_done o;
  po_nopanic : p_out r <> OPanic;
  po_last : exists evs0 ev, p_evs r = evs0 ++ [ev] /\ is_complete_ev ev = out_ready (p_out r);
  po_pend : p_out r = OPend ->
              In t (queue e') \/ blockO o' (set_pc t (p_pc r) (p_sh r)) t
}.

Lemma stop_O t shl acts rl e o :
  WF shl -> t < nt shl -> waiting_rel (rel (get_task shl t)) -> SimO e shl o (Some t) ->
  Stop t shl acts rl ->
  exists o', oevs (Some t) o (p_evs rl) = inl o' /\
             PollO t (fold_left apply_effect (p_effs rl) e) rl o o'.
Proof.
  intros W Ht Hwt Sm Hs. destruct Hs as [v | n rest _ | k rest -> Hk | r rv' rest -> Hrv Hwr].
  - (* complete *)
    pose proof (so_rel Sm t Ht) as Gt.
    set (o1 := mkO (o_clock o) (o_pend o) (o_done o) ((t, v) :: o_vals o) (o_deliv o)
                   (o_join o) (o_flags o) (o_block o) (o_next o) (o_polls o) (o_skips o)).
    assert (S1 : SimO e (set_rel t (RlComputed v) shl) o1 (Some t)).
    { apply (SimO_set_rel e shl o (Some t) t); [exact Ht | exact Sm | |].
      - intros u N. rewrite alookup_cons_other by congruence. repeat split; reflexivity.
      - cbn. rewrite Nat.eqb_refl. split; [reflexivity|].
        destruct Hwt as [Ew|[w Ew]]; rewrite Ew in Gt; apply Gt. }
    unfold complete. destruct Hwt as [Ew|[w Ew]]; rewrite Ew in *; cbn in Gt; destruct Gt as [G1 [G2 G3]];
      cbn [relay_send p_evs p_effs oevs oev obind]; rewrite G3; fold o1.
    + exists o1. split; [reflexivity|]. constructor; cbn [p_sh p_out p_evs p_effs p_pc fold_left]; try reflexivity.
      * exact S1.
      * discriminate.
      * exists [], (PComplete v). split; reflexivity.
      * discriminate.
    + assert (Hw : w < nt shl) by (eapply wf_polled; [exact W | exact Ew]).
      exists (o_wake o1 w). destruct (o_wake_frame o1 w) as [F1 [F2 [_ F4]]].
      split; [reflexivity|]. constructor; cbn [p_sh p_out p_evs p_effs p_pc fold_left apply_effect].
      * apply SimO_wake; [rewrite nt_set_rel; exact Hw | exact S1].
      * exact F1.
      * exact F2.
      * exact F4.
      * discriminate.
      * exists [], (PComplete v). split; reflexivity.
      * discriminate.
  - (* yield *)
    cbn [p_evs p_effs].
    destruct (SimO_wakes (Some t) shl (repeat t (S n)) e o) as [o' [H1 [H2 [H3 [H4 [H5 H6]]]]]].
    + intros u Hu. apply repeat_spec in Hu. subst u. exact Ht.
    + exact Sm.
    + exists o'. split; [exact H1|]. constructor; cbn [p_sh p_out p_evs p_pc]; try assumption.
      * discriminate.
      * exists (map PWake (repeat t n)), (PWake t). split; [|reflexivity].
        rewrite <- (map_app PWake _ [t]), <- repeat_cons. reflexivity.
      * intros _. left.
        apply (fold_eff (map FWake (repeat t (S n))) e). right. left. left. reflexivity.
  - (* wait *)
    cbn [p_evs p_effs oevs oev obind fold_left].
    exists (o_set_block o t (BWait k)). split; [reflexivity|].
    constructor; cbn [p_sh p_out p_evs p_pc]; try reflexivity.
    + apply SimO_set_block. revert Sm. apply SimO_sh_same; reflexivity.
    + discriminate.
    + exists [], (PReg k). split; reflexivity.
    + intros _. right. unfold blockO. rewrite pc_set_pc_same by exact Ht.
      cbn. rewrite Nat.eqb_refl. reflexivity.
  - (* join *)
    destruct (WF_head shl t r rv' W Hrv) as [Htr [Hrn _]]. unfold my_recvs in Hrv.
    pose proof (so_rel Sm r Hrn) as Gr.
    assert (Hv : alookup r (o_vals o) = None /\ mem r (o_deliv o) = false).
    { destruct Hwr as [Ew|[w Ew]]; rewrite Ew in Gr; cbn in Gr; destruct Gr as [G1 [G2 _]]; split; assumption. }
    destruct Hv as [Hv1 Hv2].
    cbn [p_evs p_effs oevs oev obind fold_left]. rewrite Hv1.
    eexists. split; [reflexivity|].
    constructor; cbn [p_sh p_out p_evs p_pc o_polls o_skips o_done o_set_block]; try reflexivity.
    + apply (SimO_set_rel e shl (o_set_block o t (BJoin r)) (Some t) r); [exact Hrn | apply SimO_set_block; exact Sm | |].
      * intros u N. rewrite alookup_cons_other by congruence. repeat split; reflexivity.
      * cbn. rewrite Nat.eqb_refl. repeat split; assumption.
    + discriminate.
    + exists [], (PJoinReg r). split; reflexivity.
    + intros _. right. unfold blockO. rewrite pc_set_pc_same by (rewrite nt_set_rel; exact Ht).
      exists r, rv'. rewrite recvs_set_pc, recvs_set_rel. split; [exact Hrv|].
      cbn. rewrite Nat.eqb_refl. reflexivity.
Qed.

Lemma poll_O scripts t : forall acts sh, WF sh -> t < nt sh -> forall e o,
  waiting_rel (rel (get_task sh t)) -> SimO e sh o (Some t) ->
  let r := poll_loop scripts t sh acts in
  exists o', oevs (Some t) o (p_evs r) = inl o' /\
             PollO t (fold_left apply_effect (p_effs r) e) r o o'.
Proof.
  apply (poll_loop_chain scripts t (fun sh acts r => forall e o,
    waiting_rel (rel (get_task sh t)) -> SimO e sh o (Some t) ->
    exists o', oevs (Some t) o (p_evs r) = inl o' /\
               PollO t (fold_left apply_effect (p_effs r) e) r o o')).
  - intros sh acts r W Ht Hs e o Hwt Sm. eapply stop_O; eassumption.
  - intros sh a rest sh' evs effs r W Ht Hn IH e o Hwt Sm.
    destruct (act_next e o W Sm Hn) as [o1 [H1 [S1 F1]]].
    assert (Hwt' : waiting_rel (rel (get_task sh' t))).
    { rewrite (ex_rel_own (Next_Ext W Ht Hn) W Ht). exact Hwt. }
    destruct (IH (fold_left apply_effect effs e) o1 Hwt' S1) as [o' [H2 [P1 P2 P3 P4 P5 P6 P7]]].
    exists o'. cbn [emit p_sh p_pc p_evs p_effs p_out]. rewrite oevs_app, H1, fold_left_app.
    split; [exact H2|]. destruct F1 as [F1a [F1b [_ F1d]]].
    constructor; cbn [emit p_sh p_pc p_evs p_effs p_out]; try assumption; try congruence.
    destruct P6 as [evs0 [ev [Q1 Q2]]]. exists (evs ++ evs0), ev. rewrite Q1, app_assoc.
    split; [reflexivity | exact Q2].
Qed.

(* run_until_stalled pops finished tasks without a record in the log, so
   the oracle still has them pending: [lag] are those tasks, oldest first, and
   the oracle is related to the executor with [lag] put back in front of its
   queue.  The next LPoll makes the oracle catch up ([take_upto], [take_lag]),
   or the closing LRun does (its count bound allows for them). *)
Definition with_lag (lag : list tid) (e : exec) : exec := mkExec (lag ++ queue e) (ntasks e) (dones e).

Definition SimL (st : sys) (o : ost) (lag : list tid) : Prop :=
  SimO (with_lag lag (sx st)) (ss st) o None /\ (forall u, In u lag -> mem u (dones (sx st)) = true).

Lemma SimL_nolag st o : SimL st o [] <-> SimO (sx st) (ss st) o None.
Proof.
  unfold SimL, with_lag. cbn [app]. destruct (sx st) as [q n d]. cbn. split.
  - intros [H _]. exact H.
  - intros H. split; [exact H | intros u []].
Qed.

Lemma take_lag t q done : forall lag c p sk fuel,
  Rep (lag ++ t :: q) (c, p) -> (forall u, In u lag -> mem u done = true /\ u <> t) ->
  length lag < fuel ->
  exists p', take_upto fuel t p done sk = Some (p', sk + length lag) /\ Rep q (c, p').
Proof.
  induction lag as [|x lag IH]; intros c p sk fuel R Hl Hf; (destruct fuel as [|fuel]; [cbn in Hf; lia|]).
  - cbn [app] in R. destruct (Rep_take _ _ _ _ R) as [d [E R']]. cbn [take_upto]. rewrite E, Nat.eqb_refl.
    exists (pend_del t p). split; [cbn; rewrite Nat.add_0_r; reflexivity | exact R'].
  - cbn [app] in R. destruct (Rep_take _ _ _ _ R) as [d [E R']]. cbn [take_upto]. rewrite E.
    destruct (Hl x (or_introl eq_refl)) as [Hx1 Hx2].
    destruct (Nat.eqb_spec x t) as [Ex|Ex]; [contradiction|]. rewrite Hx1.
    destruct (IH c (pend_del x p) (S sk) fuel R') as [p' [T R'']].
    + intros u Hu. apply Hl. right. exact Hu.
    + cbn in Hf. lia.
    + exists p'. split; [|exact R'']. rewrite T. cbn [length]. f_equal. f_equal. lia.
Qed.

(* the oracle on the record of one poll *)
Lemma step_poll scripts st o lag t q r :
  InvB st -> SimL st o lag -> queue (sx st) = t :: q -> ~ In t (dones (sx st)) ->
  r = poll_loop scripts t (ss st) (pc (get_task (ss st) t)) ->
  exists o', orec o (LPoll t (p_evs r) (out_ready (p_out r))) = inl o' /\
    SimL (mkSys (finish (fold_left apply_effect (p_effs r) (mkExec q (ntasks (sx st)) (dones (sx st))))
                        t (out_ready (p_out r)))
                (set_pc t (p_pc r) (p_sh r)) (spanic st)) o' [] /\
    o_polls o' = out_ready (p_out r) :: o_polls o /\ o_skips o' = o_skips o + length lag.
Proof.
  intros I [Sm Hlag] Hq Hd Er. pose proof I as [Iwf Ilen Ifin Ilive Inp Ire].
  destruct (InvB_head st t q I Hq Hd) as [Htl Hwt]. apply mem_false in Hd.
  set (e := mkExec q (ntasks (sx st)) (dones (sx st))).
  (* the oracle takes t *)
  pose proof Sm as [A B C D E F G H J]. unfold with_lag in A. cbn [queue] in A. rewrite Hq in A.
  assert (Hlag' : forall u, In u lag -> mem u (o_done o) = true /\ u <> t).
  { intros u Hu. specialize (Hlag u Hu). split; [rewrite C; exact Hlag | intros ->; congruence]. }
  destruct (take_lag t q (o_done o) lag (o_clock o) (o_pend o) (o_skips o) (length (o_pend o)) A Hlag')
    as [p' [T R']].
  { rewrite (RepQ_length _ _ A), app_length. cbn. lia. }
  set (o1 := o_set_block (o_set_pend o p' (o_skips o + length lag)) t BNone).
  assert (S1 : SimO e (ss st) o1 (Some t)).
  { apply SimO_set_block.
    constructor; cbn [o_set_pend o_clock o_pend o_done o_vals o_deliv o_join o_flags o_block o_next e queue ntasks dones];
      try assumption.
    - intros u Hu. apply (proj1 (reach_range _ Ire)). rewrite Hq. right. exact Hu.
    - intros u Hu Hc Hud. destruct (J u Hu ltac:(discriminate) Hud) as [K|K]; [left | right; exact K].
      cbn [with_lag queue] in K. rewrite Hq in K. apply in_app_or in K. destruct K as [K|[K|K]]; [| |exact K].
      + apply Hlag in K. cbn [with_lag dones] in Hud. congruence.
      + destruct Hc. rewrite K. reflexivity. }
  (* the poll itself *)
  destruct (poll_O scripts t (pc (get_task (ss st) t)) (ss st) Iwf Htl e o1 Hwt S1) as [o2 [H2 P]].
  rewrite <- Er in H2, P. destruct P as [P1 P2 P3 P4 P5 [evs0 [ev [Q1 Q2]]] P7].
  set (e' := fold_left apply_effect (p_effs r) e) in *.
  set (rd := out_ready (p_out r)).
  exists (mkO (o_clock o2) (o_pend o2) (if rd then t :: o_done o2 else o_done o2)
              (o_vals o2) (o_deliv o2) (o_join o2) (o_flags o2) (o_block o2)
              (o_next o2) (rd :: o_polls o2) (o_skips o2)).
  split; [|split; [|split; cbn; [rewrite P2 | rewrite P3]; reflexivity]].
  - cbn [orec]. rewrite C. cbn [with_lag dones]. rewrite Hd, (RepQ_mem _ _ t A).
    assert (Hm : mem t (lag ++ t :: q) = true).
    { apply mem_In. apply in_or_app. right. left. reflexivity. }
    rewrite Hm. cbn [negb]. rewrite T. fold o1. unfold tid in *. rewrite H2. cbn [obind].
    rewrite Q1, ends_with_complete_snoc, Q2. fold rd. rewrite Bool.eqb_reflx. reflexivity.
  - apply SimL_nolag. cbn [sx ss]. pose proof P1 as [A2 B2 C2 D2 E2 F2 G2 H2' J2].
    constructor; cbn [o_clock o_pend o_done o_vals o_deliv o_join o_flags o_block o_next];
      rewrite ?finish_queue, ?finish_ntasks, ?nt_set_pc; try assumption.
    + intros u. rewrite finish_is_done, <- C2. destruct rd; reflexivity.
    + intros x Hx. rewrite rel_set_pc. apply G2. exact Hx.
    + intros u Hu _ Hud.
      assert (Hud' : (if rd then Nat.eqb u t else false) = false /\ mem u (dones e') = false).
      { rewrite finish_is_done in Hud. apply orb_false_iff in Hud. exact Hud. }
      destruct Hud' as [Hut Hud']. destruct (Nat.eq_dec u t) as [->|Nu].
      * (* t itself: it is not among the finished, so it returned Pending *)
        unfold rd in Hut. destruct (p_out r) eqn:Ho; cbn in Hut.
        -- apply (P7 eq_refl).
        -- rewrite Nat.eqb_refl in Hut. discriminate.
        -- contradiction.
      * assert (Hc : Some u <> Some t) by congruence.
        destruct (J2 u Hu Hc Hud') as [K|K]; [left; exact K|].
        right. unfold blockO in *. rewrite pc_set_pc_other, recvs_set_pc by exact Nu. exact K.
Qed.

(* at a stall the oracle's stall clause holds, and the oracle with nothing
   pending is related to the state *)
Lemma stall_O st o lag :
  InvB st -> SimL st o lag -> queue (sx st) = [] ->
  stall_ok (o_reset o []) = true /\ SimL st (o_reset o []) [].
Proof.
  intros I [Sm Hlag] Hq. pose proof Sm as [A B C D E F G H J].
  (* the tasks the run loop passed over have finished: whoever has not is recorded as blocked *)
  assert (Hb : forall u, u < nt (ss st) -> mem u (dones (sx st)) = false -> blockO o (ss st) u).
  { intros u Hu Hd. destruct (J u Hu ltac:(discriminate) Hd) as [L|L]; [|exact L].
    cbn [with_lag queue] in L. rewrite Hq, app_nil_r in L. apply Hlag in L. congruence. }
  split.
  - unfold stall_ok. apply forallb_forall. intros u Hu. apply in_seq in Hu. cbn [o_reset o_next] in Hu.
    rewrite D in Hu. destruct Hu as [_ Hu]. cbn in Hu.
    unfold unfinished_waiting. cbn [o_reset o_done o_block o_flags o_vals].
    destruct (mem u (o_done o)) eqn:Hd; [reflexivity|]. cbn [orb].
    rewrite C in Hd. cbn [with_lag dones] in Hd.
    assert (Hun : u < ntasks (sx st)) by (rewrite <- (ib_len st I); exact Hu).
    assert (Hnd : ~ In u (dones (sx st))) by (apply mem_false; exact Hd).
    destruct (ib_live st I u Hun Hnd) as [K|K]; [rewrite Hq in K; destruct K|].
    pose proof (Hb u Hu Hd) as L. unfold is_blocked in K. unfold blockO in L.
    destruct (pc (get_task (ss st) u)) as [|a rest]; [destruct K|].
    destruct a as [n0|k|k0|k0|s0| | |v0]; try contradiction.
    + rewrite L. destruct K as [K1 _]. rewrite F. apply mem_false in K1. rewrite K1. reflexivity.
    + destruct L as [r [rv' [L1 L2]]]. destruct K as [r' [rv'' [K1 K2]]]. rewrite L1 in K1. inversion K1; subst r' rv''.
      rewrite L2.
      assert (Hr : r < nt (ss st)).
      { destruct (Nat.lt_ge_cases r (nt (ss st))) as [X|X]; [exact X|].
        rewrite get_dummy in K2 by exact X. discriminate. }
      pose proof (G r Hr) as Gr. rewrite K2 in Gr. cbn in Gr. destruct Gr as [G1 _]. rewrite G1. reflexivity.
  - apply SimL_nolag.
    constructor; cbn [o_reset o_clock o_pend o_done o_vals o_deliv o_join o_flags o_block o_next]; try assumption.
    + rewrite Hq. apply Rep_nil.
    + intros u Hu. rewrite Hq in Hu. destruct Hu.
    + intros u Hu _ Hud. right. apply Hb; assumption.
Qed.

(* one observed call of step(): the records XStep writes *)
Definition step_recs (st' : sys) (res : stepres) : list rec :=
  match res with
  | SIdle => [LStep None (wake_count st')]
  | SPanicked t evs => [LPoll t evs false; LPanic]
  | _ => turn_recs true st' res
  end.

(* between two driver actions, and after every observed step() *)
Definition settled (st : sys) (o : ost) : Prop :=
  SimL st o [] /\ o_polls o = [] /\ o_skips o = 0.

Lemma xstep_O scripts st o :
  InvB st -> settled st o ->
  let st' := fst (sys_step scripts st) in
  exists o', orecs o (step_recs st' (snd (sys_step scripts st))) = inl o' /\ settled st' o'.
Proof.
  intros I [Sl [Hp Hk]].
  destruct (sys_step_view scripts st I) as [Hq | t q Hq Hd | t q r Hq Hd Er _]; cbn [fst snd step_recs turn_recs orecs].
  - (* idle *)
    pose proof Sl as [Sm _]. pose proof (so_rep Sm) as A.
    cbn [with_lag queue app] in A. rewrite Hq in A.
    cbn [orec]. rewrite Hk, Hp. cbn [Nat.eqb negb]. rewrite (RepQ_nil _ A). cbn [oldest].
    unfold wake_count. rewrite Hq. cbn [length Nat.eqb negb].
    destruct (stall_O st o [] I Sl Hq) as [Hs Sl']. rewrite Hs. cbn [obind orecs].
    exists (o_reset o []). split; [reflexivity|]. split; [exact Sl' | split; reflexivity].
  - (* a finished task is passed over *)
    apply mem_In in Hd.
    destruct Sl as [Sm _]. pose proof Sm as [A B C D E F G H J].
    cbn [with_lag queue app] in A. rewrite Hq in A.
    destruct (Rep_take _ _ _ _ A) as [d [Eo R']].
    cbn [orec]. rewrite Hk, Hp. cbn [Nat.eqb negb]. rewrite Eo, C. cbn [with_lag dones]. rewrite Hd.
    assert (Hlen : length (pend_del t (o_pend o)) = length q).
    { apply (RepQ_length q (o_reset o (pend_del t (o_pend o)))). exact R'. }
    unfold wake_count. cbn [sx queue]. rewrite Hlen, Nat.eqb_refl. cbn [negb obind orecs].
    exists (o_reset o (pend_del t (o_pend o))). split; [reflexivity|]. split; [|split; reflexivity].
    apply SimL_nolag. cbn [sx ss].
    constructor; cbn [o_reset o_clock o_pend o_done o_vals o_deliv o_join o_flags o_block o_next queue ntasks dones];
      try assumption.
    + intros u Hu. apply B. cbn [with_lag queue app]. rewrite Hq. right. exact Hu.
    + intros u Hu Hc Hud. destruct (J u Hu Hc Hud) as [K|K]; [|right; exact K].
      cbn [with_lag queue app] in K. rewrite Hq in K. destruct K as [K|K]; [subst; cbn [with_lag dones] in Hud; congruence | left; exact K].
  - (* a future is polled *)
    destruct (step_poll scripts st o [] t q r I Sl Hq Hd Er) as [o1 [H1 [S1 [P1 K1]]]].
    rewrite H1. cbn [obind orecs orec]. rewrite K1, Hk, P1, Hp. cbn [length Nat.add Nat.eqb negb].
    rewrite Bool.eqb_reflx.
    destruct S1 as [Sm1 Hl1]. pose proof (so_rep Sm1) as A1. cbn [with_lag queue app] in A1.
    unfold wake_count. rewrite (RepQ_length _ _ A1), Nat.eqb_refl. cbn [negb obind].
    exists (o_reset o1 (o_pend o1)). split; [reflexivity|]. split; [|split; reflexivity].
    split; [|exact Hl1]. apply SimO_reset; [exact A1 | exact Sm1].
Qed.

Lemma orecs_app o a b : orecs o (a ++ b) = obind (orecs o a) (fun o1 => orecs o1 b).
Proof.
  revert o. induction a as [|x a IH]; intros o; [reflexivity|].
  cbn [app orecs]. destruct (orec o x) as [o1|k]; cbn [obind]; [apply IH | reflexivity].
Qed.

Lemma loop_step_O scripts : forall fuel st n, InvB st -> forall o, settled st o ->
  ~ In LFuel (snd (run_loop fuel scripts true st n)) ->
  exists o', orecs o (snd (run_loop fuel scripts true st n)) = inl o' /\
             settled (fst (run_loop fuel scripts true st n)) o'.
Proof.
  apply (run_loop_ind scripts true (fun _ st n out => forall o, settled st o -> ~ In LFuel (snd out) ->
           exists o', orecs o (snd out) = inl o' /\ settled (fst out) o')); cbn [fst snd].
  - intros st n _ o _ Hnf. destruct Hnf. left. reflexivity.
  - intros _ st n I Hq o Se _.
    pose proof (xstep_O scripts st o I Se) as X. unfold sys_step, pop in X. rewrite Hq in X. exact X.
  - intros _ st n sr out I E V Hne IH o Se Hnf.
    pose proof (xstep_O scripts st o I Se) as X. rewrite <- E in X. destruct X as [o1 [H1 S1]].
    destruct (IH o1 S1) as [o2 [H2 S2]]; [intros Hin; apply Hnf, in_or_app; right; exact Hin|].
    exists o2. split; [|exact S2]. rewrite orecs_app.
    replace (turn_recs true (fst sr) (snd sr)) with (step_recs (fst sr) (snd sr)); [rewrite H1; exact H2|].
    destruct V; [destruct Hne | |]; reflexivity.
Qed.

Lemma count_true_cons b l : count_true (b :: l) = (if b then 1 else 0) + count_true l.
Proof. unfold count_true. cbn. destruct b; reflexivity. Qed.

Lemma loop_run_O scripts : forall fuel st n, InvB st -> forall o lag,
  SimL st o lag -> n = count_true (o_polls o) + o_skips o + length lag ->
  ~ In LFuel (snd (run_loop fuel scripts false st n)) ->
  exists o', orecs o (snd (run_loop fuel scripts false st n)) = inl o' /\
             settled (fst (run_loop fuel scripts false st n)) o'.
Proof.
  apply (run_loop_ind scripts false (fun _ st n out => forall o lag,
           SimL st o lag -> n = count_true (o_polls o) + o_skips o + length lag -> ~ In LFuel (snd out) ->
           exists o', orecs o (snd out) = inl o' /\ settled (fst out) o')); cbn [fst snd].
  - intros st n _ o lag _ _ Hnf. destruct Hnf. left. reflexivity.
  - (* stall: run_until_stalled returns *)
    intros _ st n I Hq o lag [Sm Hlag] Hn _. cbn [orecs orec].
    pose proof (so_rep Sm) as A. cbn [with_lag queue] in A. rewrite Hq, app_nil_r in A.
    assert (Hall : forallb (fun p => mem (fst p) (o_done o)) (o_pend o) = true).
    { apply forallb_forall. intros x Hx. apply (RepQ_in _ _ _ A) in Hx.
      rewrite (so_done Sm). cbn [with_lag dones]. apply Hlag. exact Hx. }
    rewrite Hall. cbn [negb]. rewrite (RepQ_length _ _ A).
    assert (L1 : Nat.leb (count_true (o_polls o)) n = true) by (apply Nat.leb_le; lia).
    assert (L2 : Nat.leb n (count_true (o_polls o) + o_skips o + length lag) = true) by (apply Nat.leb_le; lia).
    rewrite L1, L2. cbn [andb negb].
    unfold wake_count. rewrite Hq. cbn [length Nat.eqb negb].
    destruct (stall_O st o lag I (conj Sm Hlag) Hq) as [Hs Sl']. rewrite Hs. cbn [obind].
    exists (o_reset o []). split; [reflexivity|]. split; [exact Sl' | split; reflexivity].
  - intros _ st n sr out I _ V Hne IH o lag Sl Hn Hnf.
    destruct V as [Hq | t q Hq Hd | t q r Hq Hd Er _]; cbn [fst snd turn_recs turn_count app] in *.
    + destruct Hne. reflexivity.
    + (* a finished task passed over silently *)
      apply mem_In in Hd. apply (IH o (lag ++ [t])); [|rewrite app_length; cbn [length]; lia | exact Hnf].
      destruct Sl as [Sm Hlag]. split.
      * unfold with_lag in *. cbn [sx ss queue ntasks dones] in *. rewrite Hq in Sm.
        rewrite <- app_assoc. exact Sm.
      * cbn [sx dones]. intros u Hu. apply in_app_or in Hu. destruct Hu as [Hu|[<-|[]]]; [apply Hlag; exact Hu | exact Hd].
    + destruct (step_poll scripts st o lag t q r I Sl Hq Hd Er) as [o1 [H1 [S1 [P1 K1]]]].
      destruct (IH o1 [] S1) as [o2 [H2 S2]].
      * rewrite P1, K1, count_true_cons. cbn [length]. destruct (out_ready (p_out r)); lia.
      * intros Hin. apply Hnf. right. exact Hin.
      * exists o2. cbn [orecs]. rewrite H1. cbn [obind]. split; assumption.
Qed.

Lemma ext_spawn_O st o s scripts :
  settled st o ->
  exists o', orec o (LExt [PSpawn (length (tasks (ss st))) s]) = inl o' /\
             settled (mkSys (enqueue (sx st)) (add_task (script_of scripts s) (ss st)) (spanic st)) o'.
Proof.
  intros [Sl [Hp Hk]]. apply SimL_nolag in Sl.
  destruct (SimO_spawn _ _ _ _ (script_of scripts s) s Sl) as [o' [H1 [H2 [F1 [F2 _]]]]].
  exists o'. cbn [orec oevs]. fold (nt (ss st)). rewrite H1. split; [reflexivity|].
  split; [apply SimL_nolag; exact H2 | split; congruence].
Qed.

Lemma ext_wake_O st o k (setf : bool) :
  InvB st -> settled st o ->
  exists o', orec o (LExt ((if setf then [PSet k] else []) ++ map PWake (waiters_of k (ss st)))) = inl o' /\
             settled (mkSys (fold_left wake (waiters_of k (ss st)) (sx st))
                            (if setf then set_flag k (ss st) else ss st) (spanic st)) o'.
Proof.
  intros I [Sl [Hp Hk]]. apply SimL_nolag in Sl.
  destruct (SimO_signal None (sx st) (ss st) o k setf (ib_wf st I) Sl) as [o' [H1 [H2 [H3 [H4 _]]]]].
  exists o'. split; [exact H1|]. split; [|split; congruence].
  apply SimL_nolag. cbn [sx ss]. rewrite <- fold_wake_eq. exact H2.
Qed.

(* the receivers the driver holds: their values have not been taken, and no
   task holds them *)
Definition RootInv (st : sys) (roots : list tid) : Prop :=
  forall r, In r roots ->
    r < nt (ss st) /\ rel (get_task (ss st) r) <> RlDone /\
    forall u, ~ In r (recvs (get_task (ss st) u)).

Lemma RootInv_step scripts st roots : InvB st -> RootInv st roots ->
  RootInv (fst (sys_step scripts st)) roots.
Proof.
  intros I R. pose proof I as [Iwf Ilen Ifin Ilive Inp Ire].
  destruct (sys_step_view scripts st I) as [Hq | t q Hq Hd | t q r Hq Hd _ S]; cbn [fst]; [exact R | exact R |].
  destruct S as [shl evs1 effs1 rl Htl Hwt X Wl Htl' SF]. cbn [emit p_sh p_pc p_evs p_effs p_out].
  intros r Hr. destruct (R r Hr) as [R1 [R2 R3]]. cbn [ss].
  split; [rewrite nt_set_pc, (sf_nt SF), (ex_nt X); lia|]. split.
  - rewrite rel_set_pc.
    assert (Hl : rel (get_task shl r) = rel (get_task (ss st) r)) by (apply (ex_rel X); [exact R1 | apply R3]).
    destruct (Nat.eq_dec r t) as [->|N].
    + destruct (p_out rl) eqn:Ho.
      * apply waiting_not_done, (sf_pend SF Ho).
      * destruct (sf_ready SF Ho) as [v [_ Ev]]. rewrite Ev. discriminate.
      * destruct (sf_nopanic SF Ho).
    + destruct (sf_other SF r N) as [Eq|[_ Wt]]; [rewrite Eq, Hl; exact R2 | apply waiting_not_done; exact Wt].
  - intros u Hin. rewrite recvs_set_pc, (sf_recvs SF) in Hin.
    destruct (Nat.lt_ge_cases u (nt (ss st))) as [L|L].
    + destruct (Nat.eq_dec u t) as [->|N].
      * destruct (ex_myrecvs X r Hin) as [K|K]; [exact (R3 t K) | lia].
      * rewrite (ex_recvs X u L N) in Hin. exact (R3 u Hin).
    + apply (wf_recv _ Wl) in Hin. lia.
Qed.

Lemma RootInv_loop scripts stepmode roots : forall fuel st n, InvB st -> RootInv st roots ->
  RootInv (fst (run_loop fuel scripts stepmode st n)) roots.
Proof.
  apply (run_loop_ind scripts stepmode (fun _ st n out => RootInv st roots -> RootInv (fst out) roots)); cbn [fst].
  - intros st n _ R. exact R.
  - intros _ st n _ _ R. exact R.
  - intros _ st n sr out I -> _ _ IH R. apply IH, RootInv_step; assumption.
Qed.

Lemma roots_of_app a b : roots_of (a ++ b) = roots_of a ++ roots_of b.
Proof.
  induction a as [|x a IH]; [reflexivity|]. cbn [app].
  destruct x as [evs| | | | | |]; cbn [roots_of]; try exact IH.
  destruct evs as [|ev evs]; [exact IH|]. destruct ev; try exact IH.
  destruct evs; [cbn; rewrite IH; reflexivity | exact IH].
Qed.

Lemma roots_of_none l : (forall x, In x l -> match x with LExt _ => False | _ => True end) -> roots_of l = [].
Proof.
  induction l as [|x l IH]; intros H; [reflexivity|].
  assert (Hx := H x (or_introl eq_refl)). destruct x; try contradiction; cbn [roots_of]; apply IH;
    intros y Hy; apply H; right; exact Hy.
Qed.

Lemma run_loop_no_ext scripts stepmode : forall fuel st n, InvB st -> forall x,
  In x (snd (run_loop fuel scripts stepmode st n)) -> match x with LExt _ => False | _ => True end.
Proof.
  apply (run_loop_ind scripts stepmode (fun _ st n out => forall x, In x (snd out) ->
           match x with LExt _ => False | _ => True end)); cbn [snd].
  - intros st n _ x [<-|[]]. exact Logic.I.
  - intros _ st n _ _ x [<-|[]]. destruct stepmode; exact Logic.I.
  - intros _ st n sr out _ _ _ _ IH x Hx. apply in_app_or in Hx. destruct Hx as [Hx|Hx]; [|apply IH; exact Hx].
    apply turn_recs_in in Hx. destruct x; try exact Logic.I; destruct Hx.
Qed.

Lemma RootInv_same_tasks st st' roots :
  tasks (ss st') = tasks (ss st) -> RootInv st roots -> RootInv st' roots.
Proof.
  intros Ht R r Hr. destruct (R r Hr) as [R1 [R2 R3]]. unfold nt, get_task in *. rewrite Ht.
  repeat split; assumption.
Qed.

Lemma x_O fuel scripts st x o roots :
  InvB st -> settled st o -> RootInv st roots ->
  ~ In LFuel (snd (sys_x fuel scripts st x)) ->
  exists o', orecs o (snd (sys_x fuel scripts st x)) = inl o' /\
             settled (fst (sys_x fuel scripts st x)) o' /\
             RootInv (fst (sys_x fuel scripts st x)) (roots ++ roots_of (snd (sys_x fuel scripts st x))).
Proof.
  intros I Se R Hnf. destruct x as [s|k|k| | |]; cbn [sys_x fst snd] in *.
  - (* spawn from outside *)
    destruct (ext_spawn_O st o s scripts Se) as [o' [H1 H2]].
    exists o'. cbn [orecs]. rewrite H1. cbn [obind]. split; [reflexivity|]. split; [exact H2|].
    cbn [roots_of]. intros r Hr. cbn [ss]. rewrite nt_add_task.
    pose proof (ib_wf st I) as W. apply in_app_or in Hr. destruct Hr as [Hr|[<-|[]]].
    + destruct (R r Hr) as [R1 [R2 R3]]. split; [lia|]. split.
      * rewrite get_add_task_old by exact R1. exact R2.
      * intros u Hin. apply recvs_add_task in Hin. exact (R3 u (proj2 Hin)).
    + fold (nt (ss st)). split; [lia|]. split.
      * rewrite get_add_task_new. discriminate.
      * intros u. apply WF_new_unheld. exact W.
  - (* signal from outside *)
    destruct (ext_wake_O st o k true I Se) as [o' [H1 H2]]. unfold ext_wakes.
    exists o'. cbn [orecs]. cbn [app] in H1. rewrite H1. cbn [obind]. split; [reflexivity|]. split; [exact H2|].
    cbn [roots_of]. rewrite app_nil_r. revert R. apply RootInv_same_tasks. reflexivity.
  - (* pulse from outside *)
    destruct (ext_wake_O st o k false I Se) as [o' [H1 H2]]. unfold ext_wakes.
    exists o'. cbn [orecs]. cbn [app] in H1. rewrite H1. cbn [obind]. split; [reflexivity|]. split; [exact H2|].
    assert (Hro : roots_of [LExt (map PWake (waiters_of k (ss st)))] = []).
    { destruct (waiters_of k (ss st)) as [|w ws]; reflexivity. }
    rewrite Hro, app_nil_r. revert R. apply RootInv_same_tasks. reflexivity.
  - (* one step *)
    destruct (xstep_O scripts st o I Se) as [o' [H1 H2]].
    pose proof (RootInv_step scripts st roots I R) as R'.
    destruct (sys_step scripts st) as [st' res]. cbn [fst snd] in *.
    assert (Hro : roots_of (step_recs st' res) = []) by (destruct res; reflexivity).
    destruct res as [| |t evs r|t evs]; cbn [fst snd step_recs turn_recs] in *; exists o';
      (split; [exact H1|]); (split; [exact H2|]); cbn [roots_of]; rewrite app_nil_r; exact R'.
  - (* drain *)
    destruct (loop_step_O scripts fuel st 0 I o Se Hnf) as [o' [H1 H2]].
    exists o'. split; [exact H1|]. split; [exact H2|].
    rewrite (roots_of_none _ (run_loop_no_ext scripts true fuel st 0 I)), app_nil_r.
    apply RootInv_loop; assumption.
  - (* run_until_stalled *)
    destruct Se as [Sl [Hp Hk]].
    destruct (loop_run_O scripts fuel st 0 I o [] Sl) as [o' [H1 H2]].
    + rewrite Hp, Hk. reflexivity.
    + exact Hnf.
    + exists o'. split; [exact H1|]. split; [exact H2|].
      rewrite (roots_of_none _ (run_loop_no_ext scripts false fuel st 0 I)), app_nil_r.
      apply RootInv_loop; assumption.
Qed.

Lemma plan_O fuel scripts : forall plan st, InvB st -> forall o roots,
  settled st o -> RootInv st roots ->
  ~ In LFuel (snd (sys_plan fuel scripts st plan)) ->
  exists o', orecs o (snd (sys_plan fuel scripts st plan)) = inl o' /\
             settled (fst (sys_plan fuel scripts st plan)) o' /\
             RootInv (fst (sys_plan fuel scripts st plan)) (roots ++ roots_of (snd (sys_plan fuel scripts st plan))).
Proof.
  apply (sys_plan_ind fuel scripts (fun _ st out => forall o roots,
           settled st o -> RootInv st roots -> ~ In LFuel (snd out) ->
           exists o', orecs o (snd out) = inl o' /\ settled (fst out) o' /\
                      RootInv (fst out) (roots ++ roots_of (snd out)))); cbn [fst snd].
  - intros st _ o roots Se R _. exists o. rewrite app_nil_r. split; [reflexivity|]. split; [exact Se | exact R].
  - intros x plan st out I IH o roots Se R Hnf.
    destruct (x_O fuel scripts st x o roots I Se R) as [o1 [H1 [S1 R1]]].
    { intros Hin. apply Hnf. apply in_or_app. left. exact Hin. }
    destruct (IH o1 _ S1 R1) as [o2 [H2 [S2 R2]]].
    { intros Hin. apply Hnf. apply in_or_app. right. exact Hin. }
    exists o2. split; [rewrite orecs_app, H1; exact H2|]. split; [exact S2|].
    rewrite roots_of_app, app_assoc. exact R2.
Qed.

Lemma settled_init : settled sys0 ost0.
Proof.
  split; [|split; reflexivity]. apply SimL_nolag. constructor; cbn.
  - apply Rep_nil.
  - intros u [].
  - intros u. reflexivity.
  - reflexivity.
  - reflexivity.
  - reflexivity.
  - intros r Hr. unfold nt in Hr. cbn in Hr. lia.
  - intros r _. repeat split; reflexivity.
  - intros u Hu. unfold nt in Hu. cbn in Hu. lia.
Qed.

(* What the model produces from the start, if the budget suffices: the oracle
   follows the log and ends related to the final state. *)
Lemma model_O fuel scripts plan :
  let out := sys_plan fuel scripts sys0 plan in
  ~ In LFuel (snd out) ->
  exists o, orecs ost0 (snd out) = inl o /\ SimO (sx (fst out)) (ss (fst out)) o None /\
            RootInv (fst out) (roots_of (snd out)).
Proof.
  intros out Hnf.
  destruct (plan_O fuel scripts plan sys0 InvB_init ost0 [] settled_init) as [o [H1 [[Sl _] R]]];
    [intros r [] | exact Hnf|].
  exists o. split; [exact H1|]. split; [apply SimL_nolag; exact Sl | exact R].
Qed.

(* a receiver the driver holds: its value has not been taken, and the oracle
   knows it exactly when the relay holds it *)
Lemma root_val st o roots x : SimO (sx st) (ss st) o None -> RootInv st roots -> In x roots ->
  rel (get_task (ss st) x) <> RlDone /\
  alookup x (o_vals o) = match rel (get_task (ss st) x) with RlComputed v => Some v | _ => None end.
Proof.
  intros Sl R Hx. destruct (R x Hx) as [R1 [R2 _]]. split; [exact R2|].
  pose proof (so_rel Sl x R1) as G.
  destruct (rel (get_task (ss st) x)); cbn in G; try apply G. destruct (R2 eq_refl).
Qed.

(* the answers [f x] of the receivers [roots], judged one by one by [ok] *)
Lemma obs_ok (f : tid -> tid * (tryres * tryres)) (ok : tid * (tryres * tryres) -> bool) roots :
  (forall x, fst (f x) = x) -> (forall x, In x roots -> ok (f x) = true) ->
  list_eqb Nat.eqb roots (map fst (map f roots)) && forallb ok (map f roots) = true.
Proof.
  intros Hf Hok. rewrite map_map, (map_ext _ (fun x => x) Hf), map_id.
  rewrite (proj2 (list_eqb_spec Nat.eqb Nat.eqb_eq roots roots) eq_refl).
  apply forallb_forall. intros p Hp. apply in_map_iff in Hp. destruct Hp as [x [<- Hx]]. apply Hok, Hx.
Qed.

Lemma dead_ok_model tail : dead_ok tail (map dead_out tail) = true.
Proof.
  unfold dead_ok. rewrite map_length, Nat.eqb_refl. cbn [andb].
  induction tail as [|a tail IH]; [reflexivity|]. cbn [map combine forallb]. rewrite IH.
  destruct a; reflexivity.
Qed.
