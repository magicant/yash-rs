(* C15 — the property theorems.  Each is read off an invariant or a general
   lemma of the Proofs files, or proved here from them; the driver pins the
   statements with [Check] and prints the assumptions on every run. *)
From Yv Require Import Common.Base C15.Model C15.Spec C15.ProofsA C15.ProofsR C15.ProofsB3
  C15.ProofsO1 C15.ProofsO2 C15.ProofsT.

(* a task is in the wake queue at most once, however often it is woken *)
Theorem queue_nodup : forall ops, NoDup (queue (mex (mrun mach0 ops))).
Proof. intros ops. apply ia_nodup, InvA_reach. Qed.

(* no wake-up is lost and none is invented: a task is queued exactly when it
   was woken (or spawned) since the loop last took it out of the queue; wakes
   issued while it is being polled, by itself or by others, count *)
Theorem woken_iff_queued : forall ops t,
  pending_wake t (trace (mrun mach0 ops)) = true <-> In t (queue (mex (mrun mach0 ops))).
Proof. intros ops t. apply ia_pending, InvA_reach. Qed.

(* the future of a task is never polled after it returned Ready *)
Theorem completed_future_never_polled : forall ops t tr1 tr2,
  trace (mrun mach0 ops) = tr2 ++ GEnd t true :: tr1 -> ~ In (GBegin t) tr2.
Proof.
  intros ops. apply (npe_run ops mach0 InvA_init). intros t tr1 tr2 H. destruct tr2; discriminate.
Qed.

(* polls never nest: the trace is well bracketed, the open poll is [running] *)
Theorem no_reentrant_poll : forall ops,
  bracket None (rev (trace (mrun mach0 ops))) = Some (running (mrun mach0 ops)).
Proof. intros ops. apply bracket_run. reflexivity. Qed.

(* FIFO: the task at position k of the queue is taken by the (k+1)-th call of
   step, whatever the tasks polled before it do (re-wake themselves, wake
   others, spawn) *)
Theorem fifo_bounded_wait : forall behs m t,
  running m = None -> nth_error (queue (mex m)) (length behs) = Some t ->
  running (gsteps m behs) = None /\
  (exists q, queue (mex (gsteps m behs)) = t :: q) /\ taken_next (gsteps m behs) t.
Proof.
  induction behs as [|beh behs IH]; intros m t Hr Hn; cbn [length] in Hn.
  - cbn. destruct (queue (mex m)) as [|h q] eqn:Hq; [discriminate|]. cbn in Hn. inversion Hn; subst.
    split; [exact Hr|]. split; [exists q; reflexivity | eapply taken_next_head; eassumption].
  - destruct (queue (mex m)) as [|h q] eqn:Hq; [discriminate|]. cbn in Hn.
    destruct (gstep_queue m beh h q Hr Hq) as [Hr' [suf Hq']].
    cbn [gsteps fold_left]. apply IH; [exact Hr'|].
    rewrite Hq'. rewrite nth_error_app1; [exact Hn|].
    apply nth_error_Some. rewrite Hn. discriminate.
Qed.

(* no starvation: a woken task is taken after fewer steps than the queue is long *)
Theorem no_starvation : forall ops t,
  let m := mrun mach0 ops in
  running m = None -> pending_wake t (trace m) = true ->
  exists k, k < length (queue (mex m)) /\
    forall behs, length behs = k -> taken_next (gsteps m behs) t.
Proof.
  intros ops t m Hr Hp. subst m. apply (ia_pending _ (InvA_reach ops)) in Hp.
  destruct (In_nth_error _ _ Hp) as [k Hk]. exists k.
  split; [apply nth_error_Some; rewrite Hk; discriminate | intros behs <-; apply (fifo_bounded_wait behs _ t Hr Hk)].
Qed.

(* when the loop stalls no task has a wake-up that was not honoured *)
Theorem stall_no_pending_wake : forall ops,
  queue (mex (mrun mach0 ops)) = [] -> forall t, pending_wake t (trace (mrun mach0 ops)) = false.
Proof.
  intros ops Hq t. destruct (pending_wake t _) eqn:E; [|reflexivity].
  apply (ia_pending _ (InvA_reach ops)) in E. rewrite Hq in E. destruct E.
Qed.

(* whatever the receiver does before and after the (single) send: nothing is
   delivered before it, the value is delivered exactly once after it (to the
   first receive operation), and the send wakes the last task that polled *)
Theorem relay_delivers_exactly_once : forall ops1 v ops2,
  no_send ops1 -> no_send ops2 ->
  let outs := relay_run RlPending (ops1 ++ RSend v :: ops2) in
  deliveries outs = (if existsb is_receive ops2 then [v] else []) /\
  nth_error outs (length ops1) = Some (RoSent (last_poller ops1 None)).
Proof. intros ops1 v ops2. apply (relay_exactly_once_from RlPending). left. reflexivity. Qed.

Theorem relay_nothing_without_send : forall ops, no_send ops ->
  deliveries (relay_run RlPending ops) = [] /\ ~ In RoPanic (relay_run RlPending ops).
Proof.
  intros ops H. destruct (before_send ops RlPending) as [D [P _]]; [left; reflexivity | exact H | split; assumption].
Qed.

(* the executor state of a script system is a state of the Level-A machine
   between two polls: all Level-A theorems apply to script systems *)
Theorem script_exec_refines : forall fuel scripts plan,
  reach (sx (fst (sys_plan fuel scripts sys0 plan))).
Proof. intros. apply ib_reach, InvB_reach. Qed.

(* the panic sites of forwarder.rs (send after send, poll after Ready) are
   never reached: every relay gets at most one send and is never polled after
   it delivered *)
Theorem script_no_panic : forall fuel scripts plan,
  spanic (fst (sys_plan fuel scripts sys0 plan)) = false.
Proof. intros. apply ib_nopanic, InvB_reach. Qed.

(* when the run loop stalls every unfinished task is genuinely waiting: for a
   flag that is not set (its waker registered there), or for a child whose
   relay holds its waker *)
Theorem stall_means_all_waiting : forall fuel scripts plan,
  let st := fst (sys_plan fuel scripts sys0 plan) in
  queue (sx st) = [] ->
  forall t, t < ntasks (sx st) -> ~ In t (dones (sx st)) -> is_blocked (ss st) t.
Proof. intros fuel scripts plan st. apply InvB_stall, InvB_reach. Qed.

(* ... and a relay that holds a waker belongs to a task that has not finished *)
Theorem polled_relay_unfinished : forall fuel scripts plan r w,
  let st := fst (sys_plan fuel scripts sys0 plan) in
  rel (get_task (ss st) r) = RlPolled w ->
  r < ntasks (sx st) /\ w < ntasks (sx st) /\ ~ In r (dones (sx st)).
Proof. intros fuel scripts plan r w st. apply InvB_polled, InvB_reach. Qed.

(* in every run a task completes at most once, and its result is received by
   a task at most once, only after it completed, and unaltered *)
Theorem result_delivered_at_most_once : forall fuel scripts plan r,
  let log := snd (sys_plan fuel scripts sys0 plan) in
  (log_complete r log = [] /\ log_deliv r log = []) \/
  (exists v, log_complete r log = [v] /\ (log_deliv r log = [] \/ log_deliv r log = [v])).
Proof. intros fuel scripts plan r. apply LogInv_once with (1 := LogInv_reach fuel scripts plan). Qed.

(* a receiver asked twice at the end by the driver: "not sent" twice if the
   task has not completed; the value then "already received" if it completed
   and no task received it; never the value twice *)
Theorem driver_receives_once : forall fuel scripts plan r a b,
  let st := fst (sys_plan fuel scripts sys0 plan) in
  let log := snd (sys_plan fuel scripts sys0 plan) in
  r < ntasks (sx st) ->
  In (r, (a, b)) (final_obs st [r]) ->
  (a = TNotSent /\ b = TNotSent /\ log_complete r log = []) \/
  (exists v, a = TOk v /\ b = TAlready /\ log_complete r log = [v] /\ log_deliv r log = []) \/
  (a = TAlready /\ b = TAlready).
Proof. intros fuel scripts plan r a b. apply LogInv_final_obs, LogInv_reach. Qed.

(* "oldest wake-up first, each task at most once" (time stamps, as the oracle
   checks it) and the FIFO queue with duplicate suppression take the same task
   at every step, for every sequence of wake and take operations *)
Theorem oldest_first_is_fifo_queue : forall ops, s_run (0, []) ops = q_run [] ops.
Proof. intros ops. symmetry. apply Rep_run, Rep_nil. Qed.

(* The run-time oracle accepts every log the script-system model produces, for
   every script table and every driver plan (provided the step budget was not
   exhausted, which run_case reports as code 99): when the real executor's log
   equals the model's log the oracle cannot raise a false alarm. *)
Theorem oracle_sound : forall fuel scripts plan,
  let r := model_run fuel scripts plan in
  ~ In LFuel (fst r) -> oracle (fst r) (snd r) = None.
Proof.
  intros fuel scripts plan r. subst r. unfold model_run.
  pose proof (model_O fuel scripts plan) as P. pose proof (InvB_reach fuel scripts plan) as I.
  destruct (sys_plan fuel scripts sys0 plan) as [st log]. cbn [fst snd] in *.
  rewrite (ib_nopanic st I). cbn [fst snd]. intros Hnf. destruct (P Hnf) as [o [H1 [Sl R]]].
  unfold oracle, final_ok, final_obs. rewrite H1, obs_ok; [reflexivity| |].
  - intros x. destruct (relay_try (rel (get_task (ss st) x))) as [r1 a]. destruct (relay_try r1). reflexivity.
  - intros x Hx. destruct (root_val st o _ x Sl R Hx) as [N G].
    destruct (rel (get_task (ss st) x)); try destruct (N eq_refl);
      cbn; rewrite G; cbn; rewrite ?N.eqb_refl; reflexivity.
Qed.

(* the same for the runs after which the driver drops the Executor (spawning
   then fails, waking is silent, receivers of unfinished tasks answer "not
   sent" or "sender dropped") ... *)
Theorem oracle_dead_sound : forall fuel scripts plan tail,
  match model_run_dead fuel scripts plan tail with
  | (log, outs, obs) => ~ In LFuel log -> oracle_dead log tail outs obs = None
  end.
Proof.
  intros fuel scripts plan tail. unfold model_run_dead.
  pose proof (model_O fuel scripts plan) as P.
  destruct (sys_plan fuel scripts sys0 plan) as [st log]. cbn [fst snd] in *.
  intros Hnf. destruct (P Hnf) as [o [H1 [Sl R]]].
  unfold oracle_dead, final_ok_dead, final_obs_dead. rewrite H1, dead_ok_model, obs_ok; [reflexivity| |].
  - intros x. destruct (rel (get_task (ss st) x)); try reflexivity;
      destruct (alive_after_drop (ss st) x); reflexivity.
  - intros x Hx. destruct (root_val st o _ x Sl R Hx) as [N G].
    destruct (rel (get_task (ss st) x)); try destruct (N eq_refl);
      try destruct (alive_after_drop (ss st) x); cbn; rewrite G; cbn; rewrite ?N.eqb_refl; reflexivity.
Qed.

(* ... and for one Sender/Receiver pair driven directly, with both halves
   dropped at any time: the model never delivers twice, before the send, or
   another value, and panics only when polled again after Ready *)
Theorem pair_oracle_sound : forall ops,
  f_oracle None false (combine ops (f_run fstate0 ops)) = true.
Proof. intros ops. apply pair_oracle_sound_gen. split; reflexivity. Qed.

(* If the script table has a cost certificate W (no script transitively spawns
   itself), a budget computed from W and the plan is never exhausted: every
   drain and every run_until_stalled of the model terminates within it. *)
Theorem fuel_suffices : forall scripts W plan fuel,
  cert scripts W -> fuel_bound W plan <= fuel ->
  ~ In LFuel (fst (model_run fuel scripts plan)).
Proof. exact fuel_suffices_l. Qed.

(* the certificate is computed for tables whose scripts only spawn scripts
   with a larger index (everything the generator produces) *)
Theorem wtable_cert : forall scripts, spawns_up scripts -> cert scripts (wtable scripts).
Proof. exact wtable_cert_l. Qed.

(* no budget can be computed for arbitrary tables: a script that spawns itself
   has no certificate (its run never stalls) *)
Theorem self_spawn_has_no_cert : forall W, ~ cert [[ASpawn 0]] W.
Proof. intros W H. specialize (H 0). unfold wc in H. cbn in H. lia. Qed.

(* each must print: Closed under the global context *)
Print Assumptions queue_nodup.
Print Assumptions woken_iff_queued.
Print Assumptions completed_future_never_polled.
Print Assumptions no_reentrant_poll.
Print Assumptions fifo_bounded_wait.
Print Assumptions no_starvation.
Print Assumptions stall_no_pending_wake.
Print Assumptions relay_delivers_exactly_once.
Print Assumptions relay_nothing_without_send.
Print Assumptions script_exec_refines.
Print Assumptions script_no_panic.
Print Assumptions stall_means_all_waiting.
Print Assumptions polled_relay_unfinished.
Print Assumptions result_delivered_at_most_once.
Print Assumptions driver_receives_once.
Print Assumptions oldest_first_is_fifo_queue.
Print Assumptions oracle_sound.
Print Assumptions fuel_suffices.
Print Assumptions wtable_cert.
Print Assumptions self_spawn_has_no_cert.
Print Assumptions oracle_dead_sound.
Print Assumptions pair_oracle_sound.
