(* C15 — Level B, part 2: what one poll of a script task amounts to: what its
   actions, up to the one at which it returns, do to the shared state as seen
   by the other tasks, to the executor, and what they report ([Ext]); how it
   returns ([StopFacts]). *)
From Yv Require Import Common.Base C15.Model C15.Spec C15.ProofsA C15.ProofsR C15.ProofsB1.
From Coq Require Import Arith.

Definition is_spawn (f : effect) : bool := match f with FSpawn => true | _ => false end.
Definition count_spawn (effs : list effect) : nat := length (filter is_spawn effs).

Lemma count_spawn_app a b : count_spawn (a ++ b) = count_spawn a + count_spawn b.
Proof. unfold count_spawn. rewrite filter_app, app_length. reflexivity. Qed.

Lemma count_spawn_wakes ws : count_spawn (map FWake ws) = 0.
Proof. induction ws as [|w ws IH]; [reflexivity | exact IH]. Qed.

Lemma in_map_FWake u ws : In (FWake u) (map FWake ws) <-> In u ws.
Proof.
  rewrite in_map_iff. split.
  - intros [x [E H]]. inversion E; subst. exact H.
  - intros H. exists u. split; [reflexivity | exact H].
Qed.

Lemma deliv_events_app r a b : deliv_events r (a ++ b) = deliv_events r a ++ deliv_events r b.
Proof.
  induction a as [|e a IH]; [reflexivity|]. destruct e as [| | | | |r' v|r' res|]; cbn; try exact IH.
  - destruct (Nat.eqb r' r); cbn; rewrite IH; reflexivity.
  - destruct res; try exact IH. destruct (Nat.eqb r' r); cbn; rewrite IH; reflexivity.
Qed.

Lemma complete_events_app a b : complete_events (a ++ b) = complete_events a ++ complete_events b.
Proof.
  induction a as [|e a IH]; [reflexivity|]. destruct e; cbn; try exact IH. rewrite IH. reflexivity.
Qed.

Lemma deliv_events_wakes r ws : deliv_events r (map PWake ws) = [].
Proof. induction ws as [|w ws IH]; [reflexivity | exact IH]. Qed.

Lemma complete_events_wakes ws : complete_events (map PWake ws) = [].
Proof. induction ws as [|w ws IH]; [reflexivity | exact IH]. Qed.

Lemma deliv_ev_events r v ev x : deliv_ev r v ev ->
  deliv_events x [ev] = (if Nat.eqb r x then [v] else []) /\ complete_events [ev] = [].
Proof. intros [->| ->]; cbn; destruct (Nat.eqb r x); split; reflexivity. Qed.

(* [Ext t sh sh' evs effs]: actions of one poll of t that let it go on lead
   from [sh] to [sh'], report [evs] and do [effs]; closed under composition
   ([Ext_trans]), so it describes the whole poll up to where it returns.
   The only relays touched are those of receivers t holds ([ex_rel]); a value
   is taken out of a relay exactly when a delivery event is reported, and it
   is the value the relay held ([ex_deliv]). *)
Record Ext {t : tid} {sh sh' : shared} {evs : list pevent} {effs : list effect} : Prop := {
  ex_nt : nt sh' = nt sh + count_spawn effs;
  ex_pc : forall u, u < nt sh -> pc (get_task sh' u) = pc (get_task sh u);
  ex_recvs : forall u, u < nt sh -> u <> t -> recvs (get_task sh' u) = recvs (get_task sh u);
  ex_myrecvs : forall r, In r (recvs (get_task sh' t)) -> In r (recvs (get_task sh t)) \/ nt sh <= r;
  ex_flags : incl (flags sh) (flags sh');
  ex_waiters : waiters sh' = waiters sh;
  ex_rel : forall u, u < nt sh -> ~ In u (recvs (get_task sh t)) ->
             rel (get_task sh' u) = rel (get_task sh u);
  ex_new : forall u, nt sh <= u -> u < nt sh' -> fin_rel (rel (get_task sh' u)) = false;
  ex_wake_flag : forall k u, In k (flags sh') -> ~ In k (flags sh) -> In (k, u) (waiters sh) ->
                   In (FWake u) effs;
  ex_wake_src : forall u, In (FWake u) effs -> exists k, In (k, u) (waiters sh);
  ex_deliv : forall r, r < nt sh ->
               (deliv_events r evs = [] /\ rel (get_task sh' r) = rel (get_task sh r)) \/
               (exists v, deliv_events r evs = [v] /\ rel (get_task sh r) = RlComputed v /\
                          rel (get_task sh' r) = RlDone);
  ex_deliv_new : forall r, nt sh <= r -> deliv_events r evs = [];
  ex_nocomplete : complete_events evs = []
}.
Arguments Ext : clear implicits.

Lemma ex_fin {t sh sh' evs effs} (X : Ext t sh sh' evs effs) u :
  u < nt sh -> fin_rel (rel (get_task sh' u)) = fin_rel (rel (get_task sh u)).
Proof.
  intros Hu. destruct (ex_deliv X u Hu) as [[_ E]|[v [_ [E1 E2]]]]; [rewrite E | rewrite E1, E2]; reflexivity.
Qed.

(* no task holds its own receiver, so a poll leaves the relay of its own task alone *)
Lemma ex_rel_own {t sh sh' evs effs} (X : Ext t sh sh' evs effs) :
  WF sh -> t < nt sh -> rel (get_task sh' t) = rel (get_task sh t).
Proof. intros W Ht. apply (ex_rel X t Ht). intros Hin. apply (wf_recv _ W) in Hin. lia. Qed.

(* no task is touched: flags may be set and the wakers [ws] registered on them invoked *)
Lemma Ext_same t sh sh' evs ws :
  tasks sh' = tasks sh -> waiters sh' = waiters sh -> incl (flags sh) (flags sh') ->
  (forall k u, In k (flags sh') -> ~ In k (flags sh) -> In (k, u) (waiters sh) -> In u ws) ->
  (forall u, In u ws -> exists k, In (k, u) (waiters sh)) ->
  (forall r, deliv_events r evs = []) -> complete_events evs = [] ->
  Ext t sh sh' evs (map FWake ws).
Proof.
  intros Ht Hw Hf H1 H2 Hd Hc.
  assert (Hg : forall u, get_task sh' u = get_task sh u) by (intros u; unfold get_task; rewrite Ht; reflexivity).
  assert (Hn : nt sh' = nt sh) by (unfold nt; rewrite Ht; reflexivity).
  constructor.
  - rewrite count_spawn_wakes. lia.
  - intros u _. rewrite Hg. reflexivity.
  - intros u _ _. rewrite Hg. reflexivity.
  - intros r H. left. rewrite Hg in H. exact H.
  - exact Hf.
  - exact Hw.
  - intros u _ _. rewrite Hg. reflexivity.
  - intros u A B. lia.
  - intros k u A B C. apply in_map_FWake. eapply H1; eassumption.
  - intros u A. apply in_map_FWake in A. apply H2. exact A.
  - intros r _. left. split; [apply Hd | rewrite Hg; reflexivity].
  - intros r _. apply Hd.
  - exact Hc.
Qed.

Lemma Ext_refl t sh : Ext t sh sh [] [].
Proof.
  apply (Ext_same t sh sh [] []); try reflexivity.
  - apply incl_refl.
  - intros k u A B. contradiction.
  - intros u [].
Qed.

Lemma Ext_trans t sh sh1 sh2 v1 e1 v2 e2 :
  Ext t sh sh1 v1 e1 -> Ext t sh1 sh2 v2 e2 -> Ext t sh sh2 (v1 ++ v2) (e1 ++ e2).
Proof.
  intros A B.
  assert (Hle : nt sh <= nt sh1) by (rewrite (ex_nt A); lia).
  constructor.
  - rewrite (ex_nt B), (ex_nt A), count_spawn_app. lia.
  - intros u H. rewrite (ex_pc B) by lia. apply (ex_pc A). exact H.
  - intros u H E. rewrite (ex_recvs B) by (lia || exact E). apply (ex_recvs A); assumption.
  - intros r H. destruct (ex_myrecvs B r H) as [H1|H1].
    + apply (ex_myrecvs A). exact H1.
    + right. lia.
  - eapply incl_tran; [apply (ex_flags A) | apply (ex_flags B)].
  - rewrite (ex_waiters B). apply (ex_waiters A).
  - intros u H Hn. rewrite (ex_rel B).
    + apply (ex_rel A); assumption.
    + lia.
    + intros Hin. destruct (ex_myrecvs A u Hin) as [H1|H1]; [exact (Hn H1) | lia].
  - intros u H1 H2. destruct (Nat.lt_ge_cases u (nt sh1)) as [L|L].
    + rewrite (ex_fin B) by exact L. apply (ex_new A); assumption.
    + apply (ex_new B); assumption.
  - intros k u H2 H0 Hw. apply in_or_app.
    destruct (in_dec Nat.eq_dec k (flags sh1)) as [H1|H1].
    + left. apply (ex_wake_flag A k u); assumption.
    + right. apply (ex_wake_flag B k u); [exact H2 | exact H1|].
      rewrite (ex_waiters A). exact Hw.
  - intros u H. apply in_app_or in H. destruct H as [H|H].
    + apply (ex_wake_src A). exact H.
    + destruct (ex_wake_src B u H) as [k Hk]. exists k.
      rewrite (ex_waiters A) in Hk. exact Hk.
  - intros r Hr. rewrite deliv_events_app.
    destruct (ex_deliv A r Hr) as [[A1 A2]|[v [A1 [A2 A3]]]];
      (destruct (ex_deliv B r) as [[B1 B2]|[v' [B1 [B2 B3]]]]; [lia| |]).
    + left. rewrite A1, B1, B2, A2. split; reflexivity.
    + right. exists v'. rewrite A1, B1. split; [reflexivity|]. split; [rewrite <- A2; exact B2 | exact B3].
    + right. exists v. rewrite A1, B1, B2. split; [reflexivity|]. split; assumption.
    + rewrite A3 in B2. discriminate.
  - intros r Hr. rewrite deliv_events_app, (ex_deliv_new A r Hr). cbn.
    destruct (Nat.lt_ge_cases r (nt sh1)) as [L|L]; [|apply (ex_deliv_new B); exact L].
    destruct (ex_deliv B r L) as [[B1 _]|[v [_ [B2 _]]]]; [exact B1|].
    pose proof (ex_new A r Hr L) as F. rewrite B2 in F. discriminate.
  - rewrite complete_events_app, (ex_nocomplete A), (ex_nocomplete B). reflexivity.
Qed.

(* t takes the value out of the relay of its oldest receiver *)
Lemma Ext_receive t sh r rv' v ev :
  WF sh -> t < nt sh -> my_recvs sh t = r :: rv' -> rel (get_task sh r) = RlComputed v ->
  deliv_ev r v ev -> Ext t sh (set_recvs t rv' (set_rel r RlDone sh)) [ev] [].
Proof.
  intros W Ht Hrv Hc Hev. destruct (WF_head sh t r rv' W Hrv) as [_ [Hrn _]]. unfold my_recvs in Hrv.
  assert (Ht' : t < nt (set_rel r RlDone sh)) by (rewrite nt_set_rel; exact Ht).
  assert (Hn : nt (set_recvs t rv' (set_rel r RlDone sh)) = nt sh) by (rewrite nt_set_recvs; apply nt_set_rel).
  assert (Hd : forall x, deliv_events x [ev] = if Nat.eqb r x then [v] else [])
    by (intros x; apply (deliv_ev_events r v ev x Hev)).
  constructor.
  - rewrite Hn. cbn. lia.
  - intros u _. rewrite pc_set_recvs, pc_set_rel. reflexivity.
  - intros u _ E. rewrite recvs_set_recvs_other, recvs_set_rel by exact E. reflexivity.
  - intros x H. rewrite recvs_set_recvs_same in H by exact Ht'. left. rewrite Hrv. right. exact H.
  - apply incl_refl.
  - reflexivity.
  - intros u _ H. rewrite rel_set_recvs. apply rel_set_rel_other. intros ->. apply H.
    rewrite Hrv. left. reflexivity.
  - intros u A B. lia.
  - intros k u A B. contradiction.
  - intros u [].
  - intros x Hx. rewrite Hd, rel_set_recvs. destruct (Nat.eqb_spec r x) as [<-|N].
    + right. exists v. split; [reflexivity|]. split; [exact Hc | apply rel_set_rel_same; exact Hrn].
    + left. split; [reflexivity|]. apply rel_set_rel_other. intros ->. apply N. reflexivity.
  - intros x Hx. rewrite Hd. destruct (Nat.eqb_spec r x) as [<-|N]; [lia | reflexivity].
  - apply (deliv_ev_events r v ev 0 Hev).
Qed.

Lemma Next_Ext {scripts t a sh sh' evs effs} :
  WF sh -> t < nt sh -> Next scripts t a sh sh' evs effs -> Ext t sh sh' evs effs.
Proof.
  intros W Ht [ |k setf|s _|r rv' v ev Hrv Hc Hev|r rv' _ _].
  - apply Ext_refl.
  - apply Ext_same; try (destruct setf; reflexivity).
    + destruct setf; [intros x Hx; right; exact Hx | apply incl_refl].
    + intros k' u H1 H0 Hw. destruct setf; [|contradiction].
      destruct H1 as [<-|H1]; [apply in_waiters_of; exact Hw | contradiction].
    + intros u Hu. exists k. apply in_waiters_of. exact Hu.
    + intros r. rewrite deliv_events_app, deliv_events_wakes. destruct setf; reflexivity.
    + rewrite complete_events_app, complete_events_wakes. destruct setf; reflexivity.
  - assert (Ht1 : t < nt (add_task (script_of scripts s) sh)) by (rewrite nt_add_task; lia).
    constructor.
    + rewrite nt_set_recvs, nt_add_task. cbn. lia.
    + intros u Hu. rewrite pc_set_recvs, get_add_task_old by exact Hu. reflexivity.
    + intros u Hu E. rewrite recvs_set_recvs_other, get_add_task_old by assumption. reflexivity.
    + intros r Hr. rewrite recvs_set_recvs_same in Hr by exact Ht1. apply in_app_iff in Hr.
      destruct Hr as [Hr|[Hr|[]]]; [left; exact Hr | right; lia].
    + apply incl_refl.
    + reflexivity.
    + intros u Hu _. rewrite rel_set_recvs, get_add_task_old by exact Hu. reflexivity.
    + intros u H1 H2. rewrite nt_set_recvs, nt_add_task in H2. assert (u = nt sh) by lia. subst u.
      rewrite rel_set_recvs, get_add_task_new. reflexivity.
    + intros k u H1 H0. contradiction.
    + intros u [Hu|[]]. discriminate.
    + intros r Hr. left. split; [reflexivity|]. rewrite rel_set_recvs, get_add_task_old by exact Hr. reflexivity.
    + intros r _. reflexivity.
    + reflexivity.
  - eapply Ext_receive; eassumption.
  - apply (Ext_same t sh sh [PTry r TNotSent] []); try reflexivity.
    + apply incl_refl.
    + intros k u A B. contradiction.
    + intros u [].
Qed.

Lemma fold_eff (effs : list effect) : forall e,
  let e' := fold_left apply_effect effs e in
  ntasks e' = ntasks e + count_spawn effs /\ dones e' = dones e /\
  forall u, In u (queue e') <-> In u (queue e) \/ In (FWake u) effs \/ ntasks e <= u < ntasks e'.
Proof.
  induction effs as [|f effs IH]; intros e e'.
  - cbn in e'. subst e'. cbn. split; [lia|]. split; [reflexivity|]. intros u. split; [auto|].
    intros [H|[[]|H]]; [exact H | lia].
  - cbn [fold_left] in e'. destruct (IH (apply_effect e f)) as [A [B F]]. fold e' in A, B, F.
    destruct f as [w|]; cbn [apply_effect] in *.
    + (* wake *)
      rewrite wake_ntasks, wake_dones in *.
      replace (count_spawn (FWake w :: effs)) with (count_spawn effs) by reflexivity.
      split; [exact A|]. split; [exact B|]. intros u. rewrite F, wake_queue. cbn [In].
      assert (Hw : u = w <-> FWake w = FWake u)
        by (split; [intros ->; reflexivity | intros H; inversion H; reflexivity]).
      destruct Hw. tauto.
    + (* spawn *)
      unfold enqueue in *. cbn [ntasks dones queue] in *.
      replace (count_spawn (FSpawn :: effs)) with (S (count_spawn effs)) by reflexivity.
      split; [lia|]. split; [exact B|]. intros u. rewrite F, in_app_iff. cbn [In]. split.
      * intros [[H|[<-|[]]]|[H|H]]; [left; exact H | right; right; lia | right; left; right; exact H | right; right; lia].
      * intros [H|[[H|H]|H]]; [left; left; exact H | discriminate | right; left; exact H|].
        destruct (Nat.eq_dec u (ntasks e)) as [->|N]; [left; right; left; reflexivity | right; right; lia].
Qed.

Lemma fold_wake_eq ws : forall e, fold_left apply_effect (map FWake ws) e = fold_left wake ws e.
Proof. induction ws as [|w ws IH]; intros e; [reflexivity | cbn; apply IH]. Qed.

Lemma fold_wake (ws : list tid) e :
  let e' := fold_left wake ws e in
  ntasks e' = ntasks e /\ dones e' = dones e /\
  forall u, In u (queue e') <-> In u (queue e) \/ In u ws.
Proof.
  intros e'. destruct (fold_eff (map FWake ws) e) as [A [B F]].
  rewrite fold_wake_eq in *. fold e' in A, B, F. rewrite count_spawn_wakes, Nat.add_0_r in A.
  split; [exact A|]. split; [exact B|]. intros u. rewrite F, in_map_FWake, A. split; [|tauto].
  intros [H|[H|H]]; [left; exact H | right; exact H | lia].
Qed.

(* how a poll returns, from the state [shl] reached by the actions before.
   [sf_pend] is where the stall theorem comes from: a poll that returns
   Pending has woken its own task or leaves it blocked. *)
Record StopFacts {t : tid} {shl : shared} {rl : pres} : Prop := {
  sf_wf : WF (p_sh rl);
  sf_nt : nt (p_sh rl) = nt shl;
  sf_nospawn : count_spawn (p_effs rl) = 0;
  sf_nopanic : p_out rl <> OPanic;
  sf_pc : forall u, pc (get_task (p_sh rl) u) = pc (get_task shl u);
  sf_recvs : forall u, recvs (get_task (p_sh rl) u) = recvs (get_task shl u);
  sf_flags : flags (p_sh rl) = flags shl;
  sf_waiters : forall x, In x (waiters shl) -> In x (waiters (p_sh rl));
  sf_other : forall u, u <> t ->
               rel (get_task (p_sh rl) u) = rel (get_task shl u) \/
               (waiting_rel (rel (get_task shl u)) /\ waiting_rel (rel (get_task (p_sh rl) u)));
  sf_polled : forall u w, rel (get_task shl u) = RlPolled w -> ~ In u (recvs (get_task shl t)) ->
                rel (get_task (p_sh rl) u) = RlPolled w \/ (u = t /\ In (FWake w) (p_effs rl));
  sf_wake_src : forall u, In (FWake u) (p_effs rl) -> u = t \/ rel (get_task shl t) = RlPolled u;
  sf_deliv : forall r, deliv_events r (p_evs rl) = [];
  sf_ready : p_out rl = OReady ->
               exists v, complete_events (p_evs rl) = [v] /\ rel (get_task (p_sh rl) t) = RlComputed v;
  sf_pend : p_out rl = OPend ->
               complete_events (p_evs rl) = [] /\ waiting_rel (rel (get_task (p_sh rl) t)) /\
               (In (FWake t) (p_effs rl) \/ is_blocked (set_pc t (p_pc rl) (p_sh rl)) t)
}.
Arguments StopFacts : clear implicits.

Lemma sf_fin {t shl rl} (SF : StopFacts t shl rl) u : u <> t ->
  fin_rel (rel (get_task (p_sh rl) u)) = fin_rel (rel (get_task shl u)).
Proof.
  intros N. destruct (sf_other SF u N) as [E|[A B]]; [rewrite E; reflexivity|].
  apply waiting_iff_not_fin in A, B. rewrite A, B. reflexivity.
Qed.

Lemma stop_facts t shl acts rl :
  WF shl -> t < nt shl -> waiting_rel (rel (get_task shl t)) -> Stop t shl acts rl -> StopFacts t shl rl.
Proof.
  intros W Ht Hwt Hs. destruct Hs as [v | n rest _ | k rest -> Hk | r rv' rest -> Hrv Hwr].
  - (* complete: the waker held by the relay of t, if any, is invoked *)
    assert (E : exists w, complete t v shl =
              mkPres (set_rel t (RlComputed v) shl) [] [PComplete v]
                     (match w with Some w => [FWake w] | None => [] end) OReady /\
              (forall w', rel (get_task shl t) = RlPolled w' <-> w = Some w')).
    { unfold complete. destruct Hwt as [E|[w0 E]]; rewrite E; cbn.
      - exists None. split; [reflexivity|]. split; intros H; discriminate.
      - exists (Some w0). split; [reflexivity|]. split; intros H; inversion H; reflexivity. }
    destruct E as [w [E Ew]]. rewrite E. constructor; cbn [p_sh p_effs p_evs p_out p_pc].
    + apply WF_set_rel; [exact W | discriminate | intros w' Ep; discriminate Ep].
    + apply nt_set_rel.
    + destruct w; reflexivity.
    + discriminate.
    + intros u. apply pc_set_rel.
    + intros u. apply recvs_set_rel.
    + reflexivity.
    + intros x H. exact H.
    + intros u N. left. apply rel_set_rel_other. exact N.
    + intros u w' Hp _. destruct (Nat.eq_dec u t) as [->|N].
      * right. split; [reflexivity|]. apply Ew in Hp. rewrite Hp. left. reflexivity.
      * left. rewrite rel_set_rel_other by exact N. exact Hp.
    + intros u H. right. apply Ew. destruct w as [w|]; [|destruct H]. destruct H as [H|[]].
      inversion H. reflexivity.
    + intros r. reflexivity.
    + intros _. exists v. split; [reflexivity | apply rel_set_rel_same; exact Ht].
    + discriminate.
  - (* yield *)
    constructor; cbn [p_sh p_effs p_evs p_out p_pc]; try reflexivity; try assumption.
    + apply count_spawn_wakes.
    + discriminate.
    + intros x H. exact H.
    + intros u _. left. reflexivity.
    + intros u w H _. left. exact H.
    + intros u H. left. apply in_map_FWake, repeat_spec in H. exact H.
    + intros r. apply deliv_events_wakes.
    + discriminate.
    + intros _. split; [apply complete_events_wakes|]. split; [exact Hwt|]. left. left. reflexivity.
  - (* wait *)
    constructor; cbn [p_sh p_effs p_evs p_out p_pc]; try reflexivity.
    + apply WF_add_waiter; assumption.
    + discriminate.
    + intros x H. cbn. apply in_or_app. left. exact H.
    + intros u _. left. reflexivity.
    + intros u w H _. left. exact H.
    + intros u [].
    + discriminate.
    + intros _. split; [reflexivity|]. split; [exact Hwt|].
      right. unfold is_blocked. rewrite pc_set_pc_same by exact Ht. cbn. split.
      * apply mem_false. exact Hk.
      * apply in_or_app. right. left. reflexivity.
  - (* join *)
    destruct (WF_head shl t r rv' W Hrv) as [Htr [Hrn _]]. unfold my_recvs in Hrv.
    constructor; cbn [p_sh p_effs p_evs p_out p_pc]; try reflexivity.
    + apply WF_set_rel; [exact W | discriminate | intros w Ep; inversion Ep; subst w; exact Ht].
    + apply nt_set_rel.
    + discriminate.
    + intros u. apply pc_set_rel.
    + intros u. apply recvs_set_rel.
    + intros x H. exact H.
    + intros u _. destruct (Nat.eq_dec u r) as [->|N].
      * right. split; [exact Hwr|]. rewrite rel_set_rel_same by exact Hrn. right. eexists. reflexivity.
      * left. apply rel_set_rel_other. exact N.
    + intros u w H Hn. left. rewrite rel_set_rel_other; [exact H|].
      intros ->. apply Hn. rewrite Hrv. left. reflexivity.
    + intros u [].
    + discriminate.
    + intros _. split; [reflexivity|]. split; [rewrite rel_set_rel_other by lia; exact Hwt|].
      right. unfold is_blocked. rewrite pc_set_pc_same by (rewrite nt_set_rel; exact Ht).
      exists r, rv'. split.
      * rewrite recvs_set_pc, recvs_set_rel. exact Hrv.
      * rewrite rel_set_pc. apply rel_set_rel_same. exact Hrn.
Qed.

(* a task other than t that is blocked before a poll of t is woken by that
   poll or still blocked after it *)
Lemma poll_keeps_blocked t sh shl evs1 effs1 rl u :
  WF sh -> Ext t sh shl evs1 effs1 -> StopFacts t shl rl -> u <> t -> u < nt sh -> is_blocked sh u ->
  In (FWake u) (effs1 ++ p_effs rl) \/ is_blocked (set_pc t (p_pc rl) (p_sh rl)) u.
Proof.
  intros W X SF N L H. set (shf := set_pc t (p_pc rl) (p_sh rl)).
  assert (Hpc : pc (get_task shf u) = pc (get_task sh u)).
  { unfold shf. rewrite pc_set_pc_other by exact N. rewrite (sf_pc SF). apply (ex_pc X). exact L. }
  unfold is_blocked in H. destruct (pc (get_task sh u)) as [|a rest]; [destruct H|].
  destruct a as [n0|k|k0|k0|s0| | |v0]; try contradiction.
  - (* wait k: the flag was set and u woken, or u still waits *)
    destruct H as [H1 H2]. destruct (in_dec Nat.eq_dec k (flags shl)) as [Hk|Hk].
    + left. apply in_or_app. left. apply (ex_wake_flag X k u); assumption.
    + right. unfold is_blocked. rewrite Hpc. split.
      * unfold shf. cbn [flags set_pc]. rewrite (sf_flags SF). exact Hk.
      * unfold shf. cbn [waiters set_pc]. apply (sf_waiters SF). rewrite (ex_waiters X). exact H2.
  - (* join: the relay of the awaited child is not one t can touch, unless the child is t *)
    destruct H as [r [rv' [H1 H2]]].
    destruct (WF_head sh u r rv' W H1) as [_ [Hrn _]].
    assert (Hnr : ~ In r (recvs (get_task sh t))).
    { intros Hin. apply N. apply (wf_uniq _ W u t r); [rewrite H1; left; reflexivity | exact Hin]. }
    assert (H3 : rel (get_task shl r) = RlPolled u) by (rewrite (ex_rel X) by assumption; exact H2).
    assert (Hnr' : ~ In r (recvs (get_task shl t))).
    { intros Hin. destruct (ex_myrecvs X r Hin) as [A|A]; [exact (Hnr A) | lia]. }
    destruct (sf_polled SF r u H3 Hnr') as [H4|[_ H4]]; [right | left; apply in_or_app; right; exact H4].
    unfold is_blocked. rewrite Hpc. exists r, rv'. unfold shf. split.
    + rewrite recvs_set_pc, (sf_recvs SF), (ex_recvs X) by assumption. exact H1.
    + rewrite rel_set_pc. exact H4.
Qed.

(* One poll of task t, from [sh], with result [r]: t exists and its relay
   holds no value yet; the actions that let the poll go on lead to [shl],
   where it returns. *)
Inductive Summary (t : tid) (sh : shared) : pres -> Prop :=
| Summ shl evs1 effs1 rl :
    t < nt sh -> waiting_rel (rel (get_task sh t)) ->
    Ext t sh shl evs1 effs1 -> WF shl -> t < nt shl -> StopFacts t shl rl ->
    Summary t sh (emit evs1 effs1 rl).

Lemma poll_summary scripts t : forall acts sh, WF sh -> t < nt sh ->
  waiting_rel (rel (get_task sh t)) -> Summary t sh (poll_loop scripts t sh acts).
Proof.
  apply (poll_loop_chain scripts t (fun sh acts r => waiting_rel (rel (get_task sh t)) -> Summary t sh r)).
  - intros sh acts r W Ht Hs Hw. rewrite <- (emit_nil r).
    apply (Summ t sh sh); [exact Ht | exact Hw | apply Ext_refl | exact W | exact Ht | eapply stop_facts; eassumption].
  - intros sh a rest sh' evs effs r W Ht Hn IH Hw.
    pose proof (Next_Ext W Ht Hn) as X.
    destruct IH as [shl evs1 effs1 rl _ _ X1 Wl Htl SF].
    { rewrite (ex_rel_own X W Ht). exact Hw. }
    rewrite emit_emit. apply (Summ t sh shl); [exact Ht | exact Hw | eapply Ext_trans; eassumption | exact Wl | exact Htl | exact SF].
Qed.

Lemma summary_nopanic {t sh r} : Summary t sh r -> p_out r <> OPanic.
Proof. intros [shl evs1 effs1 rl _ _ _ _ _ SF]. exact (sf_nopanic SF). Qed.
