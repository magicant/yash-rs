(* C15 — Level B, part 1: bookkeeping about the shared state; well-formed
   ownership of receivers; the ways one action of a script lets the poll go on
   ([Next]) or ends it ([Stop]); a poll is a chain of the former closed by one
   of the latter. *)
From Yv Require Import Common.Base C15.Model C15.Spec C15.ProofsA C15.ProofsR.
From Coq Require Import Arith.

Lemma upd_length {A} (f : A -> A) (l : list A) : forall n, length (upd n f l) = length l.
Proof. induction l as [|x l IH]; intros [|n]; cbn; try reflexivity. rewrite IH. reflexivity. Qed.

Lemma nth_upd {A} (f : A -> A) (d : A) (l : list A) : forall n m,
  nth m (upd n f l) d = if Nat.eqb n m && Nat.ltb n (length l) then f (nth m l d) else nth m l d.
Proof.
  induction l as [|x l IH]; intros n m.
  - destruct n; cbn; rewrite andb_false_r; reflexivity.
  - destruct n as [|n]; destruct m as [|m]; cbn [upd nth length]; try reflexivity.
    rewrite IH. replace (S n <? S (length l)) with (n <? length l); [reflexivity|].
    destruct (Nat.ltb_spec n (length l)); destruct (Nat.ltb_spec (S n) (S (length l))); lia || reflexivity.
Qed.

Lemma upd_nth_id {A} (f : A -> A) (d : A) (l : list A) : forall n,
  f (nth n l d) = nth n l d -> upd n f l = l.
Proof.
  induction l as [|x l IH]; intros [|n] H; cbn in *; try reflexivity.
  - rewrite H. reflexivity.
  - rewrite IH by exact H. reflexivity.
Qed.

Lemma map_repeat {A B} (f : A -> B) x n : map f (repeat x n) = repeat (f x) n.
Proof. induction n as [|n IH]; [reflexivity|]. cbn. rewrite IH. reflexivity. Qed.

Definition nt (sh : shared) : nat := length (tasks sh).

Lemma get_dummy sh u : nt sh <= u -> get_task sh u = dummy_task.
Proof. intros H. unfold get_task. apply nth_overflow. exact H. Qed.

Lemma nt_set_rel r x sh : nt (set_rel r x sh) = nt sh.
Proof. unfold nt, set_rel. cbn. apply upd_length. Qed.

Lemma get_set_rel r x sh u :
  get_task (set_rel r x sh) u =
  if Nat.eqb r u && Nat.ltb r (nt sh)
  then mkTask (pc (get_task sh u)) (recvs (get_task sh u)) x else get_task sh u.
Proof. unfold get_task, set_rel. cbn [tasks]. rewrite nth_upd. reflexivity. Qed.

Lemma pc_set_rel r x sh u : pc (get_task (set_rel r x sh) u) = pc (get_task sh u).
Proof. rewrite get_set_rel. destruct (_ && _); reflexivity. Qed.

Lemma recvs_set_rel r x sh u : recvs (get_task (set_rel r x sh) u) = recvs (get_task sh u).
Proof. rewrite get_set_rel. destruct (_ && _); reflexivity. Qed.

Lemma rel_set_rel_same r x sh : r < nt sh -> rel (get_task (set_rel r x sh) r) = x.
Proof.
  intros H. rewrite get_set_rel, Nat.eqb_refl. apply Nat.ltb_lt in H. rewrite H. reflexivity.
Qed.

Lemma rel_set_rel_other r x sh u : u <> r -> rel (get_task (set_rel r x sh) u) = rel (get_task sh u).
Proof.
  intros H. rewrite get_set_rel. destruct (Nat.eqb_spec r u); [congruence|]. reflexivity.
Qed.

(* try_receive on a relay that holds no value writes the relay back *)
Lemma set_rel_id r sh : set_rel r (rel (get_task sh r)) sh = sh.
Proof.
  unfold set_rel, get_task. rewrite (upd_nth_id _ dummy_task); [destruct sh; reflexivity|].
  destruct (nth r (tasks sh) dummy_task); reflexivity.
Qed.

Lemma nt_set_recvs t rv sh : nt (set_recvs t rv sh) = nt sh.
Proof. unfold nt, set_recvs. cbn. apply upd_length. Qed.

Lemma get_set_recvs t rv sh u :
  get_task (set_recvs t rv sh) u =
  if Nat.eqb t u && Nat.ltb t (nt sh)
  then mkTask (pc (get_task sh u)) rv (rel (get_task sh u)) else get_task sh u.
Proof. unfold get_task, set_recvs. cbn [tasks]. rewrite nth_upd. reflexivity. Qed.

Lemma pc_set_recvs t rv sh u : pc (get_task (set_recvs t rv sh) u) = pc (get_task sh u).
Proof. rewrite get_set_recvs. destruct (_ && _); reflexivity. Qed.

Lemma rel_set_recvs t rv sh u : rel (get_task (set_recvs t rv sh) u) = rel (get_task sh u).
Proof. rewrite get_set_recvs. destruct (_ && _); reflexivity. Qed.

Lemma recvs_set_recvs_same t rv sh : t < nt sh -> recvs (get_task (set_recvs t rv sh) t) = rv.
Proof.
  intros H. rewrite get_set_recvs, Nat.eqb_refl. apply Nat.ltb_lt in H. rewrite H. reflexivity.
Qed.

Lemma recvs_set_recvs_other t rv sh u : u <> t ->
  recvs (get_task (set_recvs t rv sh) u) = recvs (get_task sh u).
Proof.
  intros H. rewrite get_set_recvs. destruct (Nat.eqb_spec t u); [congruence|]. reflexivity.
Qed.

Lemma nt_set_pc t p sh : nt (set_pc t p sh) = nt sh.
Proof. unfold nt, set_pc. cbn. apply upd_length. Qed.

Lemma get_set_pc t p sh u :
  get_task (set_pc t p sh) u =
  if Nat.eqb t u && Nat.ltb t (nt sh)
  then mkTask p (recvs (get_task sh u)) (rel (get_task sh u)) else get_task sh u.
Proof. unfold get_task, set_pc. cbn [tasks]. rewrite nth_upd. reflexivity. Qed.

Lemma recvs_set_pc t p sh u : recvs (get_task (set_pc t p sh) u) = recvs (get_task sh u).
Proof. rewrite get_set_pc. destruct (_ && _); reflexivity. Qed.

Lemma rel_set_pc t p sh u : rel (get_task (set_pc t p sh) u) = rel (get_task sh u).
Proof. rewrite get_set_pc. destruct (_ && _); reflexivity. Qed.

Lemma pc_set_pc_same t p sh : t < nt sh -> pc (get_task (set_pc t p sh) t) = p.
Proof.
  intros H. rewrite get_set_pc, Nat.eqb_refl. apply Nat.ltb_lt in H. rewrite H. reflexivity.
Qed.

Lemma pc_set_pc_other t p sh u : u <> t -> pc (get_task (set_pc t p sh) u) = pc (get_task sh u).
Proof.
  intros H. rewrite get_set_pc. destruct (Nat.eqb_spec t u); [congruence|]. reflexivity.
Qed.

Lemma nt_add_task p sh : nt (add_task p sh) = S (nt sh).
Proof. unfold nt, add_task. cbn. rewrite app_length. cbn. lia. Qed.

Lemma get_add_task_old p sh u : u < nt sh -> get_task (add_task p sh) u = get_task sh u.
Proof. intros H. unfold get_task, add_task. cbn [tasks]. apply app_nth1. exact H. Qed.

Lemma get_add_task_new p sh : get_task (add_task p sh) (nt sh) = mkTask p [] RlPending.
Proof.
  unfold get_task, add_task, nt. cbn [tasks]. rewrite app_nth2; [|apply le_n].
  rewrite Nat.sub_diag. reflexivity.
Qed.

Lemma get_add_task p sh u :
  get_task (add_task p sh) u =
  if Nat.ltb u (nt sh) then get_task sh u
  else if Nat.eqb u (nt sh) then mkTask p [] RlPending else dummy_task.
Proof.
  destruct (Nat.ltb_spec u (nt sh)) as [H|H]; [apply get_add_task_old; exact H|].
  destruct (Nat.eqb_spec u (nt sh)) as [E|E]; [subst; apply get_add_task_new|].
  apply get_dummy. rewrite nt_add_task. lia.
Qed.

(* a task just added holds no receiver *)
Lemma recvs_add_task p sh u r :
  In r (recvs (get_task (add_task p sh) u)) -> u < nt sh /\ In r (recvs (get_task sh u)).
Proof.
  rewrite get_add_task. destruct (Nat.ltb_spec u (nt sh)) as [L|L]; [intros Hin; split; assumption|].
  destruct (Nat.eqb u (nt sh)); intros [].
Qed.

Lemma in_waiters_of k u sh : In u (waiters_of k sh) <-> In (k, u) (waiters sh).
Proof.
  unfold waiters_of. rewrite in_map_iff. split.
  - intros [[k' u'] [E H]]. cbn in E. subst u'. apply filter_In in H. destruct H as [H1 H2].
    cbn in H2. apply Nat.eqb_eq in H2. subst. exact H1.
  - intros H. exists (k, u). split; [reflexivity|]. apply filter_In. split; [exact H|].
    cbn. apply Nat.eqb_refl.
Qed.

(* Who holds which receiver.  [u < r]: a receiver is that of a task spawned
   later than its holder, so no task holds its own.  [rel .. <> RlDone]: a
   receiver is dropped from [recvs] in the step that takes its value, so a
   held one has not received; that keeps AJoin off "Receiver polled after
   receiving the value" and ATry off TAlready.  One holder at most
   ([wf_uniq]): only the holder moves a relay out of RlComputed. *)
Record WF (sh : shared) : Prop := {
  wf_recv : forall u r, In r (recvs (get_task sh u)) ->
              u < r /\ r < nt sh /\ rel (get_task sh r) <> RlDone;
  wf_nodup : forall u, NoDup (recvs (get_task sh u));
  wf_uniq : forall u1 u2 r, In r (recvs (get_task sh u1)) -> In r (recvs (get_task sh u2)) -> u1 = u2;
  wf_polled : forall r w, rel (get_task sh r) = RlPolled w -> w < nt sh;
  wf_waiters : forall k u, In (k, u) (waiters sh) -> u < nt sh
}.

Lemma WF_init : WF shared0.
Proof.
  constructor; unfold get_task; cbn.
  - intros u r H. destruct u; destruct H.
  - intros u. destruct u; constructor.
  - intros u1 u2 r H. destruct u1; destruct H.
  - intros r w H. destruct r; discriminate.
  - intros k u [].
Qed.

Lemma WF_same (sh sh' : shared) :
  nt sh' = nt sh ->
  (forall u, recvs (get_task sh' u) = recvs (get_task sh u)) ->
  (forall u, rel (get_task sh' u) = rel (get_task sh u)) ->
  waiters sh' = waiters sh ->
  WF sh -> WF sh'.
Proof.
  intros Hn Hr Hl Hw [W1 W2 W3 W4 W5]. constructor.
  - intros u r H. rewrite Hr in H. rewrite Hn, Hl. apply W1. exact H.
  - intros u. rewrite Hr. apply W2.
  - intros u1 u2 r H1 H2. rewrite Hr in H1, H2. eapply W3; eassumption.
  - intros r w H. rewrite Hl in H. rewrite Hn. eapply W4. exact H.
  - intros k u H. rewrite Hw in H. rewrite Hn. eapply W5. exact H.
Qed.

Lemma WF_head sh t r rv' : WF sh -> my_recvs sh t = r :: rv' ->
  t < r /\ r < nt sh /\ rel (get_task sh r) <> RlDone /\ ~ In r rv' /\ NoDup rv'.
Proof.
  intros W Hrv. unfold my_recvs in Hrv.
  destruct (wf_recv sh W t r) as [A [B C]]; [rewrite Hrv; left; reflexivity|].
  pose proof (wf_nodup sh W t) as H. rewrite Hrv in H. inversion H; subst. repeat split; assumption.
Qed.

Lemma WF_set_rel (sh : shared) (r : tid) (x : relay) :
  WF sh -> x <> RlDone -> (forall w, x = RlPolled w -> w < nt sh) -> WF (set_rel r x sh).
Proof.
  intros [W1 W2 W3 W4 W5] Hx Hw. constructor.
  - intros u y H. rewrite recvs_set_rel in H. rewrite nt_set_rel.
    destruct (W1 u y H) as [A [B C]]. split; [exact A|]. split; [exact B|].
    rewrite get_set_rel. destruct (Nat.eqb r y && Nat.ltb r (nt sh)); [exact Hx | exact C].
  - intros u. rewrite recvs_set_rel. apply W2.
  - intros u1 u2 y H1 H2. rewrite recvs_set_rel in H1, H2. eapply W3; eassumption.
  - intros y w H. rewrite nt_set_rel. rewrite get_set_rel in H.
    destruct (Nat.eqb r y && Nat.ltb r (nt sh)); [apply Hw; exact H | eapply W4; exact H].
  - intros k u H. rewrite nt_set_rel. eapply W5. exact H.
Qed.

(* t takes the value out of the relay of its oldest receiver *)
Lemma WF_receive (sh : shared) (t r : tid) (rv' : list tid) :
  WF sh -> t < nt sh -> my_recvs sh t = r :: rv' ->
  WF (set_recvs t rv' (set_rel r RlDone sh)).
Proof.
  intros W Ht Hrv. pose proof W as [W1 W2 W3 W4 W5].
  destruct (WF_head sh t r rv' W Hrv) as [Htr [Hrn [_ [Hnr Hnd]]]]. unfold my_recvs in Hrv.
  assert (Ht' : t < nt (set_rel r RlDone sh)) by (rewrite nt_set_rel; exact Ht).
  (* membership in the new lists implies membership in the old ones, and x <> r *)
  assert (Hin : forall u x, In x (recvs (get_task (set_recvs t rv' (set_rel r RlDone sh)) u)) ->
                 In x (recvs (get_task sh u)) /\ x <> r).
  { intros u x H. destruct (Nat.eq_dec u t) as [->|E].
    - rewrite recvs_set_recvs_same in H by exact Ht'. split.
      + rewrite Hrv. right. exact H.
      + intros ->. exact (Hnr H).
    - rewrite recvs_set_recvs_other, recvs_set_rel in H by exact E. split; [exact H|].
      intros ->. apply E. apply (W3 u t r H). rewrite Hrv. left. reflexivity. }
  constructor.
  - intros u x H. destruct (Hin u x H) as [H1 H2]. rewrite nt_set_recvs, nt_set_rel.
    destruct (W1 u x H1) as [A [B C]]. split; [exact A|]. split; [exact B|].
    rewrite rel_set_recvs, rel_set_rel_other; assumption.
  - intros u. destruct (Nat.eq_dec u t) as [->|E].
    + rewrite recvs_set_recvs_same by exact Ht'. exact Hnd.
    + rewrite recvs_set_recvs_other, recvs_set_rel by exact E. apply W2.
  - intros u1 u2 x H1 H2. apply Hin in H1. apply Hin in H2. eapply W3; [apply H1 | apply H2].
  - intros x w H. rewrite nt_set_recvs, nt_set_rel. rewrite rel_set_recvs in H.
    destruct (Nat.eq_dec x r) as [->|E].
    + rewrite rel_set_rel_same in H by exact Hrn. discriminate.
    + rewrite rel_set_rel_other in H by exact E. eapply W4. exact H.
  - intros k u H. rewrite nt_set_recvs, nt_set_rel. eapply W5. exact H.
Qed.

Lemma WF_add_task (sh : shared) (p : list action) : WF sh -> WF (add_task p sh).
Proof.
  intros [W1 W2 W3 W4 W5]. constructor.
  - intros u r H. apply recvs_add_task in H. rewrite nt_add_task.
    destruct (W1 u r (proj2 H)) as [A [B C]]. split; [exact A|]. split; [lia|].
    rewrite get_add_task_old by exact B. exact C.
  - intros u. rewrite get_add_task. destruct (Nat.ltb u (nt sh)); [apply W2|].
    destruct (Nat.eqb u (nt sh)); constructor.
  - intros u1 u2 r H1 H2. apply recvs_add_task in H1, H2. eapply W3; [apply H1 | apply H2].
  - intros r w H. rewrite nt_add_task. rewrite get_add_task in H.
    destruct (Nat.ltb r (nt sh)); [apply W4 in H; lia|].
    destruct (Nat.eqb r (nt sh)); discriminate.
  - intros k u H. rewrite nt_add_task. apply W5 in H. lia.
Qed.

Lemma WF_new_unheld sh p u : WF sh -> ~ In (nt sh) (recvs (get_task (add_task p sh) u)).
Proof. intros W Hin. apply recvs_add_task, proj2, (wf_recv sh W) in Hin. lia. Qed.

(* t takes the receiver of a later task c that nobody holds *)
Lemma WF_adopt (sh : shared) (t c : tid) :
  WF sh -> t < nt sh -> t < c -> c < nt sh -> rel (get_task sh c) <> RlDone ->
  (forall u, ~ In c (recvs (get_task sh u))) -> WF (set_recvs t (my_recvs sh t ++ [c]) sh).
Proof.
  intros [W1 W2 W3 W4 W5] Ht Htc Hc Hd Hfresh. unfold my_recvs.
  assert (Hin : forall u x, In x (recvs (get_task (set_recvs t (recvs (get_task sh t) ++ [c]) sh) u)) ->
                 In x (recvs (get_task sh u)) \/ (u = t /\ x = c)).
  { intros u x H. destruct (Nat.eq_dec u t) as [->|E].
    - rewrite recvs_set_recvs_same in H by exact Ht. apply in_app_iff in H.
      destruct H as [H|[<-|[]]]; [left; exact H | right; split; reflexivity].
    - rewrite recvs_set_recvs_other in H by exact E. left. exact H. }
  constructor.
  - intros u x H. rewrite nt_set_recvs, rel_set_recvs.
    destruct (Hin u x H) as [H1|[-> ->]]; [apply W1; exact H1 | repeat split; assumption].
  - intros u. destruct (Nat.eq_dec u t) as [->|E].
    + rewrite recvs_set_recvs_same by exact Ht. apply NoDup_snoc; [apply W2 | apply Hfresh].
    + rewrite recvs_set_recvs_other by exact E. apply W2.
  - intros u1 u2 x H1 H2. destruct (Hin u1 x H1) as [A1|[E1 X1]]; destruct (Hin u2 x H2) as [A2|[E2 X2]]; subst.
    + eapply W3; eassumption.
    + destruct (Hfresh _ A1).
    + destruct (Hfresh _ A2).
    + reflexivity.
  - intros x w H. rewrite nt_set_recvs. rewrite rel_set_recvs in H. eapply W4. exact H.
  - intros k u H. rewrite nt_set_recvs. eapply W5. exact H.
Qed.

Lemma WF_spawn (sh : shared) (t : tid) (p : list action) :
  WF sh -> t < nt sh ->
  WF (set_recvs t (my_recvs sh t ++ [nt sh]) (add_task p sh)).
Proof.
  intros W Ht.
  replace (my_recvs sh t) with (my_recvs (add_task p sh) t)
    by (unfold my_recvs; rewrite get_add_task_old by exact Ht; reflexivity).
  apply WF_adopt; rewrite ?nt_add_task; try lia.
  - apply WF_add_task. exact W.
  - rewrite get_add_task_new. discriminate.
  - intros u. apply WF_new_unheld. exact W.
Qed.

Lemma WF_add_waiter sh k t : WF sh -> t < nt sh -> WF (add_waiter k t sh).
Proof.
  intros [W1 W2 W3 W4 W5] Ht. constructor; try assumption.
  intros k' u H. cbn in H. apply in_app_or in H. destruct H as [H|[H|[]]].
  - eapply W5. exact H.
  - inversion H; subst. exact Ht.
Qed.

Lemma WF_set_pc sh t p : WF sh -> WF (set_pc t p sh).
Proof.
  apply WF_same.
  - apply nt_set_pc.
  - intros u. apply recvs_set_pc.
  - intros u. apply rel_set_pc.
  - reflexivity.
Qed.

(* the event by which task t reports that it took v out of the relay of r *)
Definition deliv_ev (r : tid) (v : N) (ev : pevent) : Prop := ev = PGot r v \/ ev = PTry r (TOk v).

(* Action [a] of task t lets the poll go on: new shared state, what is
   reported, what is done to the executor.  Which action it was matters only
   where a task is spawned (for what the action costs, ProofsT). *)
Inductive Next (scripts : list script) (t : tid) (a : action) (sh : shared)
  : shared -> list pevent -> list effect -> Prop :=
| NxNone : Next scripts t a sh sh [] []
| NxWake k (setf : bool) :
    Next scripts t a sh (if setf then set_flag k sh else sh)
         ((if setf then [PSet k] else []) ++ map PWake (waiters_of k sh)) (map FWake (waiters_of k sh))
| NxSpawn s :
    a = ASpawn s ->
    Next scripts t a sh (set_recvs t (my_recvs sh t ++ [nt sh]) (add_task (script_of scripts s) sh))
         [PSpawn (nt sh) s] [FSpawn]
| NxReceive r rv' v ev :
    my_recvs sh t = r :: rv' -> rel (get_task sh r) = RlComputed v -> deliv_ev r v ev ->
    Next scripts t a sh (set_recvs t rv' (set_rel r RlDone sh)) [ev] []
| NxTryNone r rv' :
    my_recvs sh t = r :: rv' -> waiting_rel (rel (get_task sh r)) ->
    Next scripts t a sh sh [PTry r TNotSent] [].

Lemma do_action_next {scripts t sh a rest sh' evs effs} :
  WF sh -> do_action scripts t sh a rest = CNext sh' evs effs -> Next scripts t a sh sh' evs effs.
Proof.
  intros W H. destruct a as [n|k|k|k|s| | |v]; cbn [do_action] in H; try discriminate.
  - destruct (mem k (flags sh)); [|discriminate]. inversion H; subst. apply NxNone.
  - inversion H; subst. apply (NxWake _ _ _ _ k true).
  - inversion H; subst. apply (NxWake _ _ _ _ k false).
  - inversion H; subst. apply NxSpawn. reflexivity.
  - destruct (my_recvs sh t) as [|r rv'] eqn:Hrv; [inversion H; subst; apply NxNone|].
    destruct (relay_poll_cases (rel (get_task sh r)) t) as [[_ E]|[[v [Ev E]]|[_ E]]];
      rewrite E in H; try discriminate.
    inversion H; subst. eapply NxReceive; [exact Hrv | exact Ev | left; reflexivity].
  - destruct (my_recvs sh t) as [|r rv'] eqn:Hrv; [inversion H; subst; apply NxNone|].
    destruct (relay_try_cases (rel (get_task sh r))) as [[Hw E]|[[v [Ev E]]|[Ed _]]].
    + rewrite E, set_rel_id in H. inversion H; subst. eapply NxTryNone; eassumption.
    + rewrite E in H. inversion H; subst. eapply NxReceive; [exact Hrv | exact Ev | right; reflexivity].
    + destruct (WF_head sh t r rv' W Hrv) as [_ [_ [N _]]]. destruct (N Ed).
Qed.

Definition out_ready (x : outcome) : bool := match x with OReady => true | _ => false end.

(* The poll of task t returns at the head of the script [acts], from the
   shared state [shl] reached by the actions before.  The wakes of a yield
   are written as a mapped list, the form the lemmas about wakes take. *)
Inductive Stop (t : tid) (shl : shared) (acts : list action) : pres -> Prop :=
| StComplete v : Stop t shl acts (complete t v shl)
| StYield n rest :
    acts = AYield n :: rest ->
    Stop t shl acts (mkPres shl rest (map PWake (repeat t (S n))) (map FWake (repeat t (S n))) OPend)
| StWait k rest :
    acts = AWait k :: rest -> mem k (flags shl) = false ->
    Stop t shl acts (mkPres (add_waiter k t shl) acts [PReg k] [] OPend)
| StJoin r rv' rest :
    acts = AJoin :: rest -> my_recvs shl t = r :: rv' -> waiting_rel (rel (get_task shl r)) ->
    Stop t shl acts (mkPres (set_rel r (RlPolled t) shl) acts [PJoinReg r] [] OPend).

Lemma do_action_stop scripts t sh a rest r :
  WF sh -> do_action scripts t sh a rest = CStop r -> Stop t sh (a :: rest) r.
Proof.
  intros W H. destruct a as [n|k|k|k|s| | |v]; cbn [do_action] in H; try discriminate.
  - inversion H; subst. rewrite <- !map_repeat. eapply StYield. reflexivity.
  - destruct (mem k (flags sh)) eqn:Hm; [discriminate|]. inversion H; subst. eapply StWait; [reflexivity | exact Hm].
  - destruct (my_recvs sh t) as [|x rv'] eqn:Hrv; [discriminate|].
    destruct (relay_poll_cases (rel (get_task sh x)) t) as [[Hw E]|[[v [_ E]]|[Hd E]]];
      rewrite E in H; try discriminate.
    + inversion H; subst. eapply StJoin; [reflexivity | eassumption | exact Hw].
    + destruct (WF_head sh t x rv' W Hrv) as [_ [_ [N _]]]. destruct (N Hd).
  - destruct (my_recvs sh t) as [|x rv'] eqn:Hrv; [discriminate|].
    destruct (relay_try (rel (get_task sh x))) as [r' res]. destruct res; discriminate.
  - inversion H; subst. apply StComplete.
Qed.

Lemma Next_WF {scripts t a sh sh' evs effs} :
  WF sh -> t < nt sh -> Next scripts t a sh sh' evs effs -> WF sh' /\ nt sh <= nt sh'.
Proof.
  intros W Ht [ |k setf|s _|r rv' v ev Hrv _ _|r rv' _ _]; try (split; [exact W | apply le_n]).
  - destruct setf; (split; [|apply le_n]); [revert W; apply WF_same; reflexivity | exact W].
  - split; [apply WF_spawn; assumption|]. rewrite nt_set_recvs, nt_add_task. lia.
  - split; [eapply WF_receive; eassumption|]. rewrite nt_set_recvs, nt_set_rel. apply le_n.
Qed.

Lemma emit_emit e1 f1 e2 f2 r : emit e1 f1 (emit e2 f2 r) = emit (e1 ++ e2) (f1 ++ f2) r.
Proof. unfold emit. cbn. rewrite !app_assoc. reflexivity. Qed.

Lemma emit_nil r : emit [] [] r = r.
Proof. destruct r; reflexivity. Qed.

(* induction over the actions of a poll: [P sh acts r] holds of every poll
   if it holds where the poll returns and is carried back over every action
   that lets it go on *)
Lemma poll_loop_chain scripts t (P : shared -> list action -> pres -> Prop) :
  (forall sh acts r, WF sh -> t < nt sh -> Stop t sh acts r -> P sh acts r) ->
  (forall sh a rest sh' evs effs r, WF sh -> t < nt sh -> Next scripts t a sh sh' evs effs ->
     P sh' rest r -> P sh (a :: rest) (emit evs effs r)) ->
  forall acts sh, WF sh -> t < nt sh -> P sh acts (poll_loop scripts t sh acts).
Proof.
  intros Hstop Hnext. induction acts as [|a rest IH]; intros sh W Ht; cbn [poll_loop].
  - apply Hstop; [exact W | exact Ht | apply StComplete].
  - destruct (do_action scripts t sh a rest) as [sh' evs effs|r] eqn:Ha.
    + pose proof (do_action_next W Ha) as Hn.
      destruct (Next_WF W Ht Hn) as [W' Hle].
      apply (Hnext sh a rest sh' evs effs); [exact W | exact Ht | exact Hn | apply IH; [exact W' | lia]].
    + apply Hstop; [exact W | exact Ht | eapply do_action_stop; eassumption].
Qed.
