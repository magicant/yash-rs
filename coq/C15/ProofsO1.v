(* C15 — oracle soundness, part 1: the oracle's scheduling rule (time stamps,
   oldest first) and the FIFO queue with duplicate suppression answer alike;
   the relation between the state of the script-system model and the state of
   the oracle; the events of one script action. *)
From Yv Require Import Common.Base C15.Model C15.Spec C15.ProofsA C15.ProofsB1 C15.ProofsB2.
From Coq Require Import Arith Sorting.Sorted.

(* the stamped set [snd s] lists the queue [q] back to front, with stamps
   that increase along [q] and lie below the clock [fst s]: the oldest stamp
   is at the head of the queue *)
Definition Rep (q : list tid) (s : sstate) : Prop :=
  exists st, length st = length q /\ snd s = rev (combine q st) /\
             StronglySorted lt st /\ Forall (fun x => x < fst s) st /\ NoDup q.

Lemma oldest_none p : oldest p = None -> p = [].
Proof.
  destruct p as [|[t c] p]; [reflexivity|]. cbn [oldest]. destruct (oldest p) as [[u d]|].
  - destruct (Nat.ltb c d); intros H; discriminate H.
  - intros H; discriminate H.
Qed.

Lemma oldest_min p : forall u d, oldest p = Some (u, d) ->
  In (u, d) p /\ Forall (fun x => d <= snd x) p.
Proof.
  induction p as [|[t c] p IH]; intros u d H; [discriminate|].
  cbn [oldest] in H. destruct (oldest p) as [[u' d']|] eqn:E.
  - destruct (IH u' d' eq_refl) as [I1 I2]. destruct (Nat.ltb_spec c d') as [L|L]; inversion H; subst.
    + split; [left; reflexivity|]. constructor; [cbn; lia|].
      eapply Forall_impl; [|exact I2]. cbn. intros x Hx. lia.
    + split; [right; exact I1|]. constructor; [cbn; lia | exact I2].
  - inversion H; subst. apply oldest_none in E. subst p. split; [left; reflexivity|].
    constructor; [cbn; lia | constructor].
Qed.

Lemma map_fst_combine (q : list tid) (st : list nat) : length st = length q -> map fst (combine q st) = q.
Proof.
  revert st. induction q as [|x q IH]; intros [|s st] Hl; try discriminate; [reflexivity|].
  cbn. rewrite IH by (cbn in Hl; lia). reflexivity.
Qed.

Lemma pend_mem_In t p : pend_mem t p = true <-> In t (map fst p).
Proof.
  unfold pend_mem. rewrite existsb_exists, in_map_iff. split.
  - intros [x [H1 H2]]. apply Nat.eqb_eq in H2. exists x. split; assumption.
  - intros [x [H1 H2]]. exists x. split; [exact H2 | apply Nat.eqb_eq; exact H1].
Qed.

Lemma pend_mem_rep q st t : length st = length q ->
  pend_mem t (rev (combine q st)) = mem t q.
Proof.
  intros Hl. apply Bool.eq_true_iff_eq. rewrite pend_mem_In, mem_In, map_rev, map_fst_combine by exact Hl.
  symmetry. apply in_rev.
Qed.

Lemma pend_del_notin t (p : list (tid * nat)) : ~ In t (map fst p) -> pend_del t p = p.
Proof.
  unfold pend_del. induction p as [|[x c] p IH]; intros H; [reflexivity|].
  cbn [filter fst]. cbn [map fst In] in H.
  destruct (Nat.eqb_spec x t) as [E|E]; [exfalso; apply H; left; exact E|].
  cbn [negb]. rewrite IH; [reflexivity|]. intros H'. apply H. right. exact H'.
Qed.

Lemma combine_snoc (q : list tid) (st : list nat) t c : length st = length q ->
  combine (q ++ [t]) (st ++ [c]) = combine q st ++ [(t, c)].
Proof.
  revert st. induction q as [|x q IH]; intros [|s st] Hl; try discriminate; [reflexivity|].
  cbn. rewrite IH by (cbn in Hl; lia). reflexivity.
Qed.

Lemma Rep_step q s o : Rep q s ->
  snd (q_step q o) = snd (s_step s o) /\ Rep (fst (q_step q o)) (fst (s_step s o)).
Proof.
  intros [st [Hl [Hp [Hs [Hc Hnd]]]]]. destruct s as [c p]. cbn [fst snd] in *. subst p.
  destruct o as [t|]; cbn [q_step s_step].
  - rewrite pend_mem_rep by exact Hl. destruct (mem t q) eqn:Hm; cbn [fst snd].
    + split; [reflexivity|]. exists st. repeat split; assumption.
    + split; [reflexivity|]. exists (st ++ [c]). cbn [fst snd]. split; [rewrite !app_length; cbn; lia|].
      split.
      * rewrite combine_snoc by exact Hl. rewrite rev_app_distr. reflexivity.
      * split; [|split].
        -- clear Hl Hnd. induction st as [|x st IH]; cbn.
           ++ constructor; constructor.
           ++ inversion Hs; subst. inversion Hc; subst. constructor; [apply IH; assumption|].
              apply Forall_app. split; [assumption | constructor; [lia | constructor]].
        -- apply Forall_app. split.
           ++ eapply Forall_impl; [|exact Hc]. cbn. intros x Hx. lia.
           ++ constructor; [lia | constructor].
        -- apply NoDup_snoc; [exact Hnd | apply mem_false; exact Hm].
  - destruct q as [|t q]; destruct st as [|s0 st]; try discriminate.
    + cbn. split; [reflexivity|]. exists []. cbn. repeat split; try constructor.
    + cbn [combine rev].
      destruct (oldest (rev (combine q st) ++ [(t, s0)])) as [[u d]|] eqn:E.
      * destruct (oldest_min _ _ _ E) as [I1 I2].
        assert (Hu : (u, d) = (t, s0)).
        { apply in_app_or in I1. destruct I1 as [I1|[I1|[]]]; [|symmetry; exact I1].
          apply in_rev, in_combine_r in I1.
          inversion Hs; subst. rewrite Forall_forall in H2. specialize (H2 d I1).
          rewrite Forall_forall in I2. specialize (I2 (t, s0)). cbn in I2.
          assert (d <= s0) by (apply I2; apply in_or_app; right; left; reflexivity). lia. }
        inversion Hu; subst. cbn [fst snd]. split; [reflexivity|].
        inversion Hnd; subst. inversion Hs; subst. inversion Hc; subst.
        exists st. cbn [fst snd]. split; [cbn in Hl; lia|]. split; [|repeat split; assumption].
        unfold pend_del. rewrite filter_app. cbn. rewrite Nat.eqb_refl. cbn. rewrite app_nil_r.
        apply (pend_del_notin t). rewrite map_rev, map_fst_combine by (cbn in Hl; lia).
        intros H. apply in_rev in H. contradiction.
      * apply oldest_none in E. destruct (rev (combine q st)); discriminate.
Qed.

Lemma Rep_take t q c p : Rep (t :: q) (c, p) ->
  exists d, oldest p = Some (t, d) /\ Rep q (c, pend_del t p).
Proof.
  intros R. pose proof (Rep_step (t :: q) _ QTake R) as [E R']. cbn [q_step s_step fst snd] in E, R'.
  destruct (oldest p) as [[u d]|]; cbn [fst snd] in E, R'; [|discriminate].
  inversion E; subst u. exists d. split; [reflexivity | exact R'].
Qed.

Lemma Rep_run ops : forall q s, Rep q s -> q_run q ops = s_run s ops.
Proof.
  induction ops as [|o ops IH]; intros q s R; [reflexivity|].
  cbn. destruct (Rep_step q s o R) as [E R']. destruct (q_step q o) as [q' out], (s_step s o) as [s' out'].
  cbn in E, R'. subst. f_equal. apply IH. exact R'.
Qed.

Lemma Rep_nil c : Rep [] (c, []).
Proof. exists []. cbn. repeat split; constructor. Qed.

Definition RepQ (q : list tid) (o : ost) : Prop := Rep q (o_clock o, o_pend o).

Lemma RepQ_wake q o u : RepQ q o -> RepQ (if mem u q then q else q ++ [u]) (o_wake o u).
Proof.
  intros R. pose proof (Rep_step q _ (QWake u) R) as [_ R']. cbn [q_step s_step fst] in R'.
  unfold RepQ, o_wake. destruct (pend_mem u (o_pend o)); exact R'.
Qed.

Lemma RepQ_mem q o u : RepQ q o -> pend_mem u (o_pend o) = mem u q.
Proof.
  intros [st [Hl [Hp _]]]. cbn [snd] in Hp. rewrite Hp. apply pend_mem_rep. exact Hl.
Qed.

Lemma RepQ_length q o : RepQ q o -> length (o_pend o) = length q.
Proof.
  intros [st [Hl [Hp _]]]. cbn [snd] in Hp. rewrite Hp, rev_length, combine_length, Hl. apply Nat.min_id.
Qed.

Lemma RepQ_nil o : RepQ [] o -> o_pend o = [].
Proof.
  intros [st [Hl [Hp _]]]. cbn [snd] in Hp. destruct st; [|discriminate]. exact Hp.
Qed.

Lemma RepQ_in q o x : RepQ q o -> In x (o_pend o) -> In (fst x) q.
Proof.
  intros [st [Hl [Hp _]]] Hx. cbn [snd] in Hp. rewrite Hp in Hx. apply in_rev in Hx.
  destruct x as [u d]. apply in_combine_l in Hx. exact Hx.
Qed.

(* what the oracle knows about the relay of r *)
Definition relO (o : ost) (r : tid) (x : relay) : Prop :=
  match x with
  | RlPending => alookup r (o_vals o) = None /\ mem r (o_deliv o) = false /\ alookup r (o_join o) = None
  | RlPolled w => alookup r (o_vals o) = None /\ mem r (o_deliv o) = false /\ alookup r (o_join o) = Some w
  | RlComputed v => alookup r (o_vals o) = Some v /\ mem r (o_deliv o) = false
  | RlDone => exists v, alookup r (o_vals o) = Some v /\ mem r (o_deliv o) = true
  end.

(* the last poll of u ended blocked, and the oracle recorded how *)
Definition blockO (o : ost) (sh : shared) (u : tid) : Prop :=
  match pc (get_task sh u) with
  | AWait k :: _ => alookup u (o_block o) = Some (BWait k)
  | AJoin :: _ => exists r rv', recvs (get_task sh u) = r :: rv' /\ alookup u (o_block o) = Some (BJoin r)
  | _ => False
  end.

(* The oracle state [o] after the log so far, against the model's executor
   and shared state.  [cur] is the task whose poll is open, if any: its pc
   and receivers are in flux and [so_block] says nothing of it. *)
Record SimO {e : exec} {sh : shared} {o : ost} {cur : option tid} : Prop := {
  so_rep : RepQ (queue e) o;
  so_qrange : forall u, In u (queue e) -> u < ntasks e;
  so_done : forall u, mem u (o_done o) = mem u (dones e);
  so_next : o_next o = nt sh;
  so_nt : ntasks e = nt sh;
  so_flags : o_flags o = flags sh;
  so_rel : forall r, r < nt sh -> relO o r (rel (get_task sh r));
  so_fut : forall r, nt sh <= r ->
             alookup r (o_vals o) = None /\ mem r (o_deliv o) = false /\ alookup r (o_join o) = None;
  so_block : forall u, u < nt sh -> Some u <> cur -> mem u (dones e) = false ->
               In u (queue e) \/ blockO o sh u
}.
Arguments SimO : clear implicits.

Lemma o_wake_fields o u :
  o_done (o_wake o u) = o_done o /\ o_vals (o_wake o u) = o_vals o /\ o_deliv (o_wake o u) = o_deliv o /\
  o_join (o_wake o u) = o_join o /\ o_flags (o_wake o u) = o_flags o /\ o_block (o_wake o u) = o_block o /\
  o_next (o_wake o u) = o_next o.
Proof. unfold o_wake. destruct (pend_mem u (o_pend o)); cbn; repeat split; reflexivity. Qed.

(* what waking, spawning and receiving leave alone in the oracle's state *)
Definition o_frame (o o' : ost) : Prop :=
  o_polls o' = o_polls o /\ o_skips o' = o_skips o /\ o_block o' = o_block o /\ o_done o' = o_done o.

Lemma o_frame_refl o : o_frame o o.
Proof. repeat split; reflexivity. Qed.

Lemma o_frame_trans a b c : o_frame a b -> o_frame b c -> o_frame a c.
Proof. intros [A1 [A2 [A3 A4]]] [B1 [B2 [B3 B4]]]. repeat split; congruence. Qed.

Lemma o_wake_frame o u : o_frame o (o_wake o u).
Proof. unfold o_frame, o_wake. destruct (pend_mem u (o_pend o)); repeat split; reflexivity. Qed.

Lemma SimO_wake e sh o cur u : u < nt sh -> SimO e sh o cur -> SimO (wake e u) sh (o_wake o u) cur.
Proof.
  intros Hu [A B C D E F G H I].
  destruct (o_wake_fields o u) as [W1 [W2 [W3 [W4 [W5 [W6 W7]]]]]].
  constructor; rewrite ?wake_ntasks, ?wake_dones.
  - rewrite wake_queue_eq. apply RepQ_wake. exact A.
  - intros x Hx. apply wake_queue in Hx. destruct Hx as [Hx| ->]; [apply B; exact Hx | rewrite E; exact Hu].
  - intros x. rewrite W1. apply C.
  - rewrite W7. exact D.
  - exact E.
  - rewrite W5. exact F.
  - intros r Hr. specialize (G r Hr). unfold relO in *. rewrite W2, W3, W4. exact G.
  - intros r Hr. rewrite W2, W3, W4. apply H. exact Hr.
  - intros x Hx Hc Hxd. destruct (I x Hx Hc Hxd) as [J|J].
    + left. apply wake_queue. left. exact J.
    + right. unfold blockO in *. rewrite W6. exact J.
Qed.

Lemma oevs_app cur o a b :
  oevs cur o (a ++ b) = obind (oevs cur o a) (fun o1 => oevs cur o1 b).
Proof.
  revert o. induction a as [|x a IH]; intros o; [reflexivity|].
  cbn [app oevs]. destruct (oev cur o x) as [o1|k]; cbn [obind]; [apply IH | reflexivity].
Qed.

Lemma SimO_wakes cur sh : forall ws e o, (forall u, In u ws -> u < nt sh) -> SimO e sh o cur ->
  exists o', oevs cur o (map PWake ws) = inl o' /\
             SimO (fold_left apply_effect (map FWake ws) e) sh o' cur /\ o_frame o o'.
Proof.
  induction ws as [|w ws IH]; intros e o Hr S.
  - exists o. split; [reflexivity|]. split; [exact S | apply o_frame_refl].
  - cbn [map oevs oev obind fold_left apply_effect].
    destruct (IH (wake e w) (o_wake o w)) as [o' [H1 [H2 H3]]].
    + intros u Hu. apply Hr. right. exact Hu.
    + apply SimO_wake; [apply Hr; left; reflexivity | exact S].
    + exists o'. split; [exact H1|]. split; [exact H2|].
      exact (o_frame_trans _ _ _ (o_wake_frame o w) H3).
Qed.

(* the wakers registered on k are invoked, after setting the flag or without,
   by a task or by the driver *)
Lemma SimO_signal cur e sh o k (setf : bool) : WF sh -> SimO e sh o cur ->
  exists o', oevs cur o ((if setf then [PSet k] else []) ++ map PWake (waiters_of k sh)) = inl o' /\
             SimO (fold_left apply_effect (map FWake (waiters_of k sh)) e) (if setf then set_flag k sh else sh) o' cur /\
             o_frame o o'.
Proof.
  intros W S.
  assert (Hr : forall u, In u (waiters_of k sh) -> u < nt sh).
  { intros u Hu. apply in_waiters_of in Hu. apply (wf_waiters sh W k u Hu). }
  destruct setf; cbn [app oevs oev obind]; [|apply (SimO_wakes cur sh); assumption].
  set (o1 := mkO (o_clock o) (o_pend o) (o_done o) (o_vals o) (o_deliv o) (o_join o)
                 (k :: o_flags o) (o_block o) (o_next o) (o_polls o) (o_skips o)).
  assert (S1 : SimO e (set_flag k sh) o1 cur).
  { destruct S as [A B C D E F G H I]. constructor; try assumption. cbn. rewrite F. reflexivity. }
  exact (SimO_wakes cur (set_flag k sh) _ e o1 Hr S1).
Qed.

(* a change of the shared state the oracle does not see *)
Lemma SimO_sh_same e sh sh' o cur :
  nt sh' = nt sh -> flags sh' = flags sh ->
  (forall u, Some u <> cur -> pc (get_task sh' u) = pc (get_task sh u)) ->
  (forall u, Some u <> cur -> recvs (get_task sh' u) = recvs (get_task sh u)) ->
  (forall u, rel (get_task sh' u) = rel (get_task sh u)) ->
  SimO e sh o cur -> SimO e sh' o cur.
Proof.
  intros Hn Hf Hp Hr Hl [A B C D E F G H I]. constructor; try assumption.
  - rewrite Hn. exact D.
  - rewrite Hn. exact E.
  - rewrite Hf. exact F.
  - intros r Hr'. rewrite Hl. apply G. rewrite <- Hn. exact Hr'.
  - intros r Hr'. apply H. rewrite <- Hn. exact Hr'.
  - intros u Hu Hc Hd. destruct (I u) as [J|J]; try assumption; [rewrite <- Hn; exact Hu | left; exact J|].
    right. unfold blockO in *. rewrite Hp, Hr by exact Hc. exact J.
Qed.

Lemma SimO_set_block e sh o t b : SimO e sh o (Some t) -> SimO e sh (o_set_block o t b) (Some t).
Proof.
  intros [A B C D E F G H I]. constructor; try assumption.
  intros u Hu Hc Hd. destruct (I u Hu Hc Hd) as [J|J]; [left; exact J|]. right.
  unfold blockO in *. cbn [o_set_block o_block alookup].
  assert (N : Nat.eqb t u = false) by (apply Nat.eqb_neq; intros ->; apply Hc; reflexivity).
  rewrite N. exact J.
Qed.

Lemma SimO_reset e sh o cur p : RepQ (queue e) (o_reset o p) -> SimO e sh o cur -> SimO e sh (o_reset o p) cur.
Proof. intros R [A B C D E F G H I]. constructor; try assumption. Qed.

Lemma relO_ext o o' x y :
  alookup x (o_vals o') = alookup x (o_vals o) -> mem x (o_deliv o') = mem x (o_deliv o) ->
  alookup x (o_join o') = alookup x (o_join o) -> relO o x y -> relO o' x y.
Proof. intros H1 H2 H3. unfold relO. rewrite H1, H2, H3. intros H; exact H. Qed.

Lemma alookup_cons_other {B} (t x : nat) (b : B) l : t <> x -> alookup x ((t, b) :: l) = alookup x l.
Proof. intros N. cbn. destruct (Nat.eqb_spec t x); [congruence | reflexivity]. Qed.

(* The relay of r changes: the oracle changes what it knows of r (value,
   delivery, join) and of no other task. *)
Lemma SimO_set_rel e sh o cur r x vals deliv join :
  r < nt sh -> SimO e sh o cur ->
  let o' := mkO (o_clock o) (o_pend o) (o_done o) vals deliv join (o_flags o) (o_block o)
                (o_next o) (o_polls o) (o_skips o) in
  (forall u, u <> r -> alookup u vals = alookup u (o_vals o) /\ mem u deliv = mem u (o_deliv o) /\
                       alookup u join = alookup u (o_join o)) ->
  relO o' r x -> SimO e (set_rel r x sh) o' cur.
Proof.
  intros Hr [A B C D E F G H I] o' Hoth Hx.
  constructor; cbn [o' o_clock o_pend o_done o_flags o_block o_next]; rewrite ?nt_set_rel; try assumption.
  - intros u Hu. destruct (Nat.eq_dec u r) as [->|N].
    + rewrite rel_set_rel_same by exact Hr. exact Hx.
    + rewrite rel_set_rel_other by exact N. destruct (Hoth u N) as [H1 [H2 H3]].
      apply (relO_ext o); [exact H1 | exact H2 | exact H3 | apply G; exact Hu].
  - intros u Hu. destruct (Hoth u) as [H1 [H2 H3]]; [lia|]. cbn [o' o_vals o_deliv o_join].
    rewrite H1, H2, H3. apply H. exact Hu.
  - intros u Hu Hc Hd. destruct (I u Hu Hc Hd) as [J|J]; [left; exact J|].
    right. unfold blockO in *. rewrite pc_set_rel, recvs_set_rel. exact J.
Qed.

(* t takes the value out of the relay of its oldest receiver *)
Lemma SimO_receive e sh o t r rv' v :
  WF sh -> my_recvs sh t = r :: rv' -> rel (get_task sh r) = RlComputed v ->
  SimO e sh o (Some t) ->
  expected_try o r = TOk v /\
  SimO e (set_recvs t rv' (set_rel r RlDone sh)) (o_deliver o r) (Some t).
Proof.
  intros W Hrv Hc S. destruct (WF_head sh t r rv' W Hrv) as [_ [Hrn _]].
  pose proof (so_rel S r Hrn) as Gr. rewrite Hc in Gr. destruct Gr as [G1 G2].
  split; [unfold expected_try; rewrite G2, G1; reflexivity|].
  apply (SimO_sh_same e (set_rel r RlDone sh)).
  - apply nt_set_recvs.
  - reflexivity.
  - intros u _. apply pc_set_recvs.
  - intros u Hcur. apply recvs_set_recvs_other. intros ->. apply Hcur. reflexivity.
  - intros u. apply rel_set_recvs.
  - apply (SimO_set_rel e sh o (Some t) r); [exact Hrn | exact S | |].
    + intros u N. unfold mem. cbn [existsb]. destruct (Nat.eqb_spec u r); [congruence|]. repeat split; reflexivity.
    + exists v. split; [exact G1|]. unfold mem. cbn. rewrite Nat.eqb_refl. reflexivity.
Qed.

(* a task is spawned, from inside a poll or from outside *)
Lemma SimO_spawn e sh o cur p s : SimO e sh o cur ->
  exists o', oev cur o (PSpawn (nt sh) s) = inl o' /\
             SimO (enqueue e) (add_task p sh) o' cur /\ o_frame o o'.
Proof.
  intros [A B C D E F G HH I]. cbn [oev]. rewrite D, Nat.eqb_refl.
  assert (Hcq : mem (nt sh) (queue e) = false).
  { apply mem_false. intros Hin. apply B in Hin. lia. }
  destruct (o_wake_fields o (nt sh)) as [W1 [W2 [W3 [W4 [W5 [W6 W7]]]]]].
  eexists. split; [reflexivity|]. split.
  - constructor; cbn [o_clock o_pend o_done o_vals o_deliv o_join o_flags o_block o_next enqueue queue ntasks dones].
    + pose proof (RepQ_wake _ _ (nt sh) A) as R. rewrite Hcq in R. rewrite E. exact R.
    + intros u Hu. apply in_app_or in Hu. destruct Hu as [Hu|[<-|[]]]; [apply B in Hu; lia | lia].
    + intros u. rewrite W1. apply C.
    + rewrite W7, nt_add_task, D. reflexivity.
    + rewrite nt_add_task, E. reflexivity.
    + rewrite W5. exact F.
    + intros r Hr. rewrite nt_add_task in Hr. unfold relO. rewrite W2, W3, W4, get_add_task.
      destruct (Nat.ltb_spec r (nt sh)) as [L|L]; [apply G; exact L|].
      replace r with (nt sh) by lia. rewrite Nat.eqb_refl. cbn. apply HH. apply le_n.
    + intros r Hr. rewrite nt_add_task in Hr. rewrite W2, W3, W4. apply HH. lia.
    + intros u Hu Hc Hd. rewrite nt_add_task in Hu. destruct (Nat.lt_ge_cases u (nt sh)) as [L|L].
      * destruct (I u L Hc Hd) as [J|J]; [left; apply in_or_app; left; exact J|].
        right. unfold blockO in *. rewrite W6, get_add_task_old by exact L. exact J.
      * left. apply in_or_app. right. left. lia.
  - exact (o_wake_frame o (nt sh)).
Qed.

Lemma act_next {scripts} {t : nat} {a sh sh' evs effs} e o :
  WF sh -> SimO e sh o (Some t) -> Next scripts t a sh sh' evs effs ->
  exists o', oevs (Some t) o evs = inl o' /\
             SimO (fold_left apply_effect effs e) sh' o' (Some t) /\ o_frame o o'.
Proof.
  intros W S [ |k setf|s _|r rv' v ev Hrv Ev Hev|r rv' Hrv Hwr].
  - exists o. split; [reflexivity|]. split; [exact S | apply o_frame_refl].
  - exact (SimO_signal (Some t) e sh o k setf W S).
  - (* spawn: the new receiver goes to t, whose receivers the oracle does not follow *)
    destruct (SimO_spawn e sh o (Some t) (script_of scripts s) s S) as [o' [H1 [H2 H3]]].
    exists o'. cbn [oevs obind fold_left apply_effect]. rewrite H1. split; [reflexivity|]. split; [|exact H3].
    revert H2. apply SimO_sh_same.
    + apply nt_set_recvs.
    + reflexivity.
    + intros u _. apply pc_set_recvs.
    + intros u Hc. apply recvs_set_recvs_other. intros ->. apply Hc. reflexivity.
    + intros u. apply rel_set_recvs.
  - (* a value is received *)
    destruct (SimO_receive e sh o t r rv' v W Hrv Ev S) as [X1 X2].
    exists (o_deliver o r). split; [|split; [exact X2 | repeat split; reflexivity]].
    destruct Hev as [->| ->]; cbn [oevs oev obind]; rewrite X1; cbn; rewrite N.eqb_refl; reflexivity.
  - (* try_receive, nothing sent yet *)
    destruct (WF_head sh t r rv' W Hrv) as [_ [Hrn _]].
    assert (Hex : expected_try o r = TNotSent).
    { pose proof (so_rel S r Hrn) as Gr. unfold expected_try.
      destruct Hwr as [E|[w E]]; rewrite E in Gr; destruct Gr as [G1 [G2 _]]; rewrite G2, G1; reflexivity. }
    exists o. cbn [oevs oev obind]. rewrite Hex. split; [reflexivity|]. split; [exact S | apply o_frame_refl].
Qed.
