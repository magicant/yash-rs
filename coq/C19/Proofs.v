(* C19 — what the kernel laws (the facts that make Model.v a specification) are
   proved from: descriptor tables and allocation, path resolution and
   normalisation, one open file description seen through two descriptors,
   delivery of pending signals, bytes, the cases of an open, the stack of fork
   frames, the equality tests of the run-time check. *)
From Yv Require Import Common.Base C19.Model C19.Spec C19.Run.
From Coq Require Import ZifyBool ZifyN.

Lemma length_set_nth {A} (l : list A) i x : length (set_nth l i x) = length l.
Proof. revert i; induction l as [|y l IH]; intros [|i]; cbn; auto. Qed.

Lemma nth_set_nth_eq {A} (l : list A) i x y :
  nth_error l i = Some y -> nth_error (set_nth l i x) i = Some x.
Proof. revert i; induction l as [|z l IH]; intros [|i]; cbn; try discriminate; auto. Qed.

Lemma nth_set_nth_neq {A} (l : list A) i j x :
  i <> j -> nth_error (set_nth l i x) j = nth_error l j.
Proof.
  revert i j; induction l as [|y l IH]; intros [|i] [|j] H; cbn; auto; try congruence.
Qed.

Lemma Forall_set_nth {A} (P : A -> Prop) l i x : Forall P l -> P x -> Forall P (set_nth l i x).
Proof.
  intros H Hx. revert i; induction H as [|y l Hy Hl IH]; intros [|i]; cbn; constructor; auto.
Qed.

Lemma nth_error_lt {A} (l : list A) i x : nth_error l i = Some x -> i < length l.
Proof. intros H. apply nth_error_Some. congruence. Qed.

Lemma nth_app_new {A} (l : list A) x : nth_error (l ++ [x]) (length l) = Some x.
Proof. rewrite nth_error_app2 by lia. rewrite Nat.sub_diag. reflexivity. Qed.

Lemma fd_get_del_eq t k : fd_get (fd_del t k) k = None.
Proof.
  induction t as [|[k' e] t IH]; cbn; auto.
  destruct (N.eqb k' k) eqn:E; auto. cbn. rewrite E. auto.
Qed.

Lemma fd_get_del_neq t k k' : k <> k' -> fd_get (fd_del t k) k' = fd_get t k'.
Proof.
  intros H. induction t as [|[k0 e] t IH]; cbn; auto.
  destruct (N.eqb k0 k) eqn:E.
  - apply N.eqb_eq in E. subst. destruct (N.eqb k k') eqn:E'; auto.
    apply N.eqb_eq in E'. congruence.
  - cbn. rewrite IH. reflexivity.
Qed.

Lemma fd_get_put_eq t k e : fd_get (fd_put t k e) k = Some e.
Proof. unfold fd_put; cbn. rewrite N.eqb_refl. reflexivity. Qed.

Lemma fd_get_put_neq t k e k' : k <> k' -> fd_get (fd_put t k e) k' = fd_get t k'.
Proof.
  intros H. unfold fd_put; cbn.
  destruct (N.eqb k k') eqn:E. { apply N.eqb_eq in E. congruence. }
  apply fd_get_del_neq; auto.
Qed.

Lemma fd_get_In t fd e : fd_get t fd = Some e -> In (fd, e) t.
Proof.
  induction t as [|[k e'] t IH]; cbn; try discriminate.
  destruct (N.eqb k fd) eqn:E; intros H.
  - apply N.eqb_eq in E. inversion H; subst. auto.
  - auto.
Qed.

Lemma fd_del_In t fd k e : In (k, e) (fd_del t fd) -> In (k, e) t.
Proof.
  induction t as [|[k' e'] t IH]; cbn; auto.
  destruct (N.eqb k' fd); cbn; intuition.
Qed.

Lemma fd_del_length t k : length (fd_del t k) <= length t.
Proof. induction t as [|[k' e] t IH]; cbn; auto. destruct (N.eqb k' k); cbn; lia. Qed.

Lemma fd_del_length_mem t k : fd_mem t k = true -> length (fd_del t k) < length t.
Proof.
  unfold fd_mem. induction t as [|[k' e] t IH]; cbn; try discriminate.
  destruct (N.eqb k' k); intros H.
  - apply Nat.lt_succ_r, fd_del_length.
  - cbn. apply -> Nat.succ_lt_mono. apply IH, H.
Qed.

Lemma fd_mem_del_neq t k k' : k <> k' -> fd_mem (fd_del t k) k' = fd_mem t k'.
Proof. intros H. unfold fd_mem. rewrite fd_get_del_neq; auto. Qed.

(* pigeonhole: [f] consecutive descriptors that are all in the table need a
   table of at least [f] entries *)
Lemma consecutive_members : forall f t m,
  (forall k, (m <= k < m + N.of_nat f)%N -> fd_mem t k = true) -> f <= length t.
Proof.
  induction f as [|f IH]; intros t m H; [lia|].
  assert (Hm : fd_mem t m = true) by (apply H; lia).
  pose proof (fd_del_length_mem t m Hm) as Hl.
  (* without [m] the table still holds the other [f] *)
  assert (f <= length (fd_del t m)); [|lia].
  apply (IH _ (m + 1)%N). intros k Hk. rewrite fd_mem_del_neq by lia. apply H. lia.
Qed.

Lemma free_from_bounds t f m : (m <= free_from t f m <= m + N.of_nat f)%N.
Proof.
  revert m; induction f as [|f IH]; intros m; cbn; [lia|].
  destruct (fd_mem t m); [|lia]. specialize (IH (m + 1)%N). lia.
Qed.

Lemma free_from_le t f m : (free_from t f m <= m + N.of_nat f)%N.
Proof. apply free_from_bounds. Qed.

Lemma free_from_below t f m k :
  (m <= k < free_from t f m)%N -> fd_mem t k = true.
Proof.
  revert m; induction f as [|f IH]; intros m; cbn; [lia|].
  destruct (fd_mem t m) eqn:E; [|lia].
  intros H. destruct (N.eq_dec k m) as [->|Hne]; auto. apply (IH (m + 1)%N). lia.
Qed.

Lemma free_from_stop t f m :
  fd_mem t (free_from t f m) = true -> free_from t f m = (m + N.of_nat f)%N.
Proof.
  revert m; induction f as [|f IH]; intros m; cbn; [intros; lia|].
  destruct (fd_mem t m) eqn:E; [|congruence].
  intros H. apply IH in H. lia.
Qed.

Lemma k_dup_ok s fd m cx s' fd' :
  k_dup s fd m cx = (s', RFd fd') ->
  exists e, fd_get (fds s) fd = Some e /\ can_alloc s m = true /\ fd' = lowest_free (fds s) m /\
            s' = set_fds s (fd_put (fds s) fd' (mkEnt (e_ofd e) cx)).
Proof.
  unfold k_dup. destruct (N.ltb fd_limit m); try discriminate.
  destruct (fd_get (fds s) fd) as [e|]; try discriminate.
  destruct (N.leb (p_limit (k_cur s)) m); try discriminate.
  destruct (can_alloc s m); try discriminate.
  intros H. injection H as <- <-. eauto.
Qed.

Lemma walk_app u ino st a b :
  walk u ino st (a ++ b) =
  match walk u ino st a with WOk st' => walk u ino st' b | r => r end.
Proof.
  revert st; induction a as [|c a IH]; intros st; cbn; auto.
  destruct (nth_error ino (top st)) as [[| perm ents |]|]; auto.
  destruct (u && negb (may_x perm)); auto.
  destruct (is_dot c); auto.
  destruct (is_dotdot c). { destruct st; auto. }
  destruct (lookup ents c); auto.
Qed.

Lemma walk_resolves u ino : forall cs st st', walk u ino st cs = WOk st' -> Resolves u ino st cs st'.
Proof.
  induction cs as [|c cs IH]; intros st st' H; cbn in H.
  - inversion H; constructor.
  - destruct (nth_error ino (top st)) as [[| perm ents |]|] eqn:En; try discriminate.
    destruct (u && negb (may_x perm)) eqn:Ex; try discriminate.
    destruct (is_dot c) eqn:Ed. { eapply RsDot; eauto. }
    destruct (is_dotdot c) eqn:Edd.
    + destruct st as [|e st]; try discriminate. eapply RsUp; eauto.
    + destruct (lookup ents c) eqn:El; try discriminate. eapply RsName; eauto.
Qed.

Lemma resolves_walk u ino : forall st cs st', Resolves u ino st cs st' -> walk u ino st cs = WOk st'.
Proof.
  induction 1 as [st | st c cs st' perm ents En Ex Ed _ IH | e st c cs st' perm ents En Ex Ed Edd _ IH
                 | st c cs st' perm ents i En Ex Ed Edd El _ IH]; cbn [walk]; auto.
  - rewrite En, Ex, Ed. exact IH.
  - rewrite En, Ex, Ed, Edd. exact IH.
  - rewrite En, Ex, Ed, Edd, El. exact IH.
Qed.

Lemma walk_snoc_name u ino st0 acc a st :
  is_dot a = false -> is_dotdot a = false ->
  walk u ino st0 (acc ++ [a]) = WOk st ->
  exists i st1, st = (a, i) :: st1 /\ walk u ino st0 acc = WOk st1.
Proof.
  intros Hd Hdd. rewrite walk_app. destruct (walk u ino st0 acc) as [st1| |]; try discriminate.
  cbn. destruct (nth_error ino (top st1)) as [[| perm ents |]|]; try discriminate.
  destruct (u && negb (may_x perm)); try discriminate.
  rewrite Hd, Hdd. destruct (lookup ents a) as [i|]; try discriminate.
  intros H; inversion H; eauto.
Qed.

Lemma is_dot_not_dotdot c : is_dot c = true -> is_dotdot c = false.
Proof.
  unfold is_dot, is_dotdot. intros H. apply str_eqb_eq in H. subst. reflexivity.
Qed.

(* Lexical normalisation does not change where a path leads, PROVIDED the
   original path resolves (every `x/..` really passes through a directory x):
   by induction on the resolution, [acc] being the normal form so far. *)
Lemma norm_walk u ino st0 : forall st cs st',
  Resolves u ino st cs st' -> forall acc,
  Forall (fun a => is_dot a = false) acc ->
  walk u ino st0 (rev acc) = WOk st ->
  walk u ino st0 (norm acc cs) = WOk st'.
Proof.
  induction 1 as [st | st c cs st' perm ents En Ex Ed _ IH | e st c cs st' perm ents En Ex Ed Edd _ IH
                 | st c cs st' perm ents i En Ex Ed Edd El _ IH]; intros acc Hnd Hacc; cbn [norm].
  - exact Hacc.
  - rewrite Ed. apply IH; assumption.
  - rewrite Ed, Edd. destruct acc as [|a acc'].
    + cbn in Hacc. injection Hacc as ->.
      apply IH; [constructor; auto|]. cbn [rev app walk]. rewrite En, Ex, Ed, Edd. reflexivity.
    + inversion Hnd as [|? ? Hda Hnd']; subst.
      destruct (is_dotdot a) eqn:Ea.
      * apply IH; [constructor; auto|].
        change (rev (c :: a :: acc')) with (rev (a :: acc') ++ [c]).
        rewrite walk_app, Hacc. cbn [walk]. rewrite En, Ex, Ed, Edd. reflexivity.
      * cbn [rev] in Hacc.
        destruct (walk_snoc_name _ _ _ _ _ _ Hda Ea Hacc) as (i & st2 & Heq & H2).
        injection Heq as _ <-. apply IH; assumption.
  - rewrite Ed, Edd. apply IH; [constructor; auto|].
    change (rev (c :: acc)) with (rev acc ++ [c]).
    rewrite walk_app, Hacc. cbn [walk]. rewrite En, Ex, Ed, Edd, El. reflexivity.
Qed.

Lemma norm_keeps_no_dot : forall cs acc,
  Forall (fun a => is_dot a = false) acc ->
  Forall (fun a => is_dot a = false) (norm acc cs).
Proof.
  induction cs as [|c cs IH]; intros acc H; cbn.
  - apply Forall_rev. exact H.
  - destruct (is_dot c) eqn:Ed; auto.
    destruct (is_dotdot c).
    + destruct acc as [|a acc']; [apply IH; constructor; auto|].
      inversion H; subst. destruct (is_dotdot a); apply IH; auto.
    + apply IH. constructor; auto.
Qed.

Lemma get_ofd_inv s fd id o :
  get_ofd s fd = Some (id, o) ->
  exists e, fd_get (fds s) fd = Some e /\ e_ofd e = id /\ nth_error (k_ofd s) id = Some o.
Proof.
  unfold get_ofd. destruct (fd_get (fds s) fd) as [e|]; try discriminate.
  destruct (nth_error (k_ofd s) (e_ofd e)) as [o'|] eqn:E; try discriminate.
  intros H; inversion H; subst. eauto.
Qed.

Lemma get_ofd_intro s fd e o :
  fd_get (fds s) fd = Some e -> nth_error (k_ofd s) (e_ofd e) = Some o ->
  get_ofd s fd = Some (e_ofd e, o).
Proof. unfold get_ofd. intros -> ->. reflexivity. Qed.

Definition with_off (o : ofd) (n : N) : ofd := mkOfd (o_ino o) n (o_rd o) (o_wr o) (o_app o).

Lemma set_off_fds s id o n : fds (set_off s id o n) = fds s.
Proof. reflexivity. Qed.
Lemma set_off_ino s id o n : k_ino (set_off s id o n) = k_ino s.
Proof. reflexivity. Qed.
Lemma set_off_ofd s id o n : k_ofd (set_off s id o n) = set_nth (k_ofd s) id (with_off o n).
Proof. reflexivity. Qed.

Lemma get_ofd_set_off s fd id o n :
  get_ofd s fd = Some (id, o) -> get_ofd (set_off s id o n) fd = Some (id, with_off o n).
Proof.
  intros Hg. destruct (get_ofd_inv _ _ _ _ Hg) as (e & G & <- & Nn).
  rewrite (get_ofd_intro _ _ e (with_off o n)); [reflexivity | exact G |].
  rewrite set_off_ofd. eapply nth_set_nth_eq; eauto.
Qed.

(* [s3]: the same process later, or another process that runs on the same
   tables (the parent, once the child has exited) *)
Lemma lseek_ok s fd w off s2 n :
  k_lseek s fd w off = (s2, ROff n) ->
  exists e, fd_get (fds s) fd = Some e /\ fds s2 = fds s /\ k_susp s2 = k_susp s /\
  forall s3 fd' e',
    k_ino s3 = k_ino s2 -> k_ofd s3 = k_ofd s2 ->
    fd_get (fds s3) fd' = Some e' -> e_ofd e' = e_ofd e ->
    exists s4, k_lseek s3 fd' WCur 0 = (s4, ROff n).
Proof.
  intros Hl. unfold k_lseek, get_ofd in Hl.
  destruct (fd_get (fds s) fd) as [e|] eqn:G; [|discriminate].
  destruct (nth_error (k_ofd s) (e_ofd e)) as [o|] eqn:No; [|discriminate].
  destruct (nth_error (k_ino s) (o_ino o)) as [[perm data| |]|] eqn:Ei; try discriminate.
  match type of Hl with (if ?c then _ else _) = _ => destruct c eqn:Ec end; try discriminate.
  inversion Hl; subst s2 n. clear Hl.
  set (n := Z.to_N _) in *.
  exists e. repeat split. intros s3 fd' e' Hi Ho G' I'.
  unfold k_lseek, get_ofd. rewrite G', I', Ho, Hi, set_off_ofd, set_off_ino.
  erewrite nth_set_nth_eq by eauto. cbn [with_off o_ino o_off]. rewrite Ei.
  assert (Hz : (Z.of_N n + 0 <? 0)%Z = false) by lia. rewrite Hz.
  eexists. f_equal. f_equal. lia.
Qed.

Lemma mem_insert_n x l : mem_n x (insert_n x l) = true.
Proof.
  induction l as [|y l IH]; cbn. { rewrite N.eqb_refl. reflexivity. }
  destruct (N.ltb x y) eqn:E1. { cbn. rewrite N.eqb_refl. reflexivity. }
  destruct (N.eqb x y) eqn:E2; cbn; rewrite ?E2; cbn; auto.
Qed.

Lemma mem_remove_n x l : mem_n x (remove_n x l) = false.
Proof.
  induction l as [|y l IH]; cbn; auto.
  destruct (N.eqb x y) eqn:E; cbn; rewrite ?E; auto.
Qed.

Lemma notify_caught p :
  get_disp (g_disp (p_sig p)) sigchld = DCatch -> mem_n sigchld (g_mask (p_sig p)) = false ->
  mem_n sigchld (g_caught (p_sig (notify p))) = true.
Proof. intros Hd Hm. unfold notify, generate. rewrite Hd, Hm. cbn. apply mem_insert_n. Qed.

Lemma sig_in_range sig : (sig < nsig)%N -> negb (N.ltb sig nsig) = false.
Proof. intros H. apply negb_false_iff, N.ltb_lt, H. Qed.

Lemma deliver_pending_dies g sig cands :
  g_pend g = [sig] -> mem_n sig (g_mask g) = false ->
  get_disp (g_disp g) sig = DDefault -> sig <> sigchld -> In sig cands ->
  deliver_pending g cands = None.
Proof.
  intros Hp Hm Hd Hc. induction cands as [|c cands IH]; intros Hin; [destruct Hin|].
  cbn [deliver_pending]. rewrite Hp. cbn [mem_n]. rewrite orb_false_r.
  destruct (N.eqb_spec c sig) as [->|Hne].
  - rewrite Hm. cbn [negb andb]. unfold deliver. cbn [g_disp].
    rewrite Hd, (proj2 (N.eqb_neq _ _) Hc). reflexivity.
  - apply IH. destruct Hin; [congruence | assumption].
Qed.

Lemma all_sigs_select sig : (sig < nsig)%N -> filter (fun c => N.eqb c sig) all_sigs = [sig].
Proof.
  intros H. assert (Hc : (sig = 0 \/ sig = 1 \/ sig = 2 \/ sig = 3 \/ sig = 4 \/ sig = 5 \/ sig = 6)%N)
    by (unfold nsig in H; lia).
  destruct Hc as [->|[->|[->|[->|[->|[->| ->]]]]]]; reflexivity.
Qed.

(* A child's sigprocmask call whose new mask does not hold its one pending
   signal, the action being the default, fatal one: the child dies inside the
   call.  Whatever the call was (block, unblock, set) and whatever else the
   masks hold. *)
Lemma k_sigmask_dies s how sigs sig p rest :
  k_susp s = p :: rest -> sigs_ok sigs = true -> (how <= 2)%N ->
  let g := p_sig (k_cur s) in
  let new := if N.eqb how 0 then fold_right insert_n (g_mask g) sigs
             else if N.eqb how 1 then fold_right remove_n (g_mask g) sigs
             else norm_set sigs in
  g_pend g = [sig] -> mem_n sig new = false -> get_disp (g_disp g) sig = DDefault ->
  (sig < nsig)%N -> sig <> sigtstp -> sig <> sigchld ->
  k_sigmask s how sigs =
  (mkK (k_ino s) (k_ofd s) (k_cur s) (k_susp s) (Some (sig, O)) (k_unpriv s), RSkip).
Proof.
  intros Hs Hok Hhow g new Hpend Hnew Hd Hsig Htstp Hchld.
  apply N.eqb_neq in Htstp. pose proof (proj2 (N.eqb_neq _ _) Hchld) as Echld.
  assert (Hin : In sig all_sigs).
  { apply (proj1 (filter_In (fun c => N.eqb c sig) sig all_sigs)).
    rewrite (all_sigs_select sig Hsig). left. reflexivity. }
  unfold k_sigmask. rewrite Hok, (proj2 (N.ltb_ge 2 how) Hhow). cbn [negb orb]. fold g. fold new.
  rewrite (deliver_pending_dies (mkSig (g_disp g) new (g_pend g) (g_caught g)) sig _
             Hpend Hnew Hd Hchld Hin).
  rewrite (filter_ext _ (fun c => N.eqb c sig)), (all_sigs_select sig Hsig), Htstp, Hs; [reflexivity|].
  intros c. rewrite Hpend. cbn [mem_n]. rewrite orb_false_r.
  destruct (N.eqb_spec c sig) as [->|]; [rewrite Hnew, Hd, Echld|]; reflexivity.
Qed.

Lemma nlen_to_nat l : N.to_nat (nlen l) = length l.
Proof. unfold nlen. apply Nat2N.id. Qed.

Lemma nlen_app a b : nlen (a ++ b) = (nlen a + nlen b)%N.
Proof. unfold nlen. rewrite app_length. lia. Qed.

Lemma write_at_end data b : write_at data (nlen data) b = data ++ b.
Proof.
  unfold write_at. rewrite N.leb_refl. unfold ntake, ndrop.
  rewrite nlen_to_nat, firstn_all.
  rewrite skipn_all2 by (rewrite N2Nat.inj_add, !nlen_to_nat; lia).
  rewrite app_nil_r. reflexivity.
Qed.

Lemma zeros_length n : length (zeros n) = N.to_nat n.
Proof. unfold zeros. apply repeat_length. Qed.

Lemma write_at_read_back data off b :
  ntake (nlen b) (ndrop off (write_at data off b)) = b.
Proof.
  unfold write_at, ntake, ndrop. rewrite nlen_to_nat.
  destruct (N.leb off (nlen data)) eqn:E.
  - assert (Hl : N.to_nat off <= length data) by (unfold nlen in E; lia).
    rewrite skipn_app. rewrite firstn_length, Nat.min_l by lia.
    rewrite skipn_all2 by (rewrite firstn_length; lia).
    rewrite Nat.sub_diag. cbn [skipn app].
    rewrite firstn_app, Nat.sub_diag, firstn_all. cbn. apply app_nil_r.
  - assert (Hl : length data < N.to_nat off) by (unfold nlen in E; lia).
    rewrite app_assoc, skipn_app.
    assert (Hz : length (data ++ zeros (off - nlen data)) = N.to_nat off).
    { rewrite app_length, zeros_length. unfold nlen. lia. }
    rewrite skipn_all2 by lia. rewrite Hz, Nat.sub_diag. cbn [skipn app].
    apply firstn_all.
Qed.

Lemma testbit_511 i : N.testbit 511 i = (i <? 9)%N.
Proof.
  change 511%N with (N.ones 9).
  destruct (N.ltb_spec i 9).
  - apply N.ones_spec_low; auto.
  - apply N.ones_spec_high; auto.
Qed.

Lemma install_fstat s1 o cx s' fd n :
  install s1 o cx = (s', fd) -> nth_error (k_ino s1) (o_ino o) = Some n ->
  k_fstat s' fd = (s', stat_of n).
Proof.
  unfold install. intros H Hn. injection H as <- <-.
  unfold k_fstat, get_ofd. unfold fds at 1. cbn [set_fds set_cur k_cur p_fds k_ofd set_ofd k_ino].
  rewrite fd_get_put_eq. cbn [e_ofd]. rewrite nth_app_new, Hn. reflexivity.
Qed.

Lemma comps_split (cs : list str) last rinit : rev cs = last :: rinit -> cs = rev rinit ++ [last].
Proof. intros H. rewrite <- (rev_involutive cs), H. reflexivity. Qed.

Lemma resolve_last u ino cwd p last rinit :
  nonempty p = true ->
  rev (comps p) = last :: rinit ->
  is_dot last = false -> is_dotdot last = false -> trailing_slash p = false ->
  resolve u ino cwd p =
  match walk u ino (start cwd p) (rev rinit) with
  | WOk st =>
      match nth_error ino (top st) with
      | Some (IDir perm ents) =>
          if u && negb (may_x perm) then WErr EACCES else
          match lookup ents last with
          | Some i => WOk ((last, i) :: st)
          | None => WErr ENOENT
          end
      | Some _ => WErr ENOTDIR
      | None => WOut
      end
  | r => r
  end.
Proof.
  intros Hne Hr Hd Hdd Hts. unfold resolve. rewrite Hne. cbn [negb].
  rewrite (comps_split _ _ _ Hr), walk_app.
  destruct (walk u ino (start cwd p) (rev rinit)) as [st| |]; auto.
  cbn [walk]. destruct (nth_error ino (top st)) as [[| perm ents |]|]; auto.
  destruct (u && negb (may_x perm)); auto.
  rewrite Hd, Hdd. destruct (lookup ents last); auto.
  rewrite Hts. reflexivity.
Qed.

(* [k_open_inner] case by case.  With flags of the domain, a path that resolves
   is opened as the inode it leads to; for any other path the call either fails
   and leaves the state alone, or creates the file: an empty regular inode with
   the masked mode is appended and entered in an existing directory, and a
   description of it is installed. *)
Lemma k_open_inner_cases s p a f mode :
  flags_ok a f = true ->
  let w := resolve (k_unpriv s) (k_ino s) (p_cwd (k_cur s)) p in
  forall Q : kstate * res -> Prop,
  (forall st, w = WOk st -> Q (open_existing s (top st) a f)) ->
  (forall r, (forall st, w <> WOk st) -> (forall fd, r <> RFd fd) -> Q (s, r)) ->
  (forall d perm ents name,
     (forall st, w <> WOk st) -> nth_error (k_ino s) d = Some (IDir perm ents) ->
     Q (let i := length (k_ino s) in
        let perm' := mask mode (p_umask (k_cur s)) in
        let s1 := set_ino s (add_entry (k_ino s ++ [IReg perm' []]) d name i) in
        let '(s', fd) :=
          install s1 (mkOfd i 0 (readable a) (writable a) (f_append f)) (f_cloexec f) in
        (s', RFd fd))) ->
  Q (k_open_inner s p a f mode).
Proof.
  intros Hok w Q Hex Hfail Hcr.
  assert (Ew : w = resolve (k_unpriv s) (k_ino s) (p_cwd (k_cur s)) p) by reflexivity. clearbody w.
  assert (Hwhole : Q match w with
                     | WOk st => open_existing s (top st) a f
                     | WErr e => if f_creat f then (s, ROut) else (s, RErr e)
                     | WOut => (s, ROut)
                     end).
  { destruct w as [st|e|]; [apply Hex; reflexivity | destruct (f_creat f) |]; apply Hfail; discriminate. }
  unfold k_open_inner. rewrite Hok, <- Ew. cbn [negb orb].
  destruct (nonempty p) eqn:Hne; cbn [negb].
  2: { unfold resolve in Ew. rewrite Hne in Ew. subst w. apply Hfail; discriminate. }
  destruct (rev (comps p)) as [|name rinit] eqn:Hr; [exact Hwhole|].
  destruct (is_dot name) eqn:Hd; [exact Hwhole|].
  destruct (is_dotdot name) eqn:Hdd; [exact Hwhole|].
  destruct (trailing_slash p) eqn:Hts; [exact Hwhole|]. cbn [orb]. clear Hwhole.
  rewrite (resolve_last _ _ _ _ _ _ Hne Hr Hd Hdd Hts) in Ew. revert Ew.
  destruct (walk (k_unpriv s) (k_ino s) (start (p_cwd (k_cur s)) p) (rev rinit)) as [st1| |];
    [|intros ->; apply Hfail; discriminate ..].
  destruct (nth_error (k_ino s) (top st1)) as [[| perm ents |]|] eqn:En;
    try (intros ->; apply Hfail; discriminate).
  destruct (k_unpriv s && negb (may_x perm)); [intros ->; apply Hfail; discriminate|].
  destruct (lookup ents name) as [i|]; intros ->; [apply (Hex ((name, i) :: st1)); reflexivity|].
  destruct (f_creat f); cbn [andb]; [|apply Hfail; discriminate].
  destruct (k_unpriv s && negb (may_w perm)); [apply Hfail; discriminate|].
  apply (Hcr _ perm ents name); [discriminate | exact En].
Qed.

Lemma k_open_inner_resolved s p a f mode st :
  flags_ok a f = true ->
  resolve (k_unpriv s) (k_ino s) (p_cwd (k_cur s)) p = WOk st ->
  k_open_inner s p a f mode = open_existing s (top st) a f.
Proof.
  intros Hok Er. apply (k_open_inner_cases s p a f mode Hok); rewrite Er.
  - intros st0 E. injection E as <-. reflexivity.
  - intros r E. destruct (E st eq_refl).
  - intros d perm ents name E. destruct (E st eq_refl).
Qed.

Lemma k_open_ok s p a f mode s' fd :
  k_open s p a f mode = (s', RFd fd) ->
  k_open_inner s p a f mode = (s', RFd fd) /\ can_alloc s 0 = true.
Proof.
  unfold k_open. destruct (can_alloc s 0); auto.
  destruct (snd (k_open_inner s p a f mode)); discriminate.
Qed.

Lemma open_existing_trunc s i a f s' fd :
  open_existing s i a f = (s', RFd fd) -> flags_ok a f = true -> f_trunc f = true ->
  exists perm, k_fstat s' fd = (s', RStat KReg 0 perm).
Proof.
  unfold open_existing. intros H Hok Ht.
  assert (Hw : writable a = true).
  { unfold flags_ok in Hok. rewrite Ht in Hok. destruct (writable a); auto.
    cbn in Hok. rewrite andb_false_r in Hok. discriminate. }
  destruct (f_creat f && f_excl f); try discriminate.
  destruct (nth_error (k_ino s) i) as [[perm data| perm ents | data]|] eqn:En; try discriminate.
  - destruct (f_dir f); try discriminate.
    destruct (k_unpriv s && _); try discriminate. rewrite Ht in H.
    destruct (install _ _ _) as [s2 fd2] eqn:Ei. inversion H; subst s2 fd2; clear H.
    exists perm.
    refine (install_fstat _ _ _ _ _ (IReg perm []) Ei _).
    cbn [o_ino set_ino k_ino]. eapply nth_set_nth_eq; eauto.
  - rewrite Hw in H. discriminate.
Qed.

Lemma add_entry_new l d name perm :
  d < length l ->
  nth_error (add_entry (l ++ [IReg perm []]) d name (length l)) (length l) = Some (IReg perm []).
Proof.
  intros Hd. unfold add_entry.
  destruct (nth_error (l ++ [IReg perm []]) d) as [[| p ents |]|]; try apply nth_app_new.
  rewrite nth_set_nth_neq by lia. apply nth_app_new.
Qed.

Lemma k_open_inner_flags s p a f mode s' fd :
  k_open_inner s p a f mode = (s', RFd fd) -> flags_ok a f = true.
Proof. unfold k_open_inner. destruct (flags_ok a f); [reflexivity | discriminate]. Qed.

Lemma k_open_inner_created s p a f mode s' fd :
  k_open_inner s p a f mode = (s', RFd fd) ->
  (forall st, resolve (k_unpriv s) (k_ino s) (p_cwd (k_cur s)) p <> WOk st) ->
  k_fstat s' fd = (s', RStat KReg 0 (mask mode (p_umask (k_cur s)))).
Proof.
  intros H Hnr. pose proof (k_open_inner_flags _ _ _ _ _ _ _ H) as Hok. revert H.
  apply (k_open_inner_cases s p a f mode Hok).
  - intros st E. destruct (Hnr st E).
  - intros r _ Hr H. injection H as _ ->. destruct (Hr fd eq_refl).
  - intros d perm ents name _ Hd. cbv zeta.
    destruct (install _ _ _) as [s2 fd2] eqn:Ei. intros H. injection H as <- <-.
    refine (install_fstat _ _ _ _ _ (IReg (mask mode (p_umask (k_cur s))) []) Ei _).
    cbn [o_ino set_ino k_ino]. apply add_entry_new. eapply nth_error_lt; eauto.
Qed.

Lemma nonempty_nlen b : nonempty b = true -> (nlen b =? 0)%N = false.
Proof. destruct b; cbn; [discriminate|]. intros _. unfold nlen. cbn [length]. lia. Qed.

Lemma write_reg s fd id o perm data b :
  get_ofd s fd = Some (id, o) -> o_wr o = true ->
  nth_error (k_ino s) (o_ino o) = Some (IReg perm data) -> nonempty b = true ->
  let off := if o_app o then nlen data else o_off o in
  let s' := fst (k_write s fd b) in
  snd (k_write s fd b) = RCount (nlen b) /\
  nth_error (k_ino s') (o_ino o) = Some (IReg perm (write_at data off b)) /\
  get_ofd s' fd = Some (id, with_off o (off + nlen b)).
Proof.
  intros Hg Hw Hi Hb. unfold k_write. rewrite Hb, Hg, Hw, Hi. cbn [negb fst snd].
  split; [reflexivity|]. split.
  - cbn [set_off set_ofd set_ino k_ino]. eapply nth_set_nth_eq; eauto.
  - apply (get_ofd_set_off (set_ino s _)), Hg.
Qed.

Lemma notify_rest p :
  p_fds (notify p) = p_fds p /\ p_cwd (notify p) = p_cwd p /\ p_umask (notify p) = p_umask p /\
  p_limit (notify p) = p_limit p /\ p_id (notify p) = p_id p.
Proof. unfold notify. destruct (generate _ _); cbn; auto. Qed.

(* Everything of a process except its signal state; no system call other than
   fork/exit changes this part of a waiting ancestor (kill changes the signal
   state of the ancestors it reaches). *)
Definition strip (p : proc) := (p_fds p, p_cwd p, p_umask p, p_limit p, p_id p).

Definition skipped_forks (s : kstate) : nat := match k_skip s with Some (_, d) => d | None => O end.

(* The fork frames that are open, innermost first, as [nested] counts them.  A
   fork that was not executed because the child had already been killed is a
   frame too ([None]); a real fork has pushed the parent, of which [strip] is
   what no later call changes. *)
Definition frames (s : kstate) : list (option _) :=
  repeat None (skipped_forks s) ++ map Some (map strip (k_susp s)).

Lemma frames_live s : k_skip s = None -> frames s = map Some (map strip (k_susp s)).
Proof. intros H. unfold frames, skipped_forks. rewrite H. reflexivity. Qed.

(* Splits on the first test the goal branches on.  Most calls leave the frames
   alone because each of their branches returns the state it was given or one
   rebuilt by the setters, which copy the ancestors and the skip marker: after
   the splits that is [reflexivity]. *)
Ltac break_match :=
  match goal with
  | |- context [match ?x with _ => _ end] => destruct x
  | |- context [if ?x then _ else _] => destruct x
  end.

Lemma open_existing_frames s i a f : frames (fst (open_existing s i a f)) = frames s.
Proof. unfold open_existing, install. repeat break_match; reflexivity. Qed.

Lemma k_open_frames s p a f mode : frames (fst (k_open s p a f mode)) = frames s.
Proof.
  assert (Hin : frames (fst (k_open_inner s p a f mode)) = frames s).
  { destruct (flags_ok a f) eqn:Hok; [|unfold k_open_inner; rewrite Hok; reflexivity].
    apply (k_open_inner_cases s p a f mode Hok (fun R => frames (fst R) = frames s)).
    - intros st _. apply open_existing_frames.
    - reflexivity.
    - reflexivity. }
  unfold k_open. destruct (can_alloc s 0); [exact Hin|].
  destruct (snd (k_open_inner s p a f mode)); reflexivity.
Qed.

Lemma signal_ancestors_strip : forall l pg sig l',
  signal_ancestors l pg sig = Some l' -> map strip l' = map strip l.
Proof.
  induction l as [|p l IH]; intros pg sig l' H; cbn in H.
  - inversion H; reflexivity.
  - destruct (signal_ancestors l pg sig) as [l''|] eqn:E; try discriminate.
    specialize (IH _ _ _ E).
    destruct (N.eqb (snd (p_id p)) pg).
    + destruct (generate (p_sig p) sig); try discriminate. inversion H; subst. cbn. rewrite IH. reflexivity.
    + inversion H; subst. cbn. rewrite IH. reflexivity.
Qed.

Lemma map_Some_inj {A} (a b : list A) : map Some a = map Some b -> a = b.
Proof.
  revert b; induction a as [|x a IH]; intros [|y b] H; try discriminate; [reflexivity|].
  injection H as -> H. f_equal. apply IH, H.
Qed.

(* kill, and a sigprocmask that lets a fatal signal through, reach other
   processes or end the caller: they change signal states and the skip marker,
   and nothing else *)
Definition signals_only (s s' : kstate) : Prop :=
  frames s' = frames s /\ k_ino s' = k_ino s /\ k_ofd s' = k_ofd s /\
  strip (k_cur s') = strip (k_cur s).

Lemma signals_only_refl s : signals_only s s.
Proof. repeat split. Qed.

Lemma signal_self_only s susp' sig :
  k_skip s = None -> map strip susp' = map strip (k_susp s) ->
  signals_only s (fst (signal_self s susp' sig)).
Proof.
  intros Hn H. unfold signal_self.
  destruct (generate (p_sig (k_cur s)) sig); [| destruct (k_susp s) eqn:E .. |];
    try apply signals_only_refl;
    (split; [|repeat split]);
    unfold frames, skipped_forks; cbn [fst k_skip k_susp]; rewrite ?Hn, ?H, ?E; reflexivity.
Qed.

Lemma k_kill_only s tg sig : k_skip s = None -> signals_only s (fst (k_kill s tg sig)).
Proof.
  intros Hn.
  assert (Hgroup : signals_only s (fst match signal_ancestors (k_susp s) (snd (p_id (k_cur s))) sig with
                                       | Some susp' => signal_self s susp' sig
                                       | None => (s, ROut)
                                       end)).
  { destruct (signal_ancestors _ _ _) eqn:E; [|apply signals_only_refl].
    apply signal_self_only; [exact Hn | exact (signal_ancestors_strip _ _ _ _ E)]. }
  unfold k_kill. destruct (negb (N.ltb sig nsig)); [apply signals_only_refl|].
  destruct tg; try exact Hgroup.
  - apply signal_self_only; auto.
  - destruct (k_susp s) as [|p rest] eqn:E; [apply signals_only_refl|].
    destruct (generate (p_sig p) sig); try apply signals_only_refl.
    split; [|repeat split]. cbn [fst].
    rewrite !frames_live by (try exact Hn; reflexivity). cbn [k_susp]. rewrite E. reflexivity.
  - destruct (N.eqb _ _); [exact Hgroup | apply signals_only_refl].
Qed.

Lemma k_sigmask_only s how sigs :
  k_skip s = None -> signals_only s (fst (k_sigmask s how sigs)).
Proof.
  intros Hn. unfold k_sigmask.
  destruct (negb (sigs_ok sigs) || N.ltb 2 how); [apply signals_only_refl|].
  destruct (deliver_pending _ _); [repeat split|].
  destruct (filter _ _) as [|sig [|sig2 l]]; try apply signals_only_refl.
  destruct (N.eqb sig sigtstp); [apply signals_only_refl|].
  destruct (k_susp s) eqn:E; [apply signals_only_refl|].
  split; [|repeat split]. unfold frames, skipped_forks. cbn [fst k_skip k_susp]. rewrite Hn, E. reflexivity.
Qed.

Lemma signals_only_susp s s' :
  k_skip s = None -> signals_only s s' -> map strip (k_susp s') = map strip (k_susp s).
Proof.
  intros Hn (H & _). rewrite (frames_live s Hn) in H. unfold frames in H.
  destruct (skipped_forks s'); [apply map_Some_inj, H | destruct (map strip (k_susp s)); discriminate].
Qed.

Lemma step_live_frames s o :
  match o with
  | OFork | OExit | OKill _ _ | OSigmask _ _ => True
  | _ => frames (fst (step_live s o)) = frames s
  end.
Proof.
  destruct o; cbn [step_live]; [apply k_open_frames | ..]; try exact I;
    unfold k_close, k_dup, k_dup2, k_read, k_write, k_lseek, k_fstat, k_stat, k_umask,
      k_chdir, k_getcwd, k_pipe, k_readdir, k_getfd, k_setfd, k_access,
      k_sigaction, k_getsigaction, k_raise, k_caught, k_setrlimit, k_setpgid0,
      k_droppriv, k_chmod, install;
    repeat break_match; reflexivity.
Qed.

Lemma step_frames s o :
  frames (fst (step s o)) =
  match o with
  | OFork => match k_skip s with None => Some (strip (k_cur s)) | Some _ => None end :: frames s
  | OExit => tl (frames s)
  | _ => frames s
  end.
Proof.
  unfold step. destruct (k_skip s) as [[sig d]|] eqn:E.
  - destruct o; try reflexivity.
    + unfold frames, skipped_forks. cbn [fst k_skip k_susp]. rewrite E. reflexivity.
    + destruct d as [|d]; [destruct (k_susp s) eqn:Es|]; unfold frames, skipped_forks;
        cbn [fst k_skip k_susp]; rewrite ?E, ?Es; reflexivity.
  - pose proof (step_live_frames s o) as Hq.
    destruct o; try exact Hq; cbn [step_live].
    + apply k_kill_only, E.
    + apply k_sigmask_only, E.
    + rewrite (frames_live s E). reflexivity.
    + rewrite (frames_live s E). unfold k_exit.
      destruct (k_susp s) eqn:Es; cbn [fst]; [rewrite (frames_live s E), Es|]; reflexivity.
Qed.

Lemma run_app s a b :
  run s (a ++ b) =
  let '(s1, r1) := run s a in
  let '(s2, r2) := run s1 b in (s2, r1 ++ r2).
Proof.
  revert s; induction a as [|o a IH]; intros s; cbn.
  - destruct (run s b); reflexivity.
  - destruct (step s o) as [s1 r]. rewrite IH.
    destruct (run s1 a) as [s2 r2]. destruct (run s2 b). reflexivity.
Qed.

Lemma run_length : forall ops s, length (snd (run s ops)) = length ops.
Proof.
  induction ops as [|o ops IH]; intros s; cbn; auto.
  destruct (step s o) as [s1 r]. specialize (IH s1). destruct (run s1 ops). cbn in *. lia.
Qed.

(* properly nested fork/exit, also when a child is killed on the way: at the
   end exactly the [d] innermost frames are gone *)
Lemma run_nested : forall ops d s,
  nested d ops = true -> frames (fst (run s ops)) = skipn d (frames s).
Proof.
  induction ops as [|o ops IH]; intros d s Hn; cbn [run nested] in *.
  - apply Nat.eqb_eq in Hn. subst. reflexivity.
  - pose proof (step_frames s o) as Hf. destruct (step s o) as [s1 r]. cbn [fst] in Hf.
    pose proof (fun d' => IH d' s1) as Hrec. destruct (run s1 ops) as [s2 rs]. cbn [fst] in *.
    destruct o; try (rewrite (Hrec d Hn), Hf; reflexivity).
    + rewrite (Hrec (S d) Hn), Hf. reflexivity.
    + destruct d as [|d]; [discriminate|]. rewrite (Hrec d Hn), Hf.
      destruct (frames s); [apply skipn_nil | reflexivity].
Qed.

Lemma step_exit_pops s p rest :
  skipped_forks s = 0 -> k_susp s = p :: rest ->
  fst (step s OExit) = mkK (k_ino s) (k_ofd s) (notify p) rest None (k_unpriv s).
Proof.
  unfold step, skipped_forks. destruct (k_skip s) as [[sig d]|]; [intros ->|intros _]; intros Hs;
    cbn [step_live]; unfold k_exit; rewrite Hs; reflexivity.
Qed.

Lemma errno_eqb_refl e : errno_eqb e e = true.
Proof. destruct e; reflexivity. Qed.
Lemma kind_eqb_refl e : kind_eqb e e = true.
Proof. destruct e; reflexivity. Qed.
Lemma access_eqb_refl e : access_eqb e e = true.
Proof. destruct e; reflexivity. Qed.
Lemma disp_eqb_refl d : disp_eqb d d = true.
Proof. destruct d; reflexivity. Qed.
Lemma cstat_eqb_refl c : cstat_eqb c c = true.
Proof. destruct c; cbn; auto. apply N.eqb_refl. Qed.
Lemma str_eqb_refl (s : str) : str_eqb s s = true.
Proof. apply str_eqb_eq. reflexivity. Qed.
Lemma list_eqb_refl {A} (eqb : A -> A -> bool) :
  (forall x, eqb x x = true) -> forall l, list_eqb eqb l l = true.
Proof. intros H l; induction l; cbn; auto. rewrite H, IHl. reflexivity. Qed.

Lemma res_eqb_refl r : res_eqb r r = true.
Proof.
  destruct r; cbn; auto;
    rewrite ?N.eqb_refl, ?str_eqb_refl, ?kind_eqb_refl, ?errno_eqb_refl, ?access_eqb_refl,
      ?Bool.eqb_reflx, ?disp_eqb_refl, ?cstat_eqb_refl; auto;
    apply list_eqb_refl; apply str_eqb_refl.
Qed.

Lemma tree_entry_eqb_refl e : tree_entry_eqb e e = true.
Proof.
  destruct e as [[[p k] m] d]. cbn.
  rewrite (list_eqb_refl _ str_eqb_refl), kind_eqb_refl, N.eqb_refl, str_eqb_refl. reflexivity.
Qed.

Lemma first_diff_refl : forall ops rs, length ops = length rs -> first_diff ops rs rs = None.
Proof.
  induction ops as [|o ops IH]; intros [|r rs] H; cbn in *; try lia; auto.
  rewrite res_eqb_refl. apply IH. lia.
Qed.

Lemma sysobs_eqb_refl o : sysobs_eqb o o = true.
Proof.
  unfold sysobs_eqb. rewrite (list_eqb_refl _ res_eqb_refl).
  unfold tree_eqb. rewrite (list_eqb_refl _ tree_entry_eqb_refl).
  rewrite (list_eqb_refl _ str_eqb_refl). reflexivity.
Qed.

Lemma errno_eqb_eq a b : errno_eqb a b = true -> a = b.
Proof. destruct a, b; cbn; congruence. Qed.
Lemma kind_eqb_eq a b : kind_eqb a b = true -> a = b.
Proof. destruct a, b; cbn; congruence. Qed.
Lemma access_eqb_eq a b : access_eqb a b = true -> a = b.
Proof. destruct a, b; cbn; congruence. Qed.
Lemma disp_eqb_eq a b : disp_eqb a b = true -> a = b.
Proof. destruct a, b; cbn; congruence. Qed.
Lemma cstat_eqb_eq a b : cstat_eqb a b = true -> a = b.
Proof. destruct a, b; cbn; try discriminate; auto. intros H. apply N.eqb_eq in H. congruence. Qed.
Lemma list_eqb_eq {A} (eqb : A -> A -> bool) :
  (forall x y, eqb x y = true -> x = y) -> forall l1 l2, list_eqb eqb l1 l2 = true -> l1 = l2.
Proof.
  intros H l1; induction l1 as [|x l1 IH]; intros [|y l2]; cbn; try discriminate; auto.
  intros E. apply andb_true_iff in E as [E1 E2]. f_equal; auto.
Qed.

Lemma N_eqb_true (x y : N) : N.eqb x y = true -> x = y.
Proof. apply N.eqb_eq. Qed.
Lemma str_eqb_true (a b : str) : str_eqb a b = true -> a = b.
Proof. apply str_eqb_eq. Qed.
Lemma names_eqb_eq (a b : list str) : list_eqb str_eqb a b = true -> a = b.
Proof. apply list_eqb_eq, str_eqb_true. Qed.

(* a test on a compound value is the conjunction of the tests on its parts,
   each of which accepts equal values only *)
Create HintDb eqb_eq.
#[local] Hint Resolve N_eqb_true str_eqb_true names_eqb_eq kind_eqb_eq errno_eqb_eq access_eqb_eq
  disp_eqb_eq cstat_eqb_eq Bool.eqb_prop : eqb_eq.

Lemma res_eqb_eq a b : res_eqb a b = true -> a = b.
Proof.
  destruct a, b; cbn; try discriminate; auto; intros H;
    repeat (apply andb_true_iff in H; destruct H as [H ?]); f_equal; auto with eqb_eq.
Qed.

Lemma tree_entry_eqb_eq a b : tree_entry_eqb a b = true -> a = b.
Proof.
  destruct a as [[[pa ka] ma] da], b as [[[pb kb] mb] db]. cbn. intros H.
  repeat (apply andb_true_iff in H; destruct H as [H ?]). repeat f_equal; auto with eqb_eq.
Qed.

Lemma first_diff_none : forall ops v r, first_diff ops v r = None -> v = r.
Proof.
  induction ops as [|o ops IH]; intros [|x v] [|y r]; cbn; try discriminate; auto.
  destruct (res_eqb x y) eqn:E.
  - intros H. apply res_eqb_eq in E. apply IH in H. subst. reflexivity.
  - discriminate.
Qed.
