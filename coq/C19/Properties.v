(* C19 — the property theorems: the kernel laws that make Model.v a
   specification of the system calls and not a third implementation, the
   invariant [wf], what the oracles accept, and the several-children model of
   Wait.v. *)
From Yv Require Import Common.Base C19.Model C19.Spec C19.Wait C19.Run C19.Proofs C19.ProofsWf C19.ProofsEx C19.ProofsWait.

(* [free_from] answers one of [length t] + 1 consecutive candidates, having
   found the earlier ones in the table; were the answer in the table too, the
   table would have more entries than its length ([consecutive_members]) *)
Theorem lowest_free_spec : forall t m, (m <= lowest_free t m)%N /\ fd_mem t (lowest_free t m) = false /\ (forall k, (m <= k < lowest_free t m)%N -> fd_mem t k = true).
Proof.
  intros t m.
  unfold lowest_free. split; [apply free_from_bounds|]. split; [|apply free_from_below].
  destruct (fd_mem t (free_from t (length t) m)) eqn:E; auto. exfalso.
  pose proof (free_from_stop _ _ _ E) as Hs.
  assert (S (length t) <= length t); [|lia].
  apply (consecutive_members (S (length t)) t m). intros k Hk.
  destruct (N.eq_dec k (free_from t (length t) m)) as [->|Hne]; auto.
  apply (free_from_below t (length t) m). lia.
Qed.

(* dup returns the lowest free descriptor >= min and sets close-on-exec as asked *)
Theorem dup_lowest_free : forall s fd m cx s' fd', k_dup s fd m cx = (s', RFd fd') -> (m <= fd' < p_limit (k_cur s))%N /\ fd_mem (fds s) fd' = false /\ (forall k, (m <= k < fd')%N -> fd_mem (fds s) k = true) /\ k_getfd s' fd' = (s', RFlag cx).
Proof.
  intros s fd m cx s' fd' H.
  destruct (k_dup_ok _ _ _ _ _ _ H) as (e & _ & Hc & -> & ->).
  destruct (lowest_free_spec (fds s) m) as (A & B & C).
  unfold can_alloc in Hc. apply N.ltb_lt in Hc.
  repeat split; auto.
  unfold k_getfd, fds. cbn [set_fds set_cur k_cur p_fds]. rewrite fd_get_put_eq. reflexivity.
Qed.

(* a position set through the duplicate is the position seen through the original *)
Theorem dup_shares_offset : forall s fd m cx s1 fd' w off s2 n, k_dup s fd m cx = (s1, RFd fd') -> k_lseek s1 fd' w off = (s2, ROff n) -> exists s3, k_lseek s2 fd WCur 0 = (s3, ROff n).
Proof.
  intros s fd m cx s1 fd' w off s2 n H Hl.
  destruct (k_dup_ok _ _ _ _ _ _ H) as (e & G & _ & _ & ->).
  destruct (lseek_ok _ _ _ _ _ _ Hl) as (e1 & G1 & Hf & _ & Htell).
  unfold fds in *. cbn [set_fds set_cur k_cur p_fds] in G1, Hf.
  rewrite fd_get_put_eq in G1. injection G1 as <-.
  (* [fd] still refers to its description: the duplicate is [fd] itself, or
     another descriptor *)
  destruct (N.eq_dec fd' fd) as [->|Hne].
  - apply (Htell s2 fd (mkEnt (e_ofd e) cx)); try reflexivity. rewrite Hf. apply fd_get_put_eq.
  - apply (Htell s2 fd e); try reflexivity. rewrite Hf, fd_get_put_neq by exact Hne. exact G.
Qed.

(* [fd <> to]: dup2(fd, fd) returns fd and leaves the flag as it is *)
Theorem dup2_clears_cloexec : forall s fd to s', k_dup2 s fd to = (s', RFd to) -> fd <> to -> k_getfd s' to = (s', RFlag false).
Proof.
  intros s fd to s'.
  unfold k_dup2. destruct (N.ltb fd_limit to); try discriminate.
  destruct (fd_get (fds s) fd) as [e|]; try discriminate.
  destruct (N.eqb fd to) eqn:E. { apply N.eqb_eq in E. congruence. }
  destruct (N.leb (p_limit (k_cur s)) to); try discriminate.
  intros H _; inversion H; subst s'; clear H.
  unfold k_getfd, fds. cbn [set_fds set_cur k_cur p_fds]. rewrite fd_get_put_eq. reflexivity.
Qed.

Theorem close_closes : forall s fd, k_getfd (fst (k_close s fd)) fd = (fst (k_close s fd), RErr EBADF).
Proof.
  intros s fd.
  unfold k_close, k_getfd, fds. cbn [fst set_fds set_cur k_cur p_fds]. rewrite fd_get_del_eq.
  reflexivity.
Qed.

(* the child has the parent's descriptor table, cwd and umask and shares all open file descriptions
   ([g_caught] empty: the sequences collect caught signals before forking) *)
Theorem fork_child_is_copy : forall s, g_caught (p_sig (k_cur s)) = [] -> let s1 := fst (k_fork s) in p_fds (k_cur s1) = p_fds (k_cur s) /\ p_cwd (k_cur s1) = p_cwd (k_cur s) /\ p_umask (k_cur s1) = p_umask (k_cur s) /\ g_disp (p_sig (k_cur s1)) = g_disp (p_sig (k_cur s)) /\ g_mask (p_sig (k_cur s1)) = g_mask (p_sig (k_cur s)) /\ g_pend (p_sig (k_cur s1)) = [] /\ k_susp s1 = k_cur s :: k_susp s /\ k_ofd s1 = k_ofd s /\ k_ino s1 = k_ino s /\ snd (k_fork s) = RUnit.
Proof. intros s H. unfold k_fork. rewrite H. cbn. repeat split; reflexivity. Qed.

(* a position set by the child is the position the parent sees after the child exits *)
Theorem fork_shares_offset : forall s s1 fd w off s2 n s3, k_fork s = (s1, RUnit) -> k_lseek s1 fd w off = (s2, ROff n) -> k_exit s2 = (s3, RChild CExited) -> exists s4, k_lseek s3 fd WCur 0 = (s4, ROff n).
Proof.
  intros s s1 fd w off s2 n s3.
  unfold k_fork. intros H; inversion H; subst s1; clear H. intros Hl He.
  destruct (lseek_ok _ _ _ _ _ _ Hl) as (e & G & _ & Hs & Htell). cbn [k_susp] in Hs.
  (* the parent resumes on the tables the child leaves, with its own copy of
     the descriptor table: the one the child started from *)
  unfold k_exit in He. rewrite Hs in He. injection He as <-.
  apply (Htell _ fd e); try reflexivity.
  unfold fds. cbn [k_cur]. rewrite (proj1 (notify_rest _)). exact G.
Qed.

(* the SIGCHLD for the parent changes its signal state only *)
Theorem subshell_notify_only : forall p, strip (notify p) = strip p.
Proof.
  intros p. destruct (notify_rest p) as (A & B & C & D & E). unfold strip. rewrite A, B, C, D, E. reflexivity.
Qed.

(* whatever the child does, also when it is killed on the way, the descriptor table, cwd, umask,
   limit and IDs of the parent and of every waiting ancestor are unchanged; [strip] leaves out the
   signal state, which SIGCHLD and kill do change in an ancestor *)
Theorem subshell_isolation : forall s ops, k_skip s = None -> nested 0 ops = true -> strip (k_cur (fst (run s (OFork :: ops ++ [OExit])))) = strip (k_cur s) /\ map strip (k_susp (fst (run s (OFork :: ops ++ [OExit])))) = map strip (k_susp s).
Proof.
  intros s ops Hnone Hn. cbn [run].
  pose proof (step_frames s OFork) as F1. rewrite Hnone, (frames_live s Hnone) in F1.
  destruct (step s OFork) as [s1 r1]. cbn [fst] in F1. rewrite run_app.
  pose proof (run_nested ops 0 s1 Hn) as F2. destruct (run s1 ops) as [s2 r2].
  cbn [fst skipn] in F2. rewrite F1 in F2. cbn [run].
  (* the child's run has left the frame of its own fork on top *)
  unfold frames in F2. destruct (skipped_forks s2) eqn:Hsk; [|discriminate].
  destruct (k_susp s2) as [|p rest] eqn:Hs; [discriminate|]. cbn [repeat app map] in F2.
  assert (Hp : strip p = strip (k_cur s)) by congruence.
  assert (Hr : map strip rest = map strip (k_susp s)) by (apply map_Some_inj; congruence).
  pose proof (step_exit_pops s2 p rest Hsk Hs) as F3.
  destruct (step s2 OExit) as [s3 r3]. cbn [fst] in *. subst s3. cbn [k_cur k_susp].
  rewrite subshell_notify_only. split; assumption.
Qed.

(* a caught signal raised while not blocked is recorded at once *)
Theorem raise_caught : forall s sig, (sig < nsig)%N -> mem_n sig (g_mask (p_sig (k_cur s))) = false -> get_disp (g_disp (p_sig (k_cur s))) sig = DCatch -> snd (k_raise s sig) = RUnit /\ mem_n sig (g_caught (p_sig (k_cur (fst (k_raise s sig))))) = true /\ g_pend (p_sig (k_cur (fst (k_raise s sig)))) = g_pend (p_sig (k_cur s)).
Proof.
  intros s sig Hs Hm Hd. unfold k_raise, deliver.
  rewrite (sig_in_range sig Hs), Hm, Hd. cbn.
  split; auto. split; auto. apply mem_insert_n.
Qed.

(* an ignored signal changes nothing *)
Theorem raise_ignored : forall s sig, (sig < nsig)%N -> mem_n sig (g_mask (p_sig (k_cur s))) = false -> get_disp (g_disp (p_sig (k_cur s))) sig = DIgnore -> snd (k_raise s sig) = RUnit /\ p_sig (k_cur (fst (k_raise s sig))) = p_sig (k_cur s).
Proof.
  intros s sig Hs Hm Hd. unfold k_raise, deliver.
  rewrite (sig_in_range sig Hs), Hd, Hm. cbn. auto.
Qed.

(* a blocked signal stays pending and is not recorded *)
Theorem raise_blocked : forall s sig, (sig < nsig)%N -> mem_n sig (g_mask (p_sig (k_cur s))) = true -> get_disp (g_disp (p_sig (k_cur s))) sig = DCatch -> snd (k_raise s sig) = RUnit /\ mem_n sig (g_pend (p_sig (k_cur (fst (k_raise s sig))))) = true /\ g_caught (p_sig (k_cur (fst (k_raise s sig)))) = g_caught (p_sig (k_cur s)).
Proof.
  intros s sig Hs Hm Hd. unfold k_raise.
  rewrite (sig_in_range sig Hs), Hm, Hd. cbn.
  split; auto. split; auto. apply mem_insert_n.
Qed.

(* POSIX: setting the action to ignore discards a pending instance.  [sig <> sigchld]: ignoring
   SIGCHLD is outside the domain ([k_sigaction] answers [ROut]: it changes what wait does) *)
Theorem ignore_discards_pending : forall s sig, (sig < nsig)%N -> sig <> sigchld -> mem_n sig (g_pend (p_sig (k_cur (fst (k_sigaction s sig DIgnore))))) = false.
Proof.
  intros s sig Hs Hc. unfold k_sigaction.
  rewrite (sig_in_range sig Hs).
  assert (E2 : N.eqb sig sigchld = false) by (apply N.eqb_neq; auto). rewrite E2.
  cbn. apply mem_remove_n.
Qed.

(* O_APPEND: the bytes go to the end of the file whatever the offset was; the offset ends after them *)
Theorem append_writes_at_end : forall s fd id o perm data b, get_ofd s fd = Some (id, o) -> o_wr o = true -> o_app o = true -> nth_error (k_ino s) (o_ino o) = Some (IReg perm data) -> nonempty b = true -> snd (k_write s fd b) = RCount (nlen b) /\ nth_error (k_ino (fst (k_write s fd b))) (o_ino o) = Some (IReg perm (data ++ b)) /\ get_ofd (fst (k_write s fd b)) fd = Some (id, mkOfd (o_ino o) (nlen data + nlen b) (o_rd o) (o_wr o) (o_app o)).
Proof.
  intros s fd id o perm data b Hg Hw Ha Hi Hb. pose proof (write_reg s fd id o perm data b Hg Hw Hi Hb) as H.
  cbn zeta in H. rewrite Ha, write_at_end in H. exact H.
Qed.

(* what was written is read back from the position it was written at (also beyond the end) *)
Theorem write_read_roundtrip : forall s fd id o perm data b, get_ofd s fd = Some (id, o) -> o_rd o = true -> o_wr o = true -> nth_error (k_ino s) (o_ino o) = Some (IReg perm data) -> nonempty b = true -> let off := if o_app o then nlen data else o_off o in let s1 := fst (k_write s fd b) in let s2 := fst (k_lseek s1 fd WSet (Z.of_N off)) in snd (k_read s2 fd (nlen b)) = RBytes b.
Proof.
  intros s fd id o perm data b Hg Hr Hw Hi Hb off s1 s2.
  destruct (write_reg s fd id o perm data b Hg Hw Hi Hb) as (_ & Hi1 & Hg1).
  fold off in Hi1, Hg1. fold s1 in Hi1, Hg1.
  assert (Hs2 : s2 = set_off s1 id (with_off o (off + nlen b)) off).
  { unfold s2, k_lseek. rewrite Hg1. cbn [with_off o_ino]. rewrite Hi1.
    assert (Hz : (0 + Z.of_N off <? 0)%Z = false) by lia. rewrite Hz. cbn [fst].
    f_equal. lia. }
  assert (Hg2 : get_ofd s2 fd = Some (id, with_off o off))
    by (rewrite Hs2; exact (get_ofd_set_off _ _ _ _ off Hg1)).
  unfold k_read. rewrite (nonempty_nlen _ Hb), Hg2. cbn [with_off o_rd o_ino o_off].
  rewrite Hr. cbn [negb]. rewrite Hs2, set_off_ino, Hi1. cbn [snd].
  rewrite write_at_read_back. reflexivity.
Qed.

(* O_CREAT|O_EXCL on an existing name fails with EEXIST and changes nothing.  [can_alloc s 0]: with
   no free descriptor the model does not say which of EEXIST and EMFILE wins ([k_open]: [ROut]) *)
Theorem excl_refuses_existing : forall s p a f mode k sz pm, can_alloc s 0 = true -> k_stat s p = (s, RStat k sz pm) -> flags_ok a f = true -> f_creat f = true -> f_excl f = true -> k_open s p a f mode = (s, RErr EEXIST).
Proof.
  intros s p a f mode k sz pm Hc Hst Hok Hcr Hex. unfold k_open. rewrite Hc. unfold k_stat in Hst.
  destruct (resolve (k_unpriv s) (k_ino s) (p_cwd (k_cur s)) p) as [st| |] eqn:Er; try discriminate.
  rewrite (k_open_inner_resolved _ _ _ _ _ _ Hok Er). unfold open_existing. rewrite Hcr, Hex. reflexivity.
Qed.

(* after a successful open with O_TRUNC the file is an empty regular file *)
Theorem trunc_empties : forall s p a f mode s' fd, k_open s p a f mode = (s', RFd fd) -> f_trunc f = true -> exists perm, k_fstat s' fd = (s', RStat KReg 0 perm).
Proof.
  intros s p a f mode s' fd H Ht. apply k_open_ok in H. destruct H as (H & _).
  pose proof (k_open_inner_flags _ _ _ _ _ _ _ H) as Hok.
  destruct (resolve (k_unpriv s) (k_ino s) (p_cwd (k_cur s)) p) as [st|e|] eqn:Er;
    [| eexists; apply (k_open_inner_created _ _ _ _ _ _ _ H); congruence ..].
  rewrite (k_open_inner_resolved _ _ _ _ _ _ Hok Er) in H. eapply open_existing_trunc; eauto.
Qed.

(* a file created by open has the permission bits mode & ~umask *)
Theorem umask_masks_creation : forall s p a f mode s' fd, k_stat s p = (s, RErr ENOENT) -> k_open s p a f mode = (s', RFd fd) -> k_fstat s' fd = (s', RStat KReg 0 (mask mode (p_umask (k_cur s)))).
Proof.
  intros s p a f mode s' fd Hst H. apply k_open_ok in H. destruct H as (H & _).
  apply (k_open_inner_created _ _ _ _ _ _ _ H). intros st Er.
  unfold k_stat in Hst. rewrite Er in Hst. destruct (nth_error _ _) as [[]|]; discriminate.
Qed.

(* bit by bit: requested, not masked, one of the nine permission bits *)
Theorem mask_spec : forall mode um i, N.testbit (mask mode um) i = N.testbit mode i && negb (N.testbit um i) && (i <? 9)%N.
Proof.
  intros mode um i.
  unfold mask. rewrite !N.land_spec, N.lxor_spec, N.land_spec, testbit_511.
  destruct (N.testbit mode i), (N.testbit um i), (i <? 9)%N; reflexivity.
Qed.

Theorem walk_iff_resolves : forall u ino st cs st', walk u ino st cs = WOk st' <-> Resolves u ino st cs st'.
Proof. intros u ino st cs st'. split; [apply walk_resolves | apply resolves_walk]. Qed.

(* removing `.` and cancelling `name/..` does not change where a resolvable path leads; that the
   path resolves is needed ([norm_needs_resolvable]) *)
Theorem path_normalisation : forall u ino st cs st', walk u ino st cs = WOk st' -> walk u ino st (norm [] cs) = WOk st'.
Proof.
  intros u ino st cs st' H. apply (norm_walk u ino st st cs st' (walk_resolves _ _ _ _ _ H) []); auto.
Qed.

Theorem norm_no_dot : forall cs, Forall (fun a => is_dot a = false) (norm [] cs).
Proof. intros cs. apply norm_keeps_no_dot. constructor. Qed.

Theorem wf_init : forall tree um, wf (init_state tree um).
Proof.
  intros tree um.
  change (init_state tree um)
    with (set_ino (init_state [] um) (fold_left add_init tree (k_ino (init_state [] um)))).
  apply wf_fold_add_init.
  (* the empty scratch directory, the three standard files and their descriptors *)
  unfold wf, all_procs. cbn. repeat split.
  - constructor; [intros ? ? [] | repeat (constructor; [exact I|]); constructor].
  - repeat constructor; cbn; lia.
  - constructor; [|constructor]. split; [|reflexivity].
    cbn. intros fd e [H|[H|[H|[]]]]; inversion H; subst; cbn; lia.
Qed.

Theorem step_preserves_wf : forall s o, wf s -> wf (fst (step s o)).
Proof.
  intros s o Hw. unfold step. destruct (k_skip s) as [[sig d]|] eqn:Hn; [|apply step_live_preserves_wf; auto].
  (* a killed child: only fork and exit still count, and the exit that closes
     its frame resumes the parent *)
  destruct o; cbn [fst]; auto using wf_reskip.
  destruct d; cbn [fst]; auto using wf_reskip.
  destruct (k_susp s) as [|p rest] eqn:E; [exact Hw | exact (wf_pop s p rest _ _ Hw E)].
Qed.

Lemma run_keeps_wf : forall ops s, wf s -> wf (fst (run s ops)).
Proof.
  induction ops as [|o ops IH]; intros s Hw; cbn [run]; [exact Hw|].
  pose proof (step_preserves_wf s o Hw) as Hw1. destruct (step s o) as [s1 r].
  specialize (IH s1 Hw1). destruct (run s1 ops). exact IH.
Qed.

Theorem wf_reachable : forall tree um ops, wf (fst (run (init_state tree um) ops)).
Proof. intros tree um ops. apply run_keeps_wf, wf_init. Qed.

(* what [wf] is for: in a reachable state [get_ofd] fails (EBADF) only for a descriptor that is not
   open, and the calls never reach their [None => ROut] branch for a missing inode *)
Theorem wf_no_dangling : forall s fd e, wf s -> fd_get (fds s) fd = Some e -> exists o, get_ofd s fd = Some (e_ofd e, o) /\ exists n, nth_error (k_ino s) (o_ino o) = Some n.
Proof.
  intros s fd e Hw G. pose proof (wf_fds s Hw fd e (fd_get_In _ _ _ G)) as Hlt.
  destruct (nth_error (k_ofd s) (e_ofd e)) as [o|] eqn:En.
  - exists o. split; [exact (get_ofd_intro _ _ _ _ G En)|].
    destruct Hw as (_ & H2 & _). rewrite Forall_forall in H2.
    specialize (H2 o (nth_error_In _ _ En)).
    destruct (nth_error (k_ino s) (o_ino o)) eqn:E2; eauto.
    apply nth_error_None in E2. lia.
  - apply nth_error_None in En. lia.
Qed.

(* if both systems behave like the model (inside the domain) the check reports 0: no false alarm *)
Theorem oracle_sound : forall tree um ops, let m := model_obs tree um ops in has_out (so_res m) = false -> run_case (CSys tree um ops m m) = 0%N.
Proof.
  intros tree um ops m Hout. unfold run_case. fold m.
  assert (Hl : length ops = length (so_res m)).
  { unfold m, model_obs. pose proof (run_length ops (init_state tree um)) as H.
    destruct (run (init_state tree um) ops). cbn in *. lia. }
  unfold sys_oracle. rewrite (first_diff_refl _ _ Hl).
  unfold tree_eqb. rewrite (list_eqb_refl _ tree_entry_eqb_refl). cbn [negb].
  rewrite (list_eqb_refl _ str_eqb_refl). cbn [negb].
  rewrite Hout, sysobs_eqb_refl. reflexivity.
Qed.

Theorem script_oracle_reflexive : forall o, run_case (CScript o o) = 0%N.
Proof.
  intros o.
  unfold run_case, script_oracle. rewrite andb_negb_r. rewrite str_eqb_refl, Z.eqb_refl. cbn [negb].
  unfold tree_eqb. rewrite (list_eqb_refl _ tree_entry_eqb_refl). reflexivity.
Qed.

Theorem script3_oracle_reflexive : forall o, run_case (CScript3 o o o) = 0%N.
Proof.
  intros o.
  pose proof (script_oracle_reflexive o) as H. unfold run_case in *.
  destruct (script_oracle o o) as [k|]; [|reflexivity].
  exfalso. lia.
Qed.

(* "complete": the oracle misses no disagreement (it compares the two implementations only, never
   the model); "sound" above: no false alarm *)
Theorem sys_oracle_complete : forall ops v r, sys_oracle ops v r = None -> sys_agree v r.
Proof.
  intros ops v r.
  unfold sys_oracle, sys_agree. destruct (first_diff ops (so_res v) (so_res r)) eqn:E1; try discriminate.
  destruct (tree_eqb (so_tree v) (so_tree r)) eqn:E2; cbn [negb]; try discriminate.
  destruct (list_eqb str_eqb (so_std v) (so_std r)) eqn:E3; cbn [negb]; try discriminate.
  intros _. apply first_diff_none in E1.
  apply (list_eqb_eq _ tree_entry_eqb_eq) in E2.
  apply names_eqb_eq in E3.
  destruct v, r; cbn in *; subst; reflexivity.
Qed.

Theorem script_oracle_complete : forall v r, script_oracle v r = None -> script_agree v r.
Proof.
  intros v r.
  unfold script_oracle, script_agree.
  destruct (unfinished v && negb (unfinished r)); try discriminate.
  destruct (str_eqb (sc_stdout v) (sc_stdout r)) eqn:E1; cbn [negb]; try discriminate.
  destruct (Z.eqb (sc_status v) (sc_status r)) eqn:E2; cbn [negb]; try discriminate.
  destruct (tree_eqb (sc_tree v) (sc_tree r)) eqn:E3; cbn [negb]; try discriminate.
  intros _. apply str_eqb_eq in E1. apply Z.eqb_eq in E2.
  apply (list_eqb_eq _ tree_entry_eqb_eq) in E3.
  destruct v, r; cbn in *; subst; reflexivity.
Qed.

(* non-vacuity: the states of ProofsEx.v meet the hypotheses of the implications above, and the
   oracle does reject. *)

Example ex_dup_nonvacuous : exists s1 s2, k_dup ex1 3 10 true = (s1, RFd 10%N) /\ k_lseek s1 10 WSet 2 = (s2, ROff 2).
Proof. exact ex_dup. Qed.

Example ex_fork_nonvacuous : exists s1 s2 s3, k_fork ex1 = (s1, RUnit) /\ k_lseek s1 3 WEnd (-1) = (s2, ROff 2) /\ k_exit s2 = (s3, RChild CExited).
Proof. exact ex_fork. Qed.

Example ex_excl_nonvacuous : exists k sz pm, can_alloc ex0 0 = true /\ k_stat ex0 p_f = (ex0, RStat k sz pm) /\ flags_ok AWr fl_creat_excl = true.
Proof. exact ex_excl. Qed.

Example ex_umask_nonvacuous : exists s' fd, k_stat ex0 p_new = (ex0, RErr ENOENT) /\ k_open ex0 p_new AWr fl_creat 438 = (s', RFd fd) /\ mask 438 (p_umask (k_cur ex0)) = 420%N.
Proof. exact ex_umask. Qed.

Example ex_norm_nonvacuous : exists st, walk false (k_ino ex0) [] (comps p_dots) = WOk st /\ norm [] (comps p_dots) = [[100]; [104]]%N /\ top st = 7.
Proof. exact ex_norm. Qed.

Example norm_needs_resolvable : walk false (k_ino ex0) [] [[102]; [46; 46]]%N = WErr ENOTDIR /\ walk false (k_ino ex0) [] (norm [] [[102]; [46; 46]]%N) = WOk [].
Proof. exact ex_norm_needs_hyp. Qed.

Example oracle_rejects_fd_leak : run_case (CSys ex_tree 18 [OOpen p_f ARd fl_none 0] (mkSysObs [RFd 4] (so_tree (model_obs ex_tree 18 [])) [[]; []; []]) (mkSysObs [RFd 3] (so_tree (model_obs ex_tree 18 [])) [[]; []; []])) = 2%N.
Proof. exact ex_oracle_rejects. Qed.

(* no descriptor below the limit: an open that would succeed fails with EMFILE and creates or truncates nothing *)
Theorem open_emfile_no_effect : forall s p a f mode s' fd, can_alloc s 0 = false -> k_open_inner s p a f mode = (s', RFd fd) -> k_open s p a f mode = (s, RErr EMFILE).
Proof. intros s p a f mode s' fd Hc Hi. unfold k_open. rewrite Hc, Hi. reflexivity. Qed.

(* a pipe that cannot get both descriptors keeps none: the state is unchanged *)
Theorem pipe_emfile_no_leak : forall s e, snd (k_pipe s) = RErr e -> fst (k_pipe s) = s.
Proof.
  intros s e.
  unfold k_pipe. destruct (negb (can_alloc s 0)); auto.
  destruct (install (set_ino s _) _ _) as [s1 r].
  destruct (negb (can_alloc s1 0)); auto.
  destruct (install s1 _ _) as [s2 w]. cbn. discriminate.
Qed.

Theorem pipe_below_limit : forall s s' r w, k_pipe s = (s', RPipe r w) -> (r < p_limit (k_cur s))%N /\ (w < p_limit (k_cur s))%N.
Proof.
  intros s s' r w.
  unfold k_pipe. destruct (can_alloc s 0) eqn:C0; cbn [negb]; [|discriminate].
  destruct (install (set_ino s _) _ _) as [s1 r0] eqn:E1.
  destruct (can_alloc s1 0) eqn:C1; cbn [negb]; [|discriminate].
  destruct (install s1 _ _) as [s2 w0] eqn:E2. intros H. injection H as _ <- <-.
  (* each end is the lowest free descriptor at the time, which [can_alloc] has
     compared with the limit; [install] does not change the limit *)
  unfold install in E1, E2. injection E1 as <- <-. injection E2 as _ <-.
  unfold can_alloc in C0, C1. apply N.ltb_lt in C0, C1. split; [exact C0 | exact C1].
Qed.

(* dup with no free descriptor between min and the limit: EMFILE, nothing changes *)
Theorem dup_emfile : forall s fd m cx e, fd_get (fds s) fd = Some e -> (m <= fd_limit)%N -> (m < p_limit (k_cur s))%N -> can_alloc s m = false -> k_dup s fd m cx = (s, RErr EMFILE).
Proof.
  intros s fd m cx e G Hm Hl Hc. unfold k_dup.
  assert (E1 : N.ltb fd_limit m = false) by lia. rewrite E1, G.
  assert (E2 : N.leb (p_limit (k_cur s)) m = false) by lia. rewrite E2, Hc. reflexivity.
Qed.

(* a fatal signal for the caller's own group kills the child that has the default action: nothing more of it runs, its waiting ancestors (which ignore the signal) are unchanged and the parent learns the signal at the child's exit *)
Theorem group_kill_child_dies : forall s parent rest sig, k_skip s = None -> k_susp s = parent :: rest -> (sig < nsig)%N -> sig <> sigtstp -> sig <> sigchld -> mem_n sig (g_mask (p_sig (k_cur s))) = false -> get_disp (g_disp (p_sig (k_cur s))) sig = DDefault -> signal_ancestors (k_susp s) (snd (p_id (k_cur s))) sig = Some (k_susp s) -> let s1 := fst (k_kill s TGroup0 sig) in snd (k_kill s TGroup0 sig) = RSkip /\ (forall o, o <> OFork -> o <> OExit -> step s1 o = (s1, RSkip)) /\ fst (step s1 OExit) = mkK (k_ino s) (k_ofd s) (notify parent) rest None (k_unpriv s) /\ snd (step s1 OExit) = RChild (CSignaled sig).
Proof.
  intros s parent rest sig Hn Hsusp Hs Hst Hch Hm Hd Ha. unfold k_kill.
  rewrite (sig_in_range sig Hs), Ha.
  unfold signal_self, generate. rewrite Hd, Hm.
  assert (E2 : N.eqb sig sigtstp = false) by (apply N.eqb_neq; auto).
  assert (E3 : N.eqb sig sigchld = false) by (apply N.eqb_neq; auto). rewrite E3, E2, Hsusp.
  cbn [fst snd]. split; auto. split; [|split].
  - intros o Hf He. unfold step. cbn [k_skip]. destruct o; try congruence; reflexivity.
  - reflexivity.
  - reflexivity.
Qed.

(* a waiting process that ignores the signal is not changed by a signal for its group *)
Theorem signal_ancestors_ignored : forall p sig pg, get_disp (g_disp (p_sig p)) sig = DIgnore -> mem_n sig (g_mask (p_sig p)) = false -> signal_ancestors [p] pg sig = Some [p].
Proof.
  intros p sig pg Hd Hm. cbn. destruct (N.eqb _ pg); auto.
  unfold generate. rewrite Hd, Hm. unfold with_sig. destruct p; reflexivity.
Qed.

(* kill(-getpid()) by a process that leads no group: ESRCH *)
Theorem kill_neg_pid_not_leader : forall s sig, (sig < nsig)%N -> fst (p_id (k_cur s)) <> snd (p_id (k_cur s)) -> k_kill s TNegPid sig = (s, RErr ESRCH).
Proof.
  intros s sig Hs Hne. unfold k_kill.
  rewrite (sig_in_range sig Hs).
  assert (E2 : N.eqb (fst (p_id (k_cur s))) (snd (p_id (k_cur s))) = false) by (apply N.eqb_neq; auto).
  rewrite E2. reflexivity.
Qed.

Example ex_pipe_emfile : k_pipe ex_lim = (ex_lim, RErr EMFILE) /\ snd (k_open ex_lim p_f ARd fl_none 0) = RFd 3 /\ can_alloc (fst (k_open ex_lim p_f ARd fl_none 0)) 0 = false.
Proof. exact ProofsEx.ex_pipe_emfile. Qed.

Example ex_group_kill : snd (run ex0 [OSigaction 2 DIgnore; OFork; OSigaction 2 DDefault; OKill TGroup0 2; OGetcwd; OExit; OGetSigaction 2]) = [RDisp DDefault; RUnit; RDisp DIgnore; RSkip; RSkip; RChild (CSignaled 2); RDisp DIgnore].
Proof. exact ProofsEx.ex_group_kill. Qed.

(* an unprivileged process cannot look anything up in a directory it may not search *)
Theorem walk_needs_search : forall ino st c cs perm ents, nth_error ino (top st) = Some (IDir perm ents) -> may_x perm = false -> walk true ino st (c :: cs) = WErr EACCES.
Proof. intros ino st c cs perm ents En Hx. cbn. rewrite En, Hx. reflexivity. Qed.

(* a privileged process is never refused by pathname resolution *)
Theorem walk_privileged : forall ino cs st e, walk false ino st cs = WErr e -> e <> EACCES.
Proof.
  intros ino.
  induction cs as [|c cs IH]; intros st e H; cbn in H; try discriminate.
  destruct (nth_error ino (top st)) as [[| perm ents |]|]; try discriminate.
  - inversion H; discriminate.
  - cbn [andb] in H. destruct (is_dot c); [eapply IH; eauto|].
    destruct (is_dotdot c). { destruct st; [discriminate | eapply IH; eauto]. }
    destruct (lookup ents c); [eapply IH; eauto | inversion H; discriminate].
  - inversion H; discriminate.
Qed.

(* opening a file without the owner's read / write bit: EACCES, no effect *)
Theorem open_existing_denied : forall s i a f perm data, k_unpriv s = true -> f_creat f && f_excl f = false -> f_dir f = false -> nth_error (k_ino s) i = Some (IReg perm data) -> (readable a && negb (may_r perm)) || (writable a && negb (may_w perm)) = true -> open_existing s i a f = (s, RErr EACCES).
Proof.
  intros s i a f perm data Hu Hc Hd En Hp. unfold open_existing. rewrite Hc, En, Hd, Hu, Hp. reflexivity.
Qed.

(* with the needed bits the open succeeds, privileged or not *)
Theorem open_existing_allowed : forall s i a f perm data, f_creat f && f_excl f = false -> f_dir f = false -> nth_error (k_ino s) i = Some (IReg perm data) -> (readable a && negb (may_r perm)) || (writable a && negb (may_w perm)) = false -> exists s' fd, open_existing s i a f = (s', RFd fd).
Proof.
  intros s i a f perm data Hc Hd En Hp. unfold open_existing. rewrite Hc, En, Hd, Hp, andb_false_r.
  destruct (install _ _ _) as [s' fd]. eauto.
Qed.

(* the parent of a child that ends gets SIGCHLD (whatever process group the child is in) *)
Theorem exit_notifies_parent : forall s parent rest, k_susp s = parent :: rest -> get_disp (g_disp (p_sig parent)) sigchld = DCatch -> mem_n sigchld (g_mask (p_sig parent)) = false -> mem_n sigchld (g_caught (p_sig (k_cur (fst (k_exit s))))) = true /\ snd (k_exit s) = RChild CExited.
Proof.
  intros s parent rest Hs Hd Hm. unfold k_exit. rewrite Hs. cbn [fst snd k_cur].
  split; [apply notify_caught; assumption | reflexivity].
Qed.

(* a child that unblocks a pending fatal signal ([sig < 5]: 5 = SIGTSTP stops, 6 = SIGCHLD) dies inside the call;
   its parent learns the signal at the [OExit] that closes the child's frame, and gets SIGCHLD ([notify]) *)
Theorem death_at_unblock : forall s parent rest sig, k_skip s = None -> k_susp s = parent :: rest -> g_mask (p_sig (k_cur s)) = [sig] -> g_pend (p_sig (k_cur s)) = [sig] -> get_disp (g_disp (p_sig (k_cur s))) sig = DDefault -> (sig < 5)%N -> let s1 := fst (k_sigmask s 1 [sig]) in snd (k_sigmask s 1 [sig]) = RSkip /\ step s1 OExit = (mkK (k_ino s) (k_ofd s) (notify parent) rest None (k_unpriv s), RChild (CSignaled sig)).
Proof.
  intros s parent rest sig Hn Hs Hmask Hpend Hd Hlt.
  (* unblocking [sig] leaves the empty mask *)
  assert (Hsig : (sig < nsig)%N) by (unfold nsig; lia).
  rewrite (k_sigmask_dies s 1 [sig] sig parent rest Hs); try assumption.
  - split; [reflexivity|]. unfold step. cbn [fst k_skip k_susp]. rewrite Hs. reflexivity.
  - cbn. rewrite andb_true_r. apply N.ltb_lt, Hsig.
  - lia.
  - rewrite Hmask. cbn. rewrite N.eqb_refl. reflexivity.
  - unfold sigtstp. lia.
  - unfold sigchld. lia.
Qed.

(* Model.v: a child that dies inside its sigprocmask call - whatever its process group, also when its parent is a waiting child that leads no group - has SIGCHLD sent to its parent, which catches it; the processes above the parent are untouched *)
Theorem unblock_death_sigchld_to_parent_only : forall s parent rest sig, k_skip s = None -> k_susp s = parent :: rest -> g_mask (p_sig (k_cur s)) = [sig] -> g_pend (p_sig (k_cur s)) = [sig] -> get_disp (g_disp (p_sig (k_cur s))) sig = DDefault -> (sig < 5)%N -> get_disp (g_disp (p_sig parent)) sigchld = DCatch -> mem_n sigchld (g_mask (p_sig parent)) = false -> let s2 := fst (step (fst (k_sigmask s 1 [sig])) OExit) in mem_n sigchld (g_caught (p_sig (k_cur s2))) = true /\ k_susp s2 = rest /\ strip (k_cur s2) = strip parent.
Proof.
  intros s parent rest sig Hn Hs Hmask Hpend Hd Hlt Hdc Hmc.
  destruct (death_at_unblock s parent rest sig Hn Hs Hmask Hpend Hd Hlt) as [_ H2].
  cbn zeta. rewrite H2. cbn [fst k_cur k_susp]. repeat split.
  - apply notify_caught; assumption.
  - apply subshell_notify_only.
Qed.

(* several children alive together: what wait reports is a terminated, not yet reported child with exactly that status; it is reaped, nothing else changes *)
Theorem wait_reports_zombie : forall s t s' k w, wstep s (WWait t) = (s', WRGot k w) -> exists c, nth_error (w_ch s) k = Some c /\ c_st c = CZomb w /\ nth_error (w_ch s') k = Some (with_st c CReaped) /\ w_k s' = w_k s /\ forall j, j <> k -> nth_error (w_ch s') j = nth_error (w_ch s) j.
Proof. exact wait_got_zombie. Qed.

(* wait(-1) reports a terminated child iff one exists *)
Theorem wait_any_iff : forall s, (exists k w, snd (wstep s (WWait None)) = WRGot k w) <-> (exists c, In c (w_ch s) /\ zomb_of c <> None).
Proof.
  intros s.
  cbn [wstep]. unfold w_wait. pose proof (first_zomb_spec (w_ch s) 0) as Hf.
  destruct (first_zomb (w_ch s) 0) as [[k0 w0]|]; split.
  - intros _. destruct Hf as (k1 & c & _ & Hn & Hz & _).
    exists c. split; [eapply nth_error_In; eauto|]. unfold zomb_of. rewrite Hz. discriminate.
  - intros _. exists k0, w0. reflexivity.
  - intros [k [w H]]. destruct (existsb _ _); discriminate.
  - intros [c [Hin Hz]]. destruct (Hz (Hf c Hin)).
Qed.

(* ... the oldest one (Linux; POSIX leaves the choice open) *)
Theorem wait_oldest_first : forall s s' k w, wstep s (WWait None) = (s', WRGot k w) -> forall j c, j < k -> nth_error (w_ch s) j = Some c -> zomb_of c = None.
Proof.
  intros s s' k w.
  cbn [wstep]. unfold w_wait.
  pose proof (first_zomb_spec (w_ch s) 0) as Hf.
  destruct (first_zomb (w_ch s) 0) as [[k0 w0]|]; [|destruct (existsb _ _); discriminate].
  destruct Hf as (k1 & c & -> & _ & _ & Hm). intros H. inversion H; subst. exact Hm.
Qed.

(* wait(-1) fails with ECHILD iff every child has been reaped (or there is none) *)
Theorem wait_any_echild_iff : forall s, snd (wstep s (WWait None)) = WRNoChild <-> (forall c, In c (w_ch s) -> is_reaped c = true).
Proof.
  intros s.
  cbn [wstep]. unfold w_wait.
  pose proof (first_zomb_spec (w_ch s) 0) as Hf.
  destruct (first_zomb (w_ch s) 0) as [[k0 w0]|].
  - split; [discriminate|]. intros H. exfalso.
    destruct Hf as (k1 & c & _ & Hn & Hz & _).
    apply nth_error_In in Hn. apply H in Hn. unfold is_reaped in Hn. rewrite Hz in Hn. discriminate.
  - destruct (existsb (fun c => negb (is_reaped c)) (w_ch s)) eqn:Ee; cbn [snd].
    + split; [discriminate|]. intros H. exfalso.
      apply existsb_exists in Ee. destruct Ee as [c [Hin Hc]]. rewrite (H c Hin) in Hc. discriminate.
    + split; auto. intros _ c Hin.
      destruct (is_reaped c) eqn:Er; auto.
      rewrite <- Ee. apply existsb_exists. exists c. rewrite Er. auto.
Qed.

(* a child that wait has reported is never reported a second time, whatever the parent and the children do in between and afterwards *)
Theorem never_reported_twice : forall s ops1 ops2 k w w', In (WRGot k w) (snd (wrun s ops1)) -> ~ In (WRGot k w') (snd (wrun (fst (wrun s ops1)) ops2)).
Proof.
  intros s ops1 ops2 k w w' H. apply wrun_reaped_not_got. eapply wrun_got_reaped; eauto.
Qed.

(* in every run from every state each child is reported at most once *)
Theorem at_most_one_report : forall ops s k, count_got k (snd (wrun s ops)) <= 1.
Proof.
  intros ops.
  induction ops as [|o ops IH]; intros s k; cbn; auto.
  pose proof (wstep_got_reaped s o k) as H1.
  destruct (wstep s o) as [s1 r] eqn:E. cbn [fst snd] in *.
  pose proof (IH s1 k) as H2. pose proof (wrun_reaped_not_got ops s1 k) as H3.
  destruct (wrun s1 ops) as [s2 rs]. cbn [snd] in *.
  destruct r as [r| | |k' w]; cbn; auto.
  destruct (Nat.eqb k k') eqn:Ek; auto.
  apply Nat.eqb_eq in Ek. subst k'.
  rewrite count_got_zero; auto. intros w'. apply H3. eapply H1. reflexivity.
Qed.

(* a call in which child k dies (exit, fatal signal, death inside sigprocmask): SIGCHLD goes to the parent, the child is a zombie, its siblings are untouched - whatever process group the child is in *)
Theorem child_death_notifies_parent : forall s k c cmd, nth_error (w_ch s) k = Some c -> is_run c = true -> snd (wstep s (WCmd k cmd)) = WR RSkip -> w_k (fst (wstep s (WCmd k cmd))) = notify_parent (w_k s) /\ (exists c', nth_error (w_ch (fst (wstep s (WCmd k cmd)))) k = Some c' /\ zomb_of c' <> None) /\ (forall j, j <> k -> nth_error (w_ch (fst (wstep s (WCmd k cmd)))) j = nth_error (w_ch s) j).
Proof.
  intros s k c cmd Hn Hr. cbn [wstep]. rewrite Hn, Hr.
  destruct (child_cmd_cases s k c cmd) as [->|[(c' & ->)|(c1 & w & ->)]]; try discriminate.
  intros _. cbn [fst die w_k w_ch]. split; [reflexivity|]. split.
  - eexists. split; [eapply nth_set_nth_eq; eauto | cbn; discriminate].
  - intros j Hj. apply nth_set_nth_neq; auto.
Qed.

(* a parent that catches SIGCHLD and does not block it has caught it after the notification *)
Theorem notify_parent_caught : forall k, get_disp (g_disp (p_sig (k_cur k))) sigchld = DCatch -> mem_n sigchld (g_mask (p_sig (k_cur k))) = false -> mem_n sigchld (g_caught (p_sig (k_cur (notify_parent k)))) = true.
Proof.
  intros k Hd Hm. exact (notify_caught (k_cur k) Hd Hm).
Qed.

(* a child in a process group of its own dies inside its sigprocmask call while siblings live: the parent has caught SIGCHLD and wait(-1) reports this child and the signal *)
Theorem unblock_death_own_group : forall s k c sig, nth_error (w_ch s) k = Some c -> c_st c = CRun -> c_own c = true -> c_mask c = [sig] -> c_pend c = [sig] -> (sig < 5)%N -> (forall j cj, j < k -> nth_error (w_ch s) j = Some cj -> zomb_of cj = None) -> get_disp (g_disp (p_sig (k_cur (w_k s)))) sigchld = DCatch -> mem_n sigchld (g_mask (p_sig (k_cur (w_k s)))) = false -> let s1 := fst (wstep s (WCmd k (CMask 1 [sig]))) in snd (wstep s (WCmd k (CMask 1 [sig]))) = WR RSkip /\ mem_n sigchld (g_caught (p_sig (k_cur (w_k s1)))) = true /\ snd (wstep s1 (WWait None)) = WRGot k (WSignaled sig).
Proof.
  intros s k c sig Hn Hst Hown Hmask Hpend Hlt Hold Hd Hm.
  assert (Hrun : is_run c = true) by (unfold is_run; rewrite Hst; reflexivity).
  assert (Hsig : N.ltb sig nfatal = true) by (unfold nfatal; lia).
  cbn zeta. cbn [wstep]. rewrite Hn, Hrun. cbn [child_cmd]. rewrite Hmask, Hpend.
  cbn [forallb]. rewrite Hsig.
  change (N.ltb 2 1) with false. change (N.eqb 1 0) with false. change (N.eqb 1 1) with true.
  cbn [andb negb orb fold_right remove_n]. rewrite N.eqb_refl.
  cbn [filter mem_n negb remove_n]. rewrite N.eqb_refl. cbn [fst snd].
  split; [reflexivity|]. split; [apply notify_parent_caught; auto|].
  (* no older zombie, and [die] has made child k one *)
  unfold w_wait, die. cbn [w_ch].
  erewrite (first_zomb_at _ 0 k) by
    (try (eapply nth_set_nth_eq; eauto); try reflexivity;
     intros j cj Hj Hcj; rewrite nth_set_nth_neq in Hcj by lia; eapply Hold; eauto).
  reflexivity.
Qed.

Theorem wait_oracle_complete : forall v r, wait_oracle v r = None -> wait_agree v r.
Proof.
  intros v.
  unfold wait_agree. induction v as [|x v IH]; intros [|y r]; cbn; try discriminate; auto.
  destruct (wres_eqb x y) eqn:E; [|discriminate]. intros H.
  apply wres_eqb_eq in E. apply IH in H. congruence.
Qed.

(* if both systems behave like the model (inside the domain) the check reports 0 *)
Theorem wait_oracle_sound : forall ops, whas_out (wmodel_obs ops) = false -> run_case (CWait ops (wmodel_obs ops) (wmodel_obs ops)) = 0%N.
Proof.
  intros ops H. unfold run_case. rewrite wait_oracle_refl, H.
  rewrite (list_eqb_refl _ wres_eqb_refl). reflexivity.
Qed.

(* non-vacuity: two children alive together, the younger (own group) dies inside sigprocmask, the older exits later *)
Example ex_wait_two_children : wmodel_obs ex_wait_ops = [WR (RDisp DDefault); WR (RSigs []); WR RUnit; WR RUnit; WRNone; WR RUnit; WR RUnit; WR (RSigs []); WRNone; WR RSkip; WR (RSigs [6%N]); WRNone; WRGot 1 (WSignaled 2); WRNone; WR RSkip; WR (RSigs [6%N]); WRNoChild; WRGot 0 (WExited 7); WRNoChild].
Proof. vm_compute. reflexivity. Qed.

Print Assumptions lowest_free_spec.
Print Assumptions dup_lowest_free.
Print Assumptions dup_shares_offset.
Print Assumptions dup2_clears_cloexec.
Print Assumptions close_closes.
Print Assumptions fork_child_is_copy.
Print Assumptions fork_shares_offset.
Print Assumptions subshell_isolation.
Print Assumptions raise_caught.
Print Assumptions raise_ignored.
Print Assumptions raise_blocked.
Print Assumptions ignore_discards_pending.
Print Assumptions append_writes_at_end.
Print Assumptions write_read_roundtrip.
Print Assumptions excl_refuses_existing.
Print Assumptions trunc_empties.
Print Assumptions umask_masks_creation.
Print Assumptions mask_spec.
Print Assumptions walk_iff_resolves.
Print Assumptions path_normalisation.
Print Assumptions norm_no_dot.
Print Assumptions wf_init.
Print Assumptions step_preserves_wf.
Print Assumptions wf_reachable.
Print Assumptions wf_no_dangling.
Print Assumptions oracle_sound.
Print Assumptions script_oracle_reflexive.
Print Assumptions script3_oracle_reflexive.
Print Assumptions sys_oracle_complete.
Print Assumptions script_oracle_complete.
Print Assumptions ex_dup_nonvacuous.
Print Assumptions ex_fork_nonvacuous.
Print Assumptions ex_excl_nonvacuous.
Print Assumptions ex_umask_nonvacuous.
Print Assumptions ex_norm_nonvacuous.
Print Assumptions norm_needs_resolvable.
Print Assumptions oracle_rejects_fd_leak.
Print Assumptions open_emfile_no_effect.
Print Assumptions pipe_emfile_no_leak.
Print Assumptions pipe_below_limit.
Print Assumptions dup_emfile.
Print Assumptions group_kill_child_dies.
Print Assumptions signal_ancestors_ignored.
Print Assumptions kill_neg_pid_not_leader.
Print Assumptions ex_pipe_emfile.
Print Assumptions ex_group_kill.
Print Assumptions walk_needs_search.
Print Assumptions walk_privileged.
Print Assumptions open_existing_denied.
Print Assumptions open_existing_allowed.
Print Assumptions exit_notifies_parent.
Print Assumptions death_at_unblock.
Print Assumptions subshell_notify_only.
Print Assumptions wait_reports_zombie.
Print Assumptions wait_any_iff.
Print Assumptions wait_oldest_first.
Print Assumptions wait_any_echild_iff.
Print Assumptions never_reported_twice.
Print Assumptions at_most_one_report.
Print Assumptions child_death_notifies_parent.
Print Assumptions notify_parent_caught.
Print Assumptions unblock_death_own_group.
Print Assumptions unblock_death_sigchld_to_parent_only.
Print Assumptions wait_oracle_complete.
Print Assumptions wait_oracle_sound.
Print Assumptions ex_wait_two_children.
