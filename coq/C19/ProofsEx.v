(* C19 — non-vacuity: concrete states that satisfy the hypotheses of the
   implication-shaped theorems (all by computation). *)
From Yv Require Import Common.Base C19.Model C19.Spec C19.Run.

Definition ex_tree : list init_entry :=
  [([[100]], None);                              (* d/   *)
   ([[100]; [115]], None);                       (* d/s/ *)
   ([[102]], Some [104; 105; 10]);               (* f = "hi\n" *)
   ([[100]; [104]], Some [97; 98; 99])]%N.       (* d/h = "abc" *)

Definition ex0 : kstate := init_state ex_tree 18.    (* umask 022 *)

Definition fl_none := mkFl false false false false false false.
Definition fl_creat := mkFl true false false false false false.
Definition fl_creat_excl := mkFl true true false false false false.
Definition fl_trunc := mkFl true false true false false false.
Definition fl_append := mkFl false false false true false false.

Definition p_f : str := [102]%N.
Definition p_new : str := [100; 47; 110]%N.                       (* d/n *)
Definition p_dots : str := [100; 47; 115; 47; 46; 46; 47; 46; 47; 104]%N.   (* d/s/.././h *)

(* f opened read/write on descriptor 3 *)
Definition ex1 : kstate := fst (k_open ex0 p_f ARdWr fl_none 0).

Example ex_open : snd (k_open ex0 p_f ARdWr fl_none 0) = RFd 3.
Proof. vm_compute. reflexivity. Qed.

Example ex_dup :
  exists s1 s2, k_dup ex1 3 10 true = (s1, RFd 10%N) /\ k_lseek s1 10 WSet 2 = (s2, ROff 2).
Proof. eexists; eexists; split; vm_compute; reflexivity. Qed.

Example ex_dup2 : exists s', k_dup2 ex1 3 7 = (s', RFd 7%N) /\ 3%N <> 7%N.
Proof. eexists; split; [vm_compute; reflexivity | discriminate]. Qed.

Example ex_fork :
  exists s1 s2 s3, k_fork ex1 = (s1, RUnit) /\ k_lseek s1 3 WEnd (-1) = (s2, ROff 2) /\
                   k_exit s2 = (s3, RChild CExited).
Proof. do 3 eexists. repeat split; vm_compute; reflexivity. Qed.

Example ex_nested :
  nested 0 [OClose 3; OChdir [100]%N; OUmask 63; OFork; OClose 0; OExit; OPipe] = true.
Proof. reflexivity. Qed.

Example ex_append :
  exists s id o perm data,
    s = fst (k_open ex0 p_f AWr fl_append 0) /\
    get_ofd s 3 = Some (id, o) /\ o_wr o = true /\ o_app o = true /\
    nth_error (k_ino s) (o_ino o) = Some (IReg perm data) /\ data = [104; 105; 10]%N.
Proof. do 5 eexists. repeat split; vm_compute; reflexivity. Qed.

Example ex_roundtrip :
  exists id o perm data,
    get_ofd ex1 3 = Some (id, o) /\ o_rd o = true /\ o_wr o = true /\
    nth_error (k_ino ex1) (o_ino o) = Some (IReg perm data).
Proof. do 4 eexists. repeat split; vm_compute; reflexivity. Qed.

Example ex_excl :
  exists k sz pm, can_alloc ex0 0 = true /\ k_stat ex0 p_f = (ex0, RStat k sz pm) /\
                  flags_ok AWr fl_creat_excl = true.
Proof. do 3 eexists. repeat split; vm_compute; reflexivity. Qed.

(* descriptors 0-2 open and a limit of 4: the pipe gets nothing, and the next
   open gets descriptor 3 *)
Definition ex_lim : kstate := fst (k_setrlimit ex0 4).
Example ex_pipe_emfile :
  k_pipe ex_lim = (ex_lim, RErr EMFILE) /\ snd (k_open ex_lim p_f ARd fl_none 0) = RFd 3 /\
  can_alloc (fst (k_open ex_lim p_f ARd fl_none 0)) 0 = false.
Proof. repeat split; vm_compute; reflexivity. Qed.

(* the parent ignores SIGTERM (2); the child resets it and signals the group *)
Example ex_group_kill :
  snd (run ex0 [OSigaction 2 DIgnore; OFork; OSigaction 2 DDefault; OKill TGroup0 2; OGetcwd;
                OExit; OGetSigaction 2])
  = [RDisp DDefault; RUnit; RDisp DIgnore; RSkip; RSkip; RChild (CSignaled 2); RDisp DIgnore].
Proof. vm_compute. reflexivity. Qed.

Example ex_trunc : exists s' fd, k_open ex0 p_f AWr fl_trunc 438 = (s', RFd fd).
Proof. do 2 eexists. vm_compute. reflexivity. Qed.

Example ex_umask :
  exists s' fd, k_stat ex0 p_new = (ex0, RErr ENOENT) /\
                k_open ex0 p_new AWr fl_creat 438 = (s', RFd fd) /\
                mask 438 (p_umask (k_cur ex0)) = 420%N.       (* 0666 & ~022 = 0644 *)
Proof. do 2 eexists. repeat split; vm_compute; reflexivity. Qed.

Example ex_norm :
  exists st, walk false (k_ino ex0) [] (comps p_dots) = WOk st /\
             norm [] (comps p_dots) = [[100]; [104]]%N /\ top st = 7.
Proof. eexists. repeat split; vm_compute; reflexivity. Qed.

(* the hypothesis of [path_normalisation] is needed: `f/..` does not resolve
   (f is a regular file) although its normal form (the empty path) does *)
Example ex_norm_needs_hyp :
  walk false (k_ino ex0) [] [[102]; [46; 46]]%N = WErr ENOTDIR /\
  walk false (k_ino ex0) [] (norm [] [[102]; [46; 46]]%N) = WOk [].
Proof. split; vm_compute; reflexivity. Qed.

Example ex_oracle_sound :
  has_out (so_res (model_obs ex_tree 18
     [OOpen p_f ARdWr fl_none 0; ODup 3 10 true; ORead 10 2; OFork; OChdir [100]%N; OExit; OGetcwd]))
  = false.
Proof. vm_compute. reflexivity. Qed.

(* the oracle does reject: a simulator that leaves one more descriptor open
   (verdict 2 = 2 + [op_class] of open: the real side agrees with the model) *)
Example ex_oracle_rejects :
  run_case (CSys ex_tree 18 [OOpen p_f ARd fl_none 0]
              (mkSysObs [RFd 4] (so_tree (model_obs ex_tree 18 [])) [[]; []; []])
              (mkSysObs [RFd 3] (so_tree (model_obs ex_tree 18 [])) [[]; []; []])) = 2%N.
Proof. vm_compute. reflexivity. Qed.
