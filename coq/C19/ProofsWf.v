(* C19 — the structural invariant [wf] of kernel states is kept by every call:
   no descriptor refers to a missing open file description, no description to a
   missing inode, no directory entry to a missing inode, and every process has
   a directory as its working directory. *)
From Yv Require Import Common.Base C19.Model C19.Spec C19.Proofs.

Definition fds_ok (n : nat) (t : fdtab) : Prop := forall fd e, In (fd, e) t -> e_ofd e < n.

Lemma fds_ok_del n t fd : fds_ok n t -> fds_ok n (fd_del t fd).
Proof. intros H k e Hi. eapply H, fd_del_In; eauto. Qed.

Lemma fds_ok_put n t fd e : fds_ok n t -> e_ofd e < n -> fds_ok n (fd_put t fd e).
Proof.
  intros H He k e' [Hi|Hi].
  - inversion Hi; subst; auto.
  - eapply H, fd_del_In; eauto.
Qed.

Lemma fds_ok_mono n n' t : fds_ok n t -> n <= n' -> fds_ok n' t.
Proof. intros H Hl k e Hi. specialize (H k e Hi). lia. Qed.

Lemma inode_ok_mono n n' x : inode_ok n x -> n <= n' -> inode_ok n' x.
Proof.
  destruct x; cbn; auto. intros H Hl name i Hi. specialize (H name i Hi). lia.
Qed.

Lemma is_dir_app ino x i : is_dir ino i = true -> is_dir (ino ++ [x]) i = true.
Proof.
  unfold is_dir. destruct (nth_error ino i) as [n|] eqn:E; try discriminate.
  rewrite nth_error_app1 by (eapply nth_error_lt; eauto). rewrite E. auto.
Qed.

Lemma is_dir_set_nth ino j x i :
  (is_dir ino j = true -> match x with IDir _ _ => True | _ => False end) ->
  is_dir ino i = true -> is_dir (set_nth ino j x) i = true.
Proof.
  unfold is_dir. intros Hx H. destruct (Nat.eq_dec j i) as [->|Hne].
  - destruct (nth_error ino i) as [n|] eqn:E; try discriminate.
    erewrite nth_set_nth_eq by eauto.
    destruct x; auto; exfalso; apply Hx; rewrite E; auto.
  - rewrite nth_set_nth_neq; auto.
Qed.

Lemma wf_set_ino s ino' :
  wf s -> length (k_ino s) <= length ino' ->
  Forall (inode_ok (length ino')) ino' ->
  (forall i, is_dir (k_ino s) i = true -> is_dir ino' i = true) ->
  wf (set_ino s ino').
Proof.
  intros (H1 & H2 & H3 & H4) Hl Hf Hd. unfold wf, set_ino, all_procs in *. cbn [k_ino k_ofd k_cur k_susp].
  split; auto. split.
  - eapply Forall_impl; [|exact H2]. cbn. intros; lia.
  - split; auto. eapply Forall_impl; [|exact H3]. intros p (Ha & Hb). split; auto.
Qed.

Lemma wf_set_ofd s l' :
  wf s -> length (k_ofd s) <= length l' ->
  Forall (fun o => o_ino o < length (k_ino s)) l' ->
  wf (set_ofd s l').
Proof.
  intros (H1 & H2 & H3 & H4) Hl Hf. unfold wf, set_ofd, all_procs in *. cbn [k_ino k_ofd k_cur k_susp].
  split; auto. split; auto. split; auto.
  eapply Forall_impl; [|exact H3]. intros p (Ha & Hb). split; auto.
  intros fd e Hi. specialize (Ha fd e Hi). lia.
Qed.

Lemma wf_cur s : wf s -> proc_ok (length (k_ofd s)) (k_ino s) (k_cur s).
Proof. intros (_ & _ & H3 & _). unfold all_procs in H3. inversion H3; auto. Qed.

Lemma wf_susp s : wf s -> Forall (proc_ok (length (k_ofd s)) (k_ino s)) (k_susp s).
Proof. intros (_ & _ & H3 & _). unfold all_procs in H3. inversion H3; auto. Qed.

Lemma wf_set_procs s cur' susp' sk' u' :
  wf s -> proc_ok (length (k_ofd s)) (k_ino s) cur' ->
  Forall (proc_ok (length (k_ofd s)) (k_ino s)) susp' ->
  wf (mkK (k_ino s) (k_ofd s) cur' susp' sk' u').
Proof.
  intros (H1 & H2 & H3 & H4) Hc Hs. unfold wf, all_procs. cbn [k_ino k_ofd k_cur k_susp].
  repeat split; auto.
Qed.

Lemma wf_set_cur s p :
  wf s -> proc_ok (length (k_ofd s)) (k_ino s) p -> wf (set_cur s p).
Proof. intros Hw Hp. exact (wf_set_procs s p (k_susp s) _ _ Hw Hp (wf_susp s Hw)). Qed.

Lemma wf_same_cur s p :
  wf s -> p_fds p = p_fds (k_cur s) -> p_cwd p = p_cwd (k_cur s) -> wf (set_cur s p).
Proof.
  intros Hw Hf Hc. apply wf_set_cur; auto. destruct (wf_cur s Hw) as (Ha & Hb).
  unfold proc_ok. rewrite Hf, Hc. split; assumption.
Qed.

Lemma wf_set_fds s t : wf s -> fds_ok (length (k_ofd s)) t -> wf (set_fds s t).
Proof.
  intros Hw Ht. apply wf_set_cur; auto. destruct (wf_cur s Hw) as (_ & Hd). split; auto.
Qed.

Lemma wf_fds s : wf s -> fds_ok (length (k_ofd s)) (fds s).
Proof. intros Hw. destruct (wf_cur s Hw) as (H & _). exact H. Qed.

(* dup, dup2, F_SETFD: a descriptor is bound to the description of an open one *)
Lemma wf_rebind s fd e fd' cx :
  wf s -> fd_get (fds s) fd = Some e -> wf (set_fds s (fd_put (fds s) fd' (mkEnt (e_ofd e) cx))).
Proof.
  intros Hw G. apply wf_set_fds; auto. apply fds_ok_put; [apply wf_fds; auto|].
  exact (wf_fds s Hw fd e (fd_get_In _ _ _ G)).
Qed.

(* a new description gets a descriptor; the inode table is not touched *)
Lemma wf_install s o cx s' fd :
  install s o cx = (s', fd) -> wf s -> o_ino o < length (k_ino s) ->
  wf s' /\ k_ino s' = k_ino s.
Proof.
  unfold install. intros E Hw Ho. injection E as <- _. split; [|reflexivity].
  assert (Hw1 : wf (set_ofd s (k_ofd s ++ [o]))).
  { apply wf_set_ofd; auto.
    - rewrite app_length; lia.
    - apply Forall_app. split; [apply Hw | constructor; auto]. }
  apply wf_set_fds; auto. cbn [set_ofd k_ofd].
  apply fds_ok_put.
  - eapply fds_ok_mono; [apply (wf_fds s Hw)|]. rewrite app_length; lia.
  - cbn. rewrite app_length. cbn. lia.
Qed.

Lemma wf_ino_ok s i x : wf s -> nth_error (k_ino s) i = Some x -> inode_ok (length (k_ino s)) x.
Proof.
  intros (H1 & _) Hn. rewrite Forall_forall in H1. apply H1. eapply nth_error_In; eauto.
Qed.

(* new bytes for a regular file or a FIFO, new permission bits for any inode *)
Lemma wf_set_data s i x y :
  wf s -> nth_error (k_ino s) i = Some x ->
  match x, y with
  | IReg _ _, IReg _ _ | IFifo _, IFifo _ => True
  | IDir _ ents, IDir _ ents' => ents' = ents
  | _, _ => False
  end ->
  wf (set_ino s (set_nth (k_ino s) i y)).
Proof.
  intros Hw Hn Hxy. pose proof (wf_ino_ok s i x Hw Hn) as Hok. apply wf_set_ino; auto.
  - rewrite length_set_nth; lia.
  - rewrite length_set_nth. apply Forall_set_nth; [apply Hw|].
    destruct x, y; try tauto; cbn in *; subst; auto.
  - intros j. apply is_dir_set_nth. unfold is_dir. rewrite Hn. destruct x, y; try tauto; discriminate.
Qed.

Lemma wf_set_off s fd id o n : wf s -> get_ofd s fd = Some (id, o) -> wf (set_off s id o n).
Proof.
  intros Hw G. destruct (get_ofd_inv _ _ _ _ G) as (e & _ & _ & Hn).
  unfold set_off. apply wf_set_ofd; auto.
  - rewrite length_set_nth; lia.
  - apply Forall_set_nth; [apply Hw|]. cbn.
    destruct Hw as (_ & H2 & _). rewrite Forall_forall in H2. apply H2. eapply nth_error_In; eauto.
Qed.

Lemma wf_append_inode s x :
  wf s -> inode_ok (S (length (k_ino s))) x -> wf (set_ino s (k_ino s ++ [x])).
Proof.
  intros Hw Hx. apply wf_set_ino; auto; rewrite ?app_length, ?Nat.add_1_r; auto.
  - apply Forall_app. split; [|constructor; auto].
    eapply Forall_impl; [|apply Hw]. intros y Hy. eapply inode_ok_mono; eauto.
  - intros i. apply is_dir_app.
Qed.

Lemma add_entry_length l d name i : length (add_entry l d name i) = length l.
Proof.
  unfold add_entry. destruct (nth_error l d) as [[| perm ents |]|]; auto. apply length_set_nth.
Qed.

Lemma add_entry_ok l d name i :
  Forall (inode_ok (length l)) l -> i < length l ->
  Forall (inode_ok (length l)) (add_entry l d name i).
Proof.
  intros H Hi. unfold add_entry. destruct (nth_error l d) as [[| perm ents |]|] eqn:E; auto.
  apply Forall_set_nth; auto. cbn. intros n j Hj. apply in_app_or in Hj. destruct Hj as [Hj|[Hj|[]]].
  - rewrite Forall_forall in H. apply (H _ (nth_error_In _ _ E) n j Hj).
  - inversion Hj; subst; auto.
Qed.

Lemma add_entry_is_dir l d name i j : is_dir l j = true -> is_dir (add_entry l d name i) j = true.
Proof.
  unfold add_entry. destruct (nth_error l d) as [[| perm ents |]|]; auto.
  apply is_dir_set_nth. intros _. exact I.
Qed.

Lemma wf_add_entry s d name i :
  wf s -> i < length (k_ino s) -> wf (set_ino s (add_entry (k_ino s) d name i)).
Proof.
  intros Hw Hi. apply wf_set_ino; auto.
  - rewrite add_entry_length. auto.
  - rewrite add_entry_length. apply add_entry_ok; [apply Hw | exact Hi].
  - intros j. apply add_entry_is_dir.
Qed.

Lemma wf_create s d name perm :
  wf s -> wf (set_ino s (add_entry (k_ino s ++ [IReg perm []]) d name (length (k_ino s)))).
Proof.
  intros Hw. change (set_ino s ?l) with (set_ino (set_ino s (k_ino s ++ [IReg perm []])) l).
  apply (wf_add_entry (set_ino s (k_ino s ++ [IReg perm []]))).
  - apply wf_append_inode; [exact Hw | exact I].
  - cbn [set_ino k_ino]. rewrite app_length. cbn. lia.
Qed.

Lemma wf_open_existing s i a f : wf s -> wf (fst (open_existing s i a f)).
Proof.
  intros Hw. unfold open_existing.
  destruct (f_creat f && f_excl f); auto.
  destruct (nth_error (k_ino s) i) as [[perm data| perm ents | data]|] eqn:En; auto.
  - destruct (f_dir f); auto.
    destruct (k_unpriv s && _); auto.
    destruct (install _ _ _) as [s' fd] eqn:Ei. cbn [fst]. apply (wf_install _ _ _ _ _ Ei).
    + destruct (f_trunc f); auto. eapply wf_set_data; eauto. exact I.
    + cbn [o_ino]. destruct (f_trunc f); cbn [set_ino k_ino]; rewrite ?length_set_nth;
        eapply nth_error_lt; eauto.
  - destruct (writable a); auto. destruct (f_creat f); auto.
    destruct (k_unpriv s && _); auto.
    destruct (install _ _ _) as [s' fd] eqn:Ei. cbn [fst]. apply (wf_install _ _ _ _ _ Ei); auto.
    cbn. eapply nth_error_lt; eauto.
Qed.

Lemma wf_open_inner s p a f mode : wf s -> wf (fst (k_open_inner s p a f mode)).
Proof.
  intros Hw. destruct (flags_ok a f) eqn:Hok; [|unfold k_open_inner; rewrite Hok; exact Hw].
  apply (k_open_inner_cases s p a f mode Hok (fun R => wf (fst R))).
  - intros st _. apply wf_open_existing, Hw.
  - intros r _ _. exact Hw.
  - intros d perm ents name _ Hd. cbv zeta.
    destruct (install _ _ _) as [s' fd] eqn:Ei. cbn [fst].
    apply (wf_install _ _ _ _ _ Ei); [apply wf_create, Hw|].
    cbn [o_ino set_ino k_ino]. rewrite add_entry_length, app_length. cbn. lia.
Qed.

Lemma wf_open s p a f mode : wf s -> wf (fst (k_open s p a f mode)).
Proof.
  intros Hw. unfold k_open. destruct (can_alloc s 0); [apply wf_open_inner; auto|].
  destruct (snd (k_open_inner s p a f mode)); auto.
Qed.

Lemma wf_pipe s : wf s -> wf (fst (k_pipe s)).
Proof.
  intros Hw. unfold k_pipe.
  assert (Hw0 : wf (set_ino s (k_ino s ++ [IFifo []]))) by (apply wf_append_inode; cbn; auto).
  destruct (negb (can_alloc s 0)); auto.
  destruct (install (set_ino s _) _ _) as [s1 r] eqn:E1.
  destruct (negb (can_alloc s1 0)); auto.
  destruct (install s1 _ _) as [s2 w] eqn:E2. cbn [fst].
  assert (Hi : length (k_ino s) < length (k_ino s ++ [IFifo []])) by (rewrite app_length; cbn; lia).
  destruct (wf_install _ _ _ _ _ E1 Hw0 Hi) as (Hw1 & I1).
  apply (wf_install _ _ _ _ _ E2 Hw1). rewrite I1. exact Hi.
Qed.

Lemma wf_set_sig s g : wf s -> wf (set_sig s g).
Proof. intros Hw. apply wf_same_cur; auto. Qed.

Lemma wf_fork s : wf s -> wf (fst (k_fork s)).
Proof.
  intros Hw. unfold k_fork. cbn [fst]. destruct (wf_cur s Hw) as (Ha & Hb).
  apply wf_set_procs; [exact Hw | split; assumption |].
  constructor; [split; assumption | apply wf_susp, Hw].
Qed.

Lemma notify_ok n ino p : proc_ok n ino p -> proc_ok n ino (notify p).
Proof.
  intros (A & B). destruct (notify_rest p) as (F & C & _). unfold proc_ok. rewrite F, C. split; auto.
Qed.

Lemma wf_pop s p rest x u :
  wf s -> k_susp s = p :: rest -> wf (mkK (k_ino s) (k_ofd s) (notify p) rest x u).
Proof.
  intros Hw E. pose proof (wf_susp s Hw) as Hs. rewrite E in Hs. inversion Hs; subst.
  apply wf_set_procs; auto. apply notify_ok; auto.
Qed.

Lemma wf_exit s : wf s -> wf (fst (k_exit s)).
Proof.
  intros Hw. unfold k_exit.
  destruct (k_susp s) as [|p rest] eqn:E; [exact Hw | exact (wf_pop s p rest _ _ Hw E)].
Qed.

(* [wf] sees a process through its descriptor table and directory only *)
Lemma proc_ok_strip n ino : forall l l',
  map strip l' = map strip l -> Forall (proc_ok n ino) l -> Forall (proc_ok n ino) l'.
Proof.
  induction l as [|p l IH]; intros [|p' l'] H Hf; try discriminate; [constructor|].
  inversion Hf; subst. cbn [map] in H.
  assert (Hp : strip p' = strip p) by congruence.
  assert (Hl : map strip l' = map strip l) by congruence.
  constructor; [|apply IH; assumption].
  unfold strip in Hp. injection Hp as Hfd Hcwd _ _ _. unfold proc_ok. rewrite Hfd, Hcwd. assumption.
Qed.

Lemma wf_signals_only s s' : k_skip s = None -> wf s -> signals_only s s' -> wf s'.
Proof.
  intros Hn (H1 & H2 & H3 & H4) Hso. pose proof (signals_only_susp s s' Hn Hso) as Hs.
  destruct Hso as (_ & Hi & Ho & Hc). unfold wf. rewrite Hi, Ho. repeat split; auto.
  apply (proc_ok_strip _ _ (all_procs s)); [|exact H3].
  unfold all_procs. cbn [map]. rewrite Hc, Hs. reflexivity.
Qed.

Lemma wf_reskip s x u' : wf s -> wf (mkK (k_ino s) (k_ofd s) (k_cur s) (k_susp s) x u').
Proof. intros Hw. exact (wf_set_procs s _ _ x u' Hw (wf_cur s Hw) (wf_susp s Hw)). Qed.

Lemma step_live_preserves_wf s o : k_skip s = None -> wf s -> wf (fst (step_live s o)).
Proof.
  intros Hn Hw. destruct o; cbn [step_live].
  - apply wf_open; auto.
  - unfold k_close. cbn [fst]. apply wf_set_fds; auto. apply fds_ok_del, wf_fds; auto.
  - unfold k_dup. destruct (N.ltb fd_limit min); auto.
    destruct (fd_get (fds s) fd) as [e|] eqn:G; auto.
    destruct (N.leb (p_limit (k_cur s)) min); auto.
    destruct (negb (can_alloc s min)); auto. cbn [fst]. eapply wf_rebind; eauto.
  - unfold k_dup2. destruct (N.ltb fd_limit to); auto.
    destruct (fd_get (fds s) fd) as [e|] eqn:G; auto.
    destruct (N.eqb fd to); auto.
    destruct (N.leb (p_limit (k_cur s)) to); auto. cbn [fst]. eapply wf_rebind; eauto.
  - unfold k_read. destruct (N.eqb n 0); auto.
    destruct (get_ofd s fd) as [[id o]|] eqn:G; auto.
    destruct (negb (o_rd o)); auto.
    destruct (nth_error (k_ino s) (o_ino o)) as [[perm data| perm ents | data]|] eqn:En; auto.
    + cbn [fst]. eapply wf_set_off; eauto.
    + destruct data as [|c data]; [destruct (live_end _ _ _); auto|].
      cbn [fst]. eapply wf_set_data; eauto. exact I.
  - unfold k_write. destruct (negb (nonempty b)); auto.
    destruct (get_ofd s fd) as [[id o]|] eqn:G; auto.
    destruct (negb (o_wr o)); auto.
    destruct (nth_error (k_ino s) (o_ino o)) as [[perm data| perm ents | data]|] eqn:En; auto.
    + cbn [fst]. apply (wf_set_off _ fd); [eapply wf_set_data; eauto; exact I | exact G].
    + destruct (negb (live_end _ _ _)); auto. destruct (N.ltb _ _); auto.
      cbn [fst]. eapply wf_set_data; eauto. exact I.
  - unfold k_lseek. destruct (get_ofd s fd) as [[id o]|] eqn:G; auto.
    destruct (nth_error (k_ino s) (o_ino o)) as [[perm data| perm ents | data]|]; auto.
    destruct (Z.ltb _ 0); auto. cbn [fst]. eapply wf_set_off; eauto.
  - unfold k_fstat. destruct (get_ofd s fd) as [[id o]|]; auto. destruct (nth_error _ _); auto.
  - unfold k_stat. destruct (resolve _ _ _); auto. destruct (nth_error _ _); auto.
  - unfold k_umask. destruct (N.ltb 511 m); auto. cbn [fst].
    apply wf_same_cur; auto.
  - unfold k_chdir. destruct (resolve _ _ _) as [st| |]; auto.
    destruct (is_dir (k_ino s) (top st)) eqn:Ed; auto.
    destruct (k_unpriv s && _); auto. cbn [fst]. apply wf_set_cur; auto. split; [apply (wf_fds s Hw) | exact Ed].
  - auto.
  - apply wf_pipe; auto.
  - unfold k_readdir. destruct (resolve _ _ _ _); auto; [destruct (nth_error _ _) as [[]|]; auto|];
      destruct (can_alloc s 0); cbn [negb]; auto. destruct (k_unpriv s && _); auto.
  - unfold k_getfd. destruct (fd_get _ _); auto.
  - unfold k_setfd. destruct (fd_get (fds s) fd) as [e|] eqn:G; auto. cbn [fst].
    eapply wf_rebind; eauto.
  - unfold k_access. destruct (get_ofd s fd) as [[id o]|]; auto.
    destruct (o_rd o), (o_wr o); auto.
  - unfold k_setrlimit. destruct (N.eqb n 0 || N.ltb default_limit n); auto. cbn [fst].
    apply wf_same_cur; auto.
  - unfold k_droppriv. cbn [fst]. apply wf_reskip; auto.
  - unfold k_chmod. destruct (N.ltb 511 mode); auto.
    destruct (resolve _ _ _ _) as [st| |]; auto.
    destruct (nth_error (k_ino s) (top st)) as [[pm data| pm ents | data]|] eqn:En; auto; cbn [fst].
    + eapply wf_set_data; eauto. exact I.
    + eapply wf_set_data; eauto. reflexivity.
  - unfold k_setpgid0. cbn [fst]. apply wf_same_cur; auto.
  - exact (wf_signals_only s _ Hn Hw (k_kill_only s t sig Hn)).
  - unfold k_sigaction. destruct (negb (N.ltb sig nsig)); auto.
    destruct (N.eqb sig sigchld && _); auto. cbn [fst]. apply wf_set_sig; auto.
  - unfold k_getsigaction. destruct (negb (N.ltb sig nsig)); auto.
  - unfold k_raise. destruct (negb (N.ltb sig nsig)); auto.
    destruct (mem_n sig _).
    + destruct (get_disp _ sig); auto; cbn [fst]; apply wf_set_sig; auto.
    + destruct (deliver _ sig); auto. cbn [fst]. apply wf_set_sig; auto.
  - unfold k_caught. cbn [fst]. apply wf_set_sig; auto.
  - exact (wf_signals_only s _ Hn Hw (k_sigmask_only s how sigs Hn)).
  - apply wf_fork; auto.
  - apply wf_exit; auto.
Qed.

(* the initial tree is built the way O_CREAT adds a file: append an inode, enter
   its name in the parent *)
Lemma wf_add_init s e : wf s -> wf (set_ino s (add_init (k_ino s) e)).
Proof.
  intros Hw. assert (Hs : wf (set_ino s (k_ino s))) by (destruct s; exact Hw).
  destruct e as [path content]. unfold add_init.
  destruct (rev path) as [|name rparent]; [exact Hs|].
  destruct (walk_names (k_ino s) 0 (rev rparent)) as [d|]; [|exact Hs].
  set (node := match content with None => IDir 493 [] | Some b => IReg 420 b end).
  change (set_ino s ?l) with (set_ino (set_ino s (k_ino s ++ [node])) l).
  apply (wf_add_entry (set_ino s (k_ino s ++ [node]))).
  - apply wf_append_inode; [exact Hw|]. destruct content; cbn; auto. intros ? ? [].
  - cbn [set_ino k_ino]. rewrite app_length. cbn. lia.
Qed.

Lemma wf_fold_add_init tree : forall s, wf s -> wf (set_ino s (fold_left add_init tree (k_ino s))).
Proof.
  induction tree as [|e tree IH]; intros s Hw; cbn [fold_left]; [destruct s; exact Hw|].
  exact (IH _ (wf_add_init s e Hw)).
Qed.
