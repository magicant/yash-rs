(* C19 — the model with several live children (Wait.v): the oldest zombie, what
   a call of one child leaves alone, a reaped child stays reaped, only wait
   reports a child. *)
From Yv Require Import Common.Base C19.Model C19.Spec C19.Wait C19.Run C19.Proofs.

Lemma first_zomb_cons c l i :
  first_zomb (c :: l) i =
  match zomb_of c with Some w => Some (i, w) | None => first_zomb l (S i) end.
Proof. unfold zomb_of. cbn. destruct (c_st c); reflexivity. Qed.

Lemma zomb_of_st c w : zomb_of c = Some w <-> c_st c = CZomb w.
Proof. unfold zomb_of. destruct (c_st c); split; congruence. Qed.

(* [i] is the index of the head of [l] in the whole table *)
Lemma first_zomb_spec l : forall i,
  match first_zomb l i with
  | Some (j, w) =>
      exists k c, j = i + k /\ nth_error l k = Some c /\ c_st c = CZomb w /\
      forall m c', m < k -> nth_error l m = Some c' -> zomb_of c' = None
  | None => forall c, In c l -> zomb_of c = None
  end.
Proof.
  induction l as [|c l IH]; intros i; [intros c []|].
  rewrite first_zomb_cons. destruct (zomb_of c) as [w0|] eqn:E.
  - exists 0, c. rewrite Nat.add_0_r.
    repeat split; [apply zomb_of_st, E | intros m c' Hlt; lia].
  - specialize (IH (S i)). destruct (first_zomb l (S i)) as [[j w]|].
    + destruct IH as (k & c0 & -> & Hn & Hz & Hm). exists (S k), c0.
      split; [lia|]. split; [exact Hn|]. split; [exact Hz|].
      intros [|m] c' Hlt Hc'; cbn in Hc'; [congruence | apply (Hm m); [lia | exact Hc']].
    + intros c' [<-|Hin]; auto.
Qed.

Lemma first_zomb_at l : forall i k c w,
  nth_error l k = Some c -> c_st c = CZomb w ->
  (forall j cj, j < k -> nth_error l j = Some cj -> zomb_of cj = None) ->
  first_zomb l i = Some (i + k, w).
Proof.
  induction l as [|c0 l IH]; intros i [|k] c w Hn Hz Hold; try discriminate;
    cbn in Hn; rewrite first_zomb_cons.
  - injection Hn as ->. rewrite (proj2 (zomb_of_st c w) Hz), Nat.add_0_r. reflexivity.
  - rewrite (Hold 0 c0 (Nat.lt_0_succ k) eq_refl), Nat.add_succ_r.
    apply (IH (S i) k c w Hn Hz). intros j cj Hj. apply (Hold (S j)). lia.
Qed.

Lemma reap_spec s k c :
  nth_error (w_ch s) k = Some c ->
  nth_error (w_ch (reap s k)) k = Some (with_st c CReaped) /\ w_k (reap s k) = w_k s /\
  forall j, j <> k -> nth_error (w_ch (reap s k)) j = nth_error (w_ch s) j.
Proof.
  intros Hn. unfold reap. rewrite Hn. cbn [set_child w_ch w_k].
  split; [eapply nth_set_nth_eq; eauto|]. split; [reflexivity|].
  intros j Hj. apply nth_set_nth_neq; auto.
Qed.

Lemma wait_got_zombie s t s' k w :
  wstep s (WWait t) = (s', WRGot k w) ->
  exists c, nth_error (w_ch s) k = Some c /\ c_st c = CZomb w /\
            nth_error (w_ch s') k = Some (with_st c CReaped) /\ w_k s' = w_k s /\
            forall j, j <> k -> nth_error (w_ch s') j = nth_error (w_ch s) j.
Proof.
  cbn [wstep]. unfold w_wait. destruct t as [k0|].
  - destruct (nth_error (w_ch s) k0) as [c|] eqn:En; [|discriminate].
    destruct (c_st c) eqn:Est; try discriminate.
    intros H. inversion H; subst. exists c. auto using reap_spec.
  - pose proof (first_zomb_spec (w_ch s) 0) as Hf.
    destruct (first_zomb (w_ch s) 0) as [[k0 w0]|]; [|destruct (existsb _ _); discriminate].
    destruct Hf as (k1 & c & -> & Hn & Hz & _). intros H. inversion H; subst.
    exists c. auto using reap_spec.
Qed.

(* a signal sent by the parent acts on the child like the child's own kill(getpid()) *)
Lemma wstep_kill s k sig : wstep s (WKill k sig) = wstep s (WCmd k (CSelfKill sig)).
Proof. reflexivity. Qed.

Lemma child_cmd_cases s k c cmd :
  child_cmd s k c cmd = (s, WR ROut) \/
  (exists c', child_cmd s k c cmd = (set_child s k c', WR RUnit)) \/
  (exists c1 w, child_cmd s k c cmd = (die s k c1 w, WR RSkip)).
Proof.
  destruct cmd as [n|sig|how sigs|]; cbn [child_cmd].
  - destruct (255 <? n)%N; eauto.
  - unfold child_signal. destruct (negb _); [|destruct (mem_n _ _)]; eauto.
  - destruct (negb (forallb _ sigs) || (2 <? how)%N); [eauto|].
    destruct (filter _ (c_pend c)) as [|x [|y l]]; eauto.
  - eauto.
Qed.

Lemma child_cmd_others s k c cmd j :
  j <> k -> nth_error (w_ch (fst (child_cmd s k c cmd))) j = nth_error (w_ch s) j.
Proof.
  intros H. destruct (child_cmd_cases s k c cmd) as [->|[(c' & ->)|(c1 & w & ->)]];
    [reflexivity | apply nth_set_nth_neq; auto ..].
Qed.

Lemma wstep_got_is_wait s o k w : snd (wstep s o) = WRGot k w -> exists t, o = WWait t.
Proof.
  assert (Hcmd : forall k0 cmd, snd (wstep s (WCmd k0 cmd)) <> WRGot k w).
  { intros k0 cmd. cbn [wstep].
    destruct (nth_error (w_ch s) k0) as [c0|]; [destruct (is_run c0)|]; try discriminate.
    destruct (child_cmd_cases s k0 c0 cmd) as [->|[(c' & ->)|(c1 & w1 & ->)]]; discriminate. }
  destruct o as [o'| |k0 cmd|k0 sig|t]; [..|eauto]; intros H; exfalso.
  - cbn [wstep] in H. destruct (parent_ok o'); [destruct (step (w_k s) o')|]; discriminate.
  - cbn [wstep] in H. destruct (negb (fork_ok _)); discriminate.
  - exact (Hcmd _ _ H).
  - rewrite wstep_kill in H. exact (Hcmd _ _ H).
Qed.

Lemma wait_idle s t : (forall k w, snd (w_wait s t) <> WRGot k w) -> fst (w_wait s t) = s.
Proof.
  unfold w_wait. intros H. destruct t as [k1|].
  - destruct (nth_error (w_ch s) k1) as [c1|]; [|reflexivity].
    destruct (c_st c1); try reflexivity. exfalso. eapply H. reflexivity.
  - destruct (first_zomb (w_ch s) 0) as [[k1 w1]|]; [exfalso; eapply H; reflexivity|].
    destruct (existsb _ _); reflexivity.
Qed.

Definition reaped_at (s : wstate) (k : nat) : Prop :=
  exists c, nth_error (w_ch s) k = Some c /\ is_reaped c = true.

Lemma wstep_reaped_not_got s o k w : reaped_at s k -> snd (wstep s o) <> WRGot k w.
Proof.
  intros [c [Hn Hc]] H. destruct (wstep_got_is_wait _ _ _ _ H) as [t ->].
  destruct (wstep s (WWait t)) as [s' r] eqn:E. cbn [snd] in H. subst r.
  apply wait_got_zombie in E. destruct E as [c1 [Hn1 [Hz1 _]]].
  rewrite Hn1 in Hn. injection Hn as ->. unfold is_reaped in Hc. rewrite Hz1 in Hc. discriminate.
Qed.

Lemma wstep_reaped_stays s o k : reaped_at s k -> reaped_at (fst (wstep s o)) k.
Proof.
  intros Hr. pose proof Hr as [c [Hn Hc]].
  (* only a running child performs a call, and only its own entry changes *)
  assert (Hcmd : forall k0 cmd, reaped_at (fst (wstep s (WCmd k0 cmd))) k).
  { intros k0 cmd. cbn [wstep]. destruct (nth_error (w_ch s) k0) as [c0|] eqn:En0; [|exact Hr].
    destruct (is_run c0) eqn:Er0; [|exact Hr].
    exists c. rewrite child_cmd_others; [auto|]. intros ->. rewrite En0 in Hn. injection Hn as ->.
    unfold is_run, is_reaped in *. destruct (c_st c); discriminate. }
  destruct o as [o'| |k0 cmd|k0 sig|t]; [..|apply Hcmd|rewrite wstep_kill; apply Hcmd|]; cbn [wstep].
  - destruct (parent_ok o'); [|exact Hr]. destruct (step (w_k s) o'). exact Hr.
  - destruct (negb (fork_ok _)); [exact Hr|]. exists c. cbn [fst w_ch]. split; auto.
    rewrite nth_error_app1; auto. apply nth_error_Some. congruence.
  - destruct (snd (w_wait s t)) as [r| | |k1 w] eqn:Er;
      [rewrite wait_idle by (intros ? ?; rewrite Er; discriminate); exact Hr ..|].
    assert (Hk : k <> k1) by (intros ->; exact (wstep_reaped_not_got s (WWait t) k1 w Hr Er)).
    change (w_wait s t) with (wstep s (WWait t)) in *.
    destruct (wstep s (WWait t)) as [s' r] eqn:E. cbn [fst snd] in *. subst r.
    apply wait_got_zombie in E. destruct E as (_ & _ & _ & _ & _ & Hoth).
    exists c. rewrite Hoth; auto.
Qed.

Lemma wrun_reaped_stays ops : forall s k, reaped_at s k -> reaped_at (fst (wrun s ops)) k.
Proof.
  induction ops as [|o ops IH]; intros s k Hr; cbn; auto.
  pose proof (wstep_reaped_stays s o k Hr) as H1.
  destruct (wstep s o) as [s1 r]. cbn [fst] in H1.
  specialize (IH s1 k H1). destruct (wrun s1 ops) as [s2 rs]. exact IH.
Qed.

Lemma wstep_got_reaped s o k w : snd (wstep s o) = WRGot k w -> reaped_at (fst (wstep s o)) k.
Proof.
  intros H. destruct (wstep_got_is_wait _ _ _ _ H) as [t ->].
  destruct (wstep s (WWait t)) as [s' r] eqn:E. cbn [fst snd] in *. subst r.
  apply wait_got_zombie in E. destruct E as [c [_ [_ [Hn' _]]]].
  exists (with_st c CReaped). split; auto.
Qed.

Lemma wrun_reaped_not_got ops : forall s k w,
  reaped_at s k -> ~ In (WRGot k w) (snd (wrun s ops)).
Proof.
  induction ops as [|o ops IH]; intros s k w Hr; cbn; auto.
  pose proof (wstep_reaped_stays s o k Hr) as H1.
  pose proof (wstep_reaped_not_got s o k w Hr) as H2.
  destruct (wstep s o) as [s1 r]. cbn [fst snd] in *.
  specialize (IH s1 k w H1). destruct (wrun s1 ops) as [s2 rs]. cbn [snd] in *.
  intros [E|Hin]; auto.
Qed.

Lemma wrun_got_reaped ops : forall s k w,
  In (WRGot k w) (snd (wrun s ops)) -> reaped_at (fst (wrun s ops)) k.
Proof.
  induction ops as [|o ops IH]; intros s k w Hin; cbn in *; [contradiction|].
  pose proof (wstep_got_reaped s o k w) as H1.
  destruct (wstep s o) as [s1 r] eqn:E. cbn [fst snd] in *.
  specialize (IH s1 k w). pose proof (wrun_reaped_stays ops s1 k) as H2.
  destruct (wrun s1 ops) as [s2 rs]. cbn [fst snd] in *.
  destruct Hin as [->|Hin]; auto.
Qed.

Fixpoint count_got (k : nat) (l : list wres) : nat :=
  match l with
  | [] => 0
  | WRGot k' _ :: l' => (if Nat.eqb k k' then 1 else 0) + count_got k l'
  | _ :: l' => count_got k l'
  end.

Lemma count_got_zero k l : (forall w, ~ In (WRGot k w) l) -> count_got k l = 0.
Proof.
  induction l as [|x l IH]; intros H; cbn; auto.
  assert (Hl : forall w, ~ In (WRGot k w) l) by (intros w Hin; apply (H w); right; auto).
  destruct x as [r| | |k' w]; auto.
  destruct (Nat.eqb k k') eqn:E; auto.
  apply Nat.eqb_eq in E. subst k'. exfalso. apply (H w). left. reflexivity.
Qed.

Lemma wstat_eqb_eq a b : wstat_eqb a b = true -> a = b.
Proof. destruct a, b; cbn; try discriminate; intros H; apply N.eqb_eq in H; congruence. Qed.
Lemma wstat_eqb_refl a : wstat_eqb a a = true.
Proof. destruct a; cbn; apply N.eqb_refl. Qed.

Lemma wres_eqb_eq a b : wres_eqb a b = true -> a = b.
Proof.
  destruct a, b; cbn; try discriminate; auto.
  - intros H. apply res_eqb_eq in H. congruence.
  - intros H. apply andb_true_iff in H. destruct H as [H1 H2].
    apply Nat.eqb_eq in H1. apply wstat_eqb_eq in H2. congruence.
Qed.
Lemma wres_eqb_refl a : wres_eqb a a = true.
Proof. destruct a; cbn; auto. - apply res_eqb_refl. - rewrite Nat.eqb_refl, wstat_eqb_refl. reflexivity. Qed.

Lemma wait_oracle_refl v : wait_oracle v v = None.
Proof. induction v as [|x v IH]; cbn; auto. rewrite wres_eqb_refl. exact IH. Qed.

(* two children alive together; the younger one (in a group of its own) dies
   inside its sigprocmask call, then the older one exits; SIGCHLD accounting
   and every kind of wait result *)
Definition ex_wait_ops : list wop :=
  [WParent (OSigaction 6 DCatch); WParent (OSigmask 0 [2%N]); WFork; WFork;
   WWait None; WCmd 1 CSetpgid; WKill 1 2; WParent OCaught; WWait (Some 1);
   WCmd 1 (CMask 1 [2%N]); WParent OCaught; WWait (Some 0); WWait None; WWait None;
   WCmd 0 (CExit 7); WParent OCaught; WWait (Some 1); WWait (Some 0); WWait None].

(* the oracle rejects a simulator that loses the SIGCHLD of that death
   (verdict 26 = 2 + [clause_wait]: the real side agrees with the model) *)
Lemma ex_wait_oracle_rejects :
  run_case (CWait ex_wait_ops
    [WR (RDisp DDefault); WR (RSigs []); WR RUnit; WR RUnit;
     WRNone; WR RUnit; WR RUnit; WR (RSigs []); WRNone;
     WR RSkip; WR (RSigs []); WRNone; WRGot 1 (WSignaled 2); WRNone;
     WR RSkip; WR (RSigs [6%N]); WRNoChild; WRGot 0 (WExited 7); WRNoChild]
    (wmodel_obs ex_wait_ops)) = 26%N.
Proof. vm_compute. reflexivity. Qed.
