(* C10 — the property theorems and their non-vacuity examples.  What is not
   proved in place comes from Proofs.v (EXIT trap), ProofsX.v (the extension)
   and C02 (model = specification). *)
From Yv Require Import Common.Base C02.Model C02.Spec C02.ProofsMono C02.ProofsSim C02.ProofsRev C02.Proofs
  C10.Model C10.Spec C10.Proofs C10.ProofsX.

(* Whether errexit applies is decided in the implementation by a dynamic test
   on the runtime stack (option on and no Condition frame anywhere); the
   specification decides it by the lexical flag [ex] that the constructs POSIX
   lists switch on (condition of if/elif/while/until, `!`, every pipeline of an
   and-or list but the last) and that is inherited through groups, function
   calls, subshells.  [ctx_ok] relates a stack to a lexical context; its first
   field is ex = has_cond stk, so the test agrees by unfolding ... *)
Theorem errexit_test_eq_flag : forall stk d infun ex s,
  ctx_ok stk d infun ex -> errexit_is_applicable stk s = errexit s && negb ex.
Proof. intros stk d infun ex s [A _ _]. subst ex. reflexivity. Qed.

(* ... and the content is that the interpreter maintains [ctx_ok]: a command
   run by the model under any stack that the lexical context describes is a
   run of the specification under that lexical context, whatever the nesting
   of calls, groups, loops and subshells (C02.ProofsSim.sim_holds). *)
Theorem errexit_dynamic_eq_lexical : forall n stk c s r s' d infun ex,
  exec_cmd n stk c s = Some (r, s') -> ctx_ok stk d infun ex ->
  wf_cmd d infun c = true -> state_ok s ->
  forall sv, exists m, sem_cmd m d ex sv c s = Some (abs sv r s').
Proof.
  intros n stk c s r s' d infun ex H Hc Hw Hs sv.
  destruct (sa_cmd _ (sim_holds n) _ _ _ _ _ _ _ _ H Hc Hw Hs) as (_ & _ & Hok).
  apply ok_some. exact (Hok sv).
Qed.

(* Whole scripts: the model's probe trace (with the records of the EXIT trap
   action) and final status are those of the specification, and conversely.
   This is C02's model_eq_spec: the shared model and specification contain the
   errexit, shell-error and trap constructs. *)
Theorem abort_iff_documented : forall p o, wf_prog p = true -> (model_result p o <-> spec_result p o).
Proof. exact model_eq_spec_lemma. Qed.

(* errexit makes the shell exit only after a failing command, with -e on and
   outside every exempt context, and the exit carries no status of its own:
   the exit status is the status of the failing command. *)
Theorem errexit_abort_conditions : forall stk s dv,
  apply_errexit stk s = Brk dv ->
  dv = DExit None /\ status s <> 0%N /\ errexit s = true /\ has_cond stk = false.
Proof.
  intros stk s dv. unfold apply_errexit, errexit_is_applicable, has_cond.
  destruct (N.eqb (status s) 0) eqn:E; cbn [negb andb]; [discriminate|].
  destruct (errexit s); cbn [andb]; [|discriminate].
  destruct (existsb frame_is_condition stk); cbn [negb]; [discriminate|].
  intros H; inversion H. repeat split; auto. apply N.eqb_neq. exact E.
Qed.

(* The shell-error table of docs/src/termination.md (non-interactive shell):
   what the model's handlers do at each kind of error site is what the table
   says, for every state (errexit on or off) and every stack. *)
Theorem shell_error_table : forall site stk s ex,
  ex = has_cond stk ->
  let '(r, s1) := model_error_outcome site stk s in
  abs None r s1 = documented_outcome site ex s.
Proof.
  intros site stk s ex He. destruct site; cbn [model_error_outcome documented_outcome termination_md];
    try reflexivity.
  (* assignment and expansion errors go through one handler; at the last two sites errexit decides *)
  1,2: unfold handle_expansion_error; destruct (errexit_is_applicable stk s); reflexivity.
  all: cbv zeta; apply abs_apply_errexit; exact He.
Qed.

(* ... and the specification uses that very table. *)
Theorem spec_follows_termination_md : forall site ex s,
  shell_error (fst (kind_of site)) (snd (kind_of site)) ex None s = documented_outcome site ex s.
Proof. destruct site; reflexivity. Qed.

(* Commands after the abort point never run: whatever follows a list / a line
   that ended in a divert has no influence on the result. *)
Theorem nothing_runs_after_abort_in_list : forall n stk l1 l2 s dv s1,
  exec_list n stk l1 s = Some (Brk dv, s1) -> exec_list n stk (capp l1 l2) s = Some (Brk dv, s1).
Proof.
  induction n as [|n IH]; intros stk l1 l2 s dv s1 H; [discriminate|].
  destruct l1 as [|a l1]; cbn [exec_list capp] in *; [discriminate|].
  destruct (exec_andor n stk a s) as [[r sa]|]; [|discriminate].
  destruct r; [apply IH; exact H | exact H].
Qed.

Theorem nothing_runs_after_abort : forall n p1 p2 dv s1,
  run_lines n p1 false init_state = Some (Brk dv, s1) -> model_run n (p1 ++ p2) = model_run n p1.
Proof. intros n p1 p2 dv s1 H. unfold model_run. rewrite (lines_abort _ _ p2 _ _ _ _ H), H. reflexivity. Qed.

(* The exit status of a run: the status carried by the divert that ended it
   (exit N, return N, shell error 2 ...), else `$?` of the last command. *)
Theorem abort_status : forall n p r s1 o,
  run_lines n p false init_state = Some (r, s1) -> model_run n p = Some o ->
  exit_trap s1 = None ->
  snd o = match r with
          | Cont => status s1
          | Brk dv => match divert_exit_status dv with Some st => st | None => status s1 end
          end.
Proof.
  intros n p r s1 o H Hm Ht.
  assert (Ho : o = observe (apply_result r s1)).
  { destruct (model_run_end _ _ _ _ _ H Hm) as [[Ho _] | (s3 & E & ->)]; [exact Ho|].
    rewrite (trap_none _ _ _ _ E); [reflexivity|]. rewrite (proj1 (apply_result_keep r s1)). exact Ht. }
  subst o. destruct r as [|dv]; [reflexivity|]. cbn [apply_result].
  destruct (divert_exit_status dv); reflexivity.
Qed.

(* The EXIT trap runs exactly once: a script that first sets
   `trap 'probe K ST' EXIT` and then runs any code that does not mention the
   key K, sets no other trap and does not redefine `probe` ends -- however it
   ends: end of input, exit, errexit, shell error, in the main shell or after
   any number of subshells -- with exactly one record of K in its trace. *)
Theorem exit_trap_exactly_once : forall k st p n o,
  forallb (plain_line k) p = true -> model_run n (trap_line k st :: p) = Some o ->
  count_key k (fst o) = 1.
Proof.
  intros k st p n o Hp H. destruct (trap_script_end k st p n o Hp H) as (r & s1 & sa & _ & Hc & Htr & ->).
  unfold observe. cbn [fst trace set_status]. rewrite count_key_rev, Htr, count_push, N.eqb_refl, Hc. reflexivity.
Qed.

(* ---- extension: further categories of shell errors at composed positions ---- *)

(* The table of consequences (Spec.v [xerr_class]: which error ends the shell
   execution environment, with which status, and which only fails the command;
   [xwalk]: what that means at a position: exempt contexts, environments of
   their own, `set -e` on or off): for every category, with and without the
   `command` prefix, errexit on and off, with and without an EXIT trap, at
   top level, at every position and at every nesting of two or three positions, the
   model's run of the script is the one the table describes: `probe 2` after
   the victim runs exactly if the victim does not end its environment, `probe
   3` at the end exactly if the script is not aborted, the exit status is that
   of the failing command / of the error, the EXIT trap runs exactly once and
   sees that status.  (The bound on the nesting is that of the statement only:
   it is the instance of ProofsX.xtable_every_depth, which has none, at the
   fuel 200; deeper nestings are also compared with the real shell on every
   run, and the lowered scripts are programs of the shared model, for which
   errexit_dynamic_eq_lexical and abort_iff_documented hold at every depth.) *)
Theorem xerr_table_positions_depth3_partial : forall x, (length (x_pos x) <= 3)%nat ->
  exists o, model_run 200 (xscript x) = Some o /\ xoracle x o = true /\ wf_prog (xscript x) = true.
Proof.
  intros x H. destruct (xtable_every_depth x 200) as (o & Hm & Ho).
  - unfold xtable_fuel, xplant_fuel, xwrap_fuel. lia.
  - exists o. repeat split; [exact Hm | exact Ho | apply xscript_wf].
Qed.

(* ... and so is the specification's. *)
Theorem xerr_table_spec_depth3_partial : forall x, (length (x_pos x) <= 3)%nat ->
  exists o, spec_result (xscript x) o /\ xoracle x o = true.
Proof.
  intros x H. destruct (xerr_table_positions_depth3_partial x H) as (o & Hm & Ho & Hw).
  exists o. split; [|exact Ho].
  apply (proj1 (model_eq_spec_lemma _ _ Hw)). exists 200. exact Hm.
Qed.

(* The handlers themselves, for every runtime stack and every state (in which
   `false` is not a function, v2 is unset and v9 is not read-only): the command that stands for the
   category either ends the shell execution environment (an Interrupt or Exit
   divert; the exit status is the error's) or completes with the table's
   status and is subject to errexit like any failing command; it records
   nothing in the trace. *)
Theorem xerr_handler_table : forall e viac stk s n, xstate_ok s ->
  exists r s1, exec_cmd (S (S n)) stk (xlower e viac) s = Some (r, s1) /\
    trace s1 = trace s /\
    match xerr_class e viac with
    | XFatal st => ends_environment r = true /\ status (apply_result r s1) = st
    | XSoft st => status s1 = st /\ r = apply_errexit stk s1
    end.
Proof.
  intros e viac stk s n H. destruct (xvictim_run e viac stk s H) as (r & s1 & Hrun & Ht & _ & Hc).
  exists r, s1. auto.
Qed.

Example xerr_handler_table_not_vacuous : xstate_ok init_state.
Proof. repeat split; reflexivity. Qed.

(* The EXIT trap sees the exit status and leaves it: a script whose first line
   sets `trap 'probe K ST' EXIT` ends with the status it had when its last
   command / the divert ended it (for errexit: the status of the failing
   command), whatever the trap action's own status ST is, and the trap action
   ran with `$?` = that status. *)
Theorem exit_trap_sees_exit_status : forall k st p n r s1 o,
  forallb (plain_line k) p = true ->
  run_lines n (trap_line k st :: p) false init_state = Some (r, s1) ->
  model_run n (trap_line k st :: p) = Some o ->
  snd o = status (apply_result r s1) /\ In (k, snd o) (fst o).
Proof.
  intros k st p n r s1 o Hp Hrl H.
  destruct (trap_script_end k st p n o Hp H) as (r' & s1' & sa & Hrl' & _ & Htr & ->).
  rewrite Hrl in Hrl'. injection Hrl' as <- <-.
  unfold observe. cbn [fst snd status trace set_status]. split; [reflexivity|].
  apply in_rev. rewrite rev_involutive, Htr. left; reflexivity.
Qed.

(* non-vacuity: `set -e; ( ! { shift 5; probe 2; } )`: the subshell ends with 1, errexit ends the script *)
Example xerr_table_not_vacuous :
  model_run 200 (xscript (mkX XShiftTooMany false true true [PSubshell; PNeg]))
  = Some ([(1, 0); (9999, 1)]%N, 1%N).
Proof. reflexivity. Qed.

(* trap 'probe 9 7' EXIT; set -e; (probe 1 3); probe 2  -- the subshell fails,
   errexit ends the shell with status 3, the trap runs once *)
Definition ex_abort : prog :=
  [ LCmd (LCons (AndOr (Pipe false (CCons (CCall plain NSet [1%N]) CNil)) RNil) LNil);
    LCmd (LCons (AndOr (Pipe false (CCons
       (CSubshell (LCons (AndOr (Pipe false (CCons (CCall plain NProbe [1%N; 3%N]) CNil)) RNil) LNil))
       CNil)) RNil) LNil);
    LCmd (LCons (AndOr (Pipe false (CCons (CCall plain NProbe [2%N]) CNil)) RNil) LNil) ].

Example exit_trap_exactly_once_not_vacuous :
  forallb (plain_line 9) ex_abort = true /\
  model_run 40 (trap_line 9 7 :: ex_abort) = Some ([(1, 0); (9, 3)]%N, 3%N) /\
  wf_prog (trap_line 9 7 :: ex_abort) = true.
Proof. repeat split; reflexivity. Qed.

Example nothing_runs_after_abort_not_vacuous :
  exists dv s1, run_lines 40 (firstn 2 ex_abort) false init_state = Some (Brk dv, s1).
Proof. eexists; eexists; reflexivity. Qed.

Example errexit_abort_not_vacuous :
  apply_errexit [FLoop; FSubshell] (set_errexit true (set_status 3 init_state)) = Brk (DExit None).
Proof. reflexivity. Qed.

Example exit_trap_sees_exit_status_not_vacuous :
  exists r s1, run_lines 40 (trap_line 9 7 :: ex_abort) false init_state = Some (r, s1)
               /\ status (apply_result r s1) = 3%N.
Proof.
  (* the witness is written out: left to unification, the interpreter is run inside the unifier *)
  exists (Brk (DExit None)), (set_trace [(1, 0)]%N (set_status 3 (set_errexit true (trap_set_state 9 7)))).
  split; reflexivity.
Qed.

Print Assumptions errexit_test_eq_flag.
Print Assumptions errexit_dynamic_eq_lexical.
Print Assumptions abort_iff_documented.
Print Assumptions errexit_abort_conditions.
Print Assumptions shell_error_table.
Print Assumptions spec_follows_termination_md.
Print Assumptions nothing_runs_after_abort_in_list.
Print Assumptions nothing_runs_after_abort.
Print Assumptions abort_status.
Print Assumptions exit_trap_exactly_once.
Print Assumptions xerr_table_positions_depth3_partial.
Print Assumptions xerr_table_spec_depth3_partial.
Print Assumptions exit_trap_sees_exit_status.
Print Assumptions xerr_handler_table.
