(* C10 -- proofs about the extension (further categories of shell errors at
   composed positions).  The table of consequences holds at every nesting
   depth: by induction over the list of positions, each position being a
   wrapper whose run is determined by what its inside does. *)
From Yv Require Import Common.Base C02.Model C02.Spec C02.ProofsSim C10.Model C10.Spec C10.Proofs.

Definition xstep (e_on ex : bool) (p : position) (o : xout) : xout :=
  match o with
  | XAbort st =>
      match pos_isolating p with
      | None => XAbort st
      | Some propagates => xcheck e_on ex (if propagates then st else 0%N)
      end
  | XGo st => if pos_checked p then xcheck e_on ex (pos_status p st) else XGo (pos_status p st)
  end.

Lemma xwalk_cons e_on ex p ps v :
  xwalk e_on ex (p :: ps) v = xstep e_on ex p (xwalk e_on (ex || pos_exempt p) ps v).
Proof. reflexivity. Qed.

Definition xout_status (o : xout) : N := match o with XAbort st | XGo st => st end.

(* the items the victim's own `probe 2` adds to the trace *)
Definition xext (e_on ex : bool) (v : xclass) : list (N * N) :=
  match v with
  | XFatal _ => []
  | XSoft st => match xcheck e_on ex st with XAbort _ => [] | XGo _ => [(2%N, st)] end
  end.

(* the oracle's [xinner_goes] asks the same question at the top of a script *)
Lemma xext_inner_goes e_on ps v :
  xext e_on (existsb pos_exempt ps) v = if xinner_goes e_on ps v then [(2%N, xclass_status v)] else [].
Proof. destruct v as [st|st]; [reflexivity|]. cbn. destruct (xcheck _ _ _); reflexivity. Qed.

(* the trace without the items of `probe 4`, which the two pipeline positions
   record and the oracle does not ask about *)
Definition vis (t : list (N * N)) : list (N * N) := filter (fun x => negb (N.eqb (fst x) 4)) t.

(* what of a state decides how a planted script runs; [xenv]: as it is when the
   first position is entered, and stays *)
Definition xview (s : state) :=
  (errexit s, exit_trap s, lookup_fun NFalse (funs s), lookup_fun NProbe (funs s),
   lookup_var 2 (vars s), is_ronly 0 s, is_ronly 9 s).

Definition xenv (e_on : bool) (tr : option clist) (s : state) : Prop :=
  xview s = (e_on, tr, None, None, None, false, false).

(* in a non-interactive shell an Interrupt is not caught before the
   read-eval loop of the environment, which it ends like an Exit *)
Definition ends_environment (r : flow) : bool :=
  match r with
  | Brk (DInterrupt _) | Brk (DExit _) => true
  | _ => false
  end.

Definition outcome (out : xout) (r : flow) (s' : state) : Prop :=
  match out with
  | XAbort st => ends_environment r = true /\ status (apply_result r s') = st
  | XGo st => r = Cont /\ status s' = st
  end.

Definition runs (n0 : nat) (stk : list frame) (l : clist) (s : state) (out : xout) (ext : list (N * N)) : Prop :=
  exists r s', (forall n, n0 <= n -> exec_list n stk l s = Some (r, s')) /\
    xview s' = xview s /\ vis (trace s') = ext ++ vis (trace s) /\ outcome out r s'.

(* [l] does the same in every stack with the flag [ex] and every state as
   above: it ends as [out] says ([XAbort]: a divert that ends the environment;
   [XGo]: normally), and adds [ext] to the visible trace *)
Definition behaves (e_on : bool) (n0 : nat) (l : clist) (ex : bool) (out : xout) (ext : list (N * N)) : Prop :=
  forall stk s tr, has_cond stk = ex -> xenv e_on tr s -> runs n0 stk l s out ext.

Lemma fuel_split k n : k <= n -> exists m, n = k + m.
Proof. intros H. exists (n - k). lia. Qed.

Lemma outcome_status out r s : outcome out r s -> status (apply_result r s) = xout_status out.
Proof. destruct out; intros [H1 H2]; [exact H2 | subst r; exact H2]. Qed.

Lemma errexit_xcheck e_on ex stk s :
  has_cond stk = ex -> errexit s = e_on -> outcome (xcheck e_on ex (status s)) (apply_errexit stk s) s.
Proof.
  intros <- <-. unfold xcheck, apply_errexit, errexit_is_applicable, has_cond.
  destruct (N.eqb (status s) 0), (errexit s), (existsb frame_is_condition stk); cbn; auto.
Qed.

Lemma xenv_errexit e_on tr s : xenv e_on tr s -> errexit s = e_on.
Proof. intros H. injection H; auto. Qed.
Lemma xenv_trap e_on tr s : xenv e_on tr s -> exit_trap s = tr.
Proof. intros H. injection H; auto. Qed.
Lemma xenv_probe e_on tr s : xenv e_on tr s -> lookup_fun NProbe (funs s) = None.
Proof. intros H. injection H; auto. Qed.
Lemma xenv_v0 e_on tr s : xenv e_on tr s -> is_ronly 0 s = false.
Proof. intros H. injection H; auto. Qed.

Lemma xenv_view e_on tr s s' : xenv e_on tr s -> xview s' = xview s -> xenv e_on tr s'.
Proof. unfold xenv. intros H ->. exact H. Qed.

Lemma xenv_child e_on tr s s0 : xenv e_on tr s -> xview s0 = xview (child_state s) -> xenv e_on None s0.
Proof.
  unfold xenv. intros H ->. unfold xview, is_ronly in *. cbn in *.
  injection H as <- _ -> -> -> -> ->. reflexivity.
Qed.

(* [cbn] runs the interpreter on the syntax a position contributes and stops
   where the unknown inside begins: exec_list / exec_cmd unfold only on a list
   / command in constructor form. *)
Local Arguments exec_list n stk !l s.
Local Arguments exec_cmd n stk !c s.
Local Arguments apply_errexit : simpl never.
Local Arguments is_ronly : simpl never.
Local Arguments xprobe : simpl never.

Lemma xprobe_run n stk k s :
  lookup_fun NProbe (funs s) = None ->
  exec_cmd (S n) stk (xprobe k) s = Some (Cont, set_status 0 (push_trace k s)).
Proof. intros H. unfold xprobe. rewrite (probe_run _ _ _ _ H). reflexivity. Qed.

(* the shell environment that runs [b] ends: what is left is a status and a trace *)
Lemma environment_ends e_on n0 b ex out ext stk s0 :
  behaves e_on n0 b ex out ext -> has_cond stk = ex -> xenv e_on None s0 ->
  exists r c, (forall n, n0 <= n -> exec_list n (FSubshell :: stk) b s0 = Some (r, c)) /\
    exit_trap (apply_result r c) = None /\
    status (apply_result r c) = xout_status out /\
    vis (trace (apply_result r c)) = ext ++ vis (trace s0).
Proof.
  intros Hb Hc He. destruct (Hb (FSubshell :: stk) s0 None Hc He) as (r & c & Hrun & Hv & Ht & Ho).
  exists r, c. destruct (apply_result_keep r c) as [Kt Kc].
  split; [exact Hrun|]. split; [|split; [exact (outcome_status _ _ _ Ho) | rewrite Kc; exact Ht]].
  rewrite Kt. exact (xenv_trap _ _ _ (xenv_view _ _ _ _ He Hv)).
Qed.

(* 12 is the deepest a position runs its inside (PFunInCond), 6 what the
   one-command lists beside it (`then :`, `do break`) need *)
Definition xwrap_fuel : nat := 18.

Local Arguments xthen : simpl never.
Local Arguments xcolon : simpl never.

Lemma xcolon_run n stk s : 1 <= n -> exec_cmd n stk xcolon s = Some (Cont, set_status 0 s).
Proof. intros H. destruct n; [lia|]. reflexivity. Qed.

Lemma xthen_run n stk s : 6 <= n -> exec_list n stk xthen s = Some (Cont, set_status 0 s).
Proof. intros H. do 6 (destruct n; [lia|]). reflexivity. Qed.

Lemma xbreak_run n stk s : 6 <= n ->
  exec_list n (FLoop :: stk) (LCons (xao (CCall plain NBreak [])) LNil) s
  = Some (Brk (DBreak 0), set_status 0 s).
Proof. intros H. do 6 (destruct n; [lia|]). reflexivity. Qed.

Lemma ends_brk r : ends_environment r = true ->
  exists o, r = Brk (DInterrupt o) \/ r = Brk (DExit o).
Proof. destruct r as [|[c|c|o|o|o|o]]; try discriminate; eauto. Qed.

Lemma errexit_in_condition stk s : apply_errexit (FCondition :: stk) s = Cont.
Proof. unfold apply_errexit, errexit_is_applicable. cbn. rewrite !andb_false_r. reflexivity. Qed.

(* What tells the positions apart.  A position that is not an environment of
   its own runs its inside once: under the frames [xframes p], in the state
   [xenter p] (a function defined, the loop variable set), [xdepth p] calls of
   the interpreter down; after a normal end in [s'] it ends as [xpost p]. *)
Definition xframes (p : position) : list frame :=
  match p with
  | PIfCond | PAndLeft | POrLeft | PNeg | PFunInCond => [FCondition]
  | PWhileCond | PUntilCond => [FCondition; FLoop]
  | PForBody => [FLoop]
  | _ => []
  end.

Definition xenter (p : position) (i : N) (b : clist) (s : state) : state :=
  match p with
  | PFun | PFunInCond => set_status 0 (define_fun (NUser i) (CBrace b) s)
  | PForBody => set_var 0 (Some 0%N) s
  | _ => s
  end.

Definition xdepth (p : position) : nat :=
  match p with
  | PIfCond => 6 | PFun | PWhileCond | PUntilCond => 7 | PForBody => 8 | PFunInCond => 12
  | _ => 5
  end.

Definition xpost (p : position) (stk : list frame) (s' : state) : flow * state :=
  match p with
  | PBrace | PForBody => (Cont, s')
  | PAndLeft => (Cont, if N.eqb (status s') 0 then set_status 0 s' else s')
  | POrLeft => (Cont, if N.eqb (status s') 0 then s' else set_status 0 s')
  | PNeg => (Cont, set_status (if N.eqb (status s') 0 then 1 else 0) s')
  | PFun => (apply_errexit stk s', s')
  | _ => (Cont, set_status 0 s')
  end.

(* A position that is an environment of its own runs its inside in the child
   [xchild p s], 7 calls down; the parent keeps [xkeep p s child]. *)
Definition xchild (p : position) (s : state) : state :=
  match p with
  | PPipeLast => child_state (set_trace ((4%N, status s) :: trace s) s)
  | PPipeFirst => child_state (set_trace (trace s) s)
  | _ => child_state s
  end.

Definition xkeep (p : position) (s child : state) : state :=
  match p with
  | PSubst => set_var 0 None (absorb_child s child)
  | PSubstIgn => set_status 0 (set_trace (trace child) s)
  | PPipeFirst => absorb_child s (set_status 0 (push_trace 4 (child_state (set_trace (trace child) s))))
  | _ => absorb_child s child
  end.

Section Positions.
Variables (e_on : bool) (n0 : nat) (b : clist) (i : N) (out : xout) (ext : list (N * N)).

Lemma xframes_cond p stk : pos_isolating p = None ->
  has_cond (xframes p ++ stk) = has_cond stk || pos_exempt p.
Proof. destruct p; try discriminate; intros _; cbn; rewrite ?orb_true_r, ?orb_false_r; reflexivity. Qed.

Lemma xenter_keeps p s : xview (xenter p i b s) = xview s /\ trace (xenter p i b s) = trace s.
Proof. destruct p; split; reflexivity. Qed.

(* The wrapper is run with fuel [xdepth p + m]: the run of the inside then has
   the variable fuel m and conversion never unfolds the interpreter on an
   unknown list (with a numeral above the depth, Qed doubles with every unit). *)
Lemma xwrap_exec p stk s tr r s' :
  pos_isolating p = None -> xenv e_on tr s ->
  (forall k, n0 <= k -> exec_list k (xframes p ++ stk) b (xenter p i b s) = Some (r, s')) ->
  forall n, n0 + xwrap_fuel <= n ->
  (ends_environment r = true -> exec_list n stk (xwrap p i b) s = Some (r, s')) /\
  (r = Cont -> exec_list n stk (xwrap p i b) s = Some (xpost p stk s')).
Proof.
  unfold xwrap_fuel. intros Hiso He H n Hn.
  assert (Hd : xdepth p <= 12) by (destruct p; cbn; lia).
  destruct (fuel_split (xdepth p) n) as (m & ->); [lia|].
  destruct p; try discriminate Hiso; cbn in H; cbn.
  6,7: unfold classify; cbn; rewrite N.eqb_refl; cbn.        (* PFun, PFunInCond: the call finds fI *)
  10: rewrite (xenv_v0 _ _ _ He).                             (* PForBody: v0 can be assigned *)
  all: rewrite H by lia; (split; [intros Hr; destruct (ends_brk _ Hr) as [o [-> | ->]]; reflexivity | intros ->]).
  6: destruct (apply_errexit stk s'); reflexivity.
  all: rewrite ?errexit_in_condition; destruct (N.eqb (status s') 0); cbn;
    rewrite ?xthen_run, ?xcolon_run, ?xbreak_run by lia; reflexivity.
Qed.

Lemma xpost_ok p stk s' tr : pos_isolating p = None -> xenv e_on tr s' ->
  xview (snd (xpost p stk s')) = xview s' /\ trace (snd (xpost p stk s')) = trace s' /\
  outcome (xstep e_on (has_cond stk) p (XGo (status s'))) (fst (xpost p stk s')) (snd (xpost p stk s')).
Proof.
  intros Hiso He. destruct p; try discriminate Hiso; cbn; auto.
  - destruct (N.eqb (status s') 0) eqn:E; repeat split. apply N.eqb_eq in E. rewrite E. reflexivity.
  - destruct (N.eqb (status s') 0) eqn:E; repeat split. apply N.eqb_eq in E. exact E.
  - repeat split. apply errexit_xcheck; [reflexivity | exact (xenv_errexit _ _ _ He)].
Qed.

Lemma through_behaves p ex : pos_isolating p = None ->
  behaves e_on n0 b (ex || pos_exempt p) out ext ->
  behaves e_on (n0 + xwrap_fuel) (xwrap p i b) ex (xstep e_on ex p out) ext.
Proof.
  intros Hiso Hb stk s tr Hc He.
  destruct (xenter_keeps p s) as [Hhv Hht].
  destruct (Hb (xframes p ++ stk) (xenter p i b s) tr) as (r & s' & Hrun & Hv & Ht & Ho);
    [rewrite xframes_cond, Hc by exact Hiso; reflexivity | exact (xenv_view _ _ _ _ He Hhv) |].
  rewrite Hhv in Hv. rewrite Hht in Ht.
  pose proof (xenv_view _ _ _ _ He Hv) as He'.
  pose proof (xwrap_exec p stk s tr r s' Hiso He Hrun) as Hw.
  destruct out as [st|st]; destruct Ho as [Hr Hs].
  - exists r, s'. split; [|cbn [xstep]; rewrite Hiso; cbn; auto].
    intros n Hn. exact (proj1 (Hw n Hn) Hr).
  - subst r. destruct (xpost_ok p stk s' tr Hiso He') as (Pv & Pt & Po).
    exists (fst (xpost p stk s')), (snd (xpost p stk s')).
    split; [|split; [congruence|split; [rewrite Pt; exact Ht|rewrite Hs, Hc in Po; exact Po]]].
    intros n Hn. rewrite <- surjective_pairing. exact (proj2 (Hw n Hn) eq_refl).
Qed.

Lemma xwrap_exec_child p propagates stk s tr r c :
  pos_isolating p = Some propagates -> xenv e_on tr s ->
  (forall k, n0 <= k -> exec_list k (FSubshell :: stk) b (xchild p s) = Some (r, c)) ->
  exit_trap (apply_result r c) = None ->
  forall n, n0 + xwrap_fuel <= n ->
  exec_list n stk (xwrap p i b) s
  = Some (apply_errexit stk (xkeep p s (apply_result r c)), xkeep p s (apply_result r c)).
Proof.
  unfold xwrap_fuel. intros Hiso He H Htrap n Hn.
  destruct (fuel_split 7 n) as (m & ->); [lia|].
  destruct p; try discriminate Hiso; cbn in H; cbn.
  4: rewrite xprobe_run by exact (xenv_probe _ _ _ He); cbn.   (* PPipeLast: `probe 4` first *)
  all: rewrite H, Htrap by lia.
  2: rewrite (xenv_v0 _ _ _ He).                                (* PSubst: v0 can be assigned *)
  5: rewrite xprobe_run by exact (xenv_probe _ _ _ He).         (* PPipeFirst: `probe 4` last *)
  all: try reflexivity; destruct (apply_errexit stk _); reflexivity.
Qed.

Lemma isolated_behaves p ex propagates : pos_isolating p = Some propagates ->
  behaves e_on n0 b (ex || pos_exempt p) out ext ->
  behaves e_on (n0 + xwrap_fuel) (xwrap p i b) ex (xstep e_on ex p out) ext.
Proof.
  intros Hiso Hb stk s tr Hc He.
  assert (Hp : pos_exempt p = false /\ pos_checked p = true /\
               (forall st, pos_status p st = if propagates then st else 0%N) /\
               xview (xchild p s) = xview (child_state s) /\ vis (trace (xchild p s)) = vis (trace s))
    by (destruct p; try discriminate Hiso; injection Hiso as <-; repeat split).
  destruct Hp as (Hex & Hck & Hps & Cv & Ct).
  rewrite Hex, orb_false_r in Hb.
  destruct (environment_ends _ _ _ _ _ _ stk (xchild p s) Hb Hc (xenv_child _ _ _ _ He Cv))
    as (r & c & Hrun & Htrap & Hst & Ht).
  set (s1 := xkeep p s (apply_result r c)).
  assert (Hk : xview s1 = xview s /\ vis (trace s1) = vis (trace (apply_result r c)) /\
               status s1 = if propagates then status (apply_result r c) else 0%N)
    by (unfold s1; destruct p; try discriminate Hiso; injection Hiso as <-; repeat split).
  destruct Hk as (Pv & Pt & Ps).
  exists (apply_errexit stk s1), s1. split; [|split; [exact Pv|split; [rewrite Pt, Ht, Ct; reflexivity|]]].
  - exact (xwrap_exec_child p propagates stk s tr r c Hiso He Hrun Htrap).
  - replace (xstep e_on ex p out) with (xcheck e_on ex (status s1))
      by (rewrite Ps, Hst; destruct out; cbn [xstep xout_status]; rewrite ?Hiso, ?Hck, ?Hps; reflexivity).
    apply errexit_xcheck; [exact Hc | rewrite <- (xenv_errexit _ _ _ He)].
    injection Pv; auto.
Qed.

Lemma xwrap_behaves p ex :
  behaves e_on n0 b (ex || pos_exempt p) out ext ->
  behaves e_on (n0 + xwrap_fuel) (xwrap p i b) ex (xstep e_on ex p out) ext.
Proof.
  destruct (pos_isolating p) eqn:Hiso; [apply (isolated_behaves p ex _ Hiso) | apply (through_behaves p ex Hiso)].
Qed.
End Positions.

Lemma behaves_more e_on n0 n1 l ex out ext : n0 <= n1 -> behaves e_on n0 l ex out ext -> behaves e_on n1 l ex out ext.
Proof.
  intros L Hb stk s tr Hc He. destruct (Hb stk s tr Hc He) as (r & s' & Hrun & H).
  exists r, s'. split; [intros n Hn; apply Hrun; lia | exact H].
Qed.

Local Arguments vis : simpl never.

(* what the commands of xlower read of a state: `false` must resolve to the
   built-in, `${v2?}` must find v2 unset, the prefix assignment v9=t0 must not
   meet a read-only variable *)
Definition xstate_ok (s : state) : Prop :=
  lookup_fun NFalse (funs s) = None /\ lookup_var 2 (vars s) = None /\ is_ronly 9 s = false.

(* what the command that stands for a category does, in every stack and every
   state with xstate_ok, the same at every fuel from 2 on: nothing the
   positions look at changes *)
Definition victim_ok (c : cmd) (v : xclass) : Prop :=
  forall stk s, xstate_ok s ->
  exists r s1, (forall n, exec_cmd (S (S n)) stk c s = Some (r, s1)) /\ trace s1 = trace s /\ xview s1 = xview s /\
    match v with
    | XFatal st => ends_environment r = true /\ status (apply_result r s1) = st
    | XSoft st => status s1 = st /\ r = apply_errexit stk s1
    end.

(* a command that fails softly: its status, then errexit *)
Lemma soft_ok c st :
  (forall stk s, xstate_ok s -> forall n,
     exec_cmd (S (S n)) stk c s = Some (apply_errexit stk (set_status st s), set_status st s)) ->
  victim_ok c (XSoft st).
Proof. intros H stk s Hs. eexists _, _. split; [exact (H stk s Hs)|]. repeat split. Qed.

(* a command that ends the environment with a divert carrying no status *)
Lemma fatal_ok c st dv :
  ends_environment (Brk dv) = true -> divert_exit_status dv = None ->
  (forall stk s, xstate_ok s -> forall n, exec_cmd (S (S n)) stk c s = Some (Brk dv, set_status st s)) ->
  victim_ok c (XFatal st).
Proof.
  intros He Hd H stk s Hs. eexists _, _. split; [exact (H stk s Hs)|]. repeat split; [exact He|].
  cbn. rewrite Hd. reflexivity.
Qed.

(* the lowered commands with their classes: 44 pairs (category, prefix), 11 distinct *)
Definition xvictims : list (cmd * xclass) :=
  [(CCall plain NDot [], XFatal 1); (CCall (mkDeco false true) NDot [], XSoft 1);
   (CCall plain NBreak [0%N], XFatal 2); (CCall (mkDeco false true) NBreak [0%N], XSoft 2);
   (CCall plain NExit [127%N], XFatal 127); (CAssign 0 (WReq 2), XFatal 2);
   (CPrefixCall 9 (WLit 0) NDot [], XFatal 1);
   (CCall plain NFalse [], XSoft 1); (CCall (mkDeco false true) NFalse [], XSoft 1);
   (CCall plain NColon [], XSoft 0); (CCall (mkDeco false true) NColon [], XSoft 0)]%N.

Lemma xvictims_ok : Forall (fun cv => victim_ok (fst cv) (snd cv)) xvictims.
Proof.
  repeat apply Forall_cons; try apply Forall_nil; cbn [fst snd].
  - apply (fatal_ok _ _ (DInterrupt None)); reflexivity.
  - apply soft_ok. reflexivity.
  - apply (fatal_ok _ _ (DInterrupt None)); reflexivity.
  - apply soft_ok. reflexivity.
  - intros stk s _. eexists _, _. split; [reflexivity|]. repeat split.
  - intros stk s (_ & Hv & _). eexists _, _. split; [intros n; cbn; rewrite Hv; reflexivity|].
    unfold handle_expansion_error. destruct (errexit_is_applicable stk s); repeat split.
  - intros stk s (_ & _ & Hr). eexists _, _. split; [intros n; cbn; rewrite Hr; reflexivity|]. repeat split.
  - apply soft_ok. intros stk s (Hf & _) n. cbn. unfold classify. cbn. rewrite Hf. reflexivity.
  - apply soft_ok. reflexivity.
  - apply soft_ok. reflexivity.
  - apply soft_ok. reflexivity.
Qed.

Lemma xvictims_complete e viac : In (xlower e viac, xerr_class e viac) xvictims.
Proof. destruct e, viac; cbv; tauto. Qed.

Lemma xvictim_run e viac : victim_ok (xlower e viac) (xerr_class e viac).
Proof. exact (proj1 (Forall_forall _ _) xvictims_ok _ (xvictims_complete e viac)). Qed.

Lemma xenv_state_ok e_on tr s : xenv e_on tr s -> xstate_ok s.
Proof. intros H. injection H as _ _ H1 _ H2 _ H3. repeat split; assumption. Qed.

Lemma vis_push k st t : N.eqb k 4 = false -> vis ((k, st) :: t) = (k, st) :: vis t.
Proof. intros H. unfold vis. cbn. rewrite H. reflexivity. Qed.

(* the list `c; probe k`, for a command c that runs the same at every fuel *)
Lemma xcl_probe_run stk c k s r s1 :
  (forall m, exec_cmd (S (S m)) stk c s = Some (r, s1)) -> lookup_fun NProbe (funs s1) = None ->
  forall n, 6 <= n ->
  exec_list n stk (xcl [c; xprobe k]) s
  = Some (match r with Cont => (Cont, set_status 0 (push_trace k s1)) | Brk dv => (Brk dv, s1) end).
Proof.
  intros Hc Hf n Hn. destruct (fuel_split 6 n Hn) as (m & ->). cbn. rewrite Hc.
  destruct r; [rewrite xprobe_run by exact Hf|]; reflexivity.
Qed.

Lemma victim_behaves e viac e_on ex :
  behaves e_on 6 (xcl [xlower e viac; xprobe 2]) ex
    (xwalk e_on ex [] (xerr_class e viac)) (xext e_on ex (xerr_class e viac)).
Proof.
  intros stk s tr Hc He.
  destruct (xvictim_run e viac stk s (xenv_state_ok _ _ _ He)) as (r & s1 & Hrun & Htr & Hview & Hcls).
  pose proof (xenv_view _ _ _ _ He Hview) as He1.
  pose proof (xcl_probe_run stk _ 2 s r s1 Hrun (xenv_probe _ _ _ He1)) as Hl.
  cbn [xwalk]. unfold xext.
  destruct (xerr_class e viac) as [st|st].
  - destruct Hcls as [Hr Hst]. destruct r as [|dv]; [discriminate|].
    exists (Brk dv), s1. split; [exact Hl | rewrite Htr; cbn; auto].
  - destruct Hcls as [Hst ->].
    pose proof (errexit_xcheck e_on ex stk s1 Hc (xenv_errexit _ _ _ He1)) as Ho. rewrite Hst in Ho.
    destruct (xcheck e_on ex st) as [a|a]; destruct Ho as [Hr Ha].
    + exists (apply_errexit stk s1), s1. split; [|rewrite Htr; cbn; auto].
      destruct (apply_errexit stk s1); [discriminate | exact Hl].
    + exists Cont, (set_status 0 (push_trace 2 s1)). split; [|split; [exact Hview|split; [|cbn; auto]]].
      * rewrite Hr in Hl. exact Hl.
      * cbn. rewrite vis_push by reflexivity. rewrite Htr, Hst. reflexivity.
Qed.

Definition xplant_fuel (ps : list position) : nat := 6 + xwrap_fuel * length ps.

Theorem xplant_behaves e viac e_on : forall ps ex,
  behaves e_on (xplant_fuel ps) (xplant ps (xcl [xlower e viac; xprobe 2])) ex
    (xwalk e_on ex ps (xerr_class e viac)) (xext e_on (ex || existsb pos_exempt ps) (xerr_class e viac)).
Proof.
  induction ps as [|p ps IH]; intros ex.
  - cbn [existsb]. rewrite orb_false_r. apply victim_behaves.
  - cbn [existsb xplant]. rewrite orb_assoc, xwalk_cons.
    apply (behaves_more _ (xplant_fuel ps + xwrap_fuel)); [unfold xplant_fuel; cbn [length]; lia|].
    apply xwrap_behaves, IH.
Qed.

Definition xprefix (ee tr : bool) : prog :=
  (if tr then [LCmd (xcl [CTrapExit (xcl [xprobe xtrap_key])])] else [])
  ++ [LCmd (xcl [CAssign 3 (WLit 0)]); LCmd (xcl [CReadonly 3])]
  ++ (if ee then [LCmd (xcl [CCall plain NSet [1%N]])] else [])
  ++ [LCmd (xcl [xprobe 1])].

Definition xstart (ee tr : bool) : state :=
  mkState [(3%N, Some 0%N)] [3%N] [] ee 0 [(1%N, 0%N)]
    (if tr then Some (xcl [xprobe xtrap_key]) else None) [] None 0.

Lemma xscript_prefix e viac ee tr ps :
  xscript (mkX e viac ee tr ps)
  = xprefix ee tr ++ [LCmd (xplant ps (xcl [xlower e viac; xprobe 2])); LCmd (xcl [xprobe 3])].
Proof. destruct ee, tr; reflexivity. Qed.

Lemma xprefix_run (ee tr : bool) rest n : 9 <= n ->
  run_lines n (xprefix ee tr ++ rest) false init_state = run_lines n rest true (xstart ee tr).
Proof. intros H. destruct (fuel_split 9 n H) as (m & ->). destruct ee, tr; reflexivity. Qed.

Lemma xstart_env (ee tr : bool) : xenv ee (if tr then Some (xcl [xprobe xtrap_key]) else None) (xstart ee tr).
Proof. reflexivity. Qed.

Lemma xprobe_line n stk k s : 5 <= n -> lookup_fun NProbe (funs s) = None ->
  exec_list n stk (xcl [xprobe k]) s = Some (Cont, set_status 0 (push_trace k s)).
Proof.
  intros H Hf. destruct (fuel_split 5 n H) as (m & ->). cbn.
  rewrite xprobe_run by exact Hf. reflexivity.
Qed.

(* the end of the shell: the EXIT trap, if set, probes and leaves the status *)
Lemma xtrap_run n (tr : bool) s : 7 <= n -> lookup_fun NProbe (funs s) = None ->
  exit_trap s = (if tr then Some (xcl [xprobe xtrap_key]) else None) ->
  run_exit_trap n [] s = Some (if tr then set_status (status s) (push_trace xtrap_key s) else s).
Proof.
  intros H Hf Ht. destruct (fuel_split 7 n H) as (m & ->). cbn. rewrite Ht.
  destruct tr; [|reflexivity]. cbn. rewrite xprobe_run by exact Hf. reflexivity.
Qed.

Lemma other_key k (x : N * N) : N.eqb k 4 = false -> N.eqb (fst x) 4 = true -> N.eqb (fst x) k = false.
Proof. intros H E. apply N.eqb_eq in E. rewrite E, N.eqb_sym. exact H. Qed.

(* the oracle asks about keys other than 4 only, and not about the order *)
Lemma existsb_rev_vis (f : N * N -> bool) t :
  (forall x, N.eqb (fst x) 4 = true -> f x = false) -> existsb f (rev t) = existsb f (vis t).
Proof.
  intros Hf. induction t as [|x t IH]; [reflexivity|].
  cbn [rev]. rewrite existsb_app, IH. unfold vis. cbn [filter existsb].
  destruct (N.eqb (fst x) 4) eqn:E; cbn [negb existsb]; [rewrite (Hf x E)|]; 
    destruct (f x), (existsb f (filter _ t)); reflexivity.
Qed.

Lemma has_item_vis k st t : N.eqb k 4 = false -> has_item k st (rev t) = has_item k st (vis t).
Proof.
  intros H. apply existsb_rev_vis. intros x E. rewrite (other_key k x H E). reflexivity.
Qed.

Lemma has_key_vis k t : N.eqb k 4 = false -> has_key k (rev t) = has_key k (vis t).
Proof.
  intros H. apply existsb_rev_vis. intros x. exact (other_key k x H).
Qed.

Lemma count_key_vis k t : N.eqb k 4 = false -> count_key k (rev t) = count_key k (vis t).
Proof.
  intros H. rewrite count_key_rev. unfold count_key, vis. induction t as [|x t IH]; [reflexivity|].
  cbn [filter]. destruct (N.eqb (fst x) 4) eqn:E; cbn [negb filter].
  - rewrite (other_key k x H E). exact IH.
  - destruct (N.eqb (fst x) k); cbn [length]; rewrite IH; reflexivity.
Qed.

Lemma xview_apply_result r s : xview (apply_result r s) = xview s.
Proof. destruct r as [|dv]; [reflexivity|]. cbn. destruct (divert_exit_status dv); reflexivity. Qed.

Definition xtable_fuel (ps : list position) : nat := xplant_fuel ps + 3.

(* the end of the shell in the state [s2] the lines left: the EXIT trap, then
   the oracle on what is observed ([k3]: the record of `probe 3`, if it ran) *)
Lemma xscript_end e viac (ee tr : bool) ps n s2 (k3 : list (N * N)) :
  7 <= n -> xenv ee (if tr then Some (xcl [xprobe xtrap_key]) else None) s2 ->
  vis (trace s2) = k3 ++ xext ee (existsb pos_exempt ps) (xerr_class e viac) ++ [(1, 0)]%N ->
  match xwalk ee false ps (xerr_class e viac) with
  | XAbort st => k3 = [] /\ status s2 = st
  | XGo _ => (exists st, k3 = [(3%N, st)]) /\ status s2 = 0%N
  end ->
  exists s3, run_exit_trap n [] s2 = Some s3 /\ xoracle (mkX e viac ee tr ps) (observe s3) = true.
Proof.
  intros Hn He Hvis Htop.
  exists (if tr then set_status (status s2) (push_trace xtrap_key s2) else s2).
  split; [apply xtrap_run; [lia | exact (xenv_probe _ _ _ He) | exact (xenv_trap _ _ _ He)]|].
  unfold xoracle, observe. cbn [x_err x_viac x_errexit x_trap x_pos fst snd].
  rewrite !has_item_vis, !has_key_vis, ?count_key_vis by reflexivity.
  (* the oracle on the explicit visible trace, by cases: how the script ended, trap or none,
     whether the victim's `probe 2` ran *)
  destruct (xwalk ee false ps (xerr_class e viac)) as [st|st]; destruct Htop as [Hk Hs];
    [|destruct Hk as [st3 Hk]]; subst k3;
    (destruct tr; cbn [trace status set_status push_trace set_trace]; rewrite ?vis_push by reflexivity;
     rewrite Hvis, Hs, xext_inner_goes; destruct (xinner_goes ee ps (xerr_class e viac));
     cbn; rewrite ?N.eqb_refl; reflexivity).
Qed.

Theorem xtable_every_depth x n : xtable_fuel (x_pos x) <= n ->
  exists o, model_run n (xscript x) = Some o /\ xoracle x o = true.
Proof.
  destruct x as [e viac ee tr ps]. cbn [x_pos]. unfold xtable_fuel, xplant_fuel. intros Hn.
  destruct (xplant_behaves e viac ee ps false [] (xstart ee tr) _ eq_refl (xstart_env ee tr))
    as (r & s' & Hrun & Hv & Ht & Ho).
  pose proof (xenv_view _ _ _ _ (xstart_env ee tr) Hv) as He.
  unfold model_run. rewrite xscript_prefix, xprefix_run by lia. cbn [run_lines].
  rewrite Hrun by (unfold xplant_fuel; lia).
  pose proof (xscript_end e viac ee tr ps n) as Hend.
  destruct (xwalk ee false ps (xerr_class e viac)) as [st|st]; destruct Ho as [Hr Hs].
  - destruct (Hend (apply_result r s') []) as (s3 & Et & Hor); auto; try lia.
    + apply (xenv_view _ _ _ _ He), xview_apply_result.
    + rewrite (proj2 (apply_result_keep r s')). exact Ht.
    + exists (observe s3). split; [|exact Hor].
      destruct (ends_brk _ Hr) as [o [-> | ->]]; rewrite Et; reflexivity.
  - subst r. rewrite (xprobe_line n [] 3 s') by (lia || exact (xenv_probe _ _ _ He)).
    destruct (Hend (set_status 0 (push_trace 3 s')) [(3%N, st)]) as (s3 & Et & Hor); try lia.
    + apply (xenv_view _ _ _ _ He). reflexivity.
    + cbn [trace status set_status push_trace set_trace]. rewrite vis_push by reflexivity.
      rewrite Ht, Hs. reflexivity.
    + eauto.
    + exists (observe s3). split; [|exact Hor]. cbn [run_lines apply_result]. rewrite Et. reflexivity.
Qed.

(* well-formedness is structural: a position puts its inside under any loop
   depth and inside or outside a function, so the inside must be well-formed
   everywhere; the lowered commands are (`break 0` has no loop operand) *)
Definition wf_anywhere (b : clist) : Prop := forall d infun, wf_list d infun b = true.

Lemma xwrap_wf p i b : wf_anywhere b -> clist_is_empty b = false -> wf_anywhere (xwrap p i b).
Proof.
  intros H Hb d infun.
  destruct p; cbn [xwrap xcl]; unfold xthen, xao, xpl; cbn [xcl]; unfold xao, xpl;
    cbn [wf_list wf_andor wf_pipeline wf_rest wf_cmd wf_cmds wf_elifs];
    rewrite ?Hb, ?H; try reflexivity; destruct infun; reflexivity.
Qed.

Lemma xwrap_not_empty p i b : clist_is_empty (xwrap p i b) = false.
Proof. destruct p; reflexivity. Qed.

Lemma xplant_wf ps b : wf_anywhere b -> clist_is_empty b = false ->
  wf_anywhere (xplant ps b) /\ clist_is_empty (xplant ps b) = false.
Proof.
  intros H Hb. induction ps as [|p ps [IH1 IH2]]; cbn [xplant]; [auto|].
  split; [apply xwrap_wf; assumption | apply xwrap_not_empty].
Qed.

Lemma xscript_wf x : wf_prog (xscript x) = true.
Proof.
  destruct x as [e viac ee tr ps].
  assert (Hb : wf_anywhere (xcl [xlower e viac; xprobe 2]))
    by (intros d infun; destruct e, viac, infun; reflexivity).
  destruct (xplant_wf ps _ Hb eq_refl) as [Hw _].
  unfold xscript, wf_prog. cbn [x_err x_viac x_errexit x_trap x_pos].
  rewrite !forallb_app. cbn [forallb wf_line]. rewrite Hw. destruct tr, ee; reflexivity.
Qed.
