(* C10 — proofs.  A divert ends a script whatever follows; how the shell's
   main ends; and why the EXIT trap runs exactly once:
   code that does not mention the trap's key keeps the trap, the count of the
   key and the function table ([keep]) and never ends in an Abort, shown for
   all functions of the interpreter together by induction on the fuel. *)
From Yv Require Import Common.Base C02.Model C02.Spec C10.Model C10.Spec.

(* the site as the first two arguments of C02.Spec.shell_error; the number is
   read for ErrSpecialBuiltin only (error_status) *)
Definition kind_of (site : error_site) : error_kind * N :=
  match site with
  | SiteSyntax => (ErrSyntax, 0%N)
  | SiteSpecialBuiltin st => (ErrSpecialBuiltin, st)
  | SiteSpecialRedirection => (ErrSpecialRedirection, 0%N)
  | SiteAssignment => (ErrAssignment, 0%N)
  | SiteExpansion => (ErrExpansion, 0%N)
  | SiteOtherRedirection => (ErrOtherRedirection, 0%N)
  | SiteNotFound => (ErrNotFound, 0%N)
  end.

Fixpoint capp (l1 l2 : clist) : clist :=
  match l1 with
  | LNil => l2
  | LCons a l => LCons a (capp l l2)
  end.

Lemma lines_abort : forall n p1 p2 e s dv s1,
  run_lines n p1 e s = Some (Brk dv, s1) -> run_lines n (p1 ++ p2) e s = Some (Brk dv, s1).
Proof.
  induction p1 as [|l p1 IH]; intros p2 e s dv s1 H; cbn [run_lines app] in *; [discriminate|].
  destruct l as [l|]; [|exact H].
  destruct (exec_list n [] l s) as [[r sl]|]; [|discriminate].
  destruct r; [apply IH; exact H | exact H].
Qed.

Lemma trap_none n stk s s' : run_exit_trap n stk s = Some s' -> exit_trap s = None -> s' = s.
Proof. destruct n; [discriminate|]. cbn [run_exit_trap]. intros H E. rewrite E in H. congruence. Qed.

Lemma apply_result_keep r s : exit_trap (apply_result r s) = exit_trap s /\ trace (apply_result r s) = trace s.
Proof. destruct r as [|dv]; [auto|]. cbn. destruct (divert_exit_status dv); auto. Qed.

Lemma apply_result_funs r s : funs (apply_result r s) = funs s.
Proof. destruct r as [|dv]; [reflexivity|]. cbn. destruct (divert_exit_status dv); reflexivity. Qed.

(* the shell's main: after an Abort nothing runs, otherwise the EXIT trap does *)
Lemma model_run_end n p r s1 o :
  run_lines n p false init_state = Some (r, s1) -> model_run n p = Some o ->
  (o = observe (apply_result r s1) /\ exists x, r = Brk (DAbort x))
  \/ exists s3, run_exit_trap n [] (apply_result r s1) = Some s3 /\ o = observe s3.
Proof.
  intros H Hm. unfold model_run in Hm. rewrite H in Hm.
  destruct r as [|[c|c|x|x|x|x]];
    try (right; destruct (run_exit_trap n [] _) as [s3|]; [|discriminate];
         exists s3; split; [reflexivity | congruence]).
  left. split; [congruence | eexists; reflexivity].
Qed.

Lemma count_push k key st t : count_key k ((key, st) :: t) = (if N.eqb key k then S (count_key k t) else count_key k t).
Proof. unfold count_key. cbn. destruct (N.eqb key k); reflexivity. Qed.

Lemma count_key_rev k t : count_key k (rev t) = count_key k t.
Proof.
  unfold count_key. induction t as [|x t IH]; [reflexivity|].
  cbn [rev]. rewrite filter_app, app_length, IH. cbn [filter].
  destruct (N.eqb (fst x) k); cbn [length]; lia.
Qed.

Section Once.
Variable k : N.

Definition funs_plain (s : state) : Prop :=
  (forall nm b, lookup_fun nm (funs s) = Some b -> plain_cmd k b = true)
  /\ lookup_fun NProbe (funs s) = None.

(* what code without traps and without the key leaves unchanged *)
Record keep (s s' : state) : Prop := {
  k_trap : exit_trap s' = exit_trap s;
  k_count : count_key k (trace s') = count_key k (trace s);
  k_funs : funs_plain s'
}.

Lemma keep_refl s : funs_plain s -> keep s s.
Proof. intros F; split; auto. Qed.

Lemma keep_trans s1 s2 s3 : keep s1 s2 -> keep s2 s3 -> keep s1 s3.
Proof. intros [A B C] [A' B' C']; split; congruence || auto. Qed.

Lemma keep_same s s' : exit_trap s' = exit_trap s -> trace s' = trace s -> funs s' = funs s ->
  funs_plain s -> keep s s'.
Proof. intros A B C F; split; auto; [rewrite B; reflexivity | unfold funs_plain; rewrite C; exact F]. Qed.

(* No command of the shared model produces a DAbort (yash-rs does for a failed
   `exec`, which C10/Model.v represents by `exit 127`); the fact is carried
   through the induction because model_run skips the EXIT trap after one. *)
Definition not_abort (r : flow) : Prop := forall o, r <> Brk (DAbort o).

Definition good (s : state) (out : option res) : Prop :=
  forall r s', out = Some (r, s') -> keep s s' /\ not_abort r.

Lemma not_abort_errexit stk s : not_abort (apply_errexit stk s).
Proof. unfold apply_errexit, not_abort. destruct (_ && _); intros; discriminate. Qed.

Lemma not_abort_expansion stk s : not_abort (handle_expansion_error stk s).
Proof. unfold handle_expansion_error, not_abort. destruct (errexit_is_applicable stk s); intros; discriminate. Qed.

Lemma good_ret s r s' : keep s s' -> not_abort r -> good s (Some (r, s')).
Proof. intros K A r0 s0 E; inversion E; subst; auto. Qed.

Lemma good_none s : good s None.
Proof. intros r s' E; discriminate. Qed.

Lemma good_keep s s1 out : keep s s1 -> good s1 out -> good s out.
Proof. intros K G r s' E. destruct (G r s' E) as [K' A]. split; [eapply keep_trans; eauto | exact A]. Qed.

Lemma good_bind s (o1 : option res) (f : res -> option res) :
  good s o1 -> (forall r s1, funs_plain s1 -> not_abort r -> good s1 (f (r, s1))) ->
  good s (match o1 with None => None | Some x => f x end).
Proof.
  intros G1 G2. destruct o1 as [[r s1]|]; [|apply good_none].
  destruct (G1 _ _ eq_refl) as [K A]. eapply good_keep; [exact K | apply G2; [exact (k_funs _ _ K) | exact A]].
Qed.

Lemma good_seq s (o1 : option res) (f : state -> option res) :
  good s o1 -> (forall s1, funs_plain s1 -> good s1 (f s1)) ->
  good s (match o1 with
          | None => None
          | Some (Brk dv, s1) => Some (Brk dv, s1)
          | Some (Cont, s1) => f s1
          end).
Proof.
  intros G1 G2. apply good_bind; [exact G1|].
  intros [|dv] s1 F1 A; [apply G2; exact F1 | apply good_ret; [apply keep_refl; exact F1 | exact A]].
Qed.

Lemma keep_set_status s s1 st : keep s s1 -> keep s (set_status st s1).
Proof. intros [A B C]; split; assumption. Qed.

Lemma not_abort_error_divert spf : not_abort (error_divert spf).
Proof. destruct spf; intros o; discriminate. Qed.

(* the leaves of the proofs below: a state that differs in its status only,
   a flow that is visibly not an Abort *)
Hint Resolve keep_refl keep_set_status not_abort_errexit not_abort_expansion not_abort_error_divert : once.
Hint Extern 1 (not_abort _) => (intros ?; discriminate) : once.

(* what is shown of every function of the interpreter, run on code without
   traps and without the key: it keeps what [keep] names and never ends in an
   Abort.  The functions come in four shapes. *)
Definition plain_good {A} (plain : N -> A -> bool) (exec : list frame -> A -> state -> option res) : Prop :=
  forall stk x s, plain k x = true -> funs_plain s -> good s (exec stk x s).

Definition loop_good (loop : list frame -> clist -> bool -> clist -> state -> N -> option (flow * state * N)) : Prop :=
  forall stk c ex b s reg r s1 reg1, loop stk c ex b s reg = Some (r, s1, reg1) ->
    plain_list k c = true -> plain_list k b = true -> funs_plain s -> keep s s1 /\ not_abort r.

Definition child_good (run : list frame -> clist -> state -> option state) : Prop :=
  forall stk b s c', run stk b s = Some c' -> plain_list k b = true -> funs_plain s ->
    count_key k (trace c') = count_key k (trace s).

Definition multi_good (multi : list frame -> cmds -> state -> state -> option state) : Prop :=
  forall stk cs s0 acc acc', multi stk cs s0 acc = Some acc' ->
    plain_cmds k cs = true -> funs_plain s0 -> exit_trap acc = exit_trap s0 -> funs acc = funs s0 ->
    exit_trap acc' = exit_trap s0 /\ funs acc' = funs s0 /\ count_key k (trace acc') = count_key k (trace acc).

Record once_at (n : nat) : Prop := {
  oa_cmd : plain_good plain_cmd (exec_cmd n);
  oa_subshell : child_good (run_subshell n);
  oa_elifs : forall he els, plain_list k els = true ->
    plain_good plain_elifs (fun stk e s => exec_elifs n stk e he els s);
  oa_iterate : loop_good (loop_iterate n);
  oa_execute : loop_good (loop_execute n);
  oa_for : forall x vs, plain_good plain_list (fun stk b s => exec_for n stk x vs b s);
  oa_items : forall sj ft up, plain_good plain_items (fun stk it s => exec_items n stk sj it ft up s);
  oa_list : plain_good plain_list (exec_list n);
  oa_andor : plain_good plain_andor (exec_andor n);
  oa_rest : plain_good plain_rest (exec_rest n);
  oa_pipeline : plain_good plain_pipeline (exec_pipeline n);
  oa_commands : plain_good plain_cmds (exec_commands n);
  oa_multi : multi_good (exec_multi n)
}.

Lemma break_not_abort b spf stk args : not_abort (snd (builtin_break b spf stk args)).
Proof.
  unfold builtin_break. destruct (parse_count args) as [c|]; [destruct (loop_count stk c), b|];
    cbn [snd]; auto with once.
Qed.

Lemma return_not_abort b spf s args : not_abort (snd (builtin_return b spf s args)).
Proof. unfold builtin_return. destruct args as [|a [|a' args]], b; cbn [snd]; auto with once. Qed.

Lemma builtin_not_abort nm spf stk args s : not_abort (snd (fst (run_builtin nm spf stk args s))).
Proof.
  destruct nm; cbn [run_builtin fst snd]; auto using break_not_abort, return_not_abort with once.
  destruct (job_wait args s); auto with once.
Qed.

(* a built-in other than a probe of the key changes the status, the errexit
   option, the jobs, or records another key *)
Lemma builtin_keep nm spf stk args s st dv s' :
  run_builtin nm spf stk args s = ((st, dv), s') ->
  (match nm with NProbe => negb (N.eqb (hd 0%N args) k) | _ => true end) = true ->
  funs_plain s -> keep s (set_status st s') /\ not_abort dv.
Proof.
  intros H Hp F.
  split; [|pose proof (builtin_not_abort nm spf stk args s) as A; rewrite H in A; exact A].
  destruct nm; cbn [run_builtin] in H; try (inversion H; subst; apply keep_same; auto; fail).
  - injection H as _ _ <-. split; [reflexivity | | exact F].
    cbn [trace set_status push_trace set_trace]. rewrite count_push.
    apply negb_true_iff in Hp. rewrite Hp. reflexivity.
  - unfold job_wait in H.
    destruct (match args with [_] => last_async s | _ => None end);
      [destruct (lookup_job n (jobs s))|]; injection H as _ _ <-; apply keep_same; auto.
Qed.

Section Step.
Variable n : nat.
Hypothesis IH : once_at n.

(* what the parent keeps of a child: its trace, in which the key is as often as before *)
Lemma good_child stk b s child r s' :
  run_subshell n stk b s = Some child -> plain_list k b = true -> funs_plain s ->
  exit_trap s' = exit_trap s -> funs s' = funs s -> trace s' = trace child -> not_abort r ->
  good s (Some (r, s')).
Proof.
  intros Es Hp F Et Ef Etr A. apply good_ret; [|exact A].
  split; [exact Et | rewrite Etr; exact (oa_subshell _ IH _ _ _ _ Es Hp F) | unfold funs_plain; rewrite Ef; exact F].
Qed.

(* SimpleCommand::execute *)
Lemma once_call stk d nm args s :
  plain_cmd k (CCall d nm args) = true -> funs_plain s -> good s (exec_cmd (S n) stk (CCall d nm args) s).
Proof.
  intros Hp F. cbn [exec_cmd]; cbn [plain_cmd] in Hp.
  (* a divert of the target ends the command; otherwise errexit is applied *)
  apply good_seq; [|intros s1 F1; apply good_ret; auto with once].
  destruct (via_command d).
  - destruct (bad_redir d); [apply good_ret; auto with once|].
    destruct (classify_via_command nm); try (apply good_ret; auto with once; fail).
    destruct (run_builtin nm false (FBuiltin :: FBuiltin :: stk) args s) as [[st dv] s1] eqn:Eb.
    destruct (builtin_keep _ _ _ _ _ _ _ _ Eb Hp F) as [K A].
    apply good_ret; assumption.
  - destruct (classify nm s) as [special|body|] eqn:Ec.
    + unfold execute_builtin. destruct (bad_redir d).
      * destruct special; apply good_ret; auto with once.
      * destruct (run_builtin nm special (FBuiltin :: stk) args s) as [[st dv] s1] eqn:Eb.
        destruct (builtin_keep _ _ _ _ _ _ _ _ Eb Hp F) as [K A].
        apply good_ret; assumption.
    + destruct (bad_redir d); [apply good_ret; auto with once|].
      (* function.rs: the body is in the function table, a `return` ends here *)
      assert (Hb : plain_cmd k body = true).
      { unfold classify in Ec. destruct (is_special nm); [discriminate|].
        destruct (lookup_fun nm (funs s)) eqn:El; [|destruct (is_regular_builtin nm); discriminate].
        inversion Ec; subst. exact (proj1 F _ _ El). }
      apply good_bind; [apply (oa_cmd _ IH); assumption|]. intros rb sb Fb Ab.
      destruct rb as [|[c|c|o|o|o|o]]; try (apply good_ret; auto with once; fail).
      apply good_ret; [destruct o|]; auto with once.
    + apply good_ret; auto with once.
Qed.

(* the condition, then the body or the next clause: if.rs, shared by `if` and `elif` *)
Lemma once_elifs he els : plain_list k els = true ->
  plain_good plain_elifs (fun stk e s => exec_elifs (S n) stk e he els s).
Proof.
  intros Hl stk e s Hp F. cbn [exec_elifs]. destruct e as [|cond body e'].
  - destruct he; [apply (oa_list _ IH); assumption | apply good_ret; auto with once].
  - cbn [plain_elifs] in Hp. apply andb_true_iff in Hp as [Hp Hpe]. apply andb_true_iff in Hp as [Hpc Hpb].
    apply good_seq.
    + apply (oa_list _ IH); assumption.
    + intros s1 F1. destruct (N.eqb (status s1) 0); [apply (oa_list _ IH) | apply (oa_elifs _ IH)]; assumption.
Qed.

Lemma once_cmd : plain_good plain_cmd (exec_cmd (S n)).
Proof.
  intros stk c s Hp F. destruct c; try (apply once_call; assumption); cbn [exec_cmd]; cbn [plain_cmd] in Hp.
  - (* x=w *)
    destruct (expand_word w s); [destruct (is_ronly x s)|]; apply good_ret; auto with once.
    apply keep_same; auto.
  - apply good_ret; [apply keep_same; auto | auto with once].
  - (* x=$(body) *)
    destruct (run_subshell n stk body s) as [child|] eqn:Es; [|apply good_none].
    destruct (is_ronly x s); eapply good_child; eauto with once.
  - (* : $(body) *)
    destruct (run_subshell n stk body s) as [child|] eqn:Es; [|apply good_none].
    eapply good_child; eauto with once.
  - (* { a & } *)
    assert (Hpl : plain_list k (LCons a LNil) = true) by (cbn [plain_list]; rewrite Hp; reflexivity).
    destruct (run_subshell n stk (LCons a LNil) s) as [child|] eqn:Es; [|apply good_none].
    eapply good_child; eauto with once.
  - (* x=w NAME ARGS: the state the call starts from differs from s in x only *)
    destruct (expand_word w s); [|apply good_ret; auto with once].
    destruct (is_ronly x s); [apply good_ret; auto with once|].
    apply (good_keep s (set_var x (hd_error l) s)); [apply keep_same; auto|].
    apply good_bind; [apply (oa_cmd _ IH _ (CCall plain nm args)); assumption|]. intros r1 s1 F1 A1.
    apply good_ret; [|exact A1].
    destruct (is_special nm); [|apply keep_same]; auto with once.
  - apply (oa_list _ IH); assumption.
  - destruct (run_subshell n stk body s) as [child|] eqn:Es; [|apply good_none].
    eapply good_child; eauto with once.
  - (* `if` runs as its own first `elif` clause *)
    apply andb_true_iff in Hp as [Hp Hpl].
    exact (once_elifs has_else els Hpl stk (ECons cond body elifs) s Hp F).
  - (* while / until *)
    apply andb_true_iff in Hp as [Hpc Hpb].
    destruct (loop_execute n (FLoop :: stk) cond (negb is_until) body s 0) as [[[r s1] reg]|] eqn:El;
      [|apply good_none].
    destruct (oa_execute _ IH _ _ _ _ _ _ _ _ _ El Hpc Hpb F) as [K A].
    destruct r; apply good_ret; auto with once.
  - (* for *)
    destruct (expand_words ws s) as [[|v vs]|].
    + destruct (negb (clist_is_empty body)); apply good_ret; auto with once.
    + apply (oa_for _ IH); assumption.
    + apply good_ret; auto with once.
  - (* case *)
    destruct (expand_word w s); [apply (oa_items _ IH); assumption | apply good_ret; auto with once].
  - (* a function definition: the body is plain and the name is not `probe` *)
    apply andb_true_iff in Hp as [Hpc Hpb]. apply negb_true_iff in Hpc.
    apply good_ret; [|auto with once].
    split; [reflexivity | reflexivity |]. split.
    + intros nm' b. cbn. destruct (name_eqb nm' nm); [intros E; inversion E; subst; exact Hpb | apply (proj1 F)].
    + cbn. destruct nm; try discriminate; exact (proj2 F).
  - discriminate.
  - apply good_ret; auto with once.
Qed.

(* the end of a child that started without an EXIT trap: subshell_main *)
Lemma child_end cs r c1 stk c2 :
  keep cs c1 -> exit_trap cs = None -> run_exit_trap n stk (apply_result r c1) = Some c2 ->
  count_key k (trace c2) = count_key k (trace cs).
Proof.
  intros [Kt Kc _] Hn H. destruct (apply_result_keep r c1) as [At Ac].
  rewrite (trap_none _ _ _ _ H) by (rewrite At, Kt; exact Hn). rewrite Ac. exact Kc.
Qed.

Lemma once_subshell : child_good (run_subshell (S n)).
Proof.
  intros stk b s c' H Hp F. cbn [run_subshell] in H.
  destruct (exec_list n (FSubshell :: stk) b (child_state s)) as [[r c1]|] eqn:E; [|discriminate].
  destruct (oa_list _ IH _ _ (child_state s) Hp F _ _ E) as [K _].
  exact (child_end _ _ _ _ _ K eq_refl H).
Qed.

Lemma once_iterate : loop_good (loop_iterate (S n)).
Proof.
  intros stk c ex b s reg r s1 reg1 H Hc Hb F. cbn [loop_iterate] in H.
  destruct (exec_list n (FCondition :: stk) c s) as [[rc sc]|] eqn:E1; [|discriminate].
  destruct (oa_list _ IH _ _ _ Hc F _ _ E1) as [K1 A1].
  destruct rc; [|inversion H; subst; auto].
  destruct (Bool.eqb _ _); [|inversion H; subst; split; [exact K1 | auto with once]].
  destruct (exec_list n stk b sc) as [[rb sb]|] eqn:E2; [|discriminate].
  destruct (oa_list _ IH _ _ _ Hb (k_funs _ _ K1) _ _ E2) as [K2 A2].
  destruct rb.
  - destruct (oa_iterate _ IH _ _ _ _ _ _ _ _ _ H Hc Hb (k_funs _ _ K2)) as [K3 A3].
    split; [eapply keep_trans; [exact K1 | eapply keep_trans; [exact K2 | exact K3]] | exact A3].
  - inversion H; subst. split; [eapply keep_trans; [exact K1 | exact K2] | exact A2].
Qed.

Lemma once_execute : loop_good (loop_execute (S n)).
Proof.
  intros stk c ex b s reg r s1 reg1 H Hc Hb F. cbn [loop_execute] in H.
  destruct (loop_iterate n stk c ex b s reg) as [[[ri si] regi]|] eqn:Ei; [|discriminate].
  destruct (oa_iterate _ IH _ _ _ _ _ _ _ _ _ Ei Hc Hb F) as [K1 A1].
  (* only `continue` starts another round *)
  destruct ri as [|[[|c0]|[|c0]|o|o|o|o]];
    try (inversion H; subst; split; [exact K1 | first [exact A1 | auto with once]]).
  destruct (oa_execute _ IH _ _ _ _ _ _ _ _ _ H Hc Hb (k_funs _ _ K1)) as [K2 A2].
  split; [eapply keep_trans; [exact K1 | exact K2] | exact A2].
Qed.

Lemma once_for x vs : plain_good plain_list (fun stk b s => exec_for (S n) stk x vs b s).
Proof.
  intros stk b s Hb F. cbn [exec_for]. destruct vs as [|v vs']; [apply good_ret; auto with once|].
  destruct (is_ronly x s); [apply good_ret; auto with once|].
  apply (good_keep s (set_var x (Some v) s)); [apply keep_same; auto|].
  apply good_bind; [apply (oa_list _ IH); assumption|]. intros rb sb Fb Ab.
  (* the next value after a normal end or `continue`; every other divert ends the loop *)
  destruct rb as [|[[|c0]|[|c0]|o|o|o|o]]; try (apply good_ret; auto with once; fail);
    apply (oa_for _ IH); assumption.
Qed.

Lemma once_items sj ft up : plain_good plain_items (fun stk it s => exec_items (S n) stk sj it ft up s).
Proof.
  intros stk it s Hp F. cbn [exec_items]. destruct it as [|pats body kc it'].
  - destruct up; apply good_ret; auto with once.
  - cbn [plain_items] in Hp. apply andb_true_iff in Hp as [Hpb Hpi].
    destruct (ft || existsb (match_pat sj) pats); [|apply (oa_items _ IH); assumption].
    apply good_seq; [apply (oa_list _ IH); assumption|].
    intros s1 F1. destruct kc; [|apply (oa_items _ IH); assumption..].
    apply good_ret; [destruct (negb (clist_is_empty body))|]; auto with once.
Qed.

Lemma once_list : plain_good plain_list (exec_list (S n)).
Proof.
  intros stk l s Hp F. cbn [exec_list]. destruct l as [|a l']; [apply good_ret; auto with once|].
  cbn [plain_list] in Hp. apply andb_true_iff in Hp as [Ha Hl].
  apply good_seq.
  - apply (oa_andor _ IH); assumption.
  - intros s1 F1. apply (oa_list _ IH); assumption.
Qed.

Lemma once_andor : plain_good plain_andor (exec_andor (S n)).
Proof.
  intros stk a s Hp F. cbn [exec_andor]. destruct a as [first rest].
  cbn [plain_andor] in Hp. apply andb_true_iff in Hp as [Hf Hr].
  destruct rest as [|op p rest']; [apply (oa_pipeline _ IH); assumption|].
  apply good_seq.
  - apply (oa_pipeline _ IH); assumption.
  - intros s1 F1. apply (oa_rest _ IH); assumption.
Qed.

Lemma once_rest : plain_good plain_rest (exec_rest (S n)).
Proof.
  intros stk r s Hp F. cbn [exec_rest]. destruct r as [|op p r']; [apply good_ret; auto with once|].
  cbn [plain_rest] in Hp. apply andb_true_iff in Hp as [Hpp Hr].
  assert (G : forall stk', good s (if Bool.eqb (N.eqb (status s) 0) op then exec_pipeline n stk' p s
                                   else Some (Cont, s))).
  { intros stk'. destruct (Bool.eqb _ _); [apply (oa_pipeline _ IH); assumption | apply good_ret; auto with once]. }
  destruct r' as [|op' p' r'']; [apply G|].
  apply good_seq; [apply G|].
  intros s1 F1. apply (oa_rest _ IH); assumption.
Qed.

Lemma once_pipeline : plain_good plain_pipeline (exec_pipeline (S n)).
Proof.
  intros stk p s Hp F. cbn [exec_pipeline]. destruct p as [neg cs]. cbn [plain_pipeline] in Hp.
  destruct neg; [|apply (oa_commands _ IH); assumption].
  apply good_seq.
  - apply (oa_commands _ IH); assumption.
  - intros s1 F1. apply good_ret; auto with once.
Qed.

Lemma once_commands : plain_good plain_cmds (exec_commands (S n)).
Proof.
  intros stk cs s Hp F. cbn [exec_commands]. destruct cs as [|c [|c2 cs2]].
  - apply good_ret; auto with once.
  - cbn [plain_cmds] in Hp. apply andb_true_iff in Hp as [Hc _]. apply (oa_cmd _ IH); assumption.
  - destruct (exec_multi n stk (CCons c (CCons c2 cs2)) s s) as [s1|] eqn:Em; [|apply good_none].
    destruct (oa_multi _ IH _ _ _ _ _ Em Hp F eq_refl eq_refl) as (A & B & C).
    apply good_ret; [|auto with once].
    split; [exact A | exact C | unfold funs_plain; rewrite B; exact F].
Qed.

(* pipeline.rs: every command of a pipeline is a child of the shell that runs
   the pipeline; its trace is handed on *)
Lemma once_multi : multi_good (exec_multi (S n)).
Proof.
  intros stk cs s0 acc acc' H Hp F Et Ef. cbn [exec_multi] in H. destruct cs as [|c cs']; [inversion H; subst; auto|].
  cbn [plain_cmds] in Hp. apply andb_true_iff in Hp as [Hc Hcs].
  set (child := child_state (set_trace (trace acc) s0)) in *.
  destruct (exec_cmd n (FSubshell :: stk) c child) as [[r c1]|] eqn:E; [|discriminate].
  destruct (oa_cmd _ IH _ _ child Hc F _ _ E) as [K _].
  destruct (run_exit_trap n (FSubshell :: stk) (apply_result r c1)) as [c2|] eqn:Er; [|discriminate].
  destruct (oa_multi _ IH _ _ _ _ _ H Hcs F eq_refl eq_refl) as (A & B & C).
  split; [exact A|]. split; [exact B|]. rewrite C. exact (child_end _ _ _ _ _ K eq_refl Er).
Qed.

End Step.

Lemma once_holds : forall n, once_at n.
Proof.
  induction n as [|n IH].
  - split; intros; try apply good_none; discriminate.
  - split; [apply once_cmd | apply once_subshell | apply once_elifs | apply once_iterate
           | apply once_execute | apply once_for | apply once_items | apply once_list
           | apply once_andor | apply once_rest | apply once_pipeline | apply once_commands
           | apply once_multi]; exact IH.
Qed.
End Once.

(* the built-in `probe`, when no function hides it: one record, the status its
   second operand names (0 without one), then errexit *)
Lemma probe_run n stk args s :
  lookup_fun NProbe (funs s) = None ->
  exec_cmd (S n) stk (CCall plain NProbe args) s
  = Some (let s1 := set_status (match args with [_; st] => st | _ => 0%N end) (push_trace (hd 0%N args) s) in
          (apply_errexit stk s1, s1)).
Proof. intros Hf. cbn. unfold classify. cbn. rewrite Hf. reflexivity. Qed.

(* running the trap action `probe K ST` records exactly one item, and ends
   normally or by errexit *)
Lemma probe_action_run k st m stk s r s' :
  lookup_fun NProbe (funs s) = None ->
  exec_list m stk (probe_action k st) s = Some (r, s') ->
  trace s' = (k, status s) :: trace s /\ (r = Cont \/ r = Brk (DExit None)).
Proof.
  intros Hf H.
  do 5 (destruct m as [|m]; [discriminate|]).
  cbn [exec_list exec_andor exec_pipeline exec_commands probe_action] in H.
  rewrite (probe_run _ _ _ _ Hf) in H. cbv zeta in H. unfold apply_errexit in H.
  destruct (_ && _) in H; injection H as <- <-; auto.
Qed.

Lemma lines_good k n p : forallb (plain_line k) p = true ->
  forall e s, funs_plain k s -> good k s (run_lines n p e s).
Proof.
  induction p as [|[l|] p IH]; intros Hp e s F; cbn [run_lines].
  - apply good_ret; [|intros o; discriminate]. destruct e; [|apply keep_set_status]; apply keep_refl; exact F.
  - cbn [forallb plain_line] in Hp. apply andb_true_iff in Hp as [Hl Hp].
    apply good_seq.
    + apply (oa_list k n (once_holds k n)); assumption.
    + intros s1 F1. apply IH; assumption.
  - apply good_ret; [apply keep_refl; exact F | intros o; discriminate].
Qed.

Definition trap_set_state (k st : N) : state :=
  set_status 0 (set_exit_trap (Some (probe_action k st)) init_state).

Lemma trap_line_run k st n r s' :
  exec_list n [] (trap_clist k st) init_state = Some (r, s') ->
  r = Cont /\ s' = trap_set_state k st.
Proof.
  intros H. do 5 (destruct n as [|n]; [discriminate|]). cbn in H. injection H as <- <-. split; reflexivity.
Qed.

(* The end of a script that sets `trap 'probe K ST' EXIT` in its first line
   and never mentions K again: the lines leave no record of K, then the trap
   action runs once, in the state [apply_result r s1], and its own status is
   dropped. *)
Lemma trap_script_end k st p n o :
  forallb (plain_line k) p = true -> model_run n (trap_line k st :: p) = Some o ->
  exists r s1 sa, run_lines n (trap_line k st :: p) false init_state = Some (r, s1) /\
    count_key k (trace s1) = 0 /\
    trace sa = (k, status (apply_result r s1)) :: trace s1 /\
    o = observe (set_status (status (apply_result r s1)) sa).
Proof.
  intros Hp H.
  destruct (run_lines n (trap_line k st :: p) false init_state) as [[r s1]|] eqn:Hrl;
    [|unfold model_run in H; rewrite Hrl in H; discriminate].
  pose proof Hrl as El. cbn [run_lines trap_line] in El.
  destruct (exec_list n [] _ init_state) as [[r0 s0]|] eqn:E0; [|discriminate].
  destruct (trap_line_run k st n _ _ E0) as [-> ->].
  assert (F0 : funs_plain k (trap_set_state k st)) by (split; [intros nm b E; discriminate | reflexivity]).
  destruct (lines_good k n p Hp true _ F0 _ _ El) as [[Kt Kc Kf] A].
  destruct (apply_result_keep r s1) as [At Ac].
  set (s2 := apply_result r s1) in *.
  assert (Ht : exit_trap s2 = Some (probe_action k st)) by (rewrite At, Kt; reflexivity).
  assert (Hf : lookup_fun NProbe (funs s2) = None) by (unfold s2; rewrite apply_result_funs; exact (proj2 Kf)).
  destruct (model_run_end _ _ _ _ _ Hrl H) as [[_ [x ->]] | (s3 & Et & ->)]; [exfalso; exact (A x eq_refl)|].
  fold s2 in Et.
  destruct n as [|n]; [discriminate|]. cbn [run_exit_trap] in Et. rewrite Ht in Et.
  destruct (exec_list n [FTrap] (probe_action k st) s2) as [[ra sa]|] eqn:Ea; [|discriminate].
  destruct (probe_action_run k st _ _ _ _ _ Hf Ea) as [Htr Hfl].
  exists r, s1, sa. split; [reflexivity|]. split; [exact Kc|]. split; [rewrite Htr, Ac; reflexivity|].
  destruct Hfl as [-> | ->]; inversion Et; reflexivity.
Qed.

