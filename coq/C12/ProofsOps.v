(* C12 — what each operation of the job list does: it preserves [Inv], it
   reaches no panic site, and it leaves the index of every pid alone.

   The proofs of [Inv] have the same shape: the slab and the pid index are
   dealt with by the lemmas of ProofsBase.v, which also say how the view [svL]
   changes at the one index concerned ([upd_svL]); then the branches of the
   code are followed, and in each the new pair (current, previous) is
   justified by a lemma of ProofsCur.v whose side conditions compare ranks. *)
From Yv Require Import Common.Base C12.Model C12.Spec C12.ProofsCur C12.ProofsBase.

(* a job is replaced by one with the same pid: the table looks different at
   its index only, and [Inv] of the new table is a matter of the pair
   (current, previous) alone *)
Lemma replace_view [s k j] j' :
  Inv s -> get s k = Some j -> jpid j' = jpid j ->
  let sl := set_slot (slots s) k (Some j') in
  getL sl k = Some j' /\ upd (svL (slots s)) (svL sl) k (Some (suspended j')) /\
  forall c p, CI (svL sl) c p -> Inv (mkJL sl (free s) (pidx s) c p).
Proof.
  intros I G Ep sl. apply Inv_elim in I. destruct I as (S & P & _). rewrite get_getL in G.
  destruct (slab_replace_spec j' S G) as [S1 G1].
  split; [rewrite G1, Nat.eqb_refl; reflexivity|]. split; [exact (upd_svL G1)|].
  intros c p C. apply Inv_intro; [exact S1|exact (pid_replace P G Ep G1)|exact C].
Qed.

Lemma replace_inv s k j j' :
  Inv s -> get s k = Some j -> jpid j' = jpid j -> suspended j' = suspended j ->
  Inv (mkJL (set_slot (slots s) k (Some j')) (free s) (pidx s) (cur s) (prev s)).
Proof.
  intros I G Ep Es. destruct (replace_view j' I G Ep) as (_ & U & K). apply K.
  apply Inv_elim in I. destruct I as (_ & _ & C).
  eapply CI_ext; [|exact C]. eapply upd_same; [|exact U]. rewrite (svL_get G), Es. reflexivity.
Qed.

Lemma expect_inv s i st : Inv s -> Inv (expect s i st).
Proof.
  intros I. unfold expect. destruct (get s i) as [j|] eqn:G; auto.
  eapply replace_inv; eauto.
Qed.

Lemma reported_inv s i : Inv s -> Inv (state_reported s i).
Proof.
  intros I. unfold state_reported. destruct (get s i) as [j|] eqn:G; auto.
  eapply replace_inv; eauto.
Qed.

Lemma disown_inv s : Inv s -> Inv (disown_all s).
Proof.
  intros I. apply Inv_elim in I. destruct I as (S & P & C).
  unfold disown_all. apply Inv_intro; cbn [slots free pidx cur prev].
  - apply slab_map. exact S.
  - eapply pid_map; [exact P| |intros i; apply getL_map]. reflexivity.
  - eapply CI_ext; [|exact C]. intros i. unfold svL. rewrite getL_map.
    destruct (getL (slots s) i); reflexivity.
Qed.

Lemma set_current_inv s i : Inv s -> Inv (fst (set_current_job s i)).
Proof.
  intros I. unfold set_current_job. destruct (get s i) as [j|] eqn:G; auto.
  destruct (negb (suspended j) && existsb (fun p => suspended (snd p)) (iter s)) eqn:C; auto.
  destruct (Nat.eqb_spec i (cur s)) as [E|E]; auto.
  cbn [fst]. apply Inv_elim in I. destruct I as (S & P & CC).
  apply Inv_intro; cbn [slots free pidx cur prev]; auto.
  apply (ci_new_top CC (upd_refl _ _) E).
  rewrite (svL_get G). apply andb_false_iff in C. destruct C as [C|C].
  - apply negb_false_iff in C. rewrite C. apply rank_le_2.
  - pose proof (exists_susp_false _ C (cur s)) as X. rewrite rank_susp in X.
    pose proof (rank_some (suspended j)). lia.
Qed.

(* what [Inv] needs of an insertion that reuses a pid: the job it overwrites
   is not suspended.  [op_ok] asks more (that job has finished). *)
Definition reuse_ok (s : joblist) (j : job) : Prop :=
  forall i j0, find_by_pid s (jpid j) = Some i -> get s i = Some j0 -> suspended j0 = false.

Lemma not_alive_not_stopped st : is_alive st = false -> is_stopped st = false.
Proof. destruct st; cbn; congruence. Qed.

Lemma op_ok_reuse s pid st name :
  op_ok s (OInsert pid st name) = true -> reuse_ok s (new_job pid st name).
Proof.
  unfold reuse_ok. cbn. intros H i j0 F G. rewrite F, G in H.
  apply negb_true_iff in H. apply not_alive_not_stopped. exact H.
Qed.

(* the job lands in a slot [k] and the table looks different there only; if
   its pid is reused as [reuse_ok] asks, that slot held no suspended job *)
Lemma insert_place_spec s j :
  Inv s ->
  exists sl fr px k,
    insert_place s j = (mkJL sl fr px (cur s) (prev s), k) /\
    getL sl k = Some j /\ upd (svL (slots s)) (svL sl) k (Some (suspended j)) /\
    (forall c p, CI (svL sl) c p -> Inv (mkJL sl fr px c p)) /\
    (reuse_ok s j -> svL (slots s) k <> Some true).
Proof.
  intros I. unfold insert_place. destruct (find_by_pid s (jpid j)) as [k|] eqn:F.
  - destruct (inv_job_of_pid s I _ _ F) as [j0 [G0 E0]].
    destruct (replace_view j I G0 (eq_sym E0)) as (Gk & U & K).
    exists (set_slot (slots s) k (Some j)), (free s), (pidx s), k.
    split; [reflexivity|]. split; [exact Gk|]. split; [exact U|]. split; [exact K|].
    intros R. rewrite (svL_get G0), (R _ _ F G0). discriminate.
  - apply Inv_elim in I. destruct I as (S & P & _).
    destruct (slab_insert (slots s) (free s) j) as [[sl fr] k] eqn:SI.
    destruct (slab_insert_spec S SI) as (S1 & Gk & G1).
    exists sl, fr, ((jpid j, k) :: pidx s), k.
    split; [reflexivity|]. split; [rewrite G1, Nat.eqb_refl; reflexivity|].
    split; [exact (upd_svL G1)|].
    split; [intros c p C; apply Inv_intro; [exact S1|exact (pid_insert_new P F Gk G1)|exact C]|].
    intros _. unfold svL. rewrite Gk. discriminate.
Qed.

Lemma insert_inv s j : Inv s -> reuse_ok s j -> Inv (fst (insert s j)).
Proof.
  intros I R. destruct (insert_place_spec s j I) as (sl & fr & px & k & E & Gk & U & K & Hk).
  specialize (Hk R). apply Inv_elim in I. destruct I as (_ & _ & C).
  rewrite rank_susp in Hk.
  unfold insert. rewrite E, opt_susp_cur.
  unfold with_cur, with_prev. cbn [fst slots free pidx cur prev].
  pose proof (opt_susp_prev s) as V.
  remember (suspended j) as b eqn:Sj in *.
  pose proof (rank_some b) as Hb. pose proof (rank_le_2 (Some b)) as Hb2.
  (* the cases are kept as equations between ranks: that is what the lemmas of
     ProofsCur.v ask about *)
  destruct (svL (slots s) (cur s)) as [[|]|] eqn:Ec; apply (f_equal rank) in Ec; cbn [rank] in Ec.
  - (* the current job is suspended: the new job can only become the previous one *)
    assert (Nk : k <> cur s) by (intros ->; lia).
    destruct (opt_susp s (previous_job s)) as [[|]|].
    + destruct V as [Ne Ep]. apply (f_equal rank) in Ep. cbn [rank] in Ep.
      apply K. apply (ci_raise C U); lia.
    + destruct V as [Ne Ep]. apply (f_equal rank) in Ep.
      destruct b; cbn [rank] in *; apply K.
      * apply (ci_new_second C U); cbn [rank]; lia.
      * apply (ci_raise C U); cbn [rank]; lia.
    + apply K. apply (ci_joins (ci_no_prev C V) U). lia.
  - (* it is not: a suspended new job takes its place *)
    destruct b; cbn [rank] in *.
    + unfold set_current_job. rewrite get_getL. cbn [slots]. rewrite Gk, <- Sj. cbn [negb andb cur].
      destruct (Nat.eqb_spec k (cur s)) as [->|Ek]; apply K.
      * apply (ci_raise C U); cbn [rank]; lia.
      * apply (ci_new_top C U); cbn [rank]; lia.
    + destruct (opt_susp s (previous_job s)) as [b'|].
      * destruct V as [Ne Ep]. apply (f_equal rank) in Ep. pose proof (rank_some b').
        pose proof (rank_le_2 (svL (slots s) (prev s))).
        apply K. apply (ci_raise C U); cbn [rank]; lia.
      * apply K. apply (ci_joins (ci_no_prev C V) U). cbn [rank]. lia.
  - (* empty table *)
    apply K. apply CI_top in C. exact (ci_first (proj1 C) Ec U).
Qed.

Lemma remove_inv s k : Inv s -> Inv (fst (remove s k)).
Proof.
  intros I. unfold remove. destruct (get s k) as [j|] eqn:G; auto.
  apply Inv_elim in I. destruct I as (S & P & C). rewrite get_getL in G.
  destruct (if all_vacant (set_slot (slots s) k None) then ([], [])
            else (set_slot (slots s) k None, k :: free s)) as [sl' fr'] eqn:E.
  destruct (slab_remove_spec S G E) as [S1 G1].
  pose proof (upd_svL G1) as U. cbn [option_map] in U.
  pose proof (top_remove C U) as T.
  cbn [fst]. apply Inv_intro; cbn [slots free pidx cur prev].
  - exact S1.
  - eapply pid_remove; eauto.
  - destruct (Nat.eqb k (cur s) || Nat.eqb k (prev s)) eqn:Ecp.
    + (* the removed job was current or previous: a new previous job is chosen *)
      set (s1 := mkJL sl' fr' (remove_assoc (pidx s) (jpid j))
                   (if Nat.eqb k (cur s) then prev s else cur s) (prev s)).
      exact (ci_pick _ T (any_susp_spec s1) (any_job_spec s1)).
    + apply orb_false_iff in Ecp. destruct Ecp as [E1 E2]. rewrite E1.
      apply Nat.eqb_neq in E1. apply Nat.eqb_neq in E2.
      exact (ci_lower_other C U (Nat.le_0_l _) E1 E2).
Qed.

Lemma extract_loop_inv p fuel : forall s next rem,
  Inv s -> Inv (extract_loop p s next rem fuel).
Proof.
  induction fuel as [|fuel IH]; intros s next rem I; cbn [extract_loop]; auto.
  destruct rem as [|r]; auto.
  destruct (get s next) as [j|]; auto.
  destruct (p next j); auto. apply IH. apply remove_inv. exact I.
Qed.

Lemma remove_if_inv p s : Inv s -> Inv (remove_if p s).
Proof. intros I. unfold remove_if. apply extract_loop_inv. exact I. Qed.

Lemma update_inv s pid st : Inv s -> Inv (fst (update_status s pid st)).
Proof.
  intros I. unfold update_status.
  destruct (find_by_pid s pid) as [k|] eqn:F; auto.
  destruct (get s k) as [j|] eqn:G; auto.
  set (j' := mkJob (jpid j) st None
               (jchanged j || negb (option_eqb pstate_eqb (jexpected j) (Some st))) (jowned j) (jname j)).
  destruct (Bool.bool_dec (suspended j) (is_stopped st)) as [Same|Diff].
  { (* suspension unchanged: the table looks the same *)
    assert (I1 : Inv (mkJL (set_slot (slots s) k (Some j')) (free s) (pidx s) (cur s) (prev s)))
      by (eapply replace_inv; eauto).
    rewrite Same. destruct (is_stopped st); cbn [negb andb fst]; exact I1. }
  destruct (replace_view j' I G eq_refl) as (_ & U & K).
  change (suspended j') with (is_stopped st) in U.
  apply Inv_elim in I. destruct I as (_ & _ & C).
  pose proof (svL_get G) as Hk.
  set (sl1 := set_slot (slots s) k (Some j')) in *.
  destruct (suspended j), (is_stopped st); try congruence; cbn [negb andb slots free pidx cur prev].
  - (* a suspended job resumes or finishes *)
    pose proof (previous_job_spec (mkJL sl1 (free s) (pidx s) (cur s) (prev s))) as V.
    destruct (previous_job _) as [pp|].
    2:{ apply K. apply (ci_stays_alone C U); [rewrite Hk|..|exact V]; discriminate. }
    destruct V as (-> & Ne & pj & Gp). pose proof (svL_get Gp) as Ep. cbn [slots cur prev] in *.
    destruct (Nat.eqb_spec k (cur s)) as [->|Ekc]; cbn [andb orb].
    + (* the current job: the previous job takes over if it is suspended *)
      rewrite Gp.
      destruct (suspended pj); unfold with_cur, with_prev; cbn [orb fst slots free pidx cur prev].
      * apply K. apply (ci_pick (Some (cur s))).
        -- apply (top_succeed C U). rewrite Ep. cbn. lia.
        -- apply (any_susp_spec (mkJL sl1 (free s) (pidx s) (prev s) (prev s))).
        -- split; [auto|]. rewrite (proj1 U). discriminate.
      * replace (Nat.eqb (cur s) (prev s)) with false by (symmetry; apply Nat.eqb_neq; auto).
        apply K. apply (ci_cur_changes C U). rewrite Ep. cbn. lia.
    + destruct (Nat.eqb_spec k (prev s)) as [->|Ekp]; unfold with_prev;
        cbn [fst slots free pidx cur prev]; apply K.
      * (* the previous job: another one is looked for *)
        apply (ci_pick (Some (prev s))).
        -- apply CI_top in C. apply (top_lower (proj1 C) U Ekc).
           rewrite Hk. cbn. lia.
        -- apply (any_susp_spec (mkJL sl1 (free s) (pidx s) (cur s) (prev s))).
        -- split; [exact Ne|]. rewrite (proj1 U). discriminate.
      * refine (ci_lower_other C U _ Ekc Ekp). rewrite Hk. cbn. lia.
  - (* a job becomes suspended: it is the current job from now on *)
    destruct (Nat.eqb_spec k (cur s)) as [->|Ekc]; cbn [fst]; apply K.
    + apply (ci_raise C U (rank_le_2 _)). congruence.
    + exact (ci_new_top C U Ekc (rank_le_2 _)).
Qed.

Lemma find_contains [s p i] : Inv s -> find_by_pid s p = Some i -> contains s i = true.
Proof.
  intros I F. destruct (inv_job_of_pid s I _ _ F) as [j [G _]].
  unfold contains. rewrite G. reflexivity.
Qed.

(* `self.jobs[index]` is safe because the pid index only points at occupied
   slots; `set_current_job(index).unwrap()` because it is only reached with a
   suspended new job, which set_current_job never refuses *)
Lemma insert_no_panic s j : Inv s -> insert_panics s j = false.
Proof.
  intros I. unfold insert_panics. apply orb_false_iff. split.
  - destruct (find_by_pid s (jpid j)) as [i|] eqn:F; auto.
    rewrite (find_contains I F). reflexivity.
  - destruct (opt_susp s (current_job s)) as [[|]|]; auto.
    destruct (suspended j) eqn:Sj; auto. cbn [andb].
    destruct (insert_place_spec s j I) as (sl & fr & px & k & E & Gk & _).
    rewrite E. unfold set_current_job. rewrite get_getL. cbn [fst snd slots].
    rewrite Gk, Sj. cbn [negb andb]. destruct (Nat.eqb k _); reflexivity.
Qed.

Lemma update_no_panic s pid : Inv s -> update_panics s pid = false.
Proof.
  intros I. unfold update_panics. destruct (find_by_pid s pid) as [i|] eqn:F; auto.
  rewrite (find_contains I F). reflexivity.
Qed.

Lemma pidx_set_current s i : pidx (fst (set_current_job s i)) = pidx s.
Proof.
  unfold set_current_job. destruct (get s i); auto.
  destruct (negb (suspended j) && _); auto.
  destruct (Nat.eqb i (cur s)); auto.
Qed.

Lemma pidx_insert s j : pidx (fst (insert s j)) = pidx (fst (insert_place s j)).
Proof.
  unfold insert. destruct (insert_place s j) as [s1 k]. cbn [fst].
  destruct (opt_susp s (current_job s)) as [[|]|].
  - destruct (opt_susp s (previous_job s)) as [[|]|]; try destruct (suspended j); reflexivity.
  - destruct (suspended j); [apply pidx_set_current|].
    destruct (opt_susp s (previous_job s)); reflexivity.
  - reflexivity.
Qed.

Lemma find_insert_place s j p i' :
  find_by_pid (fst (insert_place s j)) p = Some i' ->
  find_by_pid s p = Some i' \/ find_by_pid s p = None.
Proof.
  unfold insert_place. destruct (find_by_pid s (jpid j)) as [i|] eqn:F.
  - cbn. auto.
  - destruct (slab_insert (slots s) (free s) j) as [[sl fr] idx]. unfold find_by_pid. cbn.
    destruct (Z.eqb_spec (jpid j) p) as [E|E]; auto. subst. right. exact F.
Qed.

Lemma find_remove s k p i' :
  find_by_pid (fst (remove s k)) p = Some i' -> find_by_pid s p = Some i'.
Proof.
  unfold remove. destruct (get s k) as [j|]; auto.
  destruct (all_vacant (set_slot (slots s) k None)); unfold find_by_pid; cbn;
    rewrite assoc_remove_assoc; destruct (Z.eqb (jpid j) p); congruence.
Qed.

Lemma find_extract_loop f fuel p i' : forall s next rem,
  find_by_pid (extract_loop f s next rem fuel) p = Some i' -> find_by_pid s p = Some i'.
Proof.
  induction fuel as [|fuel IH]; intros s next rem H; cbn [extract_loop] in H; auto.
  destruct rem as [|r]; auto.
  destruct (get s next) as [j|]; [|eauto].
  destruct (f next j); [|eauto].
  apply IH in H. apply find_remove in H. exact H.
Qed.

Lemma pidx_update s pid st : pidx (fst (update_status s pid st)) = pidx s.
Proof.
  unfold update_status. destruct (find_by_pid s pid) as [k|]; auto.
  destruct (get s k) as [j|]; auto.
  destruct (negb (suspended j) && is_stopped st).
  - cbn [fst]. destruct (Nat.eqb k _); reflexivity.
  - destruct (suspended j && negb (is_stopped st)); [|reflexivity].
    destruct (previous_job _) as [pi|]; [|reflexivity].
    cbn [fst]. destruct (_ && _); destruct (_ || _); reflexivity.
Qed.

Lemma pidx_expect s i st : pidx (expect s i st) = pidx s.
Proof. unfold expect. destruct (get s i); reflexivity. Qed.

Lemma pidx_reported s i : pidx (state_reported s i) = pidx s.
Proof. unfold state_reported. destruct (get s i); reflexivity. Qed.

(* job numbers: a pid that has an index keeps it or loses it, whatever the
   operation *)
Lemma find_step s o p i i' :
  find_by_pid s p = Some i -> find_by_pid (step s o) p = Some i' -> i' = i.
Proof.
  intros F H. destruct o; cbn [step] in H.
  - unfold find_by_pid in H. rewrite pidx_insert in H.
    apply find_insert_place in H. destruct H; congruence.
  - apply find_remove in H. congruence.
  - apply find_extract_loop in H. congruence.
  - apply find_extract_loop in H. congruence.
  - unfold find_by_pid in *. rewrite pidx_update in H. congruence.
  - unfold find_by_pid in *. rewrite pidx_set_current in H. congruence.
  - unfold find_by_pid in *. cbn in H. congruence.
  - unfold find_by_pid in *. rewrite pidx_expect in H. congruence.
  - unfold find_by_pid in *. rewrite pidx_reported in H. congruence.
Qed.
