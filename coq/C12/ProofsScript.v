(* C12 — the model side of the script stream stays inside the invariant: every
   command's own job-list operations (Script.v [structural]) are compositions
   of the operations of Model.v, and the status updates around them are
   OUpdate operations, which have no precondition.  That [model_step] as a
   whole keeps [Inv] follows from [script_step_inv] and [inv_fold]
   (Properties.v) with [updates_ok]; it is not stated as a theorem. *)
From Yv Require Import Common.Base C12.Model C12.Spec C12.Script.
From Yv Require Import C12.ProofsOps.

Lemma report_one_inv s i : Inv s -> Inv (report_one s i).
Proof.
  intros I. unfold report_one. destruct (get s i) as [j|]; auto.
  destruct (is_alive (jstate j)); [apply reported_inv|apply remove_inv]; exact I.
Qed.

Lemma fold_report_inv l : forall s, Inv s -> Inv (fold_left report_one l s).
Proof.
  induction l as [|i l IH]; intros s I; cbn; auto. apply IH. apply report_one_inv. exact I.
Qed.

(* `wait %ID` / `fg %ID` *)
Lemma remove_finished_inv s i : Inv s -> Inv (if finished_at s i then fst (remove s i) else s).
Proof. intros I. destruct (finished_at s i); [apply remove_inv|]; exact I. Qed.

(* the status updates derived from two snapshots are plain OUpdate operations *)
Lemma updates_ok b a s : forall o, In o (updates b a) -> op_ok s o = true.
Proof.
  intros o H. unfold updates in H. apply in_flat_map in H. destruct H as [e [_ H]].
  destruct (by_pid (sn_obs a) (v_pid (snd e))) as [[i v']|].
  - destruct (_ || _); [|destruct H]. destruct H as [<-|[]]. reflexivity.
  - destruct (sys_of a (v_pid (snd e))) as [st|]; [|destruct H].
    destruct (pstate_eqb st (v_state (snd e))); [destruct H|]. destruct H as [<-|[]]. reflexivity.
Qed.
