(* C12 — `JobList::last_async_pid` (`$!`) inside the model.

   yash-env/src/job.rs: `JobList` has a fifth field `last_async_pid: Pid`
   (`Default`: `Pid(0)`), read by `last_async_pid()` and written by
   `set_last_async_pid(pid)` ONLY.  The model state of Model.v ([joblist]:
   slab, pid index, current/previous index) is wrapped, unchanged, in a record
   with that field; every method of Model.v is lifted to the record the way the
   Rust method treats the field (it does not mention it), and
   [set_last_async_pid] is added.  Nothing in Model.v / Spec.v / Proofs*.v is
   touched: [lifted_step_agrees] (Properties.v) says the lifted operations are
   the old ones on the [tbl] component, so every existing theorem carries over.

   The SPEC part is [most_recent_set] (declarative: the operand of the last
   OSetLast of a history, 0 if there is none) and the per-operation ORACLE
   [last_ok], evaluated at run time on the implementation's own observations of
   `last_async_pid()` before and after each operation. *)
From Yv Require Import Common.Base C12.Model.

Record jlist := mkL {
  tbl : joblist;                 (* jobs, pids_to_indices, current/previous_job_index *)
  last : Z                      (* last_async_pid *)
}.

(* JobList::default() / JobList::new() *)
Definition lempty : jlist := mkL empty 0.

Definition last_async_pid (s : jlist) : Z := last s.
Definition set_last_async_pid (s : jlist) (pid : Z) : jlist := mkL (tbl s) pid.

(* the other `&mut self` methods: the field is not assigned *)
Definition l_insert (s : jlist) (j : job) : jlist * nat :=
  (mkL (fst (insert (tbl s) j)) (last s), snd (insert (tbl s) j)).
Definition l_remove (s : jlist) (i : nat) : jlist * option job :=
  (mkL (fst (remove (tbl s) i)) (last s), snd (remove (tbl s) i)).
Definition l_remove_if (p : nat -> job -> bool) (s : jlist) : jlist :=
  mkL (remove_if p (tbl s)) (last s).
Definition l_update_status (s : jlist) (pid : Z) (st : pstate) : jlist * option nat :=
  (mkL (fst (update_status (tbl s) pid st)) (last s), snd (update_status (tbl s) pid st)).
Definition l_set_current_job (s : jlist) (i : nat) : jlist * N :=
  (mkL (fst (set_current_job (tbl s) i)) (last s), snd (set_current_job (tbl s) i)).
Definition l_disown_all (s : jlist) : jlist := mkL (disown_all (tbl s)) (last s).
Definition l_expect (s : jlist) (i : nat) (st : option pstate) : jlist :=
  mkL (expect (tbl s) i st) (last s).
Definition l_state_reported (s : jlist) (i : nat) : jlist :=
  mkL (state_reported (tbl s) i) (last s).

Inductive lop :=
| LOp (o : op)                  (* an operation of Model.v *)
| OSetLast (pid : Z).           (* set_last_async_pid *)

Definition lstep (s : jlist) (o : lop) : jlist :=
  match o with
  | OSetLast pid => set_last_async_pid s pid
  | LOp (OInsert pid st name) => fst (l_insert s (new_job pid st name))
  | LOp (ORemove i) => fst (l_remove s i)
  | LOp (ORemoveIdxs l) => l_remove_if (fun i _ => existsb (Nat.eqb i) l) s
  | LOp ORemoveFinished => l_remove_if (fun _ j => negb (is_alive (jstate j))) s
  | LOp (OUpdate pid st) => fst (l_update_status s pid st)
  | LOp (OSetCurrent i) => fst (l_set_current_job s i)
  | LOp ODisownAll => l_disown_all s
  | LOp (OExpect i st) => l_expect s i st
  | LOp (OReported i) => l_state_reported s i
  end.

Definition lop_ok (s : jlist) (o : lop) : bool :=
  match o with LOp o => op_ok (tbl s) o | OSetLast _ => true end.

Definition lrun (ops : list lop) : jlist := fold_left lstep ops lempty.

(* the history without the OSetLast operations *)
Fixpoint strip (ops : list lop) : list op :=
  match ops with
  | [] => []
  | LOp o :: r => o :: strip r
  | OSetLast _ :: r => strip r
  end.

Definition is_set (o : lop) : bool :=
  match o with OSetLast _ => true | LOp _ => false end.

(* SPEC: [most_recent_set ops p]: p is the operand of the last OSetLast of the
   history, or 0 if the history has none. *)
Definition most_recent_set (ops : list lop) (p : Z) : Prop :=
  (forallb (fun o => negb (is_set o)) ops = true /\ p = 0%Z) \/
  (exists a b, ops = a ++ OSetLast p :: b /\ forallb (fun o => negb (is_set o)) b = true).

(* ORACLE, on the implementation's observations alone: what `last_async_pid()`
   returned before the operation, the operation, what it returned after. *)
Definition last_expected (before : Z) (o : lop) : Z :=
  match o with OSetLast pid => pid | LOp _ => before end.
Definition last_ok (before : Z) (o : lop) (after : Z) : bool :=
  Z.eqb after (last_expected before o).
