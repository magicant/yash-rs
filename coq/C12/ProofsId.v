(* C12 — job IDs: what parse_tail / JobId::find (Spec.v [parse_tail],
   [find_job]) return is what the documentation says ([designates],
   [parse_rel]), and for a name ID it is the only result the documentation
   allows.  For `%+` and `%-` that rests on what [Inv] says about the current
   and the previous job of a table with one or two jobs. *)
From Yv Require Import Common.Base C12.Model C12.Spec.
From Yv Require Import C12.ProofsBase.

Lemma str_eqb_refl (a : str) : str_eqb a a = true.
Proof. apply str_eqb_eq. reflexivity. Qed.

Lemma starts_with_spec p : forall n, starts_with p n = true <-> exists r, n = p ++ r.
Proof.
  induction p as [|a p IH]; intros n; cbn.
  - split; [intros _; exists n; reflexivity | reflexivity].
  - destruct n as [|b n].
    + split; [discriminate | intros [r E]; discriminate].
    + rewrite andb_true_iff, IH, N.eqb_eq. split.
      * intros [-> [r ->]]. exists r. reflexivity.
      * intros [r E]. inversion E; subst. split; eauto.
Qed.

Lemma str_contains_spec p : forall n, str_contains p n = true <-> exists a b, n = a ++ p ++ b.
Proof.
  induction n as [|c n IH]; cbn [str_contains].
  - rewrite orb_false_r, starts_with_spec. split.
    + intros [r E]. exists [], r. exact E.
    + intros [a [b E]]. destruct a as [|x a]; [|discriminate]. exists b. exact E.
  - rewrite orb_true_iff, starts_with_spec, IH. split.
    + intros [[r E] | [a [b E]]].
      * exists [], r. exact E.
      * exists (c :: a), b. cbn. rewrite E. reflexivity.
    + intros [a [b E]]. destruct a as [|x a].
      * left. exists b. exact E.
      * right. cbn in E. inversion E; subst. eauto.
Qed.

(* what looking for the job with property [M] must give: that job if it is the
   only one, or the reason why not *)
Definition outcome (s : joblist) (M : job -> Prop) (r : fres) : Prop :=
  (exists i j, get s i = Some j /\ M j /\ r = Found i /\
               forall i' j', get s i' = Some j' -> M j' -> i' = i) \/
  ((forall i j, get s i = Some j -> ~ M j) /\ r = NotFound) \/
  ((exists i1 i2 j1 j2, i1 <> i2 /\ get s i1 = Some j1 /\ get s i2 = Some j2 /\ M j1 /\ M j2) /\
   r = Ambiguous).

Lemma designates_prefix s p : designates s (IdPrefix p) = outcome s (name_matches (IdPrefix p)).
Proof. reflexivity. Qed.

Lemma designates_substr s p : designates s (IdSubstr p) = outcome s (name_matches (IdSubstr p)).
Proof. reflexivity. Qed.

Lemma find_one_outcome pred M s :
  (forall j, pred j = true <-> M j) -> outcome s M (find_one pred s).
Proof.
  intros P. unfold find_one, outcome.
  pose proof (nodup_fst_filter (fun p => pred (snd p)) _ (nodup_iter s)) as ND.
  assert (F : forall i j, In (i, j) (filter (fun p => pred (snd p)) (iter s)) <->
                          get s i = Some j /\ M j)
    by (intros; rewrite filter_In, in_iter, <- P; reflexivity).
  destruct (filter _ (iter s)) as [|[i j] [|[i2 j2] L]].
  - right; left. split; auto. intros i j G Mj. apply (F i j). auto.
  - left. exists i, j. destruct (proj1 (F i j)) as [G Mj]; [left; auto|].
    repeat split; auto. intros i' j' G' M'.
    destruct (proj2 (F i' j') (conj G' M')) as [E|[]]. congruence.
  - right; right. split; auto. exists i, i2, j, j2.
    destruct (proj1 (F i j)) as [G Mj]; [left; auto|].
    destruct (proj1 (F i2 j2)) as [G2 M2]; [right; left; auto|].
    inversion ND as [|? ? Hn _]; subst. repeat split; auto.
    intros ->. apply Hn. left. reflexivity.
Qed.

(* [outcome] admits exactly one result in EVERY table, with or without the
   invariant, and each of the three results says what the table looks like *)
Lemma outcome_functional s M r1 r2 : outcome s M r1 -> outcome s M r2 -> r1 = r2.
Proof.
  intros [(i & j & G & Mj & -> & U) | [[H ->] | [(i1 & i2 & j1 & j2 & D & G1 & G2 & M1 & M2) ->]]]
         [(i' & j' & G' & Mj' & -> & U') | [[H' ->] | [(k1 & k2 & l1 & l2 & D' & K1 & K2 & N1 & N2) ->]]];
    try reflexivity; [apply f_equal, (U' i j G Mj) | exfalso ..].
  - exact (H' i j G Mj).
  - apply D'. rewrite (U k1 l1 K1 N1), (U k2 l2 K2 N2). reflexivity.
  - exact (H i' j' G' Mj').
  - exact (H k1 l1 K1 N1).
  - apply D. rewrite (U' i1 j1 G1 M1), (U' i2 j2 G2 M2). reflexivity.
  - exact (H' i1 j1 G1 M1).
Qed.

Lemma outcome_NotFound s M :
  outcome s M NotFound <-> forall i j, get s i = Some j -> ~ M j.
Proof.
  split.
  - intros [(i & j & _ & _ & E & _) | [[H _] | [_ E]]]; [discriminate E|exact H|discriminate E].
  - intros H. right; left. auto.
Qed.

Lemma outcome_Ambiguous s M :
  outcome s M Ambiguous <->
  exists i1 i2 j1 j2, i1 <> i2 /\ get s i1 = Some j1 /\ get s i2 = Some j2 /\ M j1 /\ M j2.
Proof.
  split.
  - intros [(i & j & _ & _ & E & _) | [[_ E] | [H _]]]; [discriminate E|discriminate E|exact H].
  - intros H. right; right. auto.
Qed.

Lemma outcome_Found s M i :
  outcome s M (Found i) <->
  exists j, get s i = Some j /\ M j /\ forall i' j', get s i' = Some j' -> M j' -> i' = i.
Proof.
  split.
  - intros [(i0 & j & G & Mj & E & U) | [[_ E] | [_ E]]]; [|discriminate E..].
    injection E as ->. eauto.
  - intros (j & G & Mj & U). left. exists i, j. auto.
Qed.

Lemma find_job_number s i :
  find_job s (IdNumber (N.of_nat (S i))) =
  match get s i with Some _ => Found i | None => NotFound end.
Proof.
  cbn [find_job]. destruct (N.eqb_spec (N.of_nat (S i)) 0) as [E|_]; [lia|].
  replace (N.pred (N.of_nat (S i))) with (N.of_nat i) by lia. rewrite Nat2N.id.
  unfold contains.
  destruct (N.ltb_spec (N.of_nat i) (N.of_nat (length (slots s)))) as [L|L];
    [destruct (get s i); reflexivity|].
  destruct (get s i) as [j|] eqn:G; [|reflexivity].
  rewrite get_getL in G. apply getL_lt in G. lia.
Qed.

Lemma designates_number s n : designates s (IdNumber n) (find_job s (IdNumber n)).
Proof.
  destruct (N.eq_dec n 0) as [->|Z].
  { right. split; [|reflexivity]. intros i j _. lia. }
  replace n with (N.of_nat (S (N.to_nat (N.pred n)))) by lia.
  generalize (N.to_nat (N.pred n)). clear n Z. intros i.
  rewrite find_job_number. cbn [designates].
  destruct (get s i) as [j|] eqn:G.
  - left. exists i, j. auto.
  - right. split; auto. intros i' j' G' E. assert (i' = i) by lia. congruence.
Qed.

Lemma cur_exists [s i j] :
  Inv s -> get s i = Some j ->
  current_job s = Some (cur s) /\ exists jc, get s (cur s) = Some jc.
Proof.
  intros I G. pose proof (inv_current s I _ _ G) as C.
  unfold current_job. rewrite C. split; auto.
  unfold contains in C. destruct (get s (cur s)) as [jc|]; [eauto|discriminate].
Qed.

Lemma prev_exists [s i1 i2 j1 j2] :
  Inv s -> i1 <> i2 -> get s i1 = Some j1 -> get s i2 = Some j2 ->
  previous_job s = Some (prev s) /\ prev s <> cur s /\ exists jp, get s (prev s) = Some jp.
Proof.
  intros I N G1 G2. destruct (inv_previous s I _ _ _ _ N G1 G2) as [A B].
  unfold previous_job. rewrite B. apply Nat.eqb_neq in A. rewrite A. cbn. split; auto.
  apply Nat.eqb_neq in A. split; auto.
  unfold contains in B. destruct (get s (prev s)) as [jp|]; [eauto|discriminate].
Qed.

Lemma length_pos {A} (L : list A) : 1 <= length L <-> exists x, In x L.
Proof.
  destruct L as [|x L]; cbn; split.
  - lia.
  - intros [x []].
  - exists x. auto.
  - lia.
Qed.

Lemma length_two {A} (L : list (nat * A)) :
  NoDup (map fst L) ->
  2 <= length L <-> exists x y, In x L /\ In y L /\ fst x <> fst y.
Proof.
  intros ND. destruct L as [|x [|y L]]; cbn; split; try lia.
  - intros (x & y & [] & _).
  - intros (a & b & [<-|[]] & [<-|[]] & N). congruence.
  - intros _. exists x, y. split; [auto|]. split; [auto|].
    inversion ND as [|? ? Hn _]; subst. intros E. apply Hn. left. auto.
Qed.

Lemma len_pos s : 1 <= len s <-> exists i j, get s i = Some j.
Proof.
  unfold len. rewrite length_pos. split.
  - intros [[i j] H]. apply in_iter in H. eauto.
  - intros (i & j & G). exists (i, j). apply in_iter, G.
Qed.

Lemma len_two s :
  2 <= len s <-> exists i1 i2 j1 j2, i1 <> i2 /\ get s i1 = Some j1 /\ get s i2 = Some j2.
Proof.
  unfold len. rewrite (length_two _ (nodup_iter s)). split.
  - intros ([i1 j1] & [i2 j2] & H1 & H2 & N). apply in_iter in H1, H2. exists i1, i2, j1, j2. auto.
  - intros (i1 & i2 & j1 & j2 & N & G1 & G2). exists (i1, j1), (i2, j2). rewrite !in_iter. auto.
Qed.

Lemma designates_current s : Inv s -> designates s IdCurrent (find_job s IdCurrent).
Proof.
  intros I. cbn [designates find_job].
  destruct (Nat.eq_dec (len s) 0) as [E|E].
  - left. split; auto. unfold current_job, contains.
    destruct (get s (cur s)) as [j|] eqn:G; [|reflexivity].
    assert (1 <= len s) by (apply len_pos; eauto). lia.
  - right. destruct (proj1 (len_pos s)) as [i [j G]]; [lia|].
    destruct (cur_exists I G) as [C [jc Gc]]. rewrite C. cbn.
    split; [lia|]. split; eauto.
Qed.

Lemma designates_previous s : Inv s -> designates s IdPrevious (find_job s IdPrevious).
Proof.
  intros I. cbn [designates find_job].
  destruct (le_lt_dec (len s) 1) as [E|E].
  - left. split; auto. pose proof (previous_job_spec s) as V.
    destruct (previous_job s) as [p|]; [|reflexivity]. destruct V as (-> & X1 & jp & Gp).
    destruct (cur_exists I Gp) as [_ [jc Gc]].
    assert (2 <= len s) by (apply len_two; exists (prev s), (cur s), jp, jc; auto). lia.
  - right. destruct (proj1 (len_two s) E) as (i1 & i2 & j1 & j2 & N & G1 & G2).
    destruct (prev_exists I N G1 G2) as (P & Ne & jp & Gp).
    rewrite P. cbn. split; [lia|]. split; auto. split; eauto.
Qed.

Definition dstep (acc c : N) : N := (acc * 10 + (c - 48))%N.

Lemma fold_dstep_mono l : forall acc, (acc <= fold_left dstep l acc)%N.
Proof.
  induction l as [|c l IH]; intros acc; cbn; [lia|].
  specialize (IH (dstep acc c)). unfold dstep in *. lia.
Qed.

(* an overflow on the way is an overflow of the whole, since the value only grows *)
Lemma digits_value_spec l : forall acc, (acc < usize_limit)%N ->
  digits_value acc l =
  if all_digits l && (fold_left dstep l acc <? usize_limit)%N
  then Some (fold_left dstep l acc) else None.
Proof.
  induction l as [|c l IH]; intros acc A; cbn.
  - apply N.ltb_lt in A. rewrite A. reflexivity.
  - destruct (is_digit c); [|reflexivity]. cbn [andb]. fold (dstep acc c).
    destruct (N.ltb_spec (dstep acc c) usize_limit) as [L|L]; [exact (IH _ L)|].
    pose proof (fold_dstep_mono l (dstep acc c)) as M.
    rewrite (proj2 (N.ltb_ge _ _)), andb_false_r by lia. reflexivity.
Qed.

Lemma dec_value_fold l : dec_value l = fold_left dstep l 0%N.
Proof. reflexivity. Qed.

Lemma parse_usize_some t n :
  parse_usize t = Some n ->
  is_number_text t = N.ltb 0 n /\ n = dec_value (strip_plus t).
Proof.
  unfold parse_usize, is_number_text. fold (strip_plus t).
  destruct (strip_plus t) as [|c b]; [intros [=]|].
  rewrite digits_value_spec, dec_value_fold by reflexivity.
  destruct (all_digits (c :: b)), (fold_left dstep (c :: b) 0 <? usize_limit)%N; cbn [andb]; intros E;
    try discriminate E.
  injection E as <-. rewrite andb_true_r. auto.
Qed.

Lemma parse_usize_none t : parse_usize t = None -> is_number_text t = false.
Proof.
  unfold parse_usize, is_number_text. fold (strip_plus t).
  destruct (strip_plus t) as [|c b]; [reflexivity|].
  rewrite digits_value_spec, dec_value_fold by reflexivity.
  destruct (all_digits (c :: b)), (fold_left dstep (c :: b) 0 <? usize_limit)%N; cbn [andb]; intros E;
    [discriminate E|apply andb_false_r|reflexivity..].
Qed.
