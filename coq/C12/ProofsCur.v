(* C12 — the current/previous-job rules on an abstract table.

   The four "current job" clauses of [Inv] only look at, for every index,
   whether a job is there and whether it is suspended: a function
   [nat -> option bool].  Give an entry the [rank] 0 if it is absent, 1 if it
   is present and 2 if it is suspended.  Then the clauses say that the current
   job has the greatest rank of the table ([top]) and the previous job the
   greatest rank of the rest ([second]): JobList keeps the two best candidates
   for `%+` and `%-`, ordered.  Every operation changes the view at one index
   at most ([upd]), and what it then does to the pair is what keeps two
   maxima up to date; all proofs below are comparisons of ranks. *)
From Coq Require Import List Arith Lia Bool.

Definition CI (g : nat -> option bool) (c p : nat) : Prop :=
  (forall i, g i <> None -> g c <> None) /\
  (forall i1 i2, i1 <> i2 -> g i1 <> None -> g i2 <> None -> p <> c /\ g p <> None) /\
  (forall i, g i = Some true -> g c = Some true) /\
  (forall i1 i2, i1 <> i2 -> g i1 = Some true -> g i2 = Some true -> g p = Some true).

(* the clauses that mention the current job only *)
Definition CIc (g : nat -> option bool) (c : nat) : Prop :=
  (forall i, g i <> None -> g c <> None) /\
  (forall i, g i = Some true -> g c = Some true).

Lemma CI_CIc g c p : CI g c p -> CIc g c.
Proof. unfold CI, CIc. tauto. Qed.

Lemma CI_ext g g' c p : (forall i, g' i = g i) -> CI g c p -> CI g' c p.
Proof.
  intros E H. unfold CI in *. repeat setoid_rewrite E. exact H.
Qed.

Definition rank (v : option bool) : nat :=
  match v with None => 0 | Some false => 1 | Some true => 2 end.

Lemma rank_present v : v <> None <-> 1 <= rank v.
Proof. destruct v as [[|]|]; cbn; split; intro; try lia; congruence. Qed.

Lemma rank_susp v : v = Some true <-> 2 <= rank v.
Proof. destruct v as [[|]|]; cbn; split; intro; try lia; congruence. Qed.

Lemma rank_le_2 v : rank v <= 2.
Proof. destruct v as [[|]|]; cbn; lia. Qed.

Lemma rank_some b : 1 <= rank (Some b).
Proof. destruct b; cbn; lia. Qed.

(* for [i = c] there is nothing to say, and [lia] could not say it: it does not
   know that [g i] and [g c] are then the same *)
Definition top (g : nat -> option bool) (c : nat) : Prop :=
  forall i, i <> c -> rank (g i) <= rank (g c).

(* [p] is a maximum of the table without [c], and is not [c] unless that
   rest is empty *)
Definition second (g : nat -> option bool) (c p : nat) : Prop :=
  forall i, i <> c -> 1 <= rank (g i) -> p <> c /\ rank (g i) <= rank (g p).

Definition alone (g : nat -> option bool) (c : nat) : Prop :=
  forall i, i <> c -> rank (g i) = 0.

Lemma CIc_top g c : CIc g c <-> top g c.
Proof.
  unfold CIc, top. setoid_rewrite rank_present. setoid_rewrite rank_susp. split.
  - intros [A B] i _. specialize (A i). specialize (B i). pose proof (rank_le_2 (g i)). lia.
  - intros T. split; intros i; (destruct (Nat.eq_dec i c) as [->|N]; [|specialize (T i N)]); lia.
Qed.

Lemma CI_top g c p : CI g c p <-> top g c /\ second g c p.
Proof.
  split.
  - intros H. split; [exact (proj1 (CIc_top g c) (CI_CIc g c p H))|]. revert H.
    unfold CI, second. setoid_rewrite rank_present. setoid_rewrite rank_susp.
    intros (C1 & C2 & C3 & C4) i N. specialize (C1 i). specialize (C2 i c N).
    specialize (C3 i). specialize (C4 i c N). pose proof (rank_le_2 (g i)). lia.
  - intros [T S]. apply CIc_top in T. destruct T as [C1 C3]. revert C1 C3.
    unfold CI, second in *. setoid_rewrite rank_present. setoid_rewrite rank_susp.
    intros C1 C3. split; [exact C1|]. split; [|split; [exact C3|]].
    all: intros i1 i2; pose proof (S i1); pose proof (S i2); lia.
Qed.

Definition upd (g g' : nat -> option bool) (k : nat) (v : option bool) : Prop :=
  g' k = v /\ forall i, i <> k -> g' i = g i.

Lemma upd_refl g k : upd g g k (g k).
Proof. split; auto. Qed.

Lemma upd_same [g g' k b] : g k = Some b -> upd g g' k (Some b) -> forall i, g' i = g i.
Proof.
  intros G [U1 U2] i. destruct (Nat.eq_dec i k) as [->|N]; [congruence | auto].
Qed.

Lemma ci_alone [g c p] : alone g c -> CI g c p.
Proof.
  intros A. apply CI_top. split; intros i; specialize (A i); lia.
Qed.

Lemma ci_no_prev [g c p] : CI g c p -> p = c \/ g p = None -> alone g c.
Proof.
  intros H N i. apply CI_top in H. destruct H as [_ S]. specialize (S i).
  assert (p = c \/ rank (g p) = 0) by (destruct N as [ | -> ]; auto). lia.
Qed.

(* whatever bounds the previous job bounds every job but the current one *)
Lemma second_bound [g c p n] :
  second g c p -> (p <> c -> rank (g p) <= n) -> forall i, i <> c -> rank (g i) <= n.
Proof.
  intros S B i Ni. destruct (rank (g i)) eqn:E; [apply Nat.le_0_l|]. rewrite <- E.
  destruct (S i Ni) as [Np L]; [rewrite E; apply le_n_S, Nat.le_0_l|].
  exact (Nat.le_trans _ _ _ L (B Np)).
Qed.

(* the first job of an empty table is the current job *)
Lemma ci_first [g g' c p k v] : top g c -> rank (g c) = 0 -> upd g g' k v -> CI g' k p.
Proof.
  intros T E [_ U2]. apply ci_alone. intros i N. rewrite (U2 i N).
  destruct (Nat.eq_dec i c) as [->|Nc]; [exact E|]. apply Nat.le_0_r. rewrite <- E. exact (T i Nc).
Qed.

(* a job beside the only one is the previous job *)
Lemma ci_joins [g g' c k v] :
  alone g c -> upd g g' k v -> (k <> c -> rank v <= rank (g c)) -> CI g' c k.
Proof.
  intros A [U1 U2] L. destruct (Nat.eq_dec k c) as [->|N].
  { apply ci_alone. intros i Ni. rewrite (U2 i Ni). exact (A i Ni). }
  apply CI_top. split; intros i Ni; destruct (Nat.eq_dec i k) as [->|Nk].
  - rewrite U1, (U2 c (not_eq_sym N)). exact (L N).
  - rewrite (U2 i Nk), (A i Ni). apply Nat.le_0_l.
  - split; [exact N|apply le_n].
  - rewrite (U2 i Nk), (A i Ni). intros H. inversion H.
Qed.

(* a table of one job whose entry changes but stays *)
Lemma ci_stays_alone [g g' c p k v] :
  CI g c p -> upd g g' k v -> g k <> None -> v <> None -> p = c \/ g' p = None -> CI g' c p.
Proof.
  intros H [U1 U2] Gk V N.
  assert (A : alone g c).
  { apply (ci_no_prev H). destruct N as [N|N]; [left; exact N|right].
    destruct (Nat.eq_dec p k) as [->|Np]; [congruence|]. rewrite <- (U2 p Np). exact N. }
  apply ci_alone. intros i Ni. destruct (Nat.eq_dec i k) as [->|Nk].
  - apply rank_present in Gk. rewrite (A k Ni) in Gk. inversion Gk.
  - rewrite (U2 i Nk). exact (A i Ni).
Qed.

(* the current job's entry changes: it stays on top if it is still no lower than
   the previous job's, which is on top otherwise *)
Lemma ci_cur_changes [g g' c p v] :
  CI g c p -> upd g g' c v -> rank (g' p) <= rank v -> CI g' c p.
Proof.
  intros [T S]%CI_top [U1 U2] L. apply CI_top. split; intros i Ni; rewrite (U2 i Ni).
  - rewrite U1. apply (second_bound S); [|exact Ni].
    intros Np. rewrite <- (U2 p Np). exact L.
  - intros Pi. destruct (S i Ni Pi) as [Np Lp]. rewrite (U2 p Np). auto.
Qed.

Lemma top_succeed [g g' c p v] :
  CI g c p -> upd g g' c v -> rank v <= rank (g' p) -> top g' p.
Proof.
  intros [T S]%CI_top [U1 U2] L i Ni.
  destruct (Nat.eq_dec i c) as [->|Nc]; [rewrite U1; exact L|]. rewrite (U2 i Nc).
  apply (second_bound S); [|exact Nc]. intros Np. rewrite (U2 p Np). apply le_n.
Qed.

(* the entry of a job [k] goes up but, unless [k] is the current job, not above
   the previous job's: the pair stays *)
Lemma ci_raise [g g' c p k v] :
  CI g c p -> upd g g' k v -> rank (g k) <= rank v ->
  (k <> c -> p <> c /\ rank v <= rank (g p)) -> CI g' c p.
Proof.
  intros H U Hk Hp. destruct (Nat.eq_dec k c) as [->|N].
  { apply (ci_cur_changes H U).
    destruct (Nat.eq_dec p c) as [->|Np]; [rewrite (proj1 U); apply le_n|].
    rewrite (proj2 U p Np). apply CI_top in H. exact (Nat.le_trans _ _ _ (proj1 H p Np) Hk). }
  destruct (Hp N) as [Np Lp]. apply CI_top in H. destruct H as [T S], U as [U1 U2].
  apply CI_top. split; intros i Ni.
  - rewrite (U2 c (not_eq_sym N)).
    destruct (Nat.eq_dec i k) as [->|Nk]; [rewrite U1|rewrite (U2 i Nk)].
    + exact (Nat.le_trans _ _ _ Lp (T p Np)).
    + exact (T i Ni).
  - assert (Mp : rank (g p) <= rank (g' p))
      by (destruct (Nat.eq_dec p k) as [->|Nk]; [rewrite U1; exact Hk|rewrite (U2 p Nk); apply le_n]).
    destruct (Nat.eq_dec i k) as [->|Nk]; [rewrite U1|rewrite (U2 i Nk)]; intros Pi; split; auto.
    + exact (Nat.le_trans _ _ _ Lp Mp).
    + exact (Nat.le_trans _ _ _ (proj2 (S i Ni Pi)) Mp).
Qed.

(* it goes above the current job's: [k] is the current job and [c] the
   previous one *)
Lemma ci_new_top [g g' c p k v] :
  CI g c p -> upd g g' k v -> k <> c -> rank (g c) <= rank v -> CI g' k c.
Proof.
  intros [T _]%CI_top [U1 U2] N L. apply CI_top. split; intros i Ni; rewrite (U2 i Ni).
  - rewrite U1. destruct (Nat.eq_dec i c) as [->|Nc]; [exact L|].
    exact (Nat.le_trans _ _ _ (T i Nc) L).
  - rewrite (U2 c (not_eq_sym N)). intros _. split; [exact (not_eq_sym N)|].
    destruct (Nat.eq_dec i c) as [->|Nc]; [apply le_n|exact (T i Nc)].
Qed.

(* it goes between the two: [k] is the previous job *)
Lemma ci_new_second [g g' c p k v] :
  CI g c p -> upd g g' k v -> k <> c -> rank (g p) <= rank v -> rank v <= rank (g c) ->
  CI g' c k.
Proof.
  intros [T S]%CI_top [U1 U2] N L1 L2. apply CI_top.
  split; intros i Ni; destruct (Nat.eq_dec i k) as [->|Nk].
  - rewrite U1, (U2 c (not_eq_sym N)). exact L2.
  - rewrite (U2 i Nk), (U2 c (not_eq_sym N)). exact (T i Ni).
  - split; [exact N|apply le_n].
  - rewrite U1, (U2 i Nk). intros Pi. split; [exact N|].
    exact (Nat.le_trans _ _ _ (proj2 (S i Ni Pi)) L1).
Qed.

(* the entry of another job [k] goes down: [c] stays on top, and the pair stays if
   [k] was not the previous job *)
Lemma top_lower [g g' c k v] : top g c -> upd g g' k v -> k <> c -> rank v <= rank (g k) -> top g' c.
Proof.
  intros T [U1 U2] N L i Ni. rewrite (U2 c (not_eq_sym N)).
  destruct (Nat.eq_dec i k) as [->|Nk]; [rewrite U1|rewrite (U2 i Nk)].
  - exact (Nat.le_trans _ _ _ L (T k N)).
  - exact (T i Ni).
Qed.

Lemma ci_lower_other [g g' c p k v] :
  CI g c p -> upd g g' k v -> rank v <= rank (g k) -> k <> c -> k <> p -> CI g' c p.
Proof.
  intros [T S]%CI_top U L Nc Np. apply CI_top. split; [exact (top_lower T U Nc L)|].
  destruct U as [U1 U2]. intros i Ni. rewrite (U2 p (not_eq_sym Np)).
  destruct (Nat.eq_dec i k) as [->|Nk]; [rewrite U1|rewrite (U2 i Nk); exact (S i Ni)].
  intros Pv. destruct (S k Nc (Nat.le_trans _ _ _ Pv L)) as [A B].
  split; [exact A|exact (Nat.le_trans _ _ _ L B)].
Qed.

Lemma top_remove [g g' c p k] :
  CI g c p -> upd g g' k None -> top g' (if Nat.eqb k c then p else c).
Proof.
  intros H U. destruct (Nat.eqb_spec k c) as [->|N].
  - apply (top_succeed H U), Nat.le_0_l.
  - apply CI_top in H. apply (top_lower (proj1 H) U N), Nat.le_0_l.
Qed.

(* what [any_suspended_job_but_current] / [any_job_but_current] return *)
Definition pick_susp (g : nat -> option bool) (c : nat) (r : option nat) : Prop :=
  match r with
  | Some i => i <> c /\ g i = Some true
  | None => forall i, i <> c -> g i <> Some true
  end.
Definition pick_any (g : nat -> option bool) (c : nat) (r : option nat) : Prop :=
  match r with
  | Some i => i <> c /\ g i <> None
  | None => forall i, i <> c -> g i = None
  end.

Lemma ci_pick [g c r1] r2 :
  top g c -> pick_susp g c r1 -> pick_any g c r2 ->
  CI g c (match r1 with
          | Some i => i
          | None => match r2 with Some i => i | None => 0 end
          end).
Proof.
  intros T P1 P2. apply CI_top. split; [exact T|]. intros i N L.
  pose proof (rank_le_2 (g i)).
  destruct r1 as [i1|]; cbn in P1.
  - rewrite rank_susp in P1. lia.
  - specialize (P1 i N). rewrite rank_susp in P1. destruct r2 as [i2|]; cbn in P2.
    + rewrite rank_present in P2. lia.
    + rewrite (P2 i N) in L. cbn in L. lia.
Qed.
