(* C12 — the property theorems.  The driver compares their statements with
   [Check] and prints the assumptions (the list at the end) on every run. *)
From Yv Require Import Common.Base C12.Model C12.Spec C12.Script.
From Yv Require Import C12.ProofsCur C12.ProofsBase C12.ProofsOps C12.ProofsId C12.ProofsObs.
From Yv Require Import C12.ProofsScript C12.Last.

Theorem inv_init : Inv empty.
Proof.
  apply Inv_intro; cbn.
  - split; [constructor|]. intros f; split; [intros [] | destruct f; discriminate].
  - split; [intros [|i] j H | intros p i H]; discriminate.
  - apply ci_alone. intros [|i] _; reflexivity.
Qed.

(* [op_ok] constrains OInsert alone: the pid is new or its job has finished *)
Theorem inv_step : forall s o, Inv s -> op_ok s o = true -> Inv (step s o).
Proof.
  intros s o I H. destruct o; cbn [step].
  - apply insert_inv; auto. apply op_ok_reuse; auto.
  - apply remove_inv; auto.
  - apply remove_if_inv; auto.
  - apply remove_if_inv; auto.
  - apply update_inv; auto.
  - apply set_current_inv; auto.
  - apply disown_inv; auto.
  - apply expect_inv; auto.
  - apply reported_inv; auto.
Qed.

Lemma inv_fold ops : forall s, Inv s -> ops_ok s ops = true -> Inv (fold_left step ops s).
Proof.
  induction ops as [|o ops IH]; intros s I H; cbn in *; auto.
  apply andb_true_iff in H. destruct H as [H1 H2].
  apply IH; auto. apply inv_step; auto.
Qed.

Theorem inv_reachable : forall ops, ops_ok empty ops = true -> Inv (run ops).
Proof. intros ops. exact (inv_fold ops empty inv_init). Qed.

(* the Rust panic sites of insert / update_status are never reached *)
Theorem step_no_panic : forall s o, Inv s -> op_ok s o = true -> step_panics s o = false.
Proof.
  intros s o I _. destruct o; cbn [step_panics]; auto.
  - apply insert_no_panic, I.
  - apply update_no_panic, I.
Qed.

(* job numbers are indices + 1: the index a pid has is kept by every operation,
   by an [OInsert] that reuses the pid too (the new job takes the old one's
   slot) *)
Theorem job_number_stable : forall s o i j i',
  Inv s -> op_ok s o = true -> get s i = Some j ->
  find_by_pid (step s o) (jpid j) = Some i' -> i' = i.
Proof.
  intros s o i j i' I _ G. apply find_step, (inv_pid_of_job s I), G.
Qed.

Theorem pid_designates_one_job : forall s i1 i2 j1 j2,
  Inv s -> get s i1 = Some j1 -> get s i2 = Some j2 -> jpid j1 = jpid j2 -> i1 = i2.
Proof.
  intros s i1 i2 j1 j2 I G1 G2 E.
  pose proof (inv_pid_of_job s I _ _ G1) as F1. rewrite E, (inv_pid_of_job s I _ _ G2) in F1.
  congruence.
Qed.

(* parse_tail: what the text after '%' is parsed to satisfies the documented
   relation (the oracle's clause 9) *)
Theorem parse_tail_sound : forall t, parse_rel t (parse_tail t) = true.
Proof.
  intros t. unfold parse_tail.
  destruct (str_eqb t [] || str_eqb t [ch_percent] || str_eqb t [ch_plus]) eqn:E1.
  { cbn [parse_rel]. exact E1. }
  destruct (str_eqb t [ch_minus]) eqn:E2.
  { cbn [parse_rel]. exact E2. }
  assert (SP : special_tail t = false) by (unfold special_tail; rewrite E1, E2; reflexivity).
  destruct t as [|c r]; [cbn in E1; discriminate|].
  destruct (N.eqb_spec c ch_quest) as [Q|Q].
  { subst c. cbn [parse_rel]. rewrite SP, str_eqb_refl. reflexivity. }
  assert (SQ : starts_with [ch_quest] (c :: r) = false).
  { cbn [starts_with]. apply andb_false_iff. left. apply N.eqb_neq. congruence. }
  destruct (parse_usize (c :: r)) as [n|] eqn:P.
  - destruct (parse_usize_some _ _ P) as [T V].
    destruct (N.eqb_spec n 0) as [Z|Z]; cbn [parse_rel]; rewrite SP, SQ, T.
    + rewrite Z. change (0 <? 0)%N with false. cbn [negb andb]. apply str_eqb_refl.
    + assert (X : N.ltb 0 n = true) by (apply N.ltb_lt; lia). rewrite X. cbn [negb andb].
      apply N.eqb_eq. exact V.
  - cbn [parse_rel]. rewrite SP, SQ, (parse_usize_none _ P). cbn [negb andb]. apply str_eqb_refl.
Qed.

(* the oracle's own resolution of a job ID on an observed table is the model's *)
Theorem resolve_obs_sound : forall pids ids s id,
  resolve_obs (observe pids ids s) id = find_job s id.
Proof.
  intros pids ids s id. destruct id as [| |n|p|p]; cbn [resolve_obs]; try reflexivity.
  - rewrite o_jobs_observe.
    pose proof (filter_observe (fun p => N.eqb (N.of_nat (S (fst p))) n) s) as H.
    destruct (filter _ (map vw (iter s))) as [|[i v] r].
    + destruct (N.eq_dec n 0) as [->|Z]; [reflexivity|].
      replace n with (N.of_nat (S (N.to_nat (N.pred n)))) in * by lia.
      rewrite find_job_number.
      destruct (get s _) as [j|] eqn:G; [|reflexivity].
      specialize (H _ _ G). cbn [fst] in H. rewrite N.eqb_refl in H. discriminate.
    + destruct H as (j & G & _ & X). cbn [fst] in X. apply N.eqb_eq in X. subst n.
      rewrite find_job_number, G. reflexivity.
  - apply resolve_by_name. intros n. apply o_prefix_eq.
  - apply resolve_by_name. intros n. apply o_substr_eq.
Qed.

(* the run-time oracle asks no more than the invariant gives (this includes
   the job-ID clauses: resolution and parsing) *)
Theorem inv_obs_sound : forall s pids ids, Inv s -> inv_obs (observe pids ids s) = true.
Proof.
  intros s pids ids I. unfold inv_obs. rewrite first_false_all; [reflexivity|].
  unfold inv_obs_clauses. cbv zeta. cbn [forallb o_cur o_prev o_find o_ids observe].
  rewrite o_jobs_observe, filter_of_map, !map_length. fold (len s).
  set (susp := filter (fun x => is_stopped (v_state (snd (vw x)))) (iter s)).
  assert (Hsusp : forall i j, In (i, j) susp -> susp_at s i /\ get s i = Some j).
  { intros i j H. apply filter_In in H. destruct H as [G Sj]. apply in_iter in G.
    split; [exists j|]; auto. }
  (* one goal per clause, numbered as in [inv_obs_clauses]; clause 4 gives two *)
  repeat (apply andb_true_iff; split); [..|reflexivity].
  - (* 0 *)
    destruct (Nat.eqb_spec (len s) 0) as [E|E]; auto. cbn [orb].
    destruct (proj1 (len_pos s)) as [i [j G]]; [lia|].
    destruct (cur_exists I G) as [C [jc Gc]]. rewrite C, lookup_observe, Gc. reflexivity.
  - (* 1 *)
    destruct (Nat.ltb_spec (len s) 2) as [E|E]; auto. cbn [orb].
    destruct (proj1 (len_two s) E) as (i1 & i2 & j1 & j2 & N & G1 & G2).
    destruct (prev_exists I N G1 G2) as (P & Ne & jp & Gp).
    destruct (cur_exists I G1) as [C _]. rewrite P, C, lookup_observe, Gp.
    apply Nat.eqb_neq in Ne. rewrite Ne. reflexivity.
  - (* 2 *)
    destruct (Nat.eqb_spec (length susp) 0) as [E|E]; auto. cbn [orb].
    destruct (proj1 (length_pos susp)) as [[i j] Hin]; [lia|]. destruct (Hsusp _ _ Hin) as [Si G].
    destruct (cur_exists I G) as [C _]. rewrite C.
    apply idx_susp_observe, (inv_cur_susp s I i Si).
  - (* 3 *)
    destruct (Nat.ltb_spec (length susp) 2) as [E|E]; auto. cbn [orb].
    destruct (proj1 (length_two _ (nodup_fst_filter _ _ (nodup_iter s))) E)
      as [[i1 j1] [[i2 j2] (H1 & H2 & N)]]. cbn in N.
    destruct (Hsusp _ _ H1) as [S1 G1]. destruct (Hsusp _ _ H2) as [S2 G2].
    destruct (prev_exists I N G1 G2) as (P & _). rewrite P.
    apply idx_susp_observe, (inv_prev_susp s I i1 i2 N S1 S2).
  - (* 4: pids *)
    rewrite map_map. apply nodupb_true; [apply Z.eqb_eq|].
    apply nodup_map_key; [apply nodup_iter|].
    intros [i1 j1] [i2 j2] H1 H2 E. apply in_iter in H1. apply in_iter in H2.
    exact (pid_designates_one_job s i1 i2 j1 j2 I H1 H2 E).
  - (* 4: indices *)
    rewrite map_map. apply nodupb_true; [apply Nat.eqb_eq|]. apply nodup_iter.
  - (* 5 *)
    apply forallb_map. intros p.
    apply (option_eqb_spec Nat.eqb Nat.eqb_eq). symmetry. apply (pid_observe pids ids), I.
  - (* 6 *)
    apply forallb_map. intros t.
    rewrite resolve_obs_sound. apply fres_eqb_refl.
  - (* 7 *)
    pose proof (previous_job_spec s) as V. destruct (previous_job s) as [p|]; [|reflexivity].
    destruct V as (-> & N & jp & G). destruct (cur_exists I G) as [C _]. rewrite C.
    apply negb_true_iff, Nat.eqb_neq, N.
  - (* 8 *) reflexivity.
  - (* 9 *)
    apply forallb_map. intros t.
    apply parse_tail_sound.
Qed.

Theorem current_previous_spec : forall s, Inv s ->
  (len s >= 1 -> exists c j, current_job s = Some c /\ get s c = Some j) /\
  (len s >= 2 -> exists p j, previous_job s = Some p /\ get s p = Some j /\
                             current_job s <> Some p).
Proof.
  intros s I. split; intros H.
  - destruct (proj1 (len_pos s) H) as [i [j G]].
    destruct (cur_exists I G) as [C [jc Gc]]. eauto.
  - destruct (proj1 (len_two s) H) as (i1 & i2 & j1 & j2 & N & G1 & G2).
    destruct (prev_exists I N G1 G2) as (P & Ne & jp & Gp).
    destruct (cur_exists I G1) as [C _].
    exists (prev s), jp. split; auto. split; auto. rewrite C. congruence.
Qed.

(* JobId::find returns what the documentation prescribes ([designates],
   Spec.v).  [Inv] is needed for % %% %+ %- only: %n, %name and %?name resolve
   as documented in any table. *)
Theorem jobid_resolution : forall s id, Inv s -> designates s id (find_job s id).
Proof.
  intros s id I. destruct id as [| |n|p|p].
  - apply designates_current, I.
  - apply designates_previous, I.
  - apply designates_number.
  - rewrite designates_prefix. apply find_one_outcome. intros j. apply starts_with_spec.
  - rewrite designates_substr. apply find_one_outcome. intros j. apply str_contains_spec.
Qed.

Theorem jobid_resolution_reachable : forall ops id,
  ops_ok empty ops = true -> designates (run ops) id (find_job (run ops) id).
Proof. intros ops id H. apply jobid_resolution, inv_reachable, H. Qed.

(* %n keeps designating the same process across every operation (removals of
   other jobs included) for as long as that process has a job *)
Theorem jobid_number_stable : forall s o i j i',
  Inv s -> op_ok s o = true -> get s i = Some j ->
  find_by_pid (step s o) (jpid j) = Some i' ->
  find_job (step s o) (IdNumber (N.of_nat (S i))) = Found i /\
  exists j', get (step s o) i = Some j' /\ jpid j' = jpid j.
Proof.
  intros s o i j i' I H G F.
  assert (i' = i) by (eapply job_number_stable; eauto). subst i'.
  destruct (inv_job_of_pid _ (inv_step s o I H) _ _ F) as [j' [G' Ep]].
  rewrite find_job_number, G'. eauto.
Qed.

Theorem name_tests_spec : forall p n,
  (starts_with p n = true <-> exists r, n = p ++ r) /\
  (str_contains p n = true <-> exists a b, n = a ++ p ++ b).
Proof. intros p n. split; [apply starts_with_spec | apply str_contains_spec]. Qed.

(* scripts: what a command does to the job list itself ([structural],
   Script.v) keeps the invariant; [async_ok] is [op_ok] for the insertion an
   asynchronous list makes *)
Theorem script_step_inv : forall cmd a tgt s,
  Inv s -> async_ok cmd a s = true -> Inv (structural cmd a tgt s).
Proof.
  intros cmd a tgt s I A. destruct cmd; cbn [structural].
  - unfold async_ok in A. destruct (sn_bang a) as [p|]; auto.
    pose proof (insert_inv s _ I (op_ok_reuse _ _ _ _ A)) as I1.
    destruct (insert s (new_job p Running name)) as [s1 idx]. apply reported_inv, I1.
  - apply fold_report_inv, I.
  - destruct tgt; auto. apply report_one_inv, I.
  - destruct tgt; auto. apply remove_finished_inv, I.
  - apply remove_if_inv, I.
  - exact I.
  - destruct tgt as [i| |]; auto. destruct (get s i) as [j|]; auto.
    apply set_current_inv. destruct (is_alive (jstate j)); [apply expect_inv|]; exact I.
  - destruct tgt; auto. apply remove_finished_inv, I.
  - exact I.
Qed.

(* without the precondition (inserting a pid whose job is still alive) the
   observable invariant fails: the table has two jobs but no previous job *)
Example insert_live_pid_breaks_inv :
  inv_obs (observe [10; 11]%Z []
             (run [OInsert 10 Running []; OInsert 11 (Stopped 19) []; OInsert 11 (Stopped 19) []]))
  = false.
Proof. vm_compute. reflexivity. Qed.

(* non-vacuity of the job-ID theorems, and the gap scenario: jobs 1, 2, 3
   exist, job 1 is removed; %2 and %3 still designate slots 1 and 2 *)
Example jobid_gap_example :
  let ops := [OInsert 10 Running [97]; OInsert 11 Running [97; 98];
              OInsert 12 (Stopped 19) [99; 97]; ORemove 0]%N in
  ops_ok empty ops = true /\
  find_job (run ops) (IdNumber 1) = NotFound /\
  find_job (run ops) (IdNumber 2) = Found 1 /\
  find_job (run ops) (IdNumber 3) = Found 2 /\
  find_job (run ops) (parse_tail [ch_plus; 51]%N) = Found 2 /\
  find_job (run ops) (IdPrefix [97]%N) = Found 1 /\
  find_job (run ops) (IdSubstr [97]%N) = Ambiguous /\
  find_job (run ops) (IdPrefix [98]%N) = NotFound /\
  find_job (run ops) IdCurrent = Found 2 /\
  find_job (run ops) IdPrevious = Found 1.
Proof. vm_compute. repeat split; reflexivity. Qed.

Lemma tbl_fold ops : forall s, tbl (fold_left lstep ops s) = fold_left step (strip ops) (tbl s).
Proof.
  induction ops as [|[o|p] ops IH]; intros s; cbn [fold_left strip]; [reflexivity|rewrite IH..].
  - destruct o; reflexivity.
  - reflexivity.
Qed.

Lemma last_fold_noset ops : forall s,
  forallb (fun o => negb (is_set o)) ops = true -> last (fold_left lstep ops s) = last s.
Proof.
  induction ops as [|[o|p] ops IH]; intros s H; [reflexivity| |discriminate].
  cbn [fold_left]. rewrite (IH _ H). destruct o; reflexivity.
Qed.

(* `$!` (JobList::last_async_pid, Last.v): after every history it is the
   operand of the most recent set_last_async_pid (0 if there was none), since
   no other operation changes it *)
Theorem last_is_most_recent_set : forall ops p, most_recent_set ops p -> last (lrun ops) = p.
Proof.
  unfold lrun. intros ops p [[H ->]|[a [b [-> H]]]].
  - now rewrite last_fold_noset.
  - rewrite fold_left_app. cbn [fold_left]. now rewrite last_fold_noset.
Qed.

(* ... and every history has one (the theorem above is never vacuous) *)
Theorem most_recent_set_total : forall ops, exists p, most_recent_set ops p.
Proof.
  induction ops as [|o ops [p IH]] using rev_ind.
  - exists 0%Z. left. split; reflexivity.
  - destruct o as [o|q].
    + exists p. destruct IH as [[H ->]|[a [b [-> H]]]].
      * left. split; [|reflexivity]. rewrite forallb_app, H. reflexivity.
      * right. exists a, (b ++ [LOp o]). split.
        -- now rewrite <- app_assoc.
        -- rewrite forallb_app, H. reflexivity.
    + exists q. right. exists ops, []. split; reflexivity.
Qed.

(* per operation, in every state (no invariant needed) *)
Theorem last_step : forall s o, last (lstep s o) = last_expected (last s) o.
Proof. intros s o. destruct o as [o|p]; [destruct o|]; reflexivity. Qed.

(* the operations of Last.v are those of Model.v on the [tbl] component, and
   set_last_async_pid leaves it alone: what is proved about [joblist] holds
   for [tbl (lrun ops)] *)
Theorem lifted_step_agrees : forall s o, tbl (lstep s (LOp o)) = step (tbl s) o.
Proof. intros s o. destruct o; reflexivity. Qed.
Theorem set_last_keeps_table : forall s p, tbl (lstep s (OSetLast p)) = tbl s.
Proof. reflexivity. Qed.
Theorem lifted_run_agrees : forall ops, tbl (lrun ops) = run (strip ops).
Proof. intros ops. apply tbl_fold. Qed.
Theorem lifted_inv_reachable : forall ops, ops_ok empty (strip ops) = true -> Inv (tbl (lrun ops)).
Proof. intros ops H. rewrite lifted_run_agrees. apply inv_reachable, H. Qed.

(* the run-time oracle clause (code 20) never rejects the model *)
Theorem last_ok_sound : forall s o, last_ok (last s) o (last (lstep s o)) = true.
Proof. intros s o. unfold last_ok. rewrite last_step. apply Z.eqb_refl. Qed.

(* non-vacuity, and the scenario of the seeded change C12-8: a removal that
   empties the table does not reset `$!` *)
Example last_survives_emptying :
  let ops := [OSetLast 11; LOp (OInsert 10 Running []); LOp (ORemove 0)]%Z in
  len (tbl (lrun ops)) = 0 /\ last (lrun ops) = 11%Z /\ most_recent_set ops 11%Z.
Proof.
  cbv zeta. split; [vm_compute; reflexivity|]. split; [vm_compute; reflexivity|].
  right. exists [], [LOp (OInsert 10 Running []); LOp (ORemove 0)]. split; reflexivity.
Qed.

(* [designates] admits exactly one outcome (a job, NotFound or Ambiguous) in
   ANY table, with or without the invariant *)
Theorem designates_functional : forall s id r1 r2,
  designates s id r1 -> designates s id r2 -> r1 = r2.
Proof.
  intros s id r1 r2. destruct id as [| |n|p|p]; [cbn [designates]..|rewrite designates_prefix|rewrite designates_substr].
  1, 2: intros [[L1 ->]|[L1 [-> _]]] [[L2 ->]|[L2 [-> _]]]; try reflexivity; lia.
  - intros [[i [j [E [G ->]]]]|[H ->]] [[i' [j' [E' [G' ->]]]]|[H' ->]].
    + f_equal. lia.
    + destruct (H' i j G E).
    + destruct (H i' j' G' E').
    + reflexivity.
  - apply outcome_functional.
  - apply outcome_functional.
Qed.

(* so JobId::find returns the prescribed outcome and no other *)
Theorem jobid_resolution_complete : forall s id r,
  Inv s -> (designates s id r <-> find_job s id = r).
Proof.
  intros s id r I. split.
  - apply designates_functional, jobid_resolution, I.
  - intros <-. apply jobid_resolution, I.
Qed.

Theorem name_id_outcomes : forall s id,
  Inv s -> (match id with IdPrefix _ | IdSubstr _ => True | _ => False end) ->
  (find_job s id = NotFound <-> forall i j, get s i = Some j -> ~ name_matches id j) /\
  (find_job s id = Ambiguous <->
     exists i1 i2 j1 j2, i1 <> i2 /\ get s i1 = Some j1 /\ get s i2 = Some j2 /\
                         name_matches id j1 /\ name_matches id j2) /\
  (forall i, find_job s id = Found i <->
     exists j, get s i = Some j /\ name_matches id j /\
               forall i' j', get s i' = Some j' -> name_matches id j' -> i' = i).
Proof.
  intros s id I K. assert (C := fun r => jobid_resolution_complete s id r I).
  destruct id; try contradiction; [rewrite designates_prefix in C|rewrite designates_substr in C].
  all: split; [|split; [|intros i]]; rewrite <- C;
    [apply outcome_NotFound | apply outcome_Ambiguous | apply outcome_Found].
Qed.

Print Assumptions inv_init.
Print Assumptions inv_step.
Print Assumptions inv_reachable.
Print Assumptions step_no_panic.
Print Assumptions job_number_stable.
Print Assumptions pid_designates_one_job.
Print Assumptions inv_obs_sound.
Print Assumptions current_previous_spec.
Print Assumptions jobid_resolution.
Print Assumptions jobid_resolution_reachable.
Print Assumptions jobid_number_stable.
Print Assumptions parse_tail_sound.
Print Assumptions name_tests_spec.
Print Assumptions resolve_obs_sound.
Print Assumptions script_step_inv.
Print Assumptions insert_live_pid_breaks_inv.
Print Assumptions jobid_gap_example.
Print Assumptions last_is_most_recent_set.
Print Assumptions most_recent_set_total.
Print Assumptions last_step.
Print Assumptions lifted_step_agrees.
Print Assumptions set_last_keeps_table.
Print Assumptions lifted_run_agrees.
Print Assumptions lifted_inv_reachable.
Print Assumptions last_ok_sound.
Print Assumptions last_survives_emptying.
Print Assumptions designates_functional.
Print Assumptions jobid_resolution_complete.
Print Assumptions name_id_outcomes.
