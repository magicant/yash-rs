(* C12 — what the run-time oracle ([inv_obs], Spec.v) sees.  An observation
   shows the table as the list [map vw (iter s)]; the lemmas below say what the
   oracle's own look-ups in that list (by index, by pid, by name) find, in
   terms of the state. *)
From Yv Require Import Common.Base C12.Model C12.Spec.
From Yv Require Import C12.ProofsBase.

Lemma filter_of_map {A B} (f : B -> bool) (F : A -> B) L :
  filter f (map F L) = map F (filter (fun x => f (F x)) L).
Proof.
  induction L as [|x L IH]; cbn; auto. destruct (f (F x)); cbn; rewrite IH; reflexivity.
Qed.

Lemma nodupb_true {A} (eqb : A -> A -> bool) l :
  (forall x y, eqb x y = true <-> x = y) -> NoDup l -> nodupb eqb l = true.
Proof.
  intros Heq. induction l as [|x l IH]; cbn; auto. intros ND.
  inversion ND as [|? ? Hn ND0]; subst. rewrite IH by auto. rewrite andb_true_r.
  apply negb_true_iff. destruct (existsb (eqb x) l) eqn:E; auto.
  apply existsb_exists in E. destruct E as [y [Hy Exy]]. apply Heq in Exy. subst. contradiction.
Qed.

Lemma nodup_map_key {A B} (h : nat * A -> B) L :
  NoDup (map fst L) ->
  (forall x y, In x L -> In y L -> h x = h y -> fst x = fst y) ->
  NoDup (map h L).
Proof.
  induction L as [|x L IH]; cbn; [constructor|]. intros ND Inj.
  inversion ND as [|? ? Hn ND0]; subst. constructor.
  - intros H. apply in_map_iff in H. destruct H as [y [E Hy]].
    apply Hn. apply in_map_iff. exists y. split; auto.
  - apply IH; auto.
Qed.

Lemma forallb_map {A B} (f : B -> bool) (g : A -> B) l :
  (forall x, f (g x) = true) -> forallb f (map g l) = true.
Proof. intros H. induction l as [|x l IH]; cbn; [reflexivity|]. rewrite H, IH. reflexivity. Qed.

Lemma first_false_all l : forall k, forallb (fun b => b) l = true -> first_false k l = None.
Proof.
  induction l as [|b l IH]; intros k H; cbn in *; auto.
  apply andb_true_iff in H. destruct H as [-> H]. auto.
Qed.

Definition vw (p : nat * job) : nat * view := (fst p, job_view (snd p)).

Lemma o_jobs_observe pids ids s : o_jobs (observe pids ids s) = map vw (iter s).
Proof. reflexivity. Qed.

(* the first entry that a search of the observed table finds *)
Lemma filter_observe (f : nat * view -> bool) s :
  match filter f (map vw (iter s)) with
  | [] => forall i j, get s i = Some j -> f (i, job_view j) = false
  | (i, v) :: _ => exists j, get s i = Some j /\ v = job_view j /\ f (i, v) = true
  end.
Proof.
  rewrite filter_of_map. pose proof (filter_iter_spec (fun x => f (vw x)) s) as H.
  destruct (filter _ (iter s)) as [|[i j] r]; [exact H|]. destruct H. exists j. auto.
Qed.

Lemma lookup_observe pids ids s i :
  lookup_idx (observe pids ids s) i = option_map job_view (get s i).
Proof.
  unfold lookup_idx. rewrite o_jobs_observe.
  pose proof (filter_observe (fun p => Nat.eqb (fst p) i) s) as H.
  destruct (filter _ (map vw (iter s))) as [|[i0 v] r].
  - destruct (get s i) as [j|] eqn:G; auto.
    specialize (H _ _ G). cbn in H. rewrite Nat.eqb_refl in H. discriminate.
  - destruct H as (j & G & -> & F). cbn in F. apply Nat.eqb_eq in F. subst i0.
    rewrite G. reflexivity.
Qed.

Lemma idx_susp_observe pids ids s i : susp_at s i -> idx_susp (observe pids ids s) i = true.
Proof.
  intros [j [G Sj]]. unfold idx_susp. rewrite lookup_observe, G. exact Sj.
Qed.

Lemma pid_observe pids ids s p :
  Inv s ->
  match filter (fun x => Z.eqb (v_pid (snd x)) p) (o_jobs (observe pids ids s)) with
  | (i, _) :: _ => Some i
  | [] => None
  end = find_by_pid s p.
Proof.
  intros I. rewrite o_jobs_observe.
  pose proof (filter_observe (fun x => Z.eqb (v_pid (snd x)) p) s) as H.
  destruct (filter _ (map vw (iter s))) as [|[i v] r].
  - destruct (find_by_pid s p) as [i|] eqn:F; auto.
    destruct (inv_job_of_pid s I _ _ F) as [j [G Ep]].
    specialize (H _ _ G). cbn in H. rewrite Ep, Z.eqb_refl in H. discriminate.
  - destruct H as (j & G & -> & X). cbn in X. apply Z.eqb_eq in X. subst p.
    symmetry. apply (inv_pid_of_job s I), G.
Qed.

Lemma o_prefix_eq p : forall n, o_prefix p n = starts_with p n.
Proof.
  unfold o_prefix, str_eqb. induction p as [|a p IH]; intros n; cbn.
  - reflexivity.
  - destruct n as [|b n]; cbn; [reflexivity|]. rewrite IH. reflexivity.
Qed.

Lemma existsb_map {A B} (f : B -> bool) (g : A -> B) l :
  existsb f (map g l) = existsb (fun x => f (g x)) l.
Proof. induction l as [|x l IH]; cbn; [reflexivity|]. rewrite IH. reflexivity. Qed.

Lemma o_substr_eq p : forall n, o_substr p n = str_contains p n.
Proof.
  unfold o_substr. induction n as [|c n IH].
  - cbn. rewrite o_prefix_eq. reflexivity.
  - cbn [length str_contains]. change (seq 0 (S (S (length n)))) with (0 :: seq 1 (S (length n))).
    cbn [existsb]. rewrite <- seq_shift, existsb_map.
    cbn [skipn]. rewrite o_prefix_eq. f_equal. exact IH.
Qed.

Lemma resolve_by_name pids ids s (f : str -> bool) (g : str -> bool) :
  (forall n, f n = g n) ->
  match map fst (filter (fun p => f (v_name (snd p))) (o_jobs (observe pids ids s))) with
  | [] => NotFound | [i] => Found i | _ => Ambiguous end =
  find_one (fun j => g (jname j)) s.
Proof.
  intros H. rewrite o_jobs_observe, filter_of_map, map_map. unfold find_one.
  cbn [vw fst snd job_view v_name].
  rewrite (filter_ext _ (fun p => g (jname (snd p)))) by (intros x; apply H).
  destruct (filter _ (iter s)) as [|[i j] [|[i2 j2] L]]; reflexivity.
Qed.

Lemma fres_eqb_refl r : fres_eqb r r = true.
Proof. destruct r; cbn; auto. apply Nat.eqb_refl. Qed.
