(* C12 — the split of [Inv] into its three independent parts: slab ([SlabInv]),
   pid index ([PidInv]), and current/previous job ([CI] of ProofsCur.v over the
   view [svL]); then characterising lemmas for the list functions of Model.v
   (slab slots, pid index, iteration, the searches). *)
From Yv Require Import Common.Base C12.Model C12.Spec C12.ProofsCur.

Definition getL (l : list (option job)) (i : nat) : option job :=
  match nth_error l i with Some (Some j) => Some j | _ => None end.

Lemma get_getL s i : get s i = getL (slots s) i.
Proof. reflexivity. Qed.

Lemma get_empty i : get empty i = None.
Proof. destruct i; reflexivity. Qed.

Definition SlabInv (sl : list (option job)) (fr : list nat) : Prop :=
  NoDup fr /\ forall f, In f fr <-> nth_error sl f = Some None.

Definition PidInv (g : nat -> option job) (px : list (Z * nat)) : Prop :=
  (forall i j, g i = Some j -> assoc px (jpid j) = Some i) /\
  (forall p i, assoc px p = Some i -> exists j, g i = Some j /\ jpid j = p).

(* the table as ProofsCur.v sees it: per index, absent / present / suspended *)
Definition svL (sl : list (option job)) (i : nat) : option bool :=
  option_map suspended (getL sl i).

Lemma contains_svL s i : contains s i = true <-> svL (slots s) i <> None.
Proof.
  unfold contains, svL. rewrite get_getL. destruct (getL (slots s) i); cbn; split; congruence.
Qed.

Lemma susp_at_svL s i : susp_at s i <-> svL (slots s) i = Some true.
Proof.
  unfold susp_at, svL. rewrite get_getL. destruct (getL (slots s) i) as [j|]; cbn.
  - split.
    + intros [j0 [E H]]. inversion E; subst. rewrite H. reflexivity.
    + intros H. inversion H. eauto.
  - split; [intros [j0 [E _]]; discriminate | discriminate].
Qed.

Lemma svL_get [s i j] : get s i = Some j -> svL (slots s) i = Some (suspended j).
Proof. unfold svL. rewrite get_getL. intros ->. reflexivity. Qed.

Lemma svL_some_get s i b : svL (slots s) i = Some b -> exists j, get s i = Some j /\ suspended j = b.
Proof.
  unfold svL. rewrite get_getL. destruct (getL (slots s) i) as [j|]; cbn; [|discriminate].
  intros H; inversion H. eauto.
Qed.

Lemma Inv_intro s :
  SlabInv (slots s) (free s) -> PidInv (getL (slots s)) (pidx s) ->
  CI (svL (slots s)) (cur s) (prev s) -> Inv s.
Proof.
  intros [S1 S2] [P1 P2] (C1 & C2 & C3 & C4). constructor; auto.
  - intros i j H. apply contains_svL. apply (C1 i). rewrite (svL_get H). discriminate.
  - intros i1 i2 j1 j2 N H1 H2. destruct (C2 i1 i2 N) as [A B].
    + rewrite (svL_get H1). discriminate.
    + rewrite (svL_get H2). discriminate.
    + split; auto. apply contains_svL. auto.
  - intros i. rewrite !susp_at_svL. apply C3.
  - intros i1 i2. rewrite !susp_at_svL. apply C4.
Qed.

Lemma Inv_elim s :
  Inv s ->
  SlabInv (slots s) (free s) /\ PidInv (getL (slots s)) (pidx s) /\
  CI (svL (slots s)) (cur s) (prev s).
Proof.
  intros [I1 I2 I3 I4 I5 I6 I7 I8]. split; [split; auto|split; [split; auto|]].
  unfold CI. split; [|split; [|split]].
  - intros i H. destruct (svL (slots s) i) as [b|] eqn:E; [|congruence].
    apply svL_some_get in E. destruct E as [j [G _]]. apply contains_svL. eapply I5; eauto.
  - intros i1 i2 N H1 H2.
    destruct (svL (slots s) i1) as [b1|] eqn:E1; [|congruence].
    destruct (svL (slots s) i2) as [b2|] eqn:E2; [|congruence].
    apply svL_some_get in E1. destruct E1 as [j1 [G1 _]].
    apply svL_some_get in E2. destruct E2 as [j2 [G2 _]].
    destruct (I6 _ _ _ _ N G1 G2) as [A B]. split; auto. apply contains_svL. auto.
  - intros i. rewrite <- !susp_at_svL. apply I7.
  - intros i1 i2. rewrite <- !susp_at_svL. apply I8.
Qed.

Lemma upd_svL [sl sl' k v] :
  (forall i, getL sl' i = if Nat.eqb i k then v else getL sl i) ->
  upd (svL sl) (svL sl') k (option_map suspended v).
Proof.
  intros G. split.
  - unfold svL. rewrite G, Nat.eqb_refl. reflexivity.
  - intros i N. unfold svL. rewrite G. apply Nat.eqb_neq in N. rewrite N. reflexivity.
Qed.

Lemma set_slot_length l : forall i v, length (set_slot l i v) = length l.
Proof. induction l as [|x l IH]; intros [|i] v; cbn; auto. Qed.

(* the two ways the slot list changes: one slot is overwritten, or one is appended *)
Lemma nth_set_slot l : forall i v k, i < length l ->
  nth_error (set_slot l i v) k = if Nat.eqb k i then Some v else nth_error l k.
Proof.
  induction l as [|x l IH]; intros [|i] v [|k] H; cbn in *; try lia; auto.
  apply IH. lia.
Qed.

Lemma nth_app_one {A} (l : list A) x : forall k,
  nth_error (l ++ [x]) k = if Nat.eqb k (length l) then Some x else nth_error l k.
Proof.
  induction l as [|y l IH]; intros [|k]; try reflexivity.
  - destruct k; reflexivity.
  - exact (IH k).
Qed.

Lemma getL_set_slot l k v i :
  k < length l -> getL (set_slot l k v) i = if Nat.eqb i k then v else getL l i.
Proof.
  intros H. unfold getL. rewrite nth_set_slot by exact H.
  destruct (Nat.eqb i k); [destruct v|]; reflexivity.
Qed.

Lemma getL_app l j i :
  getL (l ++ [Some j]) i = if Nat.eqb i (length l) then Some j else getL l i.
Proof. unfold getL. rewrite nth_app_one. destruct (Nat.eqb i (length l)); reflexivity. Qed.

Lemma getL_lt l i j : getL l i = Some j -> i < length l.
Proof.
  unfold getL. destruct (nth_error l i) eqn:E; [|discriminate].
  intros _. apply nth_error_Some. congruence.
Qed.

Lemma getL_nth l i j : getL l i = Some j -> nth_error l i = Some (Some j).
Proof.
  unfold getL. destruct (nth_error l i) as [[x|]|]; congruence.
Qed.

Lemma all_vacant_spec l : all_vacant l = true -> forall i, getL l i = None.
Proof.
  unfold all_vacant, getL. intros H i.
  destruct (nth_error l i) as [[j|]|] eqn:E; auto.
  apply nth_error_In in E. rewrite forallb_forall in H. apply H in E. discriminate.
Qed.

Lemma slab_insert_spec [sl fr j sl' fr' k] :
  SlabInv sl fr -> slab_insert sl fr j = (sl', fr', k) ->
  SlabInv sl' fr' /\ getL sl k = None /\
  forall i, getL sl' i = if Nat.eqb i k then Some j else getL sl i.
Proof.
  intros [ND FV] E. unfold slab_insert in E. destruct fr as [|f fr0].
  - inversion E; subst; clear E. split; [split|split].
    + constructor.
    + intros f. rewrite nth_app_one.
      destruct (Nat.eqb f (length sl)); [split; [intros []|discriminate]|apply FV].
    + unfold getL. rewrite (proj2 (nth_error_None sl (length sl))) by lia. reflexivity.
    + intros i. apply getL_app.
  - inversion E; subst; clear E. inversion ND as [|? ? Hnin ND0]; subst.
    assert (Hf : nth_error sl k = Some None) by (apply FV; left; auto).
    assert (Hk : k < length sl) by (apply nth_error_Some; congruence).
    split; [split|split].
    + exact ND0.
    + intros f. rewrite nth_set_slot by exact Hk. destruct (Nat.eqb_spec f k) as [->|N].
      * split; [contradiction|discriminate].
      * rewrite <- FV. cbn. split; [auto|intros [E|H]; [congruence|exact H]].
    + unfold getL. rewrite Hf. reflexivity.
    + intros i. apply getL_set_slot. exact Hk.
Qed.

Lemma slab_replace_spec [sl fr k j] j' :
  SlabInv sl fr -> getL sl k = Some j ->
  SlabInv (set_slot sl k (Some j')) fr /\
  forall i, getL (set_slot sl k (Some j')) i = if Nat.eqb i k then Some j' else getL sl i.
Proof.
  intros [ND FV] G. pose proof (getL_lt _ _ _ G) as Hk. pose proof (getL_nth _ _ _ G) as Hn.
  split; [split; [exact ND|]|].
  - intros f. rewrite nth_set_slot by exact Hk. destruct (Nat.eqb_spec f k) as [->|N]; [|apply FV].
    rewrite FV, Hn. split; congruence.
  - intros i. apply getL_set_slot. exact Hk.
Qed.

Lemma slab_remove_spec [sl fr k j sl' fr'] :
  SlabInv sl fr -> getL sl k = Some j ->
  (if all_vacant (set_slot sl k None) then ([], []) else (set_slot sl k None, k :: fr)) = (sl', fr') ->
  SlabInv sl' fr' /\ forall i, getL sl' i = if Nat.eqb i k then None else getL sl i.
Proof.
  intros [ND FV] G E. pose proof (getL_lt _ _ _ G) as Hk. pose proof (getL_nth _ _ _ G) as Hn.
  destruct (all_vacant (set_slot sl k None)) eqn:A; inversion E; subst; clear E.
  - split; [split|].
    + constructor.
    + intros f; split; [intros []|]. destruct f; discriminate.
    + intros i. pose proof (all_vacant_spec _ A i) as V.
      rewrite getL_set_slot in V by auto.
      destruct (Nat.eqb i k); [|rewrite V]; unfold getL; destruct i; reflexivity.
  - split; [split|].
    + constructor; auto. rewrite FV, Hn. congruence.
    + intros f. rewrite nth_set_slot by exact Hk. cbn [In]. destruct (Nat.eqb_spec f k) as [->|N].
      * split; auto.
      * rewrite <- FV. split; [intros [E|H]; [congruence|exact H]|auto].
    + intros i. apply getL_set_slot. exact Hk.
Qed.

Lemma getL_map f l i : getL (map (option_map f) l) i = option_map f (getL l i).
Proof.
  unfold getL. rewrite nth_error_map. destruct (nth_error l i) as [[x|]|]; reflexivity.
Qed.

Lemma slab_map f sl fr : SlabInv sl fr -> SlabInv (map (option_map f) sl) fr.
Proof.
  intros [ND FV]. split; auto. intros k. rewrite FV, nth_error_map.
  destruct (nth_error sl k) as [[x|]|]; cbn; split; congruence.
Qed.

Lemma assoc_remove_assoc l p q :
  assoc (remove_assoc l p) q = if Z.eqb p q then None else assoc l q.
Proof.
  induction l as [|[r i] l IH]; cbn.
  - destruct (Z.eqb p q); reflexivity.
  - destruct (Z.eqb_spec r p) as [->|N].
    + rewrite IH. destruct (Z.eqb p q); reflexivity.
    + cbn. rewrite IH.
      destruct (Z.eqb_spec r q), (Z.eqb_spec p q); subst; auto; congruence.
Qed.

Lemma pid_replace [g g' px k j j'] :
  PidInv g px -> g k = Some j -> jpid j' = jpid j ->
  (forall i, g' i = if Nat.eqb i k then Some j' else g i) -> PidInv g' px.
Proof.
  intros [P1 P2] Gk Ep U. split.
  - intros i j0 H. rewrite U in H. destruct (Nat.eqb_spec i k) as [->|N]; auto.
    inversion H; subst. rewrite Ep. auto.
  - intros p i H. destruct (P2 _ _ H) as [j0 [G0 E0]]. rewrite U.
    destruct (Nat.eqb_spec i k) as [->|N]; eauto.
    rewrite Gk in G0. inversion G0; subst. eexists; split; eauto.
Qed.

Lemma pid_insert_new [g g' px k j] :
  PidInv g px -> assoc px (jpid j) = None -> g k = None ->
  (forall i, g' i = if Nat.eqb i k then Some j else g i) ->
  PidInv g' ((jpid j, k) :: px).
Proof.
  intros [P1 P2] An Gk U. split.
  - intros i j0 H. rewrite U in H. cbn. destruct (Nat.eqb_spec i k) as [->|N].
    + inversion H; subst. rewrite Z.eqb_refl. reflexivity.
    + apply P1 in H. destruct (Z.eqb_spec (jpid j) (jpid j0)) as [E|E]; auto.
      rewrite E in An. congruence.
  - intros p i H. cbn in H. rewrite U. destruct (Z.eqb_spec (jpid j) p) as [E|E].
    + inversion H; subst. rewrite Nat.eqb_refl. eauto.
    + destruct (P2 _ _ H) as [j0 [G0 E0]]. destruct (Nat.eqb_spec i k) as [->|N]; eauto.
      congruence.
Qed.

Lemma pid_remove g g' px k j :
  PidInv g px -> g k = Some j ->
  (forall i, g' i = if Nat.eqb i k then None else g i) ->
  PidInv g' (remove_assoc px (jpid j)).
Proof.
  intros [P1 P2] Gk U. split.
  - intros i j0 H. rewrite U in H. destruct (Nat.eqb_spec i k) as [->|N]; [discriminate|].
    rewrite assoc_remove_assoc. pose proof (P1 _ _ H) as A.
    destruct (Z.eqb_spec (jpid j) (jpid j0)) as [E|E]; auto.
    pose proof (P1 _ _ Gk) as B. rewrite E in B. congruence.
  - intros p i H. rewrite assoc_remove_assoc in H.
    destruct (Z.eqb_spec (jpid j) p) as [E|E]; [discriminate|].
    destruct (P2 _ _ H) as [j0 [G0 E0]]. rewrite U.
    destruct (Nat.eqb_spec i k) as [->|N]; eauto.
    rewrite Gk in G0. inversion G0; subst. congruence.
Qed.

Lemma pid_map f g g' px :
  PidInv g px -> (forall j, jpid (f j) = jpid j) ->
  (forall i, g' i = option_map f (g i)) -> PidInv g' px.
Proof.
  intros [P1 P2] Ep U. split.
  - intros i j H. rewrite U in H. destruct (g i) as [j0|] eqn:G; [|discriminate].
    cbn in H. inversion H; subst. rewrite Ep. auto.
  - intros p i H. destruct (P2 _ _ H) as [j0 [G0 E0]]. rewrite U, G0. cbn.
    eexists; split; eauto. rewrite Ep. auto.
Qed.

Lemma in_iter_from l : forall n i j,
  In (i, j) (iter_from n l) <-> exists k, i = n + k /\ getL l k = Some j.
Proof.
  induction l as [|[j0|] l IH]; intros n i j; cbn [iter_from In]; rewrite ?IH.
  - split; [intros [] | intros ([|k] & _ & H); discriminate].
  - split.
    + intros [E | (k & -> & G)].
      * inversion E; subst. exists 0. split; [lia|reflexivity].
      * exists (S k). split; [lia|exact G].
    + intros ([|k] & -> & G).
      * left. inversion G. f_equal. lia.
      * right. exists k. split; [lia|exact G].
  - split.
    + intros (k & -> & G). exists (S k). split; [lia|exact G].
    + intros ([|k] & -> & G); [discriminate|]. exists k. split; [lia|exact G].
Qed.

Lemma in_iter s i j : In (i, j) (iter s) <-> get s i = Some j.
Proof.
  unfold iter. rewrite in_iter_from, get_getL.
  split; [intros (k & -> & G); exact G | intros G; exists i; auto].
Qed.

Lemma nodup_iter_from l : forall n, NoDup (map fst (iter_from n l)).
Proof.
  induction l as [|[j|] l IH]; intros n; cbn.
  - constructor.
  - constructor; [|apply IH]. intros H. apply in_map_iff in H.
    destruct H as [[i j'] [E H]]. cbn in E; subst. apply in_iter_from in H. destruct H as (k & E & _). lia.
  - apply IH.
Qed.

Lemma nodup_iter s : NoDup (map fst (iter s)).
Proof. apply nodup_iter_from. Qed.

Lemma nodup_fst_filter {A} (f : nat * A -> bool) L :
  NoDup (map fst L) -> NoDup (map fst (filter f L)).
Proof.
  induction L as [|x L IH]; cbn; auto. intros ND. inversion ND as [|? ? Hn ND0]; subst.
  destruct (f x); cbn; auto. constructor; auto.
  intros H. apply Hn. apply in_map_iff in H. destruct H as [y [E Hy]].
  apply filter_In in Hy. apply in_map_iff. exists y. tauto.
Qed.

(* the first entry that a search of the table finds *)
Lemma filter_iter_spec (F : nat * job -> bool) s :
  match filter F (iter s) with
  | [] => forall i j, get s i = Some j -> F (i, j) = false
  | (i, j) :: _ => get s i = Some j /\ F (i, j) = true
  end.
Proof.
  destruct (filter F (iter s)) as [|[i j] r] eqn:E.
  - intros i j G. apply in_iter in G. destruct (F (i, j)) eqn:Fx; auto.
    assert (H : In (i, j) (filter F (iter s))) by (apply filter_In; auto).
    rewrite E in H. destruct H.
  - rewrite <- in_iter. apply filter_In. rewrite E. left. reflexivity.
Qed.

Lemma find_first_spec f s :
  match find_first f s with
  | Some i => exists j, get s i = Some j /\ f i j = true
  | None => forall i j, get s i = Some j -> f i j = false
  end.
Proof.
  unfold find_first. pose proof (filter_iter_spec (fun p => f (fst p) (snd p)) s) as H.
  destruct (filter _ (iter s)) as [|[i j] r]; [exact H|eauto].
Qed.

Lemma any_susp_spec s :
  pick_susp (svL (slots s)) (cur s) (any_suspended_job_but_current s).
Proof.
  unfold any_suspended_job_but_current, pick_susp.
  pose proof (find_first_spec (fun i j => negb (Nat.eqb i (cur s)) && suspended j) s) as H.
  destruct (find_first _ s) as [i|].
  - destruct H as (j & G & F). apply andb_true_iff in F. destruct F as [F1 F2].
    apply negb_true_iff, Nat.eqb_neq in F1. split; auto.
    rewrite (svL_get G), F2. reflexivity.
  - intros i N E. apply svL_some_get in E. destruct E as (j & G & Sj).
    specialize (H _ _ G). cbn in H. apply Nat.eqb_neq in N. rewrite N, Sj in H. discriminate.
Qed.

Lemma any_job_spec s :
  pick_any (svL (slots s)) (cur s) (any_job_but_current s).
Proof.
  unfold any_job_but_current, pick_any.
  pose proof (find_first_spec (fun i _ => negb (Nat.eqb i (cur s))) s) as H.
  destruct (find_first _ s) as [i|].
  - destruct H as (j & G & F). apply negb_true_iff, Nat.eqb_neq in F. split; auto.
    rewrite (svL_get G). discriminate.
  - intros i N. destruct (svL (slots s) i) as [b|] eqn:E; auto.
    apply svL_some_get in E. destruct E as (j & G & _).
    specialize (H _ _ G). cbn in H. apply Nat.eqb_neq in N. rewrite N in H. discriminate.
Qed.

Lemma exists_susp_false s :
  existsb (fun p => suspended (snd p)) (iter s) = false ->
  forall i, svL (slots s) i <> Some true.
Proof.
  intros H i E. apply svL_some_get in E. destruct E as [j [G Sj]].
  apply in_iter in G.
  assert (X : existsb (fun p => suspended (snd p)) (iter s) = true)
    by (apply existsb_exists; exists (i, j); auto).
  congruence.
Qed.

Lemma opt_susp_cur s : opt_susp s (current_job s) = svL (slots s) (cur s).
Proof.
  unfold current_job, contains, opt_susp, svL. rewrite <- get_getL.
  destruct (get s (cur s)) eqn:G; cbn; [rewrite G|]; reflexivity.
Qed.

(* what the operations read about the previous job *)
Lemma previous_job_spec s :
  match previous_job s with
  | Some p => p = prev s /\ prev s <> cur s /\ exists j, get s p = Some j
  | None => prev s = cur s \/ svL (slots s) (prev s) = None
  end.
Proof.
  unfold previous_job, contains.
  destruct (Nat.eqb_spec (prev s) (cur s)) as [E|E]; cbn [negb andb]; auto.
  destruct (get s (prev s)) as [j|] eqn:G; [eauto|].
  right. unfold svL. rewrite <- get_getL, G. reflexivity.
Qed.

(* ... as [insert] reads it *)
Lemma opt_susp_prev s :
  match opt_susp s (previous_job s) with
  | Some b => prev s <> cur s /\ svL (slots s) (prev s) = Some b
  | None => prev s = cur s \/ svL (slots s) (prev s) = None
  end.
Proof.
  pose proof (previous_job_spec s) as V. destruct (previous_job s) as [p|]; [|exact V].
  destruct V as (-> & N & j & G). cbn [opt_susp]. rewrite G. split; [exact N|exact (svL_get G)].
Qed.
