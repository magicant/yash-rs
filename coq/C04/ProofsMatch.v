(* C04 — leftmost-first matching (bt) against a declarative reading of the
   structured regex (RM): soundness, completeness, and — for the regexes a
   single-width pattern is translated to — the priority order of greedy /
   lazy stars coincides with the length order. *)
From Yv Require Import Common.Base C04.Model C04.Spec.
From Coq Require Import List NArith Bool Arith Lia.
Import ListNotations.

Lemma bt_star_unfold lazy n r pos s :
  bt lazy (RStar n :: r) pos s =
  if lazy then
    match bt lazy r pos s with
    | Some k => Some k
    | None =>
        match s with
        | x :: s' => if smatch n x then omap S (bt lazy (RStar n :: r) (S pos) s') else None
        | [] => None
        end
    end
  else
    match (match s with
           | x :: s' => if smatch n x then omap S (bt lazy (RStar n :: r) (S pos) s') else None
           | [] => None
           end) with
    | Some k => Some k
    | None => bt lazy r pos s
    end.
Proof. destruct s; reflexivity. Qed.

(* the anonymous fixpoint [try] of bt's RAlt case as a function of its own, with
   the rest of the regex as continuation, so that one can induct on the
   alternatives (bt_alt_unfold) *)
Fixpoint alt_try (cont : nat -> str -> option nat) (pos : nat) (s : str) (l : list (list snode))
    : option nat :=
  match l with
  | [] => None
  | alt :: l' =>
      match seq_match alt s with
      | Some (k, s') =>
          match cont (k + pos) s' with
          | Some m => Some (k + m)
          | None => alt_try cont pos s l'
          end
      | None => alt_try cont pos s l'
      end
  end.

Lemma bt_alt_unfold lazy alts r pos s :
  bt lazy (RAlt alts :: r) pos s = alt_try (bt lazy r) pos s alts.
Proof.
  cbn [bt]. induction alts as [|alt alts IH]; [reflexivity|].
  cbn [alt_try]. destruct (seq_match alt s) as [[k s']|]; [|exact IH].
  destruct (bt lazy r (k + pos) s'); [reflexivity|exact IH].
Qed.

Lemma seq_match_length alt : forall s j s', seq_match alt s = Some (j, s') -> s' = skipn j s /\ j <= length s.
Proof.
  induction alt as [|n alt IH]; intros s j s' H.
  - inversion H; subst. split; [reflexivity|lia].
  - destruct s as [|x s0]; [discriminate|]. cbn [seq_match] in H.
    destruct (smatch n x); [|discriminate].
    destruct (seq_match alt s0) as [[j0 s0']|] eqn:E; [|discriminate].
    inversion H; subst. destruct (IH _ _ _ E) as [-> Hl]. split; [reflexivity|cbn; lia].
Qed.

Lemma bt_sound lazy : forall r pos s k, bt lazy r pos s = Some k -> RM r pos s k.
Proof.
  induction r as [|nd r IH]; intros pos s k H.
  - inversion H; subst. constructor.
  - destruct nd as [n|n|alts| |].
    + destruct s as [|x s']; [discriminate|]. cbn [bt] in H.
      destruct (smatch n x) eqn:Hx; [|discriminate].
      destruct (bt lazy r (S pos) s') as [k0|] eqn:E; [|discriminate].
      inversion H; subst. constructor; [exact Hx|apply IH; exact E].
    + revert pos k H. induction s as [|x s' IHs]; intros pos k H; rewrite bt_star_unfold in H.
      * destruct lazy.
        -- destruct (bt true r pos []) eqn:E; [|discriminate]. inversion H; subst.
           apply RM_star_stop. apply IH. exact E.
        -- apply RM_star_stop. apply IH. exact H.
      * assert (Hmore : forall k, (if smatch n x then omap S (bt lazy (RStar n :: r) (S pos) s') else None) = Some k ->
                                  RM (RStar n :: r) pos (x :: s') k).
        { intros k0 Hm. destruct (smatch n x) eqn:Hx; [|discriminate].
          destruct (bt lazy (RStar n :: r) (S pos) s') as [k1|] eqn:E; [|discriminate].
          inversion Hm; subst. apply RM_star_more; [exact Hx|]. apply IHs. exact E. }
        destruct lazy.
        -- destruct (bt true r pos (x :: s')) as [k0|] eqn:E.
           ++ inversion H; subst. apply RM_star_stop. apply IH. exact E.
           ++ apply Hmore. exact H.
        -- destruct (if smatch n x then omap S (bt false (RStar n :: r) (S pos) s') else None) as [k0|] eqn:E.
           ++ inversion H; subst. apply Hmore. reflexivity.
           ++ apply RM_star_stop. apply IH. exact H.
    + rewrite bt_alt_unfold in H.
      assert (G : forall l, (forall a, In a l -> In a alts) ->
                  alt_try (bt lazy r) pos s l = Some k -> RM (RAlt alts :: r) pos s k).
      { induction l as [|alt l IHl]; intros Hsub Hl; [discriminate|].
        cbn [alt_try] in Hl.
        destruct (seq_match alt s) as [[j s']|] eqn:Es.
        - destruct (bt lazy r (j + pos) s') as [m|] eqn:Eb.
          + inversion Hl; subst. eapply RM_alt; [apply Hsub; left; reflexivity|exact Es|apply IH; exact Eb].
          + apply IHl; [intros a Ha; apply Hsub; right; exact Ha|exact Hl].
        - apply IHl; [intros a Ha; apply Hsub; right; exact Ha|exact Hl]. }
      apply (G alts); [auto|exact H].
    + cbn [bt] in H. destruct (Nat.eqb pos 0) eqn:Ep; [|discriminate].
      apply Nat.eqb_eq in Ep. subst pos. constructor. apply IH. exact H.
    + cbn [bt] in H. destruct s; [|discriminate]. constructor. apply IH. exact H.
Qed.

Lemma bt_complete lazy : forall r pos s k, RM r pos s k -> exists k', bt lazy r pos s = Some k'.
Proof.
  intros r pos s k H. induction H as
    [pos s
    |n r pos x s k Hx H IH
    |n r pos s k H IH
    |n r pos x s k Hx H IH
    |alts r pos s alt j s' k Hin Hs H IH
    |r s k H IH
    |r pos k H IH].
  - exists 0. reflexivity.
  - destruct IH as [k' E]. exists (S k'). cbn [bt]. rewrite Hx, E. reflexivity.
  - destruct IH as [k' E]. rewrite bt_star_unfold. destruct lazy.
    + rewrite E. eauto.
    + destruct (match s with
                | [] => None
                | x :: s' => if smatch n x then omap S (bt false (RStar n :: r) (S pos) s') else None
                end); eauto.
  - destruct IH as [k' E]. rewrite bt_star_unfold. rewrite Hx, E. cbn [omap]. destruct lazy.
    + destruct (bt true r pos (x :: s)); eauto.
    + eauto.
  - destruct IH as [k' E]. rewrite bt_alt_unfold.
    induction alts as [|a alts IHa]; [destruct Hin|].
    cbn [alt_try]. destruct Hin as [->|Hin].
    + rewrite Hs, E. eauto.
    + destruct (seq_match a s) as [[j0 s0]|]; [|apply IHa; exact Hin].
      destruct (bt lazy r (j0 + pos) s0); [eauto|apply IHa; exact Hin].
  - destruct IH as [k' E]. exists k'. cbn [bt]. exact E.
  - destruct IH as [k' E]. exists k'. cbn [bt]. exact E.
Qed.

Lemma bt_none lazy r pos s : bt lazy r pos s = None -> forall k, ~ RM r pos s k.
Proof.
  intros H k Hk. destruct (bt_complete lazy _ _ _ _ Hk) as [k' E]. congruence.
Qed.

Lemma RM_le : forall r pos s k, RM r pos s k -> k <= length s.
Proof.
  intros r pos s k H. induction H; cbn [length] in *; try lia.
  apply seq_match_length in H0 as [-> Hl]. rewrite skipn_length in IHRM. lia.
Qed.

Lemma glob_cons n r : glob_rx (n :: r) = true -> glob_node n = true /\ glob_rx r = true.
Proof. unfold glob_rx. cbn [forallb]. intros H. apply andb_true_iff in H. exact H. Qed.

(* the absolute offset only matters for \A *)
Lemma RM_pos : forall r p s k, RM r p s k -> glob_rx r = true -> forall p', RM r p' s k.
Proof.
  intros r p s k H. induction H; intros Hg p'.
  - constructor.
  - apply glob_cons in Hg as [_ Hg]. constructor; [assumption|]. apply IHRM. exact Hg.
  - pose proof Hg as Hg0. apply glob_cons in Hg as [_ Hg]. apply RM_star_stop. apply IHRM. exact Hg.
  - apply RM_star_more; [assumption|]. apply IHRM. exact Hg.
  - apply glob_cons in Hg as [Hn _]. discriminate.
  - apply glob_cons in Hg as [Hn _]. discriminate.
  - apply glob_cons in Hg as [_ Hg]. constructor. apply IHRM. exact Hg.
Qed.

Lemma RM_star_inv : forall r0 p s k, RM r0 p s k -> forall r, r0 = RStar SAny :: r ->
  exists j m, k = j + m /\ j <= length s /\ RM r (j + p) (skipn j s) m.
Proof.
  intros r0 p s k H. induction H; intros r1 E; try discriminate.
  - inversion E; subst. exists 0, k. repeat split; [lia|assumption].
  - inversion E; subst. destruct (IHRM r1 eq_refl) as (j & m & -> & Hj2 & Hj3).
    exists (S j), m. cbn [skipn length]. repeat split; [lia|].
    replace (S j + pos) with (j + S pos) by lia. exact Hj3.
Qed.

Lemma RM_star_compose r : forall j p s m,
  j <= length s -> RM r (j + p) (skipn j s) m -> RM (RStar SAny :: r) p s (j + m).
Proof.
  induction j as [|j IH]; intros p s m Hj H.
  - apply RM_star_stop. exact H.
  - destruct s as [|x s']; [cbn in Hj; lia|]. cbn [Nat.add].
    apply RM_star_more; [reflexivity|]. apply IH; [cbn in Hj; lia|].
    replace (j + S p) with (S j + p) by lia. exact H.
Qed.

Lemma skipn_cons_tail {A} : forall d (x y : A) s t, skipn d (x :: s) = y :: t -> t = skipn d s /\ d <= length s.
Proof.
  induction d as [|d IH]; intros x y s t H.
  - cbn in H. inversion H; subst. split; [reflexivity|lia].
  - cbn [skipn] in H. destruct s as [|x' s']; [destruct d; discriminate|].
    destruct (IH _ _ _ _ H) as [-> Hl]. split; [reflexivity|cbn; lia].
Qed.

Lemma skipn_skipn {A} : forall a b (l : list A), skipn a (skipn b l) = skipn (a + b) l.
Proof.
  intros a b. revert a. induction b as [|b IH]; intros a l.
  - rewrite Nat.add_0_r. reflexivity.
  - destruct l as [|x l]; [rewrite !skipn_nil; reflexivity|].
    replace (a + S b) with (S (a + b)) by lia. cbn [skipn]. apply IH.
Qed.

(* Two matches of a glob regex (one-character nodes, .* and \z) can exchange
   their ends: if r matches from an earlier start up to E1 and from a later
   start up to E2 <= E1, it also matches from the earlier start up to E2 and
   from the later one up to E1. *)
Lemma RM_cross : forall r, glob_rx r = true -> forall s d k1 k2 p1 p2,
  RM r p1 s k1 -> RM r p2 (skipn d s) k2 -> d + k2 <= k1 ->
  RM r p1 s (d + k2) /\ exists k3, k1 = d + k3 /\ RM r p2 (skipn d s) k3.
Proof.
  induction r as [|nd r IH]; intros Hg s d k1 k2 p1 p2 H1 H2 Hle.
  - inversion H1; subst. assert (d = 0) by lia. assert (k2 = 0) by lia. subst.
    split; [constructor|exists 0; split; [reflexivity|exact H2]].
  - apply glob_cons in Hg as [Hn Hg]. destruct nd as [n|n|alts| |]; try discriminate.
    + inversion H1 as [|? ? ? x s' k1' Hx H1'| | | | |]; subst.
      inversion H2 as [|? ? ? y t k2' Hy H2' Heq| | | | |]; subst.
      match goal with E : y :: t = skipn d (x :: s') |- _ => symmetry in E;
        destruct (skipn_cons_tail _ _ _ _ _ E) as [-> Hl] end.
      destruct (IH Hg s' d k1' k2' _ _ H1' H2' ltac:(lia)) as (Ha & k3 & -> & Hb).
      split.
      * replace (d + S k2') with (S (d + k2')) by lia. constructor; assumption.
      * exists (S k3). split; [lia|constructor; assumption].
    + destruct n; try discriminate. pose proof (RM_le _ _ _ _ H1) as Hk1.
      destruct (RM_star_inv _ _ _ _ H1 r eq_refl) as (j1 & m1 & -> & Hl1 & Hm1).
      destruct (RM_star_inv _ _ _ _ H2 r eq_refl) as (j2 & m2 & -> & Hl2 & Hm2).
      rewrite skipn_length in Hl2. rewrite skipn_skipn in Hm2. split.
      * replace (d + (j2 + m2)) with ((j2 + d) + m2) by lia.
        apply RM_star_compose; [lia|]. eapply RM_pos; [exact Hm2|exact Hg].
      * destruct (le_lt_dec d j1) as [Hd|Hd].
        -- exists ((j1 - d) + m1). split; [lia|].
           apply RM_star_compose; [rewrite skipn_length; lia|].
           rewrite skipn_skipn. replace (j1 - d + d) with j1 by lia.
           eapply RM_pos; [exact Hm1|exact Hg].
        -- assert (Hm2' : RM r (j2 + p2) (skipn (j2 + d - j1) (skipn j1 s)) m2).
           { rewrite skipn_skipn. replace (j2 + d - j1 + j1) with (j2 + d) by lia.
             eapply RM_pos; [exact Hm2|exact Hg]. }
           destruct (IH Hg (skipn j1 s) (j2 + d - j1) m1 m2 _ _ Hm1 Hm2' ltac:(lia)) as (_ & m3 & -> & Hm3).
           exists (j2 + m3). split; [lia|].
           apply RM_star_compose; [rewrite skipn_length; lia|].
           rewrite skipn_skipn in Hm3 |- *. replace (j2 + d - j1 + j1) with (j2 + d) in Hm3 by lia. exact Hm3.
    + pose proof (RM_le _ _ _ _ H1) as Hk1. inversion H1; subst. cbn [length] in Hk1.
      assert (d = 0) by lia. subst d. cbn [skipn] in *. inversion H2; subst.
      match goal with A : RM r p1 [] k1, B : RM r p2 [] k2 |- _ =>
        destruct (IH Hg [] 0 k1 k2 _ _ A B Hle) as (Ha & k3 & -> & Hb) end.
      cbn [skipn] in Hb. split; [constructor; exact Ha|exists k3; split; [reflexivity|constructor; exact Hb]].
Qed.

Lemma glob_star_any n r : glob_rx (RStar n :: r) = true -> n = SAny.
Proof. intros H. apply glob_cons in H as [H _]. destruct n; try discriminate. reflexivity. Qed.

(* The priority order of a backtracking engine is the length order on glob
   regexes: the first match is the longest with greedy stars, the shortest with
   lazy ones.  Only the star tells the two apart: a competing match that lets
   the star stop earlier (greedy) or run on further (lazy) than bt did is
   exchanged, by RM_cross, for one that bt has already beaten. *)
Theorem bt_extremal lazy : forall r, glob_rx r = true -> forall pos s k,
  bt lazy r pos s = Some k -> forall p' k', RM r p' s k' -> if lazy then k <= k' else k' <= k.
Proof.
  induction r as [|nd r IH]; intros Hg pos s k H p' k' HR.
  - inversion H; inversion HR; subst. destruct lazy; lia.
  - pose proof Hg as Hg0. apply glob_cons in Hg as [Hn Hg].
    destruct nd as [n|n|alts| |]; try discriminate.
    + destruct s as [|x s']; [discriminate|]. cbn [bt] in H.
      destruct (smatch n x); [|discriminate].
      destruct (bt lazy r (S pos) s') as [k0|] eqn:E; [|discriminate]. inversion H; subst.
      inversion HR; subst.
      match goal with A : RM r _ s' _ |- _ => pose proof (IH Hg _ _ _ E _ _ A) end.
      destruct lazy; lia.
    + pose proof (glob_star_any _ _ Hg0) as ->.
      revert pos k H p' k' HR. destruct lazy; cbv iota in IH |- *.
      * induction s as [|x s' IHs]; intros pos k H p' k' HR; rewrite bt_star_unfold in H.
        -- destruct (bt true r pos []) as [k0|] eqn:E; [|discriminate]. inversion H; subst.
           inversion HR; subst. eapply IH; eassumption.
        -- destruct (bt true r pos (x :: s')) as [k0|] eqn:E.
           ++ inversion H; subst.
              inversion HR as [| |? ? ? ? ? Hstop|? ? ? ? ? ? Hx Hmore| | |]; subst.
              ** eapply IH; eassumption.
              ** (* the competing match lets the star run on *)
                 destruct (RM_star_inv _ _ _ _ Hmore r eq_refl) as (j & m & -> & Hj2 & Hj3).
                 assert (Hj3' : RM r (j + S p') (skipn (S j) (x :: s')) m) by exact Hj3.
                 pose proof (bt_sound _ _ _ _ _ E) as Hs.
                 destruct (le_lt_dec k (S j + m)) as [Hle|Hlt]; [lia|].
                 destruct (RM_cross r Hg (x :: s') (S j) k m _ _ Hs Hj3' ltac:(lia)) as (Hk3 & _).
                 pose proof (IH Hg _ _ _ E _ _ Hk3). lia.
           ++ cbn [smatch] in H.
              destruct (bt true (RStar SAny :: r) (S pos) s') as [k0|] eqn:E2; [|discriminate].
              inversion H; subst.
              inversion HR as [| |? ? ? ? ? Hstop|? ? ? ? ? ? Hx Hmore| | |]; subst.
              ** exfalso. eapply (bt_none _ _ _ _ E). eapply RM_pos; [exact Hstop|exact Hg].
              ** pose proof (IHs _ _ E2 _ _ Hmore). lia.
      * induction s as [|x s' IHs]; intros pos k H p' k' HR; rewrite bt_star_unfold in H.
        -- inversion HR; subst. eapply IH; eassumption.
        -- cbn [smatch] in H.
           destruct (bt false (RStar SAny :: r) (S pos) s') as [k0|] eqn:E; cbn [omap] in H.
           ++ inversion H; subst.
              inversion HR as [| |? ? ? ? ? Hstop|? ? ? ? ? ? Hx Hmore| | |]; subst.
              ** (* the competing match stops the star here *)
                 pose proof (bt_sound _ _ _ _ _ E) as Hs.
                 destruct (RM_star_inv _ _ _ _ Hs r eq_refl) as (j & m & -> & Hj2 & Hj3).
                 assert (Hj3' : RM r (j + S pos) (skipn (S j) (x :: s')) m) by exact Hj3.
                 destruct (le_lt_dec k' (S j + m)) as [Hle|Hlt]; [lia|].
                 destruct (RM_cross r Hg (x :: s') (S j) k' m _ _ Hstop Hj3' ltac:(lia)) as (_ & k3 & -> & Hk3).
                 cbn [skipn] in Hk3.
                 pose proof (RM_star_compose r j (S pos) s' k3 Hj2 Hk3) as Hc.
                 pose proof (IHs _ _ E _ _ Hc). lia.
              ** pose proof (IHs _ _ E _ _ Hmore). lia.
           ++ inversion HR as [| |? ? ? ? ? Hstop|? ? ? ? ? ? Hx Hmore| | |]; subst.
              ** eapply IH; eassumption.
              ** exfalso. eapply (bt_none _ _ _ _ E). eapply RM_pos; [exact Hmore|exact Hg0].
    + destruct s; [|discriminate]. cbn [bt] in H. inversion HR; subst. eapply IH; eassumption.
Qed.
