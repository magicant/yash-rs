(* C04 — Pattern: compile, what find and rfind answer (for the regex path and
   for the literal fast path), `case` patterns and the four trim forms
   against the specification. *)
From Yv Require Import Common.Base C04.Model C04.Spec C04.ProofsParse C04.ProofsRegex
  C04.ProofsMatch C04.ProofsSem.
From Coq Require Import List NArith Bool Arith Lia.
Import ListNotations.

Lemma to_literal_chars a l : to_literal a = Some l -> a = map AChar l.
Proof.
  revert l. induction a as [|at_ a IH]; intros l H.
  - inversion H; subst. reflexivity.
  - destruct at_ as [c| | |b]; try discriminate. cbn [to_literal] in H.
    destruct (to_literal a) as [l'|]; [|discriminate]. inversion H; subst.
    cbn [map]. rewrite (IH l' eq_refl). reflexivity.
Qed.

Lemma Denote_chars l s : Denote (map AChar l) s <-> s = l.
Proof.
  revert s. induction l as [|c l IH]; intros s; cbn [map].
  - apply Denote_nil_iff.
  - split.
    + intros H. inversion H as [|? ? u v Hu Hv]; subst. cbn [atom_lang] in Hu. subst u.
      apply IH in Hv. subst v. reflexivity.
    + intros ->. change (c :: l) with ([c] ++ l). constructor; [reflexivity|apply IH; reflexivity].
Qed.

Lemma valid_chars l : valid_ast (map AChar l) = true.
Proof. induction l; [reflexivity|exact IHl]. Qed.

Lemma compile_cases cfg p a :
  parse_pattern p = Some a ->
  (exists l, a = map AChar l /\ compile cfg p = COk (BodyLit l)) \/
  match all_some (map node_of_atom a) with
  | Some ns => compile cfg p = COk (BodyRx (rx_cfg cfg ns) (starts_with_literal_dot a))
  | None => exists e, compile cfg p = CErr e
  end.
Proof.
  intros Hp. unfold compile, compile_ast. rewrite Hp. destruct (to_literal a) as [l|] eqn:Hlit.
  - left. exists l. split; [apply to_literal_chars, Hlit|reflexivity].
  - right. pose proof (fmt_regex_parses_back cfg a) as H. unfold rx_of_ast in H. fold (rx_cfg cfg) in H.
    destruct (ast_fmt cfg a) as [s|e].
    + rewrite H. destruct (all_some (map node_of_atom a)); [reflexivity|eexists; reflexivity].
    + destruct (all_some (map node_of_atom a)); [discriminate|eexists; reflexivity].
Qed.

Definition lit_nodes (l : str) : rx := map (fun c => RS (SLit c)) l.

Lemma lit_nodes_of l : all_some (map node_of_atom (map AChar l)) = Some (lit_nodes l).
Proof.
  induction l as [|c l IH]; [reflexivity|]. cbn [map all_some node_of_atom]. cbn [map] in IH.
  rewrite IH. reflexivity.
Qed.

Definition bt_at (lazy : bool) (r : rx) (text : str) (x : nat) : option nat :=
  bt lazy r x (skipn x text).

(* find answers with the match at the leftmost start that has one, rfind
   with the one at the rightmost *)
Definition leftmost (lazy : bool) (r : rx) (text : str) (res : option (nat * nat)) : Prop :=
  match res with
  | Some (x, y) => x <= length text /\ (exists k, bt_at lazy r text x = Some k /\ y = x + k) /\
                   forall m, m < x -> bt_at lazy r text m = None
  | None => forall x, x <= length text -> bt_at lazy r text x = None
  end.

Definition rightmost (lazy : bool) (r : rx) (text : str) (res : fres) : Prop :=
  match res with
  | FSome x y => x <= length text /\ (exists k, bt_at lazy r text x = Some k /\ y = x + k) /\
                 forall m, x < m -> m <= length text -> bt_at lazy r text m = None
  | FNone => forall x, x <= length text -> bt_at lazy r text x = None
  | FFuel => False
  end.

(* the regex path: find_at scans from the left, the loop of rfind goes on to the
   last start *)

Lemma find_scan_spec lazy r at_ : forall s pos,
  match find_scan lazy r at_ pos s with
  | Some (a, b) =>
      exists d k, a = pos + d /\ b = a + k /\ d <= length s /\ at_ <= a /\
                  bt lazy r a (skipn d s) = Some k /\
                  forall d', d' < d -> at_ <= pos + d' -> bt lazy r (pos + d') (skipn d' s) = None
  | None => forall d, d <= length s -> at_ <= pos + d -> bt lazy r (pos + d) (skipn d s) = None
  end.
Proof.
  induction s as [|x s IH]; intros pos; cbn [find_scan];
    destruct (if Nat.leb at_ pos then bt lazy r pos _ else None) as [k|] eqn:Eh.
  1,3: destruct (Nat.leb at_ pos) eqn:E; [apply Nat.leb_le in E|discriminate];
       exists 0, k; rewrite Nat.add_0_r; repeat split; try lia; exact Eh.
  - intros d Hd Hat. cbn [length] in Hd. replace d with 0 in * by lia. rewrite Nat.add_0_r in *.
    apply Nat.leb_le in Hat. rewrite Hat in Eh. exact Eh.
  - assert (Hhere : at_ <= pos + 0 -> bt lazy r (pos + 0) (x :: s) = None).
    { rewrite Nat.add_0_r. intros Hat. apply Nat.leb_le in Hat. rewrite Hat in Eh. exact Eh. }
    specialize (IH (S pos)). destruct (find_scan lazy r at_ (S pos) s) as [[a b]|].
    + destruct IH as (d & k & -> & -> & Hd & Hat & Hb & Hmin). exists (S d), k.
      cbn [skipn length]. replace (pos + S d) with (S pos + d) by lia.
      repeat split; try lia; try assumption.
      intros [|d'] Hd' Hat'; [exact (Hhere Hat')|]. cbn [skipn].
      replace (pos + S d') with (S pos + d') in * by lia. apply Hmin; lia.
    + intros [|d] Hd Hat; [exact (Hhere Hat)|]. cbn [skipn].
      replace (pos + S d) with (S pos + d) in * by lia. apply IH; [cbn [length] in Hd; lia|exact Hat].
Qed.

Lemma rfind_loop_spec lazy r text : forall fuel x k,
  length text - x < fuel -> x <= length text -> bt_at lazy r text x = Some k ->
  rightmost lazy r text
    match rfind_loop fuel lazy r text (x, x + k) with Some (a, b) => FSome a b | None => FFuel end.
Proof.
  induction fuel as [|f IH]; intros x k Hf Hx Hb; [lia|]. cbn [rfind_loop fst].
  assert (Hlast : (forall m, x < m -> m <= length text -> bt_at lazy r text m = None) ->
                  rightmost lazy r text (FSome x (x + k))) by (intros H; repeat split; eauto).
  destruct (Nat.leb (S x) (length text)) eqn:E.
  - unfold rx_find_at. pose proof (find_scan_spec lazy r (S x) text 0) as Hs.
    destruct (find_scan lazy r (S x) 0 text) as [[a b]|].
    + destruct Hs as (d & k' & -> & -> & Hd & Hat & Hb' & _). cbn [Nat.add] in *.
      apply IH; [lia|exact Hd|exact Hb'].
    + apply Hlast. intros m Hm Hml. apply (Hs m Hml). exact Hm.
  - apply Nat.leb_gt in E. apply Hlast. intros m Hm Hml. lia.
Qed.

Lemma regex_answers cfg r dot text :
  literal_period cfg = false ->
  leftmost (shortest_match cfg) r text (pat_find cfg (BodyRx r dot) text) /\
  rightmost (shortest_match cfg) r text (pat_rfind cfg (BodyRx r dot) text).
Proof.
  intros Hlp. cbn [pat_rfind pat_find]. unfold at_index. rewrite Hlp. cbn [andb]. unfold rx_find_at.
  pose proof (find_scan_spec (shortest_match cfg) r 0 text 0) as Hs.
  destruct (find_scan (shortest_match cfg) r 0 0 text) as [[x y]|].
  - destruct Hs as (d & k & -> & -> & Hd & _ & Hb & Hmin). cbn [Nat.add] in *. split.
    + split; [exact Hd|]. split; [eauto|]. intros m Hm. apply (Hmin m Hm), Nat.le_0_l.
    + apply rfind_loop_spec; [lia|exact Hd|exact Hb].
  - split; intros x Hx; apply (Hs x Hx), Nat.le_0_l.
Qed.

(* the literal fast path answers like the regex of the literal *)

(* where the literal matches under the anchors *)
Definition lit_at (cfg : config) (l text : str) (x : nat) : bool :=
  (negb (anchor_begin cfg) || Nat.eqb x 0) && starts_with l (skipn x text) &&
  (negb (anchor_end cfg) || Nat.eqb (x + length l) (length text)).

Lemma lit_at_iff cfg l text x :
  lit_at cfg l text x = true <->
  (anchor_begin cfg = true -> x = 0) /\ starts_with l (skipn x text) = true /\
  (anchor_end cfg = true -> x + length l = length text).
Proof.
  unfold lit_at. rewrite !andb_true_iff, !orb_true_iff, !negb_true_iff, !Nat.eqb_eq.
  destruct (anchor_begin cfg), (anchor_end cfg); intuition congruence.
Qed.

Lemma DenoteK_chars l s k : DenoteK (map AChar l) s k <-> k = length l /\ starts_with l s = true.
Proof.
  unfold DenoteK. rewrite Denote_chars, starts_with_iff. split.
  - intros [Hk <-]. rewrite firstn_length_le by exact Hk. auto.
  - intros (-> & H & Hl). auto.
Qed.

Lemma lit_bt_at cfg l text lazy x :
  x <= length text ->
  bt_at lazy (rx_cfg cfg (lit_nodes l)) text x =
  if lit_at cfg l text x then Some (length l) else None.
Proof.
  intros Hx. unfold bt_at.
  assert (Hiff : forall k, RM (rx_cfg cfg (lit_nodes l)) x (skipn x text) k <->
                           k = length l /\ lit_at cfg l text x = true).
  { intros k. rewrite (RM_cfg cfg _ _ (lit_nodes_of l)), DenoteK_chars, lit_at_iff, skipn_length. split.
    - intros (H1 & (-> & H2) & H3). repeat split; try assumption. intros E. specialize (H3 E). lia.
    - intros (-> & H1 & H2 & H3). repeat split; try assumption. intros E. specialize (H3 E). lia. }
  destruct (bt lazy (rx_cfg cfg (lit_nodes l)) x (skipn x text)) as [k|] eqn:Eb.
  - apply bt_sound in Eb. apply Hiff in Eb as [-> ->]. reflexivity.
  - destruct (lit_at cfg l text x) eqn:El; [|reflexivity]. exfalso.
    eapply (bt_none _ _ _ _ Eb). apply Hiff. split; reflexivity.
Qed.

Lemma find_sub_spec l : forall t pos,
  match find_sub l pos t with
  | Some p => exists d, p = pos + d /\ d <= length t /\ starts_with l (skipn d t) = true /\
                        forall d', d' < d -> starts_with l (skipn d' t) = false
  | None => forall d, d <= length t -> starts_with l (skipn d t) = false
  end.
Proof.
  induction t as [|x t IH]; intros pos; cbn [find_sub].
  - destruct (starts_with l []) eqn:E.
    + exists 0. rewrite Nat.add_0_r. repeat split; [lia|exact E|intros d' Hd'; lia].
    + intros d Hd. cbn [length] in Hd. assert (d = 0) by lia. subst. exact E.
  - destruct (starts_with l (x :: t)) eqn:E.
    + exists 0. rewrite Nat.add_0_r. repeat split; [lia|exact E|intros d' Hd'; lia].
    + specialize (IH (S pos)). destruct (find_sub l (S pos) t) as [p|].
      * destruct IH as (d & -> & Hd & Hs & Hmin). exists (S d). repeat split; [lia|cbn; lia|exact Hs|].
        intros d' Hd'. destruct d' as [|d']; [exact E|]. cbn [skipn]. apply Hmin. lia.
      * intros d Hd. destruct d as [|d]; [exact E|]. cbn [skipn]. apply IH. cbn in Hd. lia.
Qed.

Lemma rfind_sub_spec l : forall t pos,
  match rfind_sub l pos t with
  | Some p => exists d, p = pos + d /\ d <= length t /\ starts_with l (skipn d t) = true /\
                        forall d', d < d' -> d' <= length t -> starts_with l (skipn d' t) = false
  | None => forall d, d <= length t -> starts_with l (skipn d t) = false
  end.
Proof.
  induction t as [|x t IH]; intros pos; cbn [rfind_sub].
  - destruct (starts_with l []) eqn:E.
    + exists 0. rewrite Nat.add_0_r. repeat split; [lia|exact E|]. intros d' H1 H2. cbn in H2. lia.
    + intros d Hd. cbn [length] in Hd. assert (d = 0) by lia. subst. exact E.
  - specialize (IH (S pos)). destruct (rfind_sub l (S pos) t) as [p|].
    + destruct IH as (d & -> & Hd & Hs & Hmax). exists (S d). repeat split; [lia|cbn; lia|exact Hs|].
      intros d' H1 H2. destruct d' as [|d']; [lia|]. cbn [skipn]. apply Hmax; [lia|cbn in H2; lia].
    + destruct (starts_with l (x :: t)) eqn:E.
      * exists 0. rewrite Nat.add_0_r. repeat split; [lia|exact E|].
        intros d' H1 H2. destruct d' as [|d']; [lia|]. cbn [skipn]. apply IH. cbn in H2. lia.
      * intros d Hd. destruct d as [|d]; [exact E|]. cbn [skipn]. apply IH. cbn in Hd. lia.
Qed.

Lemma starts_with_same_length l s : starts_with l s = true -> length l = length s -> s = l.
Proof.
  intros H Hl. apply starts_with_iff in H as [H _]. rewrite Hl, firstn_all in H. exact H.
Qed.

Lemma ends_with_iff s t :
  ends_with s t = true <-> length s <= length t /\ skipn (length t - length s) t = s.
Proof.
  unfold ends_with. rewrite andb_true_iff, Nat.leb_le, str_eqb_eq. split; intros [H1 H2]; split; auto.
Qed.

Lemma literal_answers cfg l text lazy :
  leftmost lazy (rx_cfg cfg (lit_nodes l)) text (pat_find cfg (BodyLit l) text) /\
  rightmost lazy (rx_cfg cfg (lit_nodes l)) text (pat_rfind cfg (BodyLit l) text).
Proof.
  set (r := rx_cfg cfg (lit_nodes l)).
  assert (Hyes : forall x, x <= length text -> lit_at cfg l text x = true ->
                           exists k, bt_at lazy r text x = Some k /\ x + length l = x + k).
  { intros x Hx H. exists (length l). unfold r. rewrite lit_bt_at, H by exact Hx. auto. }
  assert (Hno : forall x, x <= length text -> lit_at cfg l text x <> true -> bt_at lazy r text x = None).
  { intros x Hx H. unfold r. rewrite lit_bt_at by exact Hx. destruct (lit_at cfg l text x); congruence. }
  (* with an anchor there is one candidate start *)
  assert (Honly : forall x0, x0 <= length text -> lit_at cfg l text x0 = true ->
            (forall x, lit_at cfg l text x = true -> x = x0) ->
            leftmost lazy r text (Some (x0, x0 + length l)) /\
            rightmost lazy r text (FSome x0 (x0 + length l))).
  { intros x0 H0 Hat Hu.
    split; (split; [exact H0|]; split; [apply Hyes; assumption|]); intros m Hm; [|intros Hml];
      (apply Hno; [lia|]); intros E; apply Hu in E; lia. }
  assert (Hnone : (forall x, lit_at cfg l text x <> true) ->
                  leftmost lazy r text None /\ rightmost lazy r text FNone).
  { intros H. split; intros x Hx; apply Hno; auto. }
  cbn [pat_find pat_rfind]. unfold lit_find.
  destruct (anchor_begin cfg) eqn:Hab, (anchor_end cfg) eqn:Hae.
  - destruct (str_eqb text l) eqn:E.
    + apply str_eqb_eq in E. subst text. apply (Honly 0); [lia| |].
      * apply lit_at_iff. cbn [skipn]. rewrite starts_with_refl. auto.
      * intros x H. apply lit_at_iff in H as (H & _). exact (H Hab).
    + apply Hnone. intros x H. apply lit_at_iff in H as (H1 & H2 & H3).
      rewrite (H1 Hab) in *. cbn [skipn Nat.add] in *.
      rewrite (starts_with_same_length _ _ H2 (H3 Hae)) in E.
      assert (str_eqb l l = true) by (apply str_eqb_eq; reflexivity). congruence.
  - destruct (starts_with l text) eqn:E.
    + apply (Honly 0); [lia| |].
      * apply lit_at_iff. rewrite Hae. cbn [skipn]. repeat split; [exact E|discriminate].
      * intros x H. apply lit_at_iff in H as (H & _). exact (H Hab).
    + apply Hnone. intros x H. apply lit_at_iff in H as (H1 & H2 & _).
      rewrite (H1 Hab) in H2. cbn [skipn] in H2. congruence.
  - destruct (ends_with l text) eqn:E.
    + apply ends_with_iff in E as [E1 E2].
      replace (length text) with (length text - length l + length l) at 2 4 by lia.
      apply Honly; [lia| |].
      * apply lit_at_iff. rewrite Hab, E2, starts_with_refl. repeat split; [discriminate|lia].
      * intros x H. apply lit_at_iff in H as (_ & _ & H). specialize (H Hae). lia.
    + apply Hnone. intros x H. apply lit_at_iff in H as (_ & H2 & H3). specialize (H3 Hae).
      assert (ends_with l text = true); [|congruence].
      apply ends_with_iff. split; [lia|]. replace (length text - length l) with x by lia.
      apply starts_with_same_length; [exact H2|rewrite skipn_length; lia].
  - assert (Hat : forall x, lit_at cfg l text x = starts_with l (skipn x text)).
    { intros x. unfold lit_at. rewrite Hab, Hae. apply andb_true_r. }
    split.
    + pose proof (find_sub_spec l text 0) as Hs. destruct (find_sub l 0 text) as [p|]; cbn [omap].
      * destruct Hs as (d & -> & Hd & Hsw & Hmin). cbn [Nat.add].
        split; [exact Hd|]. split; [apply Hyes; [exact Hd|rewrite Hat; exact Hsw]|].
        intros m Hm. apply Hno; [lia|]. rewrite Hat, (Hmin m Hm). discriminate.
      * intros x Hx. apply Hno; [exact Hx|]. rewrite Hat, (Hs x Hx). discriminate.
    + pose proof (rfind_sub_spec l text 0) as Hs. destruct (rfind_sub l 0 text) as [p|]; cbn [omap].
      * destruct Hs as (d & -> & Hd & Hsw & Hmax). cbn [Nat.add].
        split; [exact Hd|]. split; [apply Hyes; [exact Hd|rewrite Hat; exact Hsw]|].
        intros m Hm Hml. apply Hno; [exact Hml|]. rewrite Hat, (Hmax m Hm Hml). discriminate.
      * intros x Hx. apply Hno; [exact Hx|]. rewrite Hat, (Hs x Hx). discriminate.
Qed.

(* Either the pattern has a regex, and then the compiled body (literal or
   not) answers like that regex; or compilation fails. *)
Theorem compile_answers cfg p a text :
  literal_period cfg = false -> parse_pattern p = Some a ->
  match all_some (map node_of_atom a) with
  | Some ns =>
      exists b, compile cfg p = COk b /\
                pat_is_match cfg b text = is_some (pat_find cfg b text) /\
                leftmost (shortest_match cfg) (rx_cfg cfg ns) text (pat_find cfg b text) /\
                rightmost (shortest_match cfg) (rx_cfg cfg ns) text (pat_rfind cfg b text)
  | None => exists e, compile cfg p = CErr e
  end.
Proof.
  intros Hlp Hp. destruct (compile_cases cfg p a Hp) as [(l & -> & ->)|Hc].
  - rewrite lit_nodes_of. eexists. split; [reflexivity|]. split; [reflexivity|apply literal_answers].
  - destruct (all_some (map node_of_atom a)) as [ns|]; [|exact Hc].
    eexists. split; [exact Hc|]. split; [reflexivity|apply regex_answers; exact Hlp].
Qed.

Lemma leftmost_some lazy r text res :
  leftmost lazy r text res ->
  (is_some res = true <-> exists x k, x <= length text /\ RM r x (skipn x text) k).
Proof.
  destruct res as [[x y]|]; cbn [leftmost is_some].
  - intros (Hx & (k & Hb & _) & _). split; [intros _|reflexivity].
    exists x, k. split; [exact Hx|apply (bt_sound _ _ _ _ _ Hb)].
  - intros Hn. split; [discriminate|]. intros (x & k & Hx & HR).
    destruct (bt_none _ _ _ _ (Hn x Hx) k HR).
Qed.

Theorem case_pattern_correct_any p a s :
  parse_pattern p = Some a ->
  match compile case_config p with
  | COk b => pat_is_match case_config b s = true <-> Matches a s
  | CErr _ => valid_ast a = false
  | CUnsup | CFuel => False
  end.
Proof.
  intros Hp. pose proof (compile_answers case_config p a s eq_refl Hp) as H.
  unfold Matches. rewrite valid_nodes.
  destruct (all_some (map node_of_atom a)) as [ns|] eqn:Hns.
  - destruct H as (b & -> & -> & Hl & _). rewrite (leftmost_some _ _ _ _ Hl). cbn [is_some].
    split.
    + intros (x & k & Hx & HR). apply (RM_cfg _ _ _ Hns) in HR as (H0 & Hd & Hk).
      pose proof (H0 eq_refl) as ->. rewrite (Hk eq_refl) in Hd.
      split; [reflexivity|]. apply DenoteK_all, Hd.
    + intros [_ Hd]. exists 0, (length s). split; [lia|]. apply (RM_cfg _ _ _ Hns).
      split; [auto|]. split; [apply DenoteK_all, Hd|auto].
  - destruct H as [e ->]. reflexivity.
Qed.

(* case_pattern_correct_any under a hypothesis (single_width) it has no use for *)
Theorem case_pattern_correct p a s :
  parse_pattern p = Some a -> single_width a = true ->
  match compile case_config p with
  | COk b => pat_is_match case_config b s = true <-> Matches a s
  | CErr _ => valid_ast a = false
  | CUnsup | CFuel => False
  end.
Proof. intros Hp _. apply case_pattern_correct_any. exact Hp. Qed.

(* with only the start anchored, the match bt finds is the shortest / longest one *)
Lemma prefix_extremal cfg ns lazy x s k x' k' :
  glob_rx ns = true -> anchor_begin cfg = true -> anchor_end cfg = false ->
  bt lazy (rx_cfg cfg ns) x s = Some k -> RM (rx_cfg cfg ns) x' s k' ->
  if lazy then k <= k' else k' <= k.
Proof.
  unfold rx_cfg. intros Hg -> ->. cbn [app]. rewrite app_nil_r. intros Hb HR.
  inversion HR; subst. cbn [bt] in Hb. destruct (Nat.eqb x 0); [|discriminate].
  eapply bt_extremal; eassumption.
Qed.

Lemma drain_suffix a v : drain a (length v) v = firstn a v.
Proof. unfold drain. rewrite skipn_all. apply app_nil_r. Qed.

Section Trim.
Variables (a : ast) (ns : rx) (v : str).
Hypothesis Hns : all_some (map node_of_atom a) = Some ns.

(* prefix / suffix matches in terms of the regex of the trim configuration *)
Lemma prefix_match_RM len n :
  PrefixMatch a v n <-> RM (rx_cfg (trim_config Prefix len) ns) 0 v n.
Proof.
  rewrite (RM_cfg _ _ _ Hns). unfold PrefixMatch, Matches, DenoteK.
  rewrite valid_nodes, Hns. cbn. intuition discriminate.
Qed.

Lemma suffix_match_RM len x :
  x <= length v ->
  (SuffixMatch a v (length v - x) <->
   RM (rx_cfg (trim_config Suffix len) ns) x (skipn x v) (length v - x)).
Proof.
  intros Hx. rewrite (RM_cfg _ _ _ Hns). unfold SuffixMatch, Matches.
  rewrite valid_nodes, Hns, <- (skipn_length x v), DenoteK_all.
  replace (length v - length (skipn x v)) with x by (rewrite skipn_length; lia).
  pose proof (skipn_length x v) as E. cbn. intuition (discriminate || lia).
Qed.

(* with \z at the end every match ends at the end of the text *)
Lemma bt_at_suffix_match len lazy x k :
  x <= length v ->
  bt_at lazy (rx_cfg (trim_config Suffix len) ns) v x = Some k ->
  x + k = length v /\ SuffixMatch a v (length v - x).
Proof.
  intros Hx Hb. apply bt_sound in Hb. pose proof Hb as HR.
  apply (RM_cfg _ _ _ Hns) in HR as (_ & _ & Hk). specialize (Hk eq_refl).
  rewrite skipn_length in Hk. split; [lia|]. apply (suffix_match_RM len x Hx).
  rewrite <- Hk. exact Hb.
Qed.

Lemma suffix_match_bt_at len lazy n :
  SuffixMatch a v n ->
  n <= length v /\ bt_at lazy (rx_cfg (trim_config Suffix len) ns) v (length v - n) <> None.
Proof.
  intros Hm. pose proof Hm as [Hn _]. split; [exact Hn|].
  replace n with (length v - (length v - n)) in Hm by lia.
  apply (suffix_match_RM len) in Hm; [|lia].
  destruct (bt_complete lazy _ _ _ _ Hm) as [k' E]. unfold bt_at. congruence.
Qed.

(* # and ##: \A leaves the start 0 only, and the match bt finds there is the
   shortest / longest one (the priority order of a single-width pattern is the
   length order) *)
Lemma trim_prefix len resf :
  single_width a = true ->
  let cfg := trim_config Prefix len in
  leftmost (shortest_match cfg) (rx_cfg cfg ns) v resf ->
  TrimSpec Prefix len a v match resf with Some (x, y) => drain x y v | None => v end.
Proof.
  intros Hsw cfg Hl. subst cfg. pose proof (nodes_glob a ns Hsw Hns) as Hg.
  destruct resf as [[x y]|]; cbn [leftmost] in Hl.
  - destruct Hl as (Hx & (k & Hb & ->) & _).
    pose proof (bt_sound _ _ _ _ _ Hb) as HR.
    pose proof (proj1 (proj1 (RM_cfg _ _ _ Hns _ _ _) HR) eq_refl) as ->.
    assert (Hext : forall m, PrefixMatch a v m -> if shortest_match (trim_config Prefix len) then k <= m else m <= k).
    { intros m Hm. apply (prefix_match_RM len) in Hm.
      exact (prefix_extremal (trim_config Prefix len) _ _ _ _ _ _ _ Hg eq_refl eq_refl Hb Hm). }
    apply (prefix_match_RM len) in HR.
    destruct len; left; exists k; (split; [split; [exact HR|exact Hext]|reflexivity]).
  - assert (Hno : forall n, ~ PrefixMatch a v n).
    { intros n Hn. apply (prefix_match_RM len) in Hn.
      exact (bt_none _ _ _ _ (Hl 0 (Nat.le_0_l _)) _ Hn). }
    destruct len; right; (split; [exact Hno|reflexivity]).
Qed.

(* %: the shortest suffix starts at the rightmost start, the one rfind answers
   with; no restriction on the pattern *)
Lemma trim_suffix_shortest resr :
  rightmost true (rx_cfg (trim_config Suffix Shortest) ns) v resr ->
  match resr with
  | FSome x y => TrimSpec Suffix Shortest a v (drain x y v)
  | FNone => TrimSpec Suffix Shortest a v v
  | FFuel => False
  end.
Proof.
  intros Hr. destruct resr as [x y| |]; cbn [rightmost] in Hr; [| |exact Hr].
  - destruct Hr as (Hx & (k & Hb & ->) & Hmax).
    destruct (bt_at_suffix_match _ _ _ _ Hx Hb) as [-> Hm]. rewrite drain_suffix.
    left. exists (length v - x). split; [split; [exact Hm|]|f_equal; lia].
    intros m Hmm. destruct (suffix_match_bt_at Shortest true _ Hmm) as [Hml Hne].
    destruct (le_lt_dec (length v - m) x) as [Hle|Hlt]; [lia|]. destruct (Hne (Hmax _ Hlt ltac:(lia))).
  - right. split; [|reflexivity]. intros n Hn.
    destruct (suffix_match_bt_at Shortest true _ Hn) as [Hnl Hne]. apply Hne, Hr. lia.
Qed.

(* %%: the longest suffix starts at the leftmost start, the one find answers with *)
Lemma trim_suffix_longest resf :
  leftmost false (rx_cfg (trim_config Suffix Longest) ns) v resf ->
  TrimSpec Suffix Longest a v match resf with Some (x, y) => drain x y v | None => v end.
Proof.
  intros Hl. destruct resf as [[x y]|]; cbn [leftmost] in Hl.
  - destruct Hl as (Hx & (k & Hb & ->) & Hmin).
    destruct (bt_at_suffix_match _ _ _ _ Hx Hb) as [-> Hm]. rewrite drain_suffix.
    left. exists (length v - x). split; [split; [exact Hm|]|f_equal; lia].
    intros m Hmm. destruct (suffix_match_bt_at Longest false _ Hmm) as [Hml Hne].
    destruct (le_lt_dec x (length v - m)) as [Hle|Hlt]; [lia|]. destruct (Hne (Hmin _ Hlt)).
  - right. split; [|reflexivity]. intros n Hn.
    destruct (suffix_match_bt_at Longest false _ Hn) as [Hnl Hne]. apply Hne, Hl. lia.
Qed.

End Trim.

Theorem quoted_is_literal s :
  parse_pattern (map Literal s) = Some (map AChar s) /\
  forall t, Matches (map AChar s) t <-> t = s.
Proof.
  split.
  - unfold parse_pattern. apply parse_atoms_literals. rewrite map_length. lia.
  - intros t. unfold Matches. rewrite valid_chars, Denote_chars. tauto.
Qed.
