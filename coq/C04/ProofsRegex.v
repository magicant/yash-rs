(* C04 — the string emitted by ast/regex.rs, read back by the regex syntax,
   is the intended structure: escaping is complete for every character. *)
From Yv Require Import Common.Base C04.Model C04.Spec.
From Coq Require Import List NArith Bool Arith Lia.
Import ListNotations.

Definition bspecial (c : N) : bool := mem_N c bracket_special_chars || mem_N c special_chars.

Lemma mem_N_in c l : mem_N c l = true <-> In c l.
Proof.
  unfold mem_N. rewrite existsb_exists. split.
  - intros (x & Hx & E). apply N.eqb_eq in E. subst. exact Hx.
  - intros H. exists c. split; [exact H|apply N.eqb_refl].
Qed.

Lemma mem_N_false_in c l x : mem_N c l = false -> In x l -> N.eqb c x = false.
Proof.
  intros H Hx. destruct (N.eqb c x) eqn:E; [|reflexivity].
  apply N.eqb_eq in E. subst x. apply mem_N_in in Hx. congruence.
Qed.

Lemma mem_N_false_subset c l sub :
  mem_N c l = false -> forallb (fun x => mem_N x l) sub = true -> mem_N c sub = false.
Proof.
  intros H Hs. destruct (mem_N c sub) eqn:E; [|reflexivity].
  apply mem_N_in in E. rewrite forallb_forall in Hs. specialize (Hs c E). congruence.
Qed.

(* The facts below are all the development needs to know about the two
   constants (read from the source on every run): every escaped character
   can be escaped in the regex syntax and none of them is A or z; every
   character with a meaning in the regex syntax is among them. *)
Lemma special_all_escapable : forallb escaped_literal special_chars = true.
Proof. vm_compute. reflexivity. Qed.

Lemma bracket_special_all_escapable : forallb escaped_literal bracket_special_chars = true.
Proof. vm_compute. reflexivity. Qed.

Lemma special_none_Az :
  forallb (fun c => negb (N.eqb c c_A) && negb (N.eqb c c_z)) special_chars = true.
Proof. vm_compute. reflexivity. Qed.

Definition top_meta : list N :=
  [c_bslash; c_dot; c_star; c_lbr; c_lpar; c_rpar; c_bar; c_plus; c_quest; c_lbrace; c_rbrace;
   c_caret; c_dollar; c_rbr].

Lemma top_meta_special : forallb (fun x => mem_N x special_chars) top_meta = true.
Proof. vm_compute. reflexivity. Qed.

Lemma class_meta_bspecial :
  forallb (fun x => mem_N x bracket_special_chars || mem_N x special_chars)
          [c_rbr; c_caret; c_amp; c_hyphen; c_tilde] = true.
Proof. vm_compute. reflexivity. Qed.

Lemma forallb_mem_N (f : N -> bool) l c : forallb f l = true -> mem_N c l = true -> f c = true.
Proof. rewrite forallb_forall, mem_N_in. auto. Qed.

Lemma special_escapable c : mem_N c special_chars = true -> escaped_literal c = true.
Proof. apply forallb_mem_N, special_all_escapable. Qed.

Lemma bspecial_escapable c : bspecial c = true -> escaped_literal c = true.
Proof.
  unfold bspecial. intros H. apply orb_true_iff in H as [H|H].
  - exact (forallb_mem_N _ _ c bracket_special_all_escapable H).
  - exact (special_escapable c H).
Qed.

Lemma special_not_Az c : mem_N c special_chars = true -> N.eqb c c_A = false /\ N.eqb c c_z = false.
Proof.
  intros H. pose proof (forallb_mem_N _ _ c special_none_Az H) as A.
  apply andb_true_iff in A as [A1 A2]. apply negb_true_iff in A1. apply negb_true_iff in A2. auto.
Qed.

(* c is none of the characters rx_loop gives a meaning to (tp_unsup is its
   catch-all list of unsupported operators) nor, inside (?: ), group_loop
   (tp_unsup_in_group is its list) *)
Record top_plain (c : N) : Prop := {
  tp_bslash : N.eqb c c_bslash = false;
  tp_dot : N.eqb c c_dot = false;
  tp_star : N.eqb c c_star = false;
  tp_lbr : N.eqb c c_lbr = false;
  tp_lpar : N.eqb c c_lpar = false;
  tp_rpar : N.eqb c c_rpar = false;
  tp_bar : N.eqb c c_bar = false;
  tp_unsup : mem_N c [c_plus; c_quest; c_rpar; c_bar; c_lbrace; c_rbrace; c_caret; c_dollar; c_rbr] = false;
  tp_unsup_in_group : mem_N c [c_plus; c_star; c_quest; c_lpar; c_lbrace; c_rbrace; c_caret; c_dollar; c_rbr] = false
}.

Lemma not_special_plain c : mem_N c special_chars = false -> top_plain c.
Proof.
  intros H. pose proof (mem_N_false_subset c special_chars top_meta H top_meta_special) as Ht.
  constructor; try (apply (mem_N_false_in c top_meta _ Ht); cbn; tauto);
    apply (mem_N_false_subset c top_meta _ Ht); reflexivity.
Qed.

(* ... nor class_loop *)
Record class_plain (c : N) : Prop := {
  cp_top : top_plain c;
  cp_rbr : N.eqb c c_rbr = false;
  cp_caret : N.eqb c c_caret = false;
  cp_amp : N.eqb c c_amp = false;
  cp_hyphen : N.eqb c c_hyphen = false;
  cp_tilde : N.eqb c c_tilde = false
}.

Lemma not_bspecial_plain c : bspecial c = false -> class_plain c.
Proof.
  unfold bspecial. intros H. pose proof H as H0. apply orb_false_iff in H as [Hb Hs].
  assert (G : forall x, In x [c_rbr; c_caret; c_amp; c_hyphen; c_tilde] -> N.eqb c x = false).
  { intros x Hx. destruct (N.eqb c x) eqn:E; [|reflexivity]. apply N.eqb_eq in E. subst x.
    pose proof class_meta_bspecial as A. rewrite forallb_forall in A. specialize (A c Hx).
    congruence. }
  constructor; [apply not_special_plain; exact Hs| | | | |]; apply G; cbn; tauto.
Qed.

Lemma fmt_char_b_cases c :
  (bspecial c = true /\ fmt_char_b c = [c_bslash; c]) \/ (bspecial c = false /\ fmt_char_b c = [c]).
Proof. unfold fmt_char_b, bspecial. destruct (_ || _); [left|right]; split; reflexivity. Qed.

Lemma class_prim_char c t : class_prim (fmt_char_b c ++ t) = RxOk (c, t).
Proof.
  destruct (fmt_char_b_cases c) as [[Hs ->]|[Hs ->]]; cbn [app class_prim].
  - rewrite N.eqb_refl. rewrite (bspecial_escapable c Hs). reflexivity.
  - rewrite (tp_bslash c (cp_top c (not_bspecial_plain c Hs))). reflexivity.
Qed.

(* s does not begin with one of the characters that are syntax at the head of a
   class (^ for class_open, a leading - or ]) or after the hyphen of a range
   (] and - end the range test of class_loop): true of whatever bitem_fmt
   writes for a single-width member (item_head) *)
Definition plain_start (s : str) : Prop :=
  match s with
  | [] => False
  | h :: _ => N.eqb h c_hyphen = false /\ N.eqb h c_rbr = false /\ N.eqb h c_caret = false
  end.

Lemma fmt_char_b_head c t : plain_start (fmt_char_b c ++ t).
Proof.
  destruct (fmt_char_b_cases c) as [[Hs ->]|[Hs ->]]; cbn [app plain_start].
  - repeat split; reflexivity.
  - pose proof (not_bspecial_plain c Hs) as P.
    repeat split; [apply (cp_hyphen c P)|apply (cp_rbr c P)|apply (cp_caret c P)].
Qed.

(* at the head of an iteration of the class loop, such a character reaches
   the literal / range branch *)
Lemma class_loop_char_head f neg acc c t :
  class_loop (S f) neg acc (fmt_char_b c ++ t) =
  match t with
  | [] => RxErr
  | h :: s2 =>
      let is_range :=
        N.eqb h c_hyphen &&
        match s2 with
        | d :: _ => negb (N.eqb d c_rbr) && negb (N.eqb d c_hyphen)
        | [] => true
        end in
      if is_range then
        match class_prim s2 with
        | RxOk (hi, s3) => if N.leb c hi then class_loop f neg (CRange c hi :: acc) s3 else RxErr
        | RxErr => RxErr
        | RxUnsup => RxUnsup
        end
      else class_loop f neg (CLit c :: acc) t
  end.
Proof.
  pose proof (class_prim_char c t) as Hp.
  destruct (fmt_char_b_cases c) as [[Hs E]|[Hs E]]; rewrite E in *; cbn [app] in *.
  - cbn [class_loop].
    replace (N.eqb c_bslash c_lbr) with false by reflexivity.
    replace (N.eqb c_bslash c_rbr) with false by reflexivity.
    replace (N.eqb c_bslash c_amp || N.eqb c_bslash c_hyphen || N.eqb c_bslash c_tilde) with false
      by reflexivity.
    cbn [andb]. rewrite Hp. reflexivity.
  - pose proof (not_bspecial_plain c Hs) as P.
    cbn [class_loop].
    rewrite (tp_lbr c (cp_top c P)), (cp_rbr c P), (cp_amp c P), (cp_hyphen c P), (cp_tilde c P).
    cbn [orb andb]. rewrite Hp. reflexivity.
Qed.

Definition nonhyphen_start (t : str) : Prop :=
  match t with [] => False | h :: _ => N.eqb h c_hyphen = false end.

Lemma plain_start_nonhyphen s : plain_start s -> nonhyphen_start s.
Proof. destruct s; [exact (fun x => x)|]. intros (H & _). exact H. Qed.

Lemma class_item_char f neg acc c t :
  nonhyphen_start t ->
  class_loop (S f) neg acc (fmt_char_b c ++ t) = class_loop f neg (CLit c :: acc) t.
Proof.
  intros Ht. rewrite class_loop_char_head. destruct t as [|h s2]; [destruct Ht|].
  cbn [nonhyphen_start] in Ht. rewrite Ht. reflexivity.
Qed.

Lemma class_item_range f neg acc l h t :
  class_loop (S f) neg acc (fmt_char_b l ++ c_hyphen :: fmt_char_b h ++ t) =
  if N.leb l h then class_loop f neg (CRange l h :: acc) t else RxErr.
Proof.
  rewrite class_loop_char_head. rewrite N.eqb_refl.
  pose proof (fmt_char_b_head h t) as Hh.
  destruct (fmt_char_b h ++ t) as [|d r] eqn:E; [destruct Hh|].
  destruct Hh as (H1 & H2 & _). rewrite H1, H2. cbn [negb andb].
  rewrite <- E. rewrite class_prim_char. reflexivity.
Qed.

Lemma take_until_colon_app name t :
  existsb (N.eqb c_colon) name = false ->
  take_until_colon (name ++ c_colon :: t) = Some (name, c_colon :: t).
Proof.
  induction name as [|c r IH]; intros H.
  - reflexivity.
  - cbn [existsb] in H. apply orb_false_iff in H as [H1 H2].
    cbn [app take_until_colon]. rewrite N.eqb_sym, H1. rewrite IH by exact H2. reflexivity.
Qed.

Lemma assoc_str_in {A} k l (v : A) : assoc_str k l = Some v -> In (k, v) l.
Proof.
  induction l as [|[k' v'] l IH]; [discriminate|]. cbn [assoc_str].
  destruct (str_eqb k k') eqn:E; [|right; apply IH; assumption].
  apply str_eqb_eq in E. intros H. inversion H; subst. left. reflexivity.
Qed.

Lemma class_name_plain name k :
  class_of_name name = Some k ->
  existsb (N.eqb c_colon) name = false /\
  forall t, match name ++ t with d :: _ => N.eqb d c_caret | [] => false end = false.
Proof.
  intros H. apply assoc_str_in in H.
  assert (A : forallb (fun p => negb (existsb (N.eqb c_colon) (fst p)) &&
                               match fst p with d :: _ => negb (N.eqb d c_caret) | [] => false end)
                      class_names = true) by reflexivity.
  rewrite forallb_forall in A. specialize (A _ H). cbn [fst] in A.
  apply andb_true_iff in A as [A1 A2]. apply negb_true_iff in A1. split; [exact A1|].
  intros t. destruct name as [|d r]; [discriminate|]. apply negb_true_iff in A2. exact A2.
Qed.

Lemma class_item_ascii f neg acc name k t :
  class_of_name name = Some k ->
  class_loop (S f) neg acc (c_lbr :: c_colon :: name ++ c_colon :: c_rbr :: t) =
  class_loop f neg (CAscii k :: acc) t.
Proof.
  intros Hk. cbn [class_loop]. rewrite N.eqb_refl.
  unfold parse_ascii_class. rewrite N.eqb_refl.
  destruct (class_name_plain name k Hk) as [Hcolon Hcaret].
  rewrite Hcaret, (take_until_colon_app _ _ Hcolon).
  rewrite !N.eqb_refl. cbn [andb fst snd]. rewrite Hk. reflexivity.
Qed.

Lemma nonmulti_coll (v : str) : Nat.ltb 1 (length v) = false -> v = [] \/ exists c, v = [c].
Proof.
  intros H. apply Nat.ltb_ge in H.
  destruct v as [|c1 [|c2 r]]; [left; reflexivity|right; eexists; reflexivity|cbn in H; lia].
Qed.

Lemma single_fmt a s :
  batom_fmt_single a = EOk s -> exists c, endpoint a = Some c /\ s = fmt_char_b c.
Proof.
  destruct a as [c|[|c v]|[|c v]|n]; cbn; intros H; try discriminate;
    inversion H; subst; eexists; split; reflexivity.
Qed.

(* what a member that stands for single characters is written as *)
Lemma nonmulti_fmt it s :
  bitem_fmt it = EOk s -> bitem_multi it = false ->
  (exists c, s = fmt_char_b c /\ citem_of it = Some (CLit c)) \/
  (exists name k, class_of_name name = Some k /\
                  s = c_lbr :: c_colon :: name ++ [c_colon; c_rbr] /\ citem_of it = Some (CAscii k)) \/
  (exists l h, s = fmt_char_b l ++ c_hyphen :: fmt_char_b h /\
               citem_of it = if N.leb l h then Some (CRange l h) else None).
Proof.
  intros Hfmt Hm. destruct it as [[c|v|v|name]|lo hi]; cbn [bitem_fmt batom_fmt] in Hfmt.
  2,3: left; destruct (nonmulti_coll v Hm) as [->|[c ->]]; [discriminate|];
       exists c; cbn [is_nil flat_map] in Hfmt; rewrite app_nil_r in Hfmt; inversion Hfmt; auto.
  - left. exists c. inversion Hfmt. auto.
  - right. left. cbn [citem_of]. destruct (class_of_name name) as [k|] eqn:Hk; [|discriminate].
    exists name, k. inversion Hfmt. auto.
  - right. right. unfold ebind in Hfmt.
    destruct (batom_fmt_single lo) as [s1|e1] eqn:E1; [|discriminate].
    destruct (batom_fmt_single hi) as [s2|e2] eqn:E2; [|discriminate].
    inversion Hfmt; subst.
    destruct (single_fmt lo s1 E1) as (l & Hl & ->). destruct (single_fmt hi s2 E2) as (h & Hh & ->).
    exists l, h. cbn [citem_of]. rewrite Hl, Hh. auto.
Qed.

(* one iteration of the class loop reads it *)
Lemma class_item it s :
  bitem_fmt it = EOk s -> bitem_multi it = false ->
  forall f neg acc t, nonhyphen_start t ->
    class_loop (S f) neg acc (s ++ t) =
    match citem_of it with
    | Some ci => class_loop f neg (ci :: acc) t
    | None => RxErr
    end.
Proof.
  intros Hfmt Hm f neg acc t Ht.
  destruct (nonmulti_fmt it s Hfmt Hm) as [(c & -> & ->)|[(name & k & Hk & -> & ->)|(l & h & -> & ->)]].
  - apply class_item_char, Ht.
  - cbn [app]. rewrite <- app_assoc. apply class_item_ascii, Hk.
  - rewrite <- app_assoc. cbn [app]. rewrite class_item_range. destruct (N.leb l h); reflexivity.
Qed.

Lemma item_head it s :
  bitem_fmt it = EOk s -> bitem_multi it = false -> forall t, plain_start (s ++ t).
Proof.
  intros Hfmt Hm t.
  destruct (nonmulti_fmt it s Hfmt Hm) as [(c & -> & _)|[(name & k & _ & -> & _)|(l & h & -> & _)]].
  - apply fmt_char_b_head.
  - cbn [app plain_start]. repeat split; reflexivity.
  - rewrite <- app_assoc. apply fmt_char_b_head.
Qed.

Lemma fmt_all_cons {A} (f : A -> eres str) x r s :
  fmt_all f (x :: r) = EOk s ->
  exists s1 s2, f x = EOk s1 /\ fmt_all f r = EOk s2 /\ s = s1 ++ s2.
Proof.
  cbn [fmt_all]. unfold ebind. destruct (f x) as [s1|e]; [|discriminate].
  destruct (fmt_all f r) as [s2|e]; [|discriminate].
  intros H. inversion H; subst. eauto.
Qed.

(* all the members, then the closing bracket *)
Lemma class_items : forall items s,
  fmt_all bitem_fmt items = EOk s ->
  forallb (fun it => negb (bitem_multi it)) items = true ->
  forall f neg acc t,
    length (s ++ c_rbr :: t) < f ->
    class_loop f neg acc (s ++ c_rbr :: t) =
    match all_some (map citem_of items) with
    | Some cs => RxOk (SClass neg (rev acc ++ cs), t)
    | None => RxErr
    end.
Proof.
  induction items as [|it items IH]; intros s Hfmt Hnm f neg acc t Hf;
    (destruct f as [|f]; [lia|]).
  - inversion Hfmt; subst. cbn [app map all_some].
    cbn [class_loop]. replace (N.eqb c_rbr c_lbr) with false by reflexivity.
    rewrite N.eqb_refl. rewrite app_nil_r. reflexivity.
  - destruct (fmt_all_cons _ _ _ _ Hfmt) as (s1 & s2 & H1 & H2 & ->).
    cbn [forallb] in Hnm. apply andb_true_iff in Hnm as [Hm Hnm]. apply negb_true_iff in Hm.
    rewrite <- app_assoc in *.
    assert (Htail : nonhyphen_start (s2 ++ c_rbr :: t)).
    { destruct items as [|it2 items2].
      - inversion H2; subst. reflexivity.
      - destruct (fmt_all_cons _ _ _ _ H2) as (u1 & u2 & G1 & G2 & ->).
        cbn [forallb] in Hnm. apply andb_true_iff in Hnm as [Hm2 _]. apply negb_true_iff in Hm2.
        rewrite <- app_assoc. apply plain_start_nonhyphen. eapply item_head; eassumption. }
    rewrite (class_item it s1 H1 Hm f neg acc _ Htail).
    cbn [map all_some]. destruct (citem_of it) as [ci|]; [|reflexivity].
    rewrite (IH s2 H2 Hnm).
    + destruct (all_some (map citem_of items)) as [cs|]; [|reflexivity].
      cbn [omap rev]. rewrite <- app_assoc. reflexivity.
    + pose proof (item_head it s1 H1 Hm []) as Hh. rewrite app_length in Hf.
      destruct s1; [destruct Hh|cbn [length] in Hf; lia].
Qed.

Lemma parse_class_items items s :
  is_nil items = false ->
  fmt_all bitem_fmt items = EOk s ->
  forallb (fun it => negb (bitem_multi it)) items = true ->
  forall (compl : bool) t,
    parse_class ((if compl then [c_caret] else []) ++ s ++ c_rbr :: t) =
    match all_some (map citem_of items) with
    | Some cs => RxOk (SClass compl cs, t)
    | None => RxErr
    end.
Proof.
  intros Hne Hfmt Hnm compl t.
  assert (Hhead : plain_start (s ++ c_rbr :: t)).
  { destruct items as [|it items']; [discriminate|].
    destruct (fmt_all_cons _ _ _ _ Hfmt) as (s1 & s2 & H1 & H2 & ->).
    cbn [forallb] in Hnm. apply andb_true_iff in Hnm as [Hm _]. apply negb_true_iff in Hm.
    rewrite <- app_assoc. eapply item_head; eassumption. }
  pose proof (class_items items s Hfmt Hnm (S (length (s ++ c_rbr :: t))) compl [] t ltac:(lia)) as Hloop.
  destruct (s ++ c_rbr :: t) as [|h rest] eqn:E; [destruct Hhead|].
  destruct Hhead as (Hh1 & Hh2 & Hh3).
  cbn [rev app] in Hloop.
  destruct compl; cbn [app]; unfold parse_class, class_open.
  - rewrite N.eqb_refl. cbn [leading_hyphens]. rewrite Hh1. rewrite Hh2. cbn [is_nil andb rev].
    exact Hloop.
  - rewrite Hh3. cbn [leading_hyphens]. rewrite Hh1. rewrite Hh2. cbn [is_nil andb rev].
    exact Hloop.
Qed.

(* Reading a piece s off the front of s ++ t takes no more iterations than s
   has characters: enough fuel for s ++ t leaves enough for t. *)
Lemma group_chars : forall v f cur alts t,
  length (flat_map fmt_char_b v ++ t) < f ->
  exists f', length t < f' /\
    group_loop f cur alts (flat_map fmt_char_b v ++ t) =
    group_loop f' (rev (map SLit v) ++ cur) alts t.
Proof.
  induction v as [|c v IH]; intros f cur alts t Hf.
  - exists f. split; [exact Hf|reflexivity].
  - cbn [flat_map] in *. rewrite <- app_assoc in *.
    destruct f as [|f]; [lia|].
    assert (Hstep : group_loop (S f) cur alts (fmt_char_b c ++ flat_map fmt_char_b v ++ t) =
                    group_loop f (SLit c :: cur) alts (flat_map fmt_char_b v ++ t)).
    { destruct (fmt_char_b_cases c) as [[Hs E]|[Hs E]]; rewrite E; cbn [app group_loop].
      - replace (N.eqb c_bslash c_rpar) with false by reflexivity.
        replace (N.eqb c_bslash c_bar) with false by reflexivity.
        rewrite N.eqb_refl. rewrite (bspecial_escapable c Hs). reflexivity.
      - pose proof (cp_top c (not_bspecial_plain c Hs)) as P.
        rewrite (tp_rpar c P), (tp_bar c P), (tp_bslash c P), (tp_dot c P), (tp_lbr c P), (tp_unsup_in_group c P).
        reflexivity. }
    destruct (IH f (SLit c :: cur) alts t) as (f' & Hf' & E).
    { rewrite app_length in Hf.
      pose proof (fmt_char_b_cases c) as [[_ Ec]|[_ Ec]]; rewrite Ec in Hf; cbn [length] in Hf; lia. }
    exists f'. split; [exact Hf'|]. rewrite Hstep, E. cbn [map rev]. rewrite <- app_assoc. reflexivity.
Qed.

Lemma group_loop_lbr f cur alts r :
  group_loop (S f) cur alts (c_lbr :: r) =
  match parse_class r with
  | RxOk (n, r') => group_loop f (n :: cur) alts r'
  | RxErr => RxErr
  | RxUnsup => RxUnsup
  end.
Proof. reflexivity. Qed.

(* what one member contributes to the alternation *)
Definition alt_str (it : bitem) (s : str) : str :=
  if bitem_multi it then s else [c_lbr] ++ s ++ [c_rbr].

Lemma group_alt it s :
  bitem_fmt it = EOk s ->
  forall f cur alts t,
    length (alt_str it s ++ t) < f ->
    exists f', length t < f' /\
      group_loop f cur alts (alt_str it s ++ t) =
      match alt_of it with
      | Some alt => group_loop f' (rev alt ++ cur) alts t
      | None => RxErr
      end.
Proof.
  intros Hfmt f cur alts t Hf. unfold alt_str, alt_of in *.
  destruct (bitem_multi it) eqn:Hm.
  - destruct it as [[c|v|v|name]|lo hi]; try discriminate Hm;
      cbn [bitem_fmt batom_fmt] in Hfmt;
      (destruct (is_nil v); [discriminate|]); inversion Hfmt; subst;
      apply group_chars; exact Hf.
  - destruct f as [|f]; [lia|]. exists f. split.
    { cbn [app length] in Hf. rewrite <- app_assoc, app_length in Hf. cbn [app length] in Hf. lia. }
    cbn [app]. rewrite group_loop_lbr.
    assert (Hall : fmt_all bitem_fmt [it] = EOk s).
    { cbn [fmt_all]. rewrite Hfmt. cbn [ebind]. rewrite app_nil_r. reflexivity. }
    pose proof (parse_class_items [it] s eq_refl Hall
                  ltac:(cbn [forallb]; rewrite Hm; reflexivity) false t) as Hpc.
    cbn [app] in Hpc. rewrite <- app_assoc. cbn [app]. rewrite Hpc.
    cbn [map all_some]. destruct (citem_of it) as [ci|]; reflexivity.
Qed.

Lemma fmt_alts_cons it r first s :
  fmt_alts (it :: r) first = EOk s ->
  exists s1 s2, bitem_fmt it = EOk s1 /\ fmt_alts r false = EOk s2 /\
                s = (if first then [] else [c_bar]) ++ alt_str it s1 ++ s2.
Proof.
  cbn [fmt_alts]. unfold ebind. destruct (bitem_fmt it) as [s1|e]; [|discriminate].
  destruct (fmt_alts r false) as [s2|e]; [|discriminate].
  intros H. inversion H; subst. exists s1, s2. repeat split; reflexivity.
Qed.

Lemma group_rest : forall items s,
  fmt_alts items false = EOk s ->
  forall f cur alts t,
    length (s ++ c_rpar :: t) < f ->
    group_loop f cur alts (s ++ c_rpar :: t) =
    match all_some (map alt_of items) with
    | Some l => RxOk (rev alts ++ [rev cur] ++ l, t)
    | None => RxErr
    end.
Proof.
  induction items as [|it items IH]; intros s Hfmt f cur alts t Hf;
    (destruct f as [|f]; [lia|]).
  - inversion Hfmt; subst. cbn [app map all_some].
    cbn [group_loop]. rewrite N.eqb_refl. cbn [rev]. rewrite ?app_nil_r. reflexivity.
  - destruct (fmt_alts_cons _ _ _ _ Hfmt) as (s1 & s2 & H1 & H2 & ->).
    cbn [app group_loop]. replace (N.eqb c_bar c_rpar) with false by reflexivity.
    rewrite N.eqb_refl. rewrite <- app_assoc.
    cbn [app length] in Hf. rewrite <- app_assoc in Hf.
    destruct (group_alt it s1 H1 f [] (rev cur :: alts) (s2 ++ c_rpar :: t) ltac:(lia)) as (f' & Hf' & ->).
    cbn [map all_some]. destruct (alt_of it) as [alt|]; [|reflexivity].
    rewrite app_nil_r. rewrite (IH s2 H2) by exact Hf'.
    destruct (all_some (map alt_of items)) as [l|]; [|reflexivity].
    cbn [omap rev app]. rewrite rev_involutive. rewrite <- !app_assoc. reflexivity.
Qed.

Lemma group_all items s :
  is_nil items = false ->
  fmt_alts items true = EOk s ->
  forall t,
    group_loop (S (length (s ++ c_rpar :: t))) [] [] (s ++ c_rpar :: t) =
    match all_some (map alt_of items) with
    | Some l => RxOk (l, t)
    | None => RxErr
    end.
Proof.
  intros Hne Hfmt t. destruct items as [|it items]; [discriminate|].
  destruct (fmt_alts_cons _ _ _ _ Hfmt) as (s1 & s2 & H1 & H2 & ->).
  cbn [app]. rewrite <- app_assoc.
  destruct (group_alt it s1 H1 _ [] [] (s2 ++ c_rpar :: t) (Nat.lt_succ_diag_r _)) as (f' & Hf' & ->).
  cbn [map all_some]. destruct (alt_of it) as [alt|]; [|reflexivity].
  rewrite app_nil_r. rewrite (group_rest items s2 H2) by exact Hf'.
  destruct (all_some (map alt_of items)) as [l|]; [|reflexivity].
  cbn [omap rev app]. rewrite rev_involutive. reflexivity.
Qed.

Lemma rx_loop_bslash f acc d r :
  rx_loop (S f) acc (c_bslash :: d :: r) =
  if N.eqb d c_A then rx_loop f (RStartText :: acc) r
  else if N.eqb d c_z then rx_loop f (REndText :: acc) r
  else if escaped_literal d then rx_loop f (RS (SLit d) :: acc) r
  else RxUnsup.
Proof. reflexivity. Qed.

Lemma rx_loop_plain f acc c r :
  top_plain c -> rx_loop (S f) acc (c :: r) = rx_loop f (RS (SLit c) :: acc) r.
Proof.
  intros P. cbn [rx_loop].
  rewrite (tp_bslash c P), (tp_dot c P), (tp_star c P), (tp_lbr c P), (tp_lpar c P), (tp_unsup c P).
  reflexivity.
Qed.

Lemma rx_loop_dot f acc r : rx_loop (S f) acc (c_dot :: r) = rx_loop f (RS SAny :: acc) r.
Proof. reflexivity. Qed.

Lemma rx_loop_star f acc n r : rx_loop (S f) (RS n :: acc) (c_star :: r) = rx_loop f (RStar n :: acc) r.
Proof. reflexivity. Qed.

Lemma rx_loop_lbr f acc r :
  rx_loop (S f) acc (c_lbr :: r) =
  match parse_class r with
  | RxOk (n, r') => rx_loop f (RS n :: acc) r'
  | RxErr => RxErr
  | RxUnsup => RxUnsup
  end.
Proof. reflexivity. Qed.

Lemma rx_loop_group f acc r :
  rx_loop (S f) acc (c_lpar :: c_quest :: c_colon :: r) =
  match group_loop (S (length r)) [] [] r with
  | RxOk (alts, r'') => rx_loop f (RAlt alts :: acc) r''
  | RxErr => RxErr
  | RxUnsup => RxUnsup
  end.
Proof. reflexivity. Qed.

Lemma existsb_false_forallb {A} (p : A -> bool) l :
  existsb p l = false -> forallb (fun x => negb (p x)) l = true.
Proof.
  induction l as [|x l IH]; [reflexivity|]. cbn. intros H. apply orb_false_iff in H as [H1 H2].
  rewrite H1, IH by exact H2. reflexivity.
Qed.

Lemma filter_nonmulti items :
  forallb (fun it => negb (bitem_multi it)) (filter (fun it => negb (bitem_multi it)) items) = true.
Proof.
  induction items as [|it items IH]; [reflexivity|]. cbn [filter].
  destruct (negb (bitem_multi it)) eqn:E; [cbn [forallb]; rewrite E, IH; reflexivity|exact IH].
Qed.

Lemma filter_nonmulti_nonnil items :
  forallb bitem_multi items = false ->
  is_nil (filter (fun it => negb (bitem_multi it)) items) = false.
Proof.
  induction items as [|it items IH]; [discriminate|]. cbn [forallb filter].
  destruct (bitem_multi it); cbn [negb andb]; [exact IH|reflexivity].
Qed.

(* when the translation reports an error there is no intended regex *)

Lemma all_some_none {A B} (f : A -> option B) l x :
  In x l -> f x = None -> all_some (map f l) = None.
Proof.
  induction l as [|y l IH]; intros Hin Hx; [destruct Hin|].
  cbn [map all_some]. destruct Hin as [->|Hin].
  - rewrite Hx. reflexivity.
  - rewrite (IH Hin Hx). destruct (f y); reflexivity.
Qed.

Lemma fmt_all_err {A} (f : A -> eres str) l e :
  fmt_all f l = EErr e -> exists x e', In x l /\ f x = EErr e'.
Proof.
  revert e. induction l as [|x l IH]; intros e; [discriminate|].
  cbn [fmt_all]. unfold ebind. destruct (f x) as [s|e1] eqn:E.
  - destruct (fmt_all f l) as [s2|e2]; [discriminate|].
    intros _. destruct (IH e2 eq_refl) as (y & e' & Hy & Hf). exists y, e'. split; [right; exact Hy|exact Hf].
  - intros _. exists x, e1. split; [left; reflexivity|exact E].
Qed.

Lemma fmt_alts_err l first e :
  fmt_alts l first = EErr e -> exists x e', In x l /\ bitem_fmt x = EErr e'.
Proof.
  revert first e. induction l as [|x l IH]; intros first e; [discriminate|].
  cbn [fmt_alts]. unfold ebind. destruct (bitem_fmt x) as [s|e1] eqn:E.
  - destruct (fmt_alts l false) as [s2|e2] eqn:E2; [discriminate|].
    intros _. destruct (IH false e2 E2) as (y & e' & Hy & Hf). exists y, e'. split; [right; exact Hy|exact Hf].
  - intros _. exists x, e1. split; [left; reflexivity|exact E].
Qed.

Lemma single_fmt_err a e : batom_fmt_single a = EErr e -> endpoint a = None.
Proof. destruct a as [c|[|c v]|[|c v]|n]; cbn; intros H; try discriminate; reflexivity. Qed.

Lemma bitem_fmt_err it e :
  bitem_fmt it = EErr e -> citem_of it = None /\ alt_of it = None.
Proof.
  intros H.
  assert (G : bitem_multi it = false /\ citem_of it = None).
  { destruct it as [[c|v|v|name]|lo hi]; cbn [bitem_fmt batom_fmt] in H.
    2,3: destruct v; [|discriminate]; split; reflexivity.
    - discriminate.
    - cbn [citem_of bitem_multi batom_multi]. destruct (class_of_name name); [discriminate|].
      split; reflexivity.
    - split; [reflexivity|]. cbn [citem_of]. unfold ebind in H.
      destruct (batom_fmt_single lo) as [s1|e1] eqn:E1.
      + destruct (batom_fmt_single hi) as [s2|e2] eqn:E2; [discriminate|].
        rewrite (single_fmt_err hi e2 E2). destruct (endpoint lo); reflexivity.
      + rewrite (single_fmt_err lo e1 E1). reflexivity. }
  destruct G as [G1 G2]. split; [exact G2|]. unfold alt_of. rewrite G1, G2. reflexivity.
Qed.

Lemma items_err_none items :
  (exists x e, In x items /\ bitem_fmt x = EErr e) ->
  all_some (map citem_of items) = None /\ all_some (map alt_of items) = None.
Proof.
  intros (x & e & Hin & Hx). destruct (bitem_fmt_err x e Hx) as (Hc & Ha).
  split; eapply all_some_none; eassumption.
Qed.

(* A bracket expression, in each of its four shapes: the class or group is
   read within one iteration of the top-level loop; when the translation
   reports an error there is no intended node. *)
Lemma rx_bracket b :
  match bracket_fmt b with
  | EOk s =>
      0 < length s /\
      forall f acc t,
        rx_loop (S f) acc (s ++ t) =
        match node_of_bracket b with
        | Some n => rx_loop f (n :: acc) t
        | None => RxErr
        end
  | EErr _ => node_of_bracket b = None
  end.
Proof.
  unfold bracket_fmt, node_of_bracket, ebind.
  destruct (is_nil (b_items b)) eqn:Hne; [reflexivity|].
  destruct (existsb bitem_multi (b_items b)) eqn:Hm; cbn [negb].
  - destruct (b_complement b) eqn:Hc; cbn [negb].
    + destruct (forallb bitem_multi (b_items b)) eqn:Ha; [split; [cbn; lia|reflexivity]|].
      destruct (fmt_all bitem_fmt _) as [u|e] eqn:Hu.
      * split; [cbn [app length]; lia|]. intros f acc t.
        cbn [app]. rewrite rx_loop_lbr, <- app_assoc. cbn [app].
        pose proof (parse_class_items _ u (filter_nonmulti_nonnil _ Ha) Hu (filter_nonmulti _) true t) as Hpc.
        cbn [app] in Hpc. rewrite Hpc. destruct (all_some (map citem_of _)); reflexivity.
      * rewrite (proj1 (items_err_none _ (fmt_all_err _ _ _ Hu))). reflexivity.
    + destruct (fmt_alts (b_items b) true) as [u|e] eqn:Hu.
      * split; [cbn [app length]; lia|]. intros f acc t.
        cbn [app]. rewrite rx_loop_group, <- app_assoc. cbn [app]. rewrite (group_all _ u Hne Hu t).
        destruct (all_some (map alt_of (b_items b))); reflexivity.
      * rewrite (proj2 (items_err_none _ (fmt_alts_err _ _ _ Hu))). reflexivity.
  - destruct (fmt_all bitem_fmt (b_items b)) as [u|e] eqn:Hu.
    + split; [cbn [app length]; lia|]. intros f acc t.
      cbn [app]. rewrite rx_loop_lbr, <- !app_assoc. cbn [app].
      rewrite (parse_class_items _ u Hne Hu (existsb_false_forallb _ _ Hm) (b_complement b) t).
      destruct (all_some (map citem_of (b_items b))); reflexivity.
    + rewrite (proj1 (items_err_none _ (fmt_all_err _ _ _ Hu))). reflexivity.
Qed.

Lemma atom_fmt_err a e : atom_fmt a = EErr e -> node_of_atom a = None.
Proof.
  destruct a as [c| | |b]; cbn [atom_fmt node_of_atom]; try discriminate.
  intros H. pose proof (rx_bracket b) as R. rewrite H in R. exact R.
Qed.

(* one element of the pattern, read by the top-level loop *)
Lemma rx_atom a s :
  atom_fmt a = EOk s ->
  forall f acc t,
    length (s ++ t) < f ->
    exists f', length t < f' /\
      rx_loop f acc (s ++ t) =
      match node_of_atom a with
      | Some n => rx_loop f' (n :: acc) t
      | None => RxErr
      end.
Proof.
  intros Hfmt f acc t Hf.
  destruct f as [|f]; [lia|].
  destruct a as [c| | |b]; cbn [atom_fmt] in Hfmt.
  - exists f. cbn [node_of_atom]. destruct (mem_N c special_chars) eqn:Hs; injection Hfmt as <-;
      (split; [cbn [app length] in Hf; lia|]); cbn [app].
    + rewrite rx_loop_bslash.
      destruct (special_not_Az c Hs) as [HA Hz]. rewrite HA, Hz, (special_escapable c Hs). reflexivity.
    + apply rx_loop_plain, not_special_plain, Hs.
  - exists f. inversion Hfmt; subst. split; [cbn [app length] in Hf; lia|apply rx_loop_dot].
  - (* .* takes two iterations *)
    inversion Hfmt; subst. cbn [app length] in Hf. destruct f as [|f]; [lia|].
    exists f. split; [lia|]. cbn [app]. rewrite rx_loop_dot. apply rx_loop_star.
  - pose proof (rx_bracket b) as R. rewrite Hfmt in R. destruct R as [Hs R].
    exists f. split; [rewrite app_length in Hf; lia|apply R].
Qed.

Lemma rx_atoms : forall atoms s,
  fmt_all atom_fmt atoms = EOk s ->
  forall f acc t,
    length (s ++ t) < f ->
    exists f', length t < f' /\
      rx_loop f acc (s ++ t) =
      match all_some (map node_of_atom atoms) with
      | Some ns => rx_loop f' (rev ns ++ acc) t
      | None => RxErr
      end.
Proof.
  induction atoms as [|a atoms IH]; intros s Hfmt f acc t Hf.
  - inversion Hfmt; subst. exists f. split; [exact Hf|reflexivity].
  - destruct (fmt_all_cons _ _ _ _ Hfmt) as (s1 & s2 & H1 & H2 & ->).
    rewrite <- app_assoc in *.
    destruct (rx_atom a s1 H1 f acc (s2 ++ t) Hf) as (f1 & Hf1 & ->).
    cbn [map all_some]. destruct (node_of_atom a) as [n|]; [|exists f1; split; [rewrite app_length in Hf1; lia|reflexivity]].
    destruct (IH s2 H2 f1 (n :: acc) t Hf1) as (f' & Hf' & ->). exists f'. split; [exact Hf'|].
    destruct (all_some (map node_of_atom atoms)) as [ns|]; [|reflexivity].
    cbn [omap rev]. rewrite <- app_assoc. reflexivity.
Qed.

Theorem fmt_regex_parses_back cfg a :
  match ast_fmt cfg a with
  | EOk s => parse_rx s = match rx_of_ast cfg a with Some r => RxOk r | None => RxErr end
  | EErr _ => rx_of_ast cfg a = None
  end.
Proof.
  unfold ast_fmt, rx_of_ast, ebind.
  destruct (fmt_all atom_fmt a) as [s|e] eqn:Hfmt.
  - unfold parse_rx.
    set (post := if anchor_end cfg then [c_bslash; c_z] else []).
    assert (Hmid : forall f acc, length (s ++ post) < f ->
              rx_loop f acc (s ++ post) =
              match all_some (map node_of_atom a) with
              | Some ns => RxOk (rev acc ++ ns ++ (if anchor_end cfg then [REndText] else []))
              | None => RxErr
              end).
    { intros f acc Hf. destruct (rx_atoms a s Hfmt f acc post Hf) as (f' & Hf' & ->).
      destruct (all_some (map node_of_atom a)) as [ns|]; [|reflexivity].
      subst post. destruct (anchor_end cfg); cbn [length] in Hf'.
      - destruct f' as [|[|f']]; [lia|lia|]. rewrite rx_loop_bslash.
        replace (N.eqb c_z c_A) with false by reflexivity. rewrite N.eqb_refl.
        cbn [rx_loop rev]. rewrite rev_app_distr, rev_involutive, <- !app_assoc. reflexivity.
      - destruct f' as [|f']; [lia|].
        cbn [rx_loop]. rewrite rev_app_distr, rev_involutive, app_nil_r. reflexivity. }
    destruct (anchor_begin cfg).
    + cbn [app length]. rewrite rx_loop_bslash. rewrite N.eqb_refl.
      rewrite Hmid by (cbn [app length]; lia).
      destruct (all_some (map node_of_atom a)); reflexivity.
    + cbn [app]. rewrite Hmid by lia.
      destruct (all_some (map node_of_atom a)); reflexivity.
  - destruct (fmt_all_err _ _ _ Hfmt) as (x & e' & Hin & Hx).
    rewrite (all_some_none node_of_atom a x Hin (atom_fmt_err x e' Hx)). reflexivity.
Qed.
