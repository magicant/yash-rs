(* C04 — the lemmas, gathered; what the shell hands to the matcher; where the
   search starts under the leading-period rule; witnesses of the two refuted
   statements; non-vacuity examples for the implication-shaped theorems. *)
From Yv Require Import Common.Base C04.Model C04.Spec.
From Yv Require Export C04.ProofsParse C04.ProofsRegex C04.ProofsMatch C04.ProofsSem
  C04.ProofsPattern C04.ProofsTable C04.ProofsOracle.
From Coq Require Import List NArith Bool Arith Lia.
Import ListNotations.

(* The shell (apply_escapes + to_pattern_chars) reads the unquoted result of an
   expansion like with_escape does, except that it keeps a backslash at the
   very end as an ordinary character where with_escape drops it. *)
Definition unq (c : N) : achar := mkAchar c false false.

(* the two states of apply_escapes_from go together: after a quoting backslash
   the next character is literal whatever it is *)
Lemma expansion_chars_from : forall s,
  to_pattern_chars (apply_escapes_from false (map unq s)) =
    with_escape s ++ (if dangling_bslash s then [Normal c_bslash] else []) /\
  to_pattern_chars (apply_escapes_from true (map unq s)) =
    match s with
    | [] => []
    | d :: r => Literal d :: with_escape r ++ (if dangling_bslash r then [Normal c_bslash] else [])
    end.
Proof.
  induction s as [|c r [IH1 IH2]]; [split; reflexivity|].
  split; cbn [map apply_escapes_from unq with_escape dangling_bslash a_value a_quoted a_quoting];
    destruct r as [|d r']; cbn [map] in *.
  - destruct (N.eqb c c_bslash) eqn:E; [apply N.eqb_eq in E; subst c|]; reflexivity.
  - destruct (N.eqb c c_bslash); cbn [negb andb to_pattern_chars a_quoting a_quoted a_value].
    + exact IH2.
    + rewrite IH1. reflexivity.
  - reflexivity.
  - rewrite andb_false_r. cbn [to_pattern_chars a_quoting a_quoted a_value]. rewrite IH1. reflexivity.
Qed.

Lemma apply_escapes_quoted : forall l,
  Forall (fun a => a_quoted a = true) l -> apply_escapes_from false l = l.
Proof.
  induction l as [|a r IH]; intros H; [reflexivity|].
  inversion H as [|? ? Ha Hr]; subst. cbn [apply_escapes_from].
  destruct r as [|b r']; [reflexivity|].
  rewrite Ha. cbn [negb andb]. rewrite andb_false_r. rewrite IH by exact Hr. reflexivity.
Qed.

(* The leading-period rule (Config::literal_period, used by pathname
   expansion) moves the start of the search behind the period; with the start
   anchored nothing can match there. *)

(* a regex that begins with \A only matches at offset 0 *)
Lemma find_scan_start lazy r at_ : forall s pos,
  0 < pos -> find_scan lazy (RStartText :: r) at_ pos s = None.
Proof.
  induction s as [|x s IH]; intros pos Hp; cbn [find_scan]; rewrite (bt_start_only lazy r pos _ Hp).
  - destruct (Nat.leb at_ pos); reflexivity.
  - destruct (Nat.leb at_ pos); apply IH; lia.
Qed.

Lemma find_start lazy r text :
  rx_find_at lazy (RStartText :: r) text 0 = omap (fun k => (0, k)) (bt lazy r 0 text).
Proof.
  unfold rx_find_at. destruct text as [|x s]; cbn [find_scan Nat.leb bt Nat.eqb].
  - destruct (bt lazy r 0 []); reflexivity.
  - destruct (bt lazy r 0 (x :: s)); [reflexivity|]. apply find_scan_start. lia.
Qed.

Lemma find_start_from_one lazy r text :
  rx_find_at lazy (RStartText :: r) text 1 = None.
Proof.
  unfold rx_find_at. destruct text as [|x s]; cbn [find_scan Nat.leb]; [reflexivity|].
  apply find_scan_start. lia.
Qed.

(* the configuration of pathname expansion compiles like that of `case`: only
   the anchors enter the translation *)
Lemma compile_period p : compile period_config p = compile case_config p.
Proof. reflexivity. Qed.

(* [a-c]*x *)
Definition ex_pat : list pchar := without_escape [91; 97; 45; 99; 93; 42; 120]%N.
Definition ex_ast : ast :=
  [ABracket (mkBracket false [IRange (BChar 97) (BChar 99)]); AAnyString; AChar 120]%N.

(* [[.ch.]c]h : a two-character collating symbol *)
Definition f31_pat : list pchar := without_escape [91; 91; 46; 99; 104; 46; 93; 99; 93; 104]%N.
Definition f31_ast : ast :=
  [ABracket (mkBracket false [IAtom (BColl [99; 104]); IAtom (BChar 99)]); AChar 104]%N.

(* [[.a.][.ab.]] *)
Definition f31b_pat : list pchar :=
  without_escape [91; 91; 46; 97; 46; 93; 91; 46; 97; 98; 46; 93; 93]%N.
Definition f31b_ast : ast :=
  [ABracket (mkBracket false [IAtom (BColl [97]); IAtom (BColl [97; 98])])]%N.

(* [![.é.]a] and [![.é.]] : a collating symbol of one non-ASCII character (two
   bytes in UTF-8) in a complement.  matches_multi_character counts characters
   (value.chars().nth(1)), so it is a single-width member like any other; the
   inputs of finding F32 *)
Definition f9_pat : list pchar := without_escape [91; 33; 91; 46; 233; 46; 93; 97; 93]%N.
Definition f9_ast : ast :=
  [ABracket (mkBracket true [IAtom (BColl [233]); IAtom (BChar 97)])]%N.
Definition f9b_pat : list pchar := without_escape [91; 33; 91; 46; 233; 46; 93; 93]%N.
Definition f9b_ast : ast := [ABracket (mkBracket true [IAtom (BColl [233])])]%N.

(* non-vacuity: the hypotheses of the theorems are met by real patterns  *)

Example ex_parse : parse_pattern ex_pat = Some ex_ast /\ single_width ex_ast = true /\
                   valid_ast ex_ast = true.
Proof. vm_compute. repeat split; reflexivity. Qed.

Example ex_case :
  exists b, compile case_config ex_pat = COk b /\
            pat_is_match case_config b [98; 45; 120]%N = true /\
            pat_is_match case_config b [100; 120]%N = false.
Proof. eexists. split; [reflexivity|]. vm_compute. repeat split; reflexivity. Qed.

Example ex_trim :
  map (fun f => trim_model (fst f) (snd f) ex_pat [98; 120; 99; 120; 121]%N)
      [(Prefix, Shortest); (Prefix, Longest)] =
  [Some [99; 120; 121]; Some [121]]%N /\
  map (fun f => trim_model (fst f) (snd f) ex_pat [121; 98; 120; 99; 120]%N)
      [(Suffix, Shortest); (Suffix, Longest)] =
  [Some [121; 98; 120]; Some [121]]%N.
Proof. vm_compute. split; reflexivity. Qed.

Example ex_glob : exists ns, all_some (map node_of_atom ex_ast) = Some ns /\ glob_rx ns = true /\
                             bt false ns 0 [98; 120; 99; 120; 121]%N = Some 4 /\
                             bt true ns 0 [98; 120; 99; 120; 121]%N = Some 2.
Proof. eexists. split; [reflexivity|]. vm_compute. repeat split; reflexivity. Qed.

Example ex_case_items :
  case_model [98; 120]%N
    [([without_escape [122]%N], CBreak); ([ex_pat; without_escape [42]%N], CBreak);
     ([without_escape [42]%N], CBreak)] = Some [1].
Proof. vm_compute. reflexivity. Qed.

Example ex_item_parsed :
  Forall2 (fun it sit => item_parsed (fst it) (fst sit) /\ snd it = snd sit)
          [([ex_pat; without_escape [42]%N], CFallThrough); ([f31_pat], CBreak)]
          [([ex_ast; [AAnyString]], CFallThrough); ([f31_ast], CBreak)].
Proof.
  repeat constructor; vm_compute; reflexivity.
Qed.

(* a collating symbol of one non-ASCII character inside a complemented bracket
   is an ordinary member (finding F32) *)
Example ex_nonascii_complement :
  parse_pattern f9_pat = Some f9_ast /\ single_width f9_ast = true /\
  (exists b, compile case_config f9_pat = COk b /\
             pat_is_match case_config b [233]%N = false /\ pat_is_match case_config b [120]%N = true) /\
  (exists b, compile case_config f9b_pat = COk b /\ pat_is_match case_config b [120]%N = true).
Proof.
  split; [reflexivity|]. split; [reflexivity|].
  split; eexists; (split; [reflexivity|]); vm_compute; repeat split; reflexivity.
Qed.

(* a complemented bracket expression whose members are all multi-character
   collating symbols denotes any one character, and is translated to `.`
   ([![.ch.]], finding F40) *)
Example ex_complement_of_multichar :
  exists b, compile case_config (without_escape [91; 33; 91; 46; 99; 104; 46; 93; 93]%N) = COk b /\
            pat_is_match case_config b [120]%N = true /\ pat_is_match case_config b [99; 104]%N = false.
Proof. eexists. split; [reflexivity|]. vm_compute. repeat split; reflexivity. Qed.

Example ex_unclosed : ~ In (Normal c_rbr) (without_escape [97; 45; 98]%N).
Proof. cbn. intros [H|[H|[H|[]]]]; discriminate. Qed.

Example ex_quoted :
  Forall (fun a => a_quoted a = true /\ a_quoting a = false)
         [mkAchar 42 true false; mkAchar 91 true false]%N.
Proof. repeat constructor. Qed.

(* the period rule: *x against .x and against ax, .x against .x *)
Example ex_period :
  (exists b, compile period_config (without_escape [42; 120]%N) = COk b /\
             pat_is_match period_config b [46; 120]%N = false /\
             pat_is_match period_config b [97; 120]%N = true) /\
  (exists b, compile period_config (without_escape [46; 42]%N) = COk b /\
             pat_is_match period_config b [46; 120]%N = true).
Proof. split; eexists; (split; [reflexivity|]); vm_compute; repeat split; reflexivity. Qed.
