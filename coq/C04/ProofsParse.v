(* C04 — the implementation's pattern parser (push + make_range +
   after_hyphen, accumulate-and-test-suffix) reads exactly the POSIX bracket
   grammar as written down in Spec.v (look-ahead, first terminator), for every
   sequence of pattern characters, and its fuel never runs out; what follows
   for quoted characters and for a bracket that is never closed.

   The two bracket readers are compared through a third one, [tokens], which
   only cuts the text into elements (each tagged "is an unquoted hyphen") and
   forms no range: Bracket::parse is a fold of push_elem over that list
   (loop_tokens), spec_items is spec_group of it (spec_items_tokens), and
   fold_group shows that pushing and then regrouping with make_range groups
   like looking ahead does. *)
From Yv Require Import Common.Base C04.Model C04.Spec.
From Coq Require Import List NArith Bool Arith Lia.
Import ListNotations.

Lemma pchar_eqb_eq a b : pchar_eqb a b = true <-> a = b.
Proof.
  destruct a, b; cbn; rewrite ?N.eqb_eq; split; intros H; try congruence; try discriminate.
Qed.

Lemma is_normal_true pc c : is_normal pc c = true <-> pc = Normal c.
Proof. apply pchar_eqb_eq. Qed.

Lemma is_normal_false pc c : is_normal pc c = false <-> pc <> Normal c.
Proof.
  split.
  - intros H E. apply is_normal_true in E. congruence.
  - intros H. destruct (is_normal pc c) eqn:E; [|reflexivity]. apply is_normal_true in E. contradiction.
Qed.

Lemma split_at_term_cons d pc tl :
  split_at_term d (pc :: tl) =
  match pc, tl with
  | Normal x, Normal y :: r =>
      if N.eqb x d && N.eqb y c_rbr then Some ([], r)
      else omap (fun p => (pc :: fst p, snd p)) (split_at_term d tl)
  | _, _ => omap (fun p => (pc :: fst p, snd p)) (split_at_term d tl)
  end.
Proof. destruct pc, tl as [|[y|y] r]; reflexivity. Qed.

(* scan_inner tests only the last character pushed against the next one: with
   p on top of the accumulator it is split_at_term on p :: i, the older
   characters put in front of the text found *)
Lemma scan_inner_cons d : forall i p acc,
  scan_inner d (p :: acc) i =
  omap (fun q => (map char_value (rev acc ++ fst q), snd q)) (split_at_term d (p :: i)).
Proof.
  induction i as [|pc i IH]; intros p acc.
  - destruct p; reflexivity.
  - rewrite split_at_term_cons. cbn [scan_inner].
    assert (Hgo : scan_inner d (pc :: p :: acc) i =
                  omap (fun q => (map char_value (rev acc ++ fst q), snd q))
                       (omap (fun q => (p :: fst q, snd q)) (split_at_term d (pc :: i)))).
    { rewrite IH. destruct (split_at_term d (pc :: i)) as [[v r]|]; [|reflexivity].
      cbn [omap fst snd rev]. rewrite <- app_assoc. reflexivity. }
    destruct pc as [y|y], p as [x|x]; try exact Hgo.
    destruct (N.eqb x d && N.eqb y c_rbr); [|exact Hgo].
    cbn [omap fst snd]. rewrite app_nil_r. reflexivity.
Qed.

Lemma scan_inner_spec d i :
  scan_inner d [] i = omap (fun p => (map char_value (fst p), snd p)) (split_at_term d i).
Proof. destruct i as [|[c|c] i]; [reflexivity| |]; exact (scan_inner_cons d i _ []). Qed.

(* what Bracket::parse does at an unquoted opening bracket = one element of
   the grammar *)
Lemma parse_inner_elem tl :
  match parse_inner tl with Some (a, j) => (a, j) | None => (BChar c_lbr, tl) end
  = spec_elem (Normal c_lbr) tl.
Proof.
  unfold spec_elem. rewrite N.eqb_refl.
  destruct tl as [|[c|c] tl2]; try reflexivity.
  unfold parse_inner. rewrite !scan_inner_spec.
  destruct (N.eqb c c_dot) eqn:E1; [apply N.eqb_eq in E1; subst c|].
  { destruct (split_at_term c_dot tl2) as [[v r]|]; reflexivity. }
  destruct (N.eqb c c_eq) eqn:E2; [apply N.eqb_eq in E2; subst c|].
  { destruct (split_at_term c_eq tl2) as [[v r]|]; reflexivity. }
  destruct (N.eqb c c_colon) eqn:E3; [apply N.eqb_eq in E3; subst c|].
  { destruct (split_at_term c_colon tl2) as [[v r]|]; reflexivity. }
  reflexivity.
Qed.

Lemma split_at_term_suffix d : forall i v r,
  split_at_term d i = Some (v, r) -> exists pre, i = pre ++ r.
Proof.
  induction i as [|pc tl IH]; intros v r H; [discriminate|].
  rewrite split_at_term_cons in H.
  assert (Hlater : forall v r, omap (fun p => (pc :: fst p, snd p)) (split_at_term d tl) = Some (v, r) ->
                               exists pre, pc :: tl = pre ++ r).
  { intros v0 r0 E. destruct (split_at_term d tl) as [[v1 r1]|] eqn:E1; [|discriminate].
    inversion E; subst. destruct (IH _ _ eq_refl) as [pre ->]. exists (pc :: pre). reflexivity. }
  destruct pc as [x|x]; [destruct tl as [|[y|y] r0]|]; try (eapply Hlater; exact H).
  destruct (N.eqb x d && N.eqb y c_rbr); [|eapply Hlater; exact H].
  inversion H; subst. exists [Normal x; Normal y]. reflexivity.
Qed.

Lemma spec_elem_suffix pc tl : exists pre, tl = pre ++ snd (spec_elem pc tl).
Proof.
  unfold spec_elem. destruct pc as [c|c]; [|exists []; reflexivity].
  destruct (N.eqb c c_lbr); [|exists []; reflexivity].
  destruct tl as [|[d|d] tl2]; try (exists []; reflexivity).
  assert (H : forall f, exists pre, Normal d :: tl2 =
                pre ++ snd (match split_at_term d tl2 with
                            | Some (v, r) => (f (map char_value v), r)
                            | None => (BChar c, Normal d :: tl2)
                            end)).
  { intros f. destruct (split_at_term d tl2) as [[v r]|] eqn:E; [|exists []; reflexivity].
    destruct (split_at_term_suffix _ _ _ _ E) as [pre ->]. exists (Normal d :: pre). reflexivity. }
  destruct (N.eqb d c_dot); [apply H|].
  destruct (N.eqb d c_eq); [apply H|].
  destruct (N.eqb d c_colon); [apply H|]. exists []; reflexivity.
Qed.

Lemma spec_elem_length pc tl : length (snd (spec_elem pc tl)) <= length tl.
Proof. destruct (spec_elem_suffix pc tl) as [pre E]. rewrite E at 2. rewrite app_length. lia. Qed.

(* an element of the bracket expression and whether it is an unquoted hyphen *)
Definition elem := (batom * bool)%type.

Definition elem_of (pc : pchar) (tl : list pchar) : elem * list pchar :=
  ((fst (spec_elem pc tl), is_normal pc c_hyphen), snd (spec_elem pc tl)).

(* the elements up to the closing bracket *)
Fixpoint tokens (fuel : nat) (first : bool) (i : list pchar) : pres (list elem * list pchar) :=
  match fuel with
  | O => PFuel
  | S f =>
      match i with
      | [] => PNone
      | pc :: tl =>
          if is_normal pc c_rbr && negb first then POk ([], tl)
          else
            match tokens f false (snd (elem_of pc tl)) with
            | POk (l, rest) => POk (fst (elem_of pc tl) :: l, rest)
            | PNone => PNone
            | PFuel => PFuel
            end
      end
  end.

Definition lift {A B} (f : A -> B) (r : pres (A * list pchar)) : pres (B * list pchar) :=
  match r with POk (a, rest) => POk (f a, rest) | PNone => PNone | PFuel => PFuel end.

Lemma elem_of_length pc tl : length (snd (elem_of pc tl)) <= length tl.
Proof. apply spec_elem_length. Qed.

Lemma tokens_fuel : forall f1 f2 first i,
  length i < f1 -> length i < f2 -> tokens f1 first i = tokens f2 first i.
Proof.
  induction f1 as [|f1 IH]; intros f2 first i H1 H2; [lia|].
  destruct f2 as [|f2]; [lia|].
  destruct i as [|pc tl]; [reflexivity|].
  cbn [tokens]. destruct (is_normal pc c_rbr && negb first); [reflexivity|].
  pose proof (elem_of_length pc tl) as Hl. cbn [length] in H1, H2.
  rewrite (IH f2 false (snd (elem_of pc tl))) by lia. reflexivity.
Qed.

Lemma tokens_nofuel : forall f first i, length i < f -> tokens f first i <> PFuel.
Proof.
  induction f as [|f IH]; intros first i H; [lia|].
  destruct i as [|pc tl]; [cbn; discriminate|].
  cbn [tokens]. destruct (is_normal pc c_rbr && negb first); [discriminate|].
  pose proof (elem_of_length pc tl) as Hl. cbn [length] in H.
  specialize (IH false (snd (elem_of pc tl)) ltac:(lia)).
  destruct (tokens f false (snd (elem_of pc tl))) as [[l rest]| |]; try discriminate. contradiction.
Qed.

Definition elem_wf (e : elem) : Prop := snd e = true -> fst e = BChar c_hyphen.

Lemma elem_of_wf pc tl : elem_wf (fst (elem_of pc tl)).
Proof.
  unfold elem_wf, elem_of. cbn [fst snd]. intros H. apply is_normal_true in H. subst pc.
  reflexivity.
Qed.

Lemma tokens_ok : forall f first i l rest,
  tokens f first i = POk (l, rest) ->
  length rest < length i /\ Forall elem_wf l /\ In (Normal c_rbr) i.
Proof.
  induction f as [|f IH]; intros first i l rest H; [discriminate|].
  destruct i as [|pc tl]; [discriminate|]. cbn [tokens] in H.
  destruct (is_normal pc c_rbr && negb first) eqn:E.
  - apply andb_true_iff in E as [E _]. apply is_normal_true in E. inversion H; subst.
    repeat split; [cbn; lia|constructor|left; reflexivity].
  - destruct (tokens f false (snd (elem_of pc tl))) as [[l' rest']| |] eqn:Et; try discriminate.
    inversion H; subst. apply IH in Et as (H1 & H2 & H3).
    pose proof (elem_of_length pc tl) as Hl. destruct (spec_elem_suffix pc tl) as [pre Es].
    repeat split; [cbn [length]; lia|constructor; [apply elem_of_wf|exact H2]|].
    right. rewrite Es. apply in_or_app. right. exact H3.
Qed.

(* the implementation: push, then make_range if the previous character was an
   unquoted hyphen *)

Definition push_elem (st : list bitem * bool) (e : elem) : list bitem * bool :=
  ((if snd st then make_range (IAtom (fst e) :: fst st) else IAtom (fst e) :: fst st), snd e).

Lemma make_range_nonnil items : items <> [] -> make_range items <> [].
Proof.
  intros H. destruct items as [|[e|? ?] [|[[h| | |]|? ?] [|[s|? ?] rest]]]; cbn; try congruence.
  destruct (N.eqb h c_hyphen); congruence.
Qed.

Lemma push_elem_nonnil st e : fst (push_elem st e) <> [].
Proof.
  unfold push_elem. cbn [fst]. destruct (snd st); [apply make_range_nonnil|]; congruence.
Qed.

(* bracket_step will not take pc for the complement marker: it does so only
   while compl is false and nothing has been pushed *)
Definition Ready (compl : bool) (items : list bitem) (pc : pchar) : Prop :=
  compl = true \/ items <> [] \/ (pc <> Normal c_bang /\ pc <> Normal c_caret).

Lemma is_nil_false {A} (l : list A) : l <> [] -> is_nil l = false.
Proof. destruct l; [congruence|reflexivity]. Qed.

Lemma bracket_step_elem compl items ah pc tl :
  Ready compl items pc ->
  is_normal pc c_rbr && negb (is_nil items) = false ->
  bracket_step compl items ah (pc :: tl) =
  BCont compl (fst (push_elem (items, ah) (fst (elem_of pc tl)))) (snd (fst (elem_of pc tl)))
        (snd (elem_of pc tl)).
Proof.
  intros HR Hclose. unfold bracket_step, push_elem, elem_of. cbn [fst snd].
  destruct pc as [c|c].
  - assert (E1 : N.eqb c c_rbr && negb (is_nil items) = false) by exact Hclose.
    rewrite E1.
    assert (E2 : (N.eqb c c_bang || N.eqb c c_caret) && negb compl && is_nil items = false).
    { destruct HR as [-> | [Hi | [Hb Hc]]].
      - rewrite andb_false_r. reflexivity.
      - rewrite (is_nil_false _ Hi). apply andb_false_r.
      - assert (N.eqb c c_bang = false) by (apply N.eqb_neq; congruence).
        assert (N.eqb c c_caret = false) by (apply N.eqb_neq; congruence).
        rewrite H, H0. reflexivity. }
    rewrite E2.
    destruct (N.eqb c c_lbr) eqn:E3.
    + apply N.eqb_eq in E3. subst c.
      pose proof (parse_inner_elem tl) as Hp.
      destruct (parse_inner tl) as [[a j]|]; rewrite <- Hp; reflexivity.
    + unfold spec_elem. rewrite E3. reflexivity.
  - reflexivity.
Qed.

Lemma loop_tokens : forall fuel compl items ah i,
  (match i with [] => True | pc :: _ => Ready compl items pc end) ->
  bracket_loop fuel compl items ah i =
  lift (fun l => mkBracket compl (rev (fst (fold_left push_elem l (items, ah)))))
       (tokens fuel (is_nil items) i).
Proof.
  induction fuel as [|f IH]; intros compl items ah i HR; [reflexivity|].
  destruct i as [|pc tl]; [reflexivity|].
  cbn [bracket_loop tokens].
  destruct (is_normal pc c_rbr && negb (is_nil items)) eqn:Hclose.
  - apply andb_true_iff in Hclose as [H1 H2]. apply is_normal_true in H1. subst pc.
    unfold bracket_step. rewrite N.eqb_refl, H2. reflexivity.
  - rewrite (bracket_step_elem _ _ _ _ _ HR Hclose).
    pose proof (push_elem_nonnil (items, ah) (fst (elem_of pc tl))) as Hnn.
    rewrite IH.
    + rewrite (is_nil_false _ Hnn).
      destruct (tokens f false (snd (elem_of pc tl))) as [[l rest]| |]; reflexivity.
    + destruct (snd (elem_of pc tl)); [exact I|]. right. left. exact Hnn.
Qed.

(* the specification: group by looking ahead *)

Fixpoint spec_group (l : list elem) : list bitem :=
  match l with
  | [] => []
  | (a, _) :: r =>
      match r with
      | (_, true) :: (b, _) :: r' => IRange a b :: spec_group r'
      | _ => IAtom a :: spec_group r
      end
  end.

Lemma spec_group_flag a f f' r : spec_group ((a, f) :: r) = spec_group ((a, f') :: r).
Proof. reflexivity. Qed.

(* the look-ahead of spec_items: an unquoted hyphen, then something other than
   the closing bracket *)
Definition range_ahead (r : list pchar) : bool :=
  match r with
  | h :: pc2 :: _ => is_normal h c_hyphen && negb (is_normal pc2 c_rbr)
  | _ => false
  end.

(* ... is what spec_group looks for in the elements read from r *)
Lemma tokens_range_ahead f r l rest :
  tokens f false r = POk (l, rest) ->
  range_ahead r = match l with (_, true) :: _ :: _ => true | _ => false end.
Proof.
  destruct f as [|f]; [discriminate|]. destruct r as [|h tl]; cbn [tokens]; [discriminate|].
  destruct (is_normal h c_rbr && negb false) eqn:Hc.
  - apply andb_true_iff in Hc as [Hc _]. apply is_normal_true in Hc. subst h.
    intros [= <- <-]. destruct tl; reflexivity.
  - destruct (tokens f false (snd (elem_of h tl))) as [[l' rest']| |] eqn:E; try discriminate.
    intros H. inversion H; subst. unfold elem_of in *. cbn [fst snd] in *.
    destruct (is_normal h c_hyphen) eqn:Hh; [|destruct tl; cbn [range_ahead]; rewrite ?Hh; reflexivity].
    apply is_normal_true in Hh. subst h. cbn [spec_elem] in E.
    replace (N.eqb c_hyphen c_lbr) with false in E by reflexivity. cbn [snd] in E.
    destruct f as [|f]; [discriminate|]. destruct tl as [|pc2 tl2]; [discriminate|].
    cbn [tokens range_ahead] in *. replace (is_normal (Normal c_hyphen) c_hyphen) with true by reflexivity.
    destruct (is_normal pc2 c_rbr); cbn [negb andb] in *.
    + inversion E; subst. reflexivity.
    + destruct (tokens f false (snd (elem_of pc2 tl2))) as [[l2 r2]| |]; try discriminate.
      inversion E; subst. reflexivity.
Qed.

Lemma spec_items_tokens : forall fuel first i,
  length i < fuel ->
  spec_items fuel first i = lift spec_group (tokens fuel first i).
Proof.
  induction fuel as [|f IH]; intros first i Hf; [lia|].
  destruct i as [|pc tl]; [reflexivity|].
  cbn [spec_items tokens]. cbn [length] in Hf.
  destruct (is_normal pc c_rbr && negb first); [reflexivity|].
  unfold elem_of. cbn [fst snd].
  destruct (spec_elem pc tl) as [a r] eqn:Ea. cbn [fst snd].
  pose proof (spec_elem_length pc tl) as Hlen. rewrite Ea in Hlen. cbn [snd] in Hlen.
  destruct (range_ahead r) eqn:Hr.
  - (* a range: the next two elements are read here, the hyphen and its right end *)
    destruct r as [|h [|pc2 tl2]]; try discriminate. cbn [range_ahead] in Hr. rewrite Hr.
    apply andb_true_iff in Hr as [Hh Hp2]. apply is_normal_true in Hh. subst h.
    apply negb_true_iff in Hp2.
    destruct (spec_elem pc2 tl2) as [b r2] eqn:Eb.
    pose proof (spec_elem_length pc2 tl2) as Hlen2. rewrite Eb in Hlen2. cbn [snd] in Hlen2.
    cbn [length] in Hlen.
    rewrite IH by lia.
    destruct f as [|f1]; [lia|]. destruct f1 as [|f2]; [lia|].
    rewrite (tokens_fuel (S (S f2)) f2 false r2) by lia.
    cbn [tokens]. unfold elem_of.
    replace (is_normal (Normal c_hyphen) c_rbr) with false by reflexivity.
    cbn [andb]. cbn [spec_elem fst snd].
    replace (N.eqb c_hyphen c_lbr) with false by reflexivity. cbn [fst snd].
    rewrite Hp2. cbn [andb]. rewrite Eb. cbn [fst snd].
    destruct (tokens f2 false r2) as [[l rest]| |]; reflexivity.
  - assert (Hplain :
      match spec_items f false r with
      | POk (l, rest) => POk (IAtom a :: l, rest)
      | PNone => PNone
      | PFuel => PFuel
      end =
      lift spec_group
        match tokens f false r with
        | POk (l, rest) => POk ((a, is_normal pc c_hyphen) :: l, rest)
        | PNone => PNone
        | PFuel => PFuel
        end).
    { rewrite IH by lia.
      destruct (tokens f false r) as [[l rest]| |] eqn:Et; try reflexivity.
      apply tokens_range_ahead in Et. rewrite Hr in Et. cbn [lift].
      destruct l as [|[h [|]] [|e2 l2]]; try reflexivity. discriminate. }
    destruct r as [|h [|pc2 tl2]]; try exact Hplain. cbn [range_ahead] in Hr. rewrite Hr. exact Hplain.
Qed.

(* The elements on top of the item stack whose grouping is not final yet,
   and the part below them (still reversed). *)
Definition pend (st : list bitem * bool) : list elem * list bitem :=
  match st with
  | (items, false) =>
      match items with
      | IAtom a :: rest => ([(a, false)], rest)
      | _ => ([], items)
      end
  | (items, true) =>
      match items with
      | IAtom h :: IAtom s :: rest => ([(s, false); (h, true)], rest)
      | IAtom h :: rest => ([(h, true)], rest)
      | _ => ([], items)
      end
  end.

(* after an unquoted hyphen, an atom on top of the stack is that hyphen *)
Definition st_wf (st : list bitem * bool) : Prop :=
  snd st = true -> match fst st with IAtom h :: _ => h = BChar c_hyphen | _ => True end.

Lemma push_elem_wf st e : elem_wf e -> st_wf (push_elem st e).
Proof.
  intros He. unfold st_wf, push_elem. cbn [fst snd]. intros Hy. specialize (He Hy).
  destruct e as [a hy]. cbn [fst snd] in *. subst a.
  destruct (snd st); [|reflexivity].
  destruct (fst st) as [|[[h| | |]|? ?] [|[s|? ?] rest]]; cbn; try reflexivity.
  destruct (N.eqb h c_hyphen); reflexivity.
Qed.

Lemma fold_group : forall l st,
  Forall elem_wf l -> st_wf st ->
  rev (fst (fold_left push_elem l st)) = rev (snd (pend st)) ++ spec_group (fst (pend st) ++ l).
Proof.
  induction l as [|e l IH]; intros st Hl Hst.
  - cbn [fold_left]. destruct st as [items [|]]; cbn [pend].
    + destruct items as [|[h|? ?] [|[s|? ?] rest]]; cbn [fst snd app rev spec_group];
        rewrite ?app_nil_r, <- ?app_assoc; reflexivity.
    + destruct items as [|[a|? ?] rest]; cbn [fst snd app rev spec_group];
        rewrite ?app_nil_r; reflexivity.
  - cbn [fold_left]. inversion Hl as [|? ? He Hl']; subst.
    rewrite IH; [|exact Hl'|apply push_elem_wf; exact He].
    destruct st as [items ah]. destruct e as [a hy].
    unfold st_wf in Hst. cbn [fst snd] in Hst. unfold elem_wf in He. cbn [fst snd] in He.
    unfold push_elem. cbn [fst snd].
    assert (Hhy : N.eqb c_hyphen c_hyphen = true) by reflexivity.
    destruct ah.
    + specialize (Hst eq_refl).
      destruct items as [|[h|lo hi] rest].
      * destruct hy; reflexivity.
      * subst h. destruct rest as [|[s|lo2 hi2] rest]; cbn [make_range]; rewrite ?Hhy;
          (destruct hy; [rewrite (He eq_refl)|]);
          cbn [pend fst snd app rev spec_group]; rewrite <- ?app_assoc; reflexivity.
      * cbn [make_range]. destruct hy; reflexivity.
    + destruct hy.
      * rewrite (He eq_refl).
        destruct items as [|[s|lo hi] rest]; reflexivity.
      * destruct items as [|[a0|lo hi] rest]; cbn [pend fst snd app rev spec_group];
          rewrite <- ?app_assoc; reflexivity.
Qed.

Lemma bracket_loop_spec compl i :
  (match i with [] => True | pc :: _ => Ready compl [] pc end) ->
  bracket_loop (S (length i)) compl [] false i =
  match spec_items (S (length i)) true i with
  | POk (l, rest) => POk (mkBracket compl l, rest)
  | PNone => PNone
  | PFuel => PFuel
  end.
Proof.
  intros HR. rewrite loop_tokens by exact HR. rewrite spec_items_tokens by lia.
  cbn [is_nil].
  destruct (tokens (S (length i)) true i) as [[l rest]| |] eqn:Et; try reflexivity.
  cbn [lift]. rewrite fold_group.
  - reflexivity.
  - eapply tokens_ok; exact Et.
  - intros H; discriminate.
Qed.

Lemma bracket_loop_fuel : forall f1 f2 compl items ah i,
  (match i with [] => True | pc :: _ => Ready compl items pc end) ->
  length i < f1 -> length i < f2 ->
  bracket_loop f1 compl items ah i = bracket_loop f2 compl items ah i.
Proof.
  intros. rewrite !loop_tokens by assumption. rewrite (tokens_fuel f1 f2) by assumption. reflexivity.
Qed.

Theorem bracket_parse_spec i : bracket_parse i = spec_bracket i.
Proof.
  unfold bracket_parse, spec_bracket.
  destruct i as [|pc tl].
  - reflexivity.
  - destruct (is_normal pc c_bang || is_normal pc c_caret) eqn:Hm.
    + (* a complement marker: one iteration of the loop *)
      assert (Hstep : bracket_step false [] false (pc :: tl) = BCont true [] false tl).
      { apply orb_true_iff in Hm as [H|H]; apply is_normal_true in H; subst pc; reflexivity. }
      cbn [bracket_loop length]. rewrite Hstep.
      apply bracket_loop_spec. destruct tl; [exact I|]. left. reflexivity.
    + apply orb_false_iff in Hm as [H1 H2].
      apply is_normal_false in H1. apply is_normal_false in H2.
      apply (bracket_loop_spec false (pc :: tl)). right. right. split; assumption.
Qed.

Lemma parse_atoms_spec : forall f i, parse_atoms f i = spec_atoms f i.
Proof.
  induction f as [|f IH]; intros i; [reflexivity|].
  destruct i as [|[c|c] tl]; cbn [parse_atoms spec_atoms]; try reflexivity.
  - rewrite bracket_parse_spec.
    destruct (N.eqb c c_quest); [rewrite IH; reflexivity|].
    destruct (N.eqb c c_star); [rewrite IH; reflexivity|].
    destruct (N.eqb c c_lbr) eqn:E.
    + apply N.eqb_eq in E. subst c.
      destruct (spec_bracket tl) as [[b j]| |]; rewrite ?IH; reflexivity.
    + rewrite IH. reflexivity.
  - rewrite IH. reflexivity.
Qed.

Theorem parse_pattern_spec i : parse_pattern i = spec_parse i.
Proof. apply parse_atoms_spec. Qed.

Lemma spec_items_rest : forall fuel first i l rest,
  length i < fuel -> spec_items fuel first i = POk (l, rest) -> length rest < length i.
Proof.
  intros fuel first i l rest Hf H. rewrite spec_items_tokens in H by exact Hf.
  destruct (tokens fuel first i) as [[l' rest']| |] eqn:E; try discriminate.
  inversion H; subst. eapply tokens_ok; exact E.
Qed.

Lemma spec_bracket_tokens i :
  exists compl pre body, i = pre ++ body /\
    spec_bracket i =
    lift (fun l => mkBracket compl (spec_group l)) (tokens (S (length body)) true body).
Proof.
  unfold spec_bracket.
  destruct i as [|pc tl]; [exists false, [], []|destruct (is_normal pc c_bang || is_normal pc c_caret);
    [exists true, [pc], tl|exists false, [], (pc :: tl)]];
    (split; [reflexivity|]); cbv beta iota; rewrite spec_items_tokens by lia;
    destruct (tokens _ true _) as [[l r]| |]; reflexivity.
Qed.

Lemma spec_bracket_cases i :
  match spec_bracket i with
  | POk (_, rest) => length rest < length i /\ In (Normal c_rbr) i
  | PNone => True
  | PFuel => False
  end.
Proof.
  destruct (spec_bracket_tokens i) as (compl & pre & body & -> & ->).
  pose proof (tokens_nofuel (S (length body)) true body ltac:(lia)) as Hnf.
  destruct (tokens (S (length body)) true body) as [[l rest]| |] eqn:E; cbn [lift]; [|exact I|contradiction].
  apply tokens_ok in E as (E1 & _ & E2).
  split; [rewrite app_length; lia|apply in_or_app; right; exact E2].
Qed.

Lemma spec_atoms_fuel : forall f i, length i < f -> spec_atoms f i <> None.
Proof.
  induction f as [|f IH]; intros i Hf; [lia|].
  destruct i as [|[c|c] tl]; cbn [spec_atoms]; [discriminate| |].
  - cbn [length] in Hf.
    assert (Hrec : forall a, omap (cons a) (spec_atoms f tl) <> None).
    { intros a. specialize (IH tl ltac:(lia)). destruct (spec_atoms f tl); [discriminate|contradiction]. }
    destruct (N.eqb c c_quest); [apply Hrec|].
    destruct (N.eqb c c_star); [apply Hrec|].
    destruct (N.eqb c c_lbr); [|apply Hrec].
    pose proof (spec_bracket_cases tl) as Hb.
    destruct (spec_bracket tl) as [[b j]| |]; [|apply Hrec|destruct Hb].
    destruct Hb as [Hrest _]. specialize (IH j ltac:(lia)).
    destruct (spec_atoms f j); [discriminate|contradiction].
  - cbn [length] in Hf. specialize (IH tl ltac:(lia)).
    destruct (spec_atoms f tl); [discriminate|contradiction].
Qed.

Theorem parse_pattern_fuel i : parse_pattern i <> None.
Proof. rewrite parse_pattern_spec. apply spec_atoms_fuel. lia. Qed.

Lemma parse_atoms_literals : forall s f, length s < f ->
  parse_atoms f (map Literal s) = Some (map AChar s).
Proof.
  induction s as [|c s IH]; intros f Hf; (destruct f as [|f]; [lia|]).
  - reflexivity.
  - cbn [map parse_atoms]. rewrite IH by (cbn [length] in Hf; lia). reflexivity.
Qed.

Lemma bracket_parse_unclosed p : ~ In (Normal c_rbr) p -> bracket_parse p = PNone.
Proof.
  intros Hno. rewrite bracket_parse_spec. pose proof (spec_bracket_cases p) as H.
  destruct (spec_bracket p) as [[b r]| |]; [destruct Hno; apply H|reflexivity|destruct H].
Qed.
