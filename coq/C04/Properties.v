(* C04 — property theorems only.  Each is a lemma of the Proofs*.v files or
   follows from them in a few lines; the driver pins the statements with
   [Check] and prints the assumptions on every run.  (The statements are
   those of the "theorems" list of props/C04.json.) *)
From Yv Require Import Common.Base C04.Model C04.Spec C04.Proofs.
From Coq Require Import List NArith Bool Arith Lia.
Import ListNotations.

(* the implementation's parser (push, make_range, after_hyphen, suffix test) reads exactly the bracket grammar of the specification, for every sequence of pattern characters *)
Theorem parser_reads_posix_grammar :
  forall i : list pchar, parse_pattern i = spec_parse i.
Proof. exact parse_pattern_spec. Qed.

(* the fuel of the model's parser never runs out *)
Theorem parser_fuel_suffices :
  forall i : list pchar, parse_pattern i <> None.
Proof. exact parse_pattern_fuel. Qed.

(* without a backslash, with_escape and without_escape yield the same pattern characters *)
Theorem escape_free_patterns_agree :
  forall s : str, existsb (N.eqb c_bslash) s = false -> with_escape s = without_escape s.
Proof.
  induction s as [|c r IH]; cbn [with_escape without_escape map existsb]; intros H; [reflexivity|].
  apply orb_false_iff in H as [H1 H2].
  rewrite N.eqb_sym, H1. unfold without_escape in IH. rewrite IH by exact H2. reflexivity.
Qed.

(* a backslash makes the next character a literal pattern character, whatever it is *)
Theorem escaped_chars_are_literal :
  forall s : str, with_escape (flat_map (fun c => [c_bslash; c]) s) = map Literal s.
Proof.
  induction s as [|c r IH]; [reflexivity|].
  cbn [flat_map app with_escape map]. rewrite N.eqb_refl, IH. reflexivity.
Qed.

(* the shell reads the unquoted result of an expansion as with_escape does (a backslash quotes the next character), except that a backslash at the very end stays an ordinary character *)
Theorem unquoted_expansion_reads_like_with_escape :
  forall s : str, to_pattern_chars (apply_escapes (map (fun c => mkAchar c false false) s)) = with_escape s ++ (if dangling_bslash s then [Normal c_bslash] else []).
Proof. intros s. apply (expansion_chars_from s). Qed.

(* the model of Pattern::parse_with_config is total on its domain: the emitted regex is always inside the modelled syntax and no fuel runs out *)
Theorem compile_has_definite_outcome :
  forall (cfg : config) (p : list pchar) (a : ast), parse_pattern p = Some a -> (exists b : body, compile cfg p = COk b) \/ (exists e : perr, compile cfg p = CErr e).
Proof.
  intros cfg p a Hp. destruct (compile_cases cfg p a Hp) as [(l & _ & E)|E]; [left; eauto|].
  destruct (all_some (map node_of_atom a)); [left; eauto|right; exact E].
Qed.

(* the emitted regex string, read by the regex syntax, is the intended structure (every special character of either language is escaped where needed); an error is reported exactly when no such structure exists *)
Theorem regex_escaping_complete :
  forall (cfg : config) (a : ast), match ast_fmt cfg a with | EOk s => parse_rx s = match rx_of_ast cfg a with Some r => RxOk r | None => RxErr end | EErr _ => rx_of_ast cfg a = None end.
Proof. exact fmt_regex_parses_back. Qed.

(* the regex crate's ASCII class ranges are the POSIX-locale classes of the specification *)
Theorem class_tables_agree :
  forall name : str, match class_of_name name, class_pred name with | Some k, Some p => forall x : N, p x = existsb (in_range x) (ascii_ranges k) | None, None => True | _, _ => False end.
Proof. exact class_tables. Qed.

(* what the backtracking matcher returns is a match *)
Theorem leftmost_first_sound :
  forall (lazy : bool) (r : rx) (pos : nat) (s : str) (k : nat), bt lazy r pos s = Some k -> RM r pos s k.
Proof. exact bt_sound. Qed.

(* if a match exists the backtracking matcher finds one *)
Theorem leftmost_first_complete :
  forall (lazy : bool) (r : rx) (pos : nat) (s : str) (k : nat), RM r pos s k -> exists k', bt lazy r pos s = Some k'.
Proof. exact bt_complete. Qed.

(* for glob-shaped regexes the first match in priority order with greedy stars is the longest *)
Theorem greedy_find_is_longest :
  forall r : rx, glob_rx r = true -> forall (pos : nat) (s : str) (k : nat), bt false r pos s = Some k -> forall p' k' : nat, RM r p' s k' -> k' <= k.
Proof. exact (bt_extremal false). Qed.

(* ... and with lazy stars (swap_greed) the shortest *)
Theorem lazy_find_is_shortest :
  forall r : rx, glob_rx r = true -> forall (pos : nat) (s : str) (k : nat), bt true r pos s = Some k -> forall p' k' : nat, RM r p' s k' -> k <= k'.
Proof. exact (bt_extremal true). Qed.

(* the oracle's matcher decides the declarative denotation (all bracket shapes, multi-character collating elements included) *)
Theorem matcher_decides_denotation :
  forall (p : ast) (s : str), dmatch p s = true <-> Denote p s.
Proof. exact dmatch_iff. Qed.

(* a compiled pattern anchored at both ends (case) accepts exactly the strings POSIX notation denotes; compilation fails exactly for invalid patterns *)
Theorem case_pattern_matches_iff_denoted :
  forall (p : list pchar) (a : ast) (s : str), parse_pattern p = Some a -> match compile case_config p with | COk b => pat_is_match case_config b s = true <-> Matches a s | CErr _ => valid_ast a = false | CUnsup | CFuel => False end.
Proof. exact case_pattern_correct_any. Qed.

(* Config::literal_period in the fully anchored configuration (pathname expansion): the string is accepted iff the pattern denotes it and, if the string starts with a period, the pattern starts with a literal period; nothing else in the string (no slash) is special *)
Theorem leading_period_needs_literal_period :
  forall (p : list pchar) (a : ast) (s : str), parse_pattern p = Some a -> match compile period_config p with | COk b => pat_is_match period_config b s = true <-> Matches a s /\ (starts_with [c_dot] s = true -> starts_with_literal_dot a = true) | CErr _ => valid_ast a = false | CUnsup | CFuel => False end.
Proof.
  intros p a s Hp. pose proof (case_pattern_correct_any p a s Hp) as Hc. rewrite compile_period.
  destruct (compile_cases case_config p a Hp) as [(l & -> & E)|E].
  - (* a literal: the fast path knows no period rule, and needs none *)
    rewrite E in *.
    change (pat_is_match period_config (BodyLit l) s) with (pat_is_match case_config (BodyLit l) s).
    rewrite Hc. split; [|tauto]. intros Hm. split; [exact Hm|]. intros Hd.
    destruct Hm as [_ Hm]. apply Denote_chars in Hm. subst s.
    destruct l as [|c l]; [discriminate|]. cbn [starts_with] in Hd. rewrite andb_true_r in Hd.
    cbn [map starts_with_literal_dot]. rewrite N.eqb_sym. exact Hd.
  - destruct (all_some (map node_of_atom a)) as [ns|]; [|destruct E as [e E]; rewrite E in *; exact Hc].
    rewrite E in *. cbn [pat_is_match] in *. unfold at_index in *.
    cbn [literal_period shortest_match period_config case_config andb] in *.
    destruct (negb (starts_with_literal_dot a) && starts_with [c_dot] s) eqn:Eblk.
    + (* the period rule applies: the search starts after the period, \A cannot match *)
      change (rx_cfg case_config ns) with (RStartText :: ns ++ [REndText]).
      rewrite find_start_from_one. split; [discriminate|].
      intros [_ Himp]. apply andb_true_iff in Eblk as [Hnd Hs]. apply negb_true_iff in Hnd.
      rewrite (Himp Hs) in Hnd. discriminate.
    + rewrite Hc. split; [|tauto]. intros Hm. split; [exact Hm|]. intros Hs.
      rewrite Hs, andb_true_r in Eblk. apply negb_false_iff in Eblk. exact Eblk.
Qed.

(* with literal_period and an anchored start, a non-empty pattern that does not start with a literal period never matches a string with a leading period (the empty pattern is a literal and matches the empty prefix) *)
Theorem leading_period_blocks_anchored_match :
  forall (cfg : config) (p : list pchar) (a : ast) (b : body) (s : str), literal_period cfg = true -> anchor_begin cfg = true -> parse_pattern p = Some a -> a <> [] -> compile cfg p = COk b -> starts_with [c_dot] s = true -> starts_with_literal_dot a = false -> pat_is_match cfg b s = false /\ pat_find cfg b s = None.
Proof.
  intros cfg p a b s Hlp Hab Hp Hne Hc Hs Hnd.
  destruct (compile_cases cfg p a Hp) as [(l & -> & E)|E].
  - rewrite E in Hc. inversion Hc; subst b.
    assert (Hno : starts_with l s = false).
    { destruct l as [|c l]; [|destruct s as [|x s']; [discriminate|]].
      - exfalso. apply Hne. reflexivity.
      - cbn [starts_with] in Hs. rewrite andb_true_r in Hs. apply N.eqb_eq in Hs. subst x.
        cbn [map starts_with_literal_dot] in Hnd. cbn [starts_with]. rewrite Hnd. reflexivity. }
    cbn [pat_is_match pat_find]. unfold lit_find. rewrite Hab.
    destruct (anchor_end cfg).
    + assert (str_eqb s l = false).
      { destruct (str_eqb s l) eqn:E'; [|reflexivity]. apply str_eqb_eq in E'. subst s.
        rewrite starts_with_refl in Hno. discriminate. }
      rewrite H. split; reflexivity.
    + rewrite Hno. split; reflexivity.
  - destruct (all_some (map node_of_atom a)) as [ns|]; [|destruct E as [e E]; congruence].
    rewrite E in Hc. inversion Hc; subst b. unfold rx_cfg. rewrite Hab. cbn [app pat_is_match pat_find].
    unfold at_index. rewrite Hlp, Hnd, Hs. cbn [negb andb].
    rewrite find_start_from_one. split; reflexivity.
Qed.

(* the four forms # ## % %% remove exactly the shortest / longest matching prefix / suffix (find for three of them, the rfind loop for %); only # and ## need single_width (trim_prefix), the suffix forms hold for every pattern (trim_suffix_shortest, trim_suffix_longest) because \z leaves one match per start *)
Theorem trim_forms_remove_shortest_longest :
  forall (side : trim_side) (len : trim_length) (p : list pchar) (a : ast) (v : str), parse_pattern p = Some a -> single_width a = true -> exists out : str, trim_model side len p v = Some out /\ TrimSpec side len a v out.
Proof.
  intros side len p a v Hp Hsw. unfold trim_model.
  pose proof (compile_answers (trim_config side len) p a v ltac:(destruct side; reflexivity) Hp) as H.
  destruct (all_some (map node_of_atom a)) as [ns|] eqn:Hns.
  - destruct H as (b & -> & _ & Hl & Hr).
    destruct side; [|destruct len]; cbn [trim_config anchor_end shortest_match andb] in *.
    + eexists. split; [|apply (trim_prefix a ns v Hns len _ Hsw Hl)].
      destruct (pat_find _ b v) as [[x y]|]; reflexivity.
    + pose proof (trim_suffix_shortest a ns v Hns _ Hr) as Hs.
      destruct (pat_rfind _ b v); [eauto|eauto|destruct Hs].
    + eexists. split; [|apply (trim_suffix_longest a ns v Hns _ Hl)].
      destruct (pat_find _ b v) as [[x y]|]; reflexivity.
  - destruct H as [e ->]. exists v. split; [reflexivity|].
    assert (Hinv : valid_ast a = false) by (rewrite valid_nodes, Hns; reflexivity).
    destruct side, len; right; (split; [|reflexivity]); intros n [_ [Hv _]]; congruence.
Qed.

(* oracle soundness (Pattern stream): under every configuration without the period rule the three oracle clauses accept the model's is_match / find / rfind, for the literal fast path and for the regex path; the rfind loop never runs out of fuel *)
Theorem pattern_oracle_accepts_model :
  forall (cfg : config) (p : list pchar) (a : ast) (text : str), literal_period cfg = false -> parse_pattern p = Some a -> single_width a = true -> let tbl := table_of cfg a text in match compile cfg p with | COk b => oracle_is_match tbl (pat_is_match cfg b text) = true /\ oracle_find cfg tbl (pat_find cfg b text) = true /\ match pat_rfind cfg b text with | FSome x y => oracle_rfind cfg tbl (Some (x, y)) = true | FNone => oracle_rfind cfg tbl None = true | FFuel => False end | CErr _ => tbl = [] | CUnsup | CFuel => False end.
Proof.
  intros cfg p a text Hlp Hp Hsw tbl. subst tbl. pose proof (compile_answers cfg p a text Hlp Hp) as H.
  destruct (all_some (map node_of_atom a)) as [ns|] eqn:Hns.
  - destruct H as (b & -> & -> & Hl & Hr).
    destruct (find_accepted cfg a ns text Hns Hsw Hlp _ Hl) as [H1 H2].
    split; [exact H1|]. split; [exact H2|]. exact (rfind_accepted cfg a ns text Hns Hsw Hlp _ Hr).
  - destruct H as [e ->]. unfold table_of, match_table.
    rewrite valid_nodes, Hns. destruct (period_blocks cfg a text); reflexivity.
Qed.

(* oracle soundness (trim stream): the executable form of the trim specification accepts what the model computes *)
Theorem trim_oracle_accepts_model :
  forall (side : trim_side) (len : trim_length) (p : list pchar) (a : ast) (v : str), parse_pattern p = Some a -> single_width a = true -> exists out : str, trim_model side len p v = Some out /\ str_eqb out (spec_trim side len a v) = true.
Proof.
  intros side len p a v Hp Hsw.
  destruct (trim_forms_remove_shortest_longest side len p a v Hp Hsw) as (out & Hm & Hs).
  exists out. split; [exact Hm|]. apply str_eqb_eq. symmetry. apply spec_trim_sound. exact Hs.
Qed.

(* the executable min / max over matching splits is the declarative shortest / longest prefix / suffix *)
Theorem spec_trim_computes_the_specification :
  forall (side : trim_side) (len : trim_length) (a : ast) (v out : str), TrimSpec side len a v out -> spec_trim side len a v = out.
Proof. exact spec_trim_sound. Qed.

(* a quoted character at the top level is a literal character whatever it is *)
Theorem literal_head_is_literal :
  forall (c : N) (p : list pchar), parse_pattern (Literal c :: p) = omap (cons (AChar c)) (parse_pattern p).
Proof. reflexivity. Qed.

(* a fully quoted pattern matches exactly itself *)
Theorem quoted_pattern_matches_itself :
  forall s : str, parse_pattern (map Literal s) = Some (map AChar s) /\ (forall t : str, Matches (map AChar s) t <-> t = s).
Proof. exact quoted_is_literal. Qed.

(* the shell hands quoted characters to the matcher as literal pattern characters *)
Theorem quoted_chars_are_literal :
  forall l : list achar, Forall (fun a => a_quoted a = true /\ a_quoting a = false) l -> to_pattern_chars (apply_escapes l) = map (fun a => Literal (a_value a)) l.
Proof.
  intros l H. unfold apply_escapes. rewrite apply_escapes_quoted.
  - induction H as [|a r [Hq Hg] Hr IH]; [reflexivity|].
    cbn [to_pattern_chars map]. rewrite Hg, Hq, IH. reflexivity.
  - eapply Forall_impl; [|exact H]. intros a [Hq _]. exact Hq.
Qed.

(* an opening bracket that no unquoted closing bracket follows is a literal character *)
Theorem unclosed_bracket_is_literal :
  forall p : list pchar, ~ In (Normal c_rbr) p -> parse_pattern (Normal c_lbr :: p) = omap (cons (AChar c_lbr)) (parse_pattern p).
Proof.
  intros p Hno. unfold parse_pattern at 1. cbn [length parse_atoms].
  replace (N.eqb c_lbr c_quest) with false by reflexivity.
  replace (N.eqb c_lbr c_star) with false by reflexivity.
  rewrite N.eqb_refl, (bracket_parse_unclosed p Hno). reflexivity.
Qed.

(* the first body `case` runs belongs to the first item one of whose patterns matches; none runs if none matches *)
Theorem case_runs_first_matching_item :
  forall (subject : str) (items : list (list (list pchar) * continuation)) (sitems : list (list ast)) (idx : nat), Forall2 (fun it sit => item_parsed (fst it) sit) items sitems -> exists l : list nat, case_run subject items idx false = Some l /\ hd_error l = first_matching subject sitems idx.
Proof. exact case_first_match. Qed.

(* with ;; terminators exactly that one body runs *)
Theorem case_with_breaks_runs_only_that_item :
  forall (subject : str) (items : list (list (list pchar) * continuation)) (sitems : list (list ast)) (idx : nat), Forall2 (fun it sit => item_parsed (fst it) sit) items sitems -> Forall (fun it => snd it = CBreak) items -> case_run subject items idx false = Some match first_matching subject sitems idx with Some i => [i] | None => [] end.
Proof.
  intros subject. induction items as [|[pats cont] items IH]; intros sitems idx H Hb.
  - inversion H; subst. reflexivity.
  - inversion H as [|? sit ? sitems' Hit Hrest]; subst. cbn [fst] in Hit.
    inversion Hb as [|? ? Hc Hb']; subst. cbn [snd] in Hc. subst cont.
    cbn [case_run first_matching].
    rewrite (case_item_matches_spec subject pats sit Hit).
    destruct (item_matches_b subject sit); [reflexivity|].
    exact (IH sitems' (S idx) Hrest Hb').
Qed.

(* for every mix of ;; ;& ;;& the bodies that run are the ones the terminators prescribe *)
Theorem case_bodies_follow_terminators :
  forall (subject : str) (items : list (list (list pchar) * continuation)) (sitems : list (list ast * continuation)) (idx : nat) (falling : bool), Forall2 (fun it sit => item_parsed (fst it) (fst sit) /\ snd it = snd sit) items sitems -> case_run subject items idx falling = Some (spec_case_run subject sitems idx falling).
Proof. exact case_run_spec. Qed.

(* F31 (open finding): with a two-character collating symbol ${v#p} need not remove the shortest prefix ([[.ch.]c]h on chh) *)
Theorem prefix_shortest_multichar_refuted :
  exists (p : list pchar) (a : ast) (v out : str), parse_pattern p = Some a /\ trim_model Prefix Shortest p v = Some out /\ ~ TrimSpec Prefix Shortest a v out.
Proof.
  exists f31_pat, f31_ast, [99; 104; 104]%N, (@nil N).
  split; [reflexivity|]. split; [reflexivity|].
  assert (H2 : PrefixMatch f31_ast [99; 104; 104]%N 2).
  { split; [cbn; lia|]. apply matches_b_iff. vm_compute. reflexivity. }
  cbn [TrimSpec]. intros [(n & [Hn Hmin] & Hout)|[Hno _]].
  - specialize (Hmin 2 H2). destruct n as [|[|[|n]]]; try lia; discriminate.
  - exact (Hno 2 H2).
Qed.

(* F31: ... nor ${v##p} the longest ([[.a.][.ab.]] on ab) *)
Theorem prefix_longest_multichar_refuted :
  exists (p : list pchar) (a : ast) (v out : str), parse_pattern p = Some a /\ trim_model Prefix Longest p v = Some out /\ ~ TrimSpec Prefix Longest a v out.
Proof.
  exists f31b_pat, f31b_ast, [97; 98]%N, [98]%N.
  split; [reflexivity|]. split; [reflexivity|].
  assert (H2 : PrefixMatch f31b_ast [97; 98]%N 2).
  { split; [cbn; lia|]. apply matches_b_iff. vm_compute. reflexivity. }
  cbn [TrimSpec]. intros [(n & [[Hn1 _] Hmax] & Hout)|[Hno _]].
  - specialize (Hmax 2 H2). cbn [length] in Hn1. assert (n = 2) by lia. subst n. discriminate.
  - exact (Hno 2 H2).
Qed.

Print Assumptions parser_reads_posix_grammar.
Print Assumptions parser_fuel_suffices.
Print Assumptions escape_free_patterns_agree.
Print Assumptions escaped_chars_are_literal.
Print Assumptions unquoted_expansion_reads_like_with_escape.
Print Assumptions compile_has_definite_outcome.
Print Assumptions regex_escaping_complete.
Print Assumptions class_tables_agree.
Print Assumptions leftmost_first_sound.
Print Assumptions leftmost_first_complete.
Print Assumptions greedy_find_is_longest.
Print Assumptions lazy_find_is_shortest.
Print Assumptions matcher_decides_denotation.
Print Assumptions case_pattern_matches_iff_denoted.
Print Assumptions leading_period_needs_literal_period.
Print Assumptions leading_period_blocks_anchored_match.
Print Assumptions trim_forms_remove_shortest_longest.
Print Assumptions pattern_oracle_accepts_model.
Print Assumptions trim_oracle_accepts_model.
Print Assumptions spec_trim_computes_the_specification.
Print Assumptions literal_head_is_literal.
Print Assumptions quoted_pattern_matches_itself.
Print Assumptions quoted_chars_are_literal.
Print Assumptions unclosed_bracket_is_literal.
Print Assumptions case_runs_first_matching_item.
Print Assumptions case_with_breaks_runs_only_that_item.
Print Assumptions case_bodies_follow_terminators.
Print Assumptions prefix_shortest_multichar_refuted.
Print Assumptions prefix_longest_multichar_refuted.
