(* C04 — what the oracles of Run.v evaluate agrees with the model.  `case`
   runs the bodies the specification prescribes; the executable form of the
   trim specification computes it; the table of admissible matches of the
   Pattern stream is read through the matcher at each start, and its three
   clauses hold of the answers of find and rfind as ProofsPattern describes
   them (configurations without the period rule, single-width patterns). *)
From Yv Require Import Common.Base C04.Model C04.Spec C04.ProofsMatch C04.ProofsSem
  C04.ProofsPattern C04.ProofsTable.
From Coq Require Import List NArith Bool Arith Lia.
Import ListNotations.

Lemma case_item_matches_spec subject pats asts :
  item_parsed pats asts ->
  case_item_matches subject pats = Some (item_matches_b subject asts).
Proof.
  intros H. induction H as [|p a pats asts Hp Hrest IH]; [reflexivity|].
  cbn [case_item_matches item_matches_b existsb].
  pose proof (case_pattern_correct_any p a subject Hp) as Hc.
  destruct (compile case_config p) as [b|e| |]; try contradiction.
  - assert (E : pat_is_match case_config b subject = matches_b a subject).
    { apply eq_true_iff_eq. rewrite Hc. symmetry. apply matches_b_iff. }
    rewrite E. destruct (matches_b a subject); [reflexivity|exact IH].
  - assert (matches_b a subject = false) by (unfold matches_b; rewrite Hc; reflexivity).
    rewrite H. cbn [orb]. exact IH.
Qed.

Theorem case_run_spec subject : forall items sitems idx falling,
  Forall2 (fun it sit => item_parsed (fst it) (fst sit) /\ snd it = snd sit) items sitems ->
  case_run subject items idx falling = Some (spec_case_run subject sitems idx falling).
Proof.
  induction items as [|[pats cont] items IH]; intros sitems idx falling H.
  - inversion H; subst. reflexivity.
  - inversion H as [|? [sit cont'] ? sitems' [Hit Hc] Hrest]; subst. cbn [fst snd] in Hit, Hc. subst cont'.
    cbn [case_run spec_case_run].
    assert (Hrun : match cont with
                   | CBreak => Some [idx]
                   | CFallThrough => omap (cons idx) (case_run subject items (S idx) true)
                   | CContinue => omap (cons idx) (case_run subject items (S idx) false)
                   end =
                   Some (idx :: match cont with
                                | CBreak => []
                                | CFallThrough => spec_case_run subject sitems' (S idx) true
                                | CContinue => spec_case_run subject sitems' (S idx) false
                                end)).
    { destruct cont; [reflexivity| |]; rewrite (IH sitems' (S idx) _ Hrest); reflexivity. }
    destruct falling; [exact Hrun|]. cbn [orb].
    rewrite (case_item_matches_spec subject pats sit Hit).
    destruct (item_matches_b subject sit); [exact Hrun|].
    exact (IH sitems' (S idx) false Hrest).
Qed.

Lemma spec_case_run_hd subject : forall sitems idx,
  hd_error (spec_case_run subject sitems idx false) = first_matching subject (map fst sitems) idx.
Proof.
  induction sitems as [|[pats cont] r IH]; intros idx; [reflexivity|].
  cbn [spec_case_run first_matching map fst orb].
  destruct (item_matches_b subject pats); [reflexivity|apply IH].
Qed.

(* items parsed without their terminators are items parsed with them *)
Lemma parsed_with_conts (items : list (list (list pchar) * continuation)) sitems :
  Forall2 (fun it sit => item_parsed (fst it) sit) items sitems ->
  exists sc, map fst sc = sitems /\
             Forall2 (fun it sit => item_parsed (fst it) (fst sit) /\ snd it = snd sit) items sc.
Proof.
  induction 1 as [|it sit items sitems H _ (sc & <- & IH)]; [exists []; split; [reflexivity|constructor]|].
  exists ((sit, snd it) :: sc). split; [reflexivity|]. constructor; [split; [exact H|reflexivity]|exact IH].
Qed.

Theorem case_first_match subject : forall items sitems idx,
  Forall2 (fun it sit => item_parsed (fst it) sit) items sitems ->
  exists l, case_run subject items idx false = Some l /\
            hd_error l = first_matching subject sitems idx.
Proof.
  intros items sitems idx H. destruct (parsed_with_conts _ _ H) as (sc & <- & Hsc).
  exists (spec_case_run subject sc idx false). split; [apply case_run_spec, Hsc|apply spec_case_run_hd].
Qed.


Lemma prefix_match_b a v n : PrefixMatch a v n <-> n <= length v /\ matches_b a (firstn n v) = true.
Proof. unfold PrefixMatch. rewrite matches_b_iff. tauto. Qed.

Lemma suffix_match_b a v n :
  SuffixMatch a v n <-> n <= length v /\ matches_b a (skipn (length v - n) v) = true.
Proof. unfold SuffixMatch. rewrite matches_b_iff. tauto. Qed.

Theorem spec_trim_sound side len a v out :
  TrimSpec side len a v out -> spec_trim side len a v = out.
Proof.
  unfold spec_trim, prefix_lens, suffix_lens.
  destruct side, len; cbn [TrimSpec]; intros [(n & Hn & ->)|[Hno ->]].
  - rewrite (least_first _ _ _ _ (prefix_match_b a v) Hn). reflexivity.
  - rewrite (none_empty _ _ _ (prefix_match_b a v) Hno). reflexivity.
  - rewrite (greatest_last _ _ _ _ (prefix_match_b a v) Hn). reflexivity.
  - rewrite (none_empty _ _ _ (prefix_match_b a v) Hno). reflexivity.
  - rewrite (least_first _ _ _ _ (suffix_match_b a v) Hn). reflexivity.
  - rewrite (none_empty _ _ _ (suffix_match_b a v) Hno). reflexivity.
  - rewrite (greatest_last _ _ _ _ (suffix_match_b a v) Hn). reflexivity.
  - rewrite (none_empty _ _ _ (suffix_match_b a v) Hno). reflexivity.
Qed.

Lemma range_ok_iff cfg a ns text x y :
  all_some (map node_of_atom a) = Some ns ->
  (range_ok cfg a text x y = true <->
   x <= y /\ y <= length text /\ RM (rx_cfg cfg ns) x (skipn x text) (y - x)).
Proof.
  intros Hns. rewrite (RM_cfg cfg a ns Hns). unfold range_ok, DenoteK, sub.
  rewrite !andb_true_iff, !orb_true_iff, !negb_true_iff, !Nat.leb_le, !Nat.eqb_eq, dmatch_iff.
  rewrite skipn_length. destruct (anchor_begin cfg), (anchor_end cfg); intuition (congruence || lia).
Qed.

Section Table.
Variables (cfg : config) (a : ast) (ns : rx) (text : str).
Hypothesis Hns : all_some (map node_of_atom a) = Some ns.

Let B : nat -> option nat := bt_at (shortest_match cfg) (rx_cfg cfg ns) text.
Let entry (x : nat) : nat * list nat := (x, ends_from cfg a text x).
Let keep (e : nat * list nat) : bool := negb (is_nil (snd e)).

Lemma table_is : match_table cfg a text = filter keep (map entry (seq 0 (S (length text)))).
Proof. unfold match_table. rewrite valid_nodes, Hns. reflexivity. Qed.

Lemma in_ends x y : In y (ends_from cfg a text x) <-> range_ok cfg a text x y = true.
Proof.
  unfold ends_from. rewrite filter_In, in_seq. split; [intros [_ H]; exact H|].
  intros H. split; [|exact H].
  apply (range_ok_iff cfg a ns text x y Hns) in H as (_ & H & _). lia.
Qed.

Lemma B_range x k :
  x <= length text -> B x = Some k -> x + k <= length text /\ range_ok cfg a text x (x + k) = true.
Proof.
  intros Hx Hb. apply bt_sound in Hb. pose proof (RM_le _ _ _ _ Hb) as Hle.
  rewrite skipn_length in Hle. split; [lia|].
  apply (range_ok_iff cfg a ns text x (x + k) Hns).
  replace (x + k - x) with k by lia. repeat split; try lia. exact Hb.
Qed.

Lemma range_B x y : range_ok cfg a text x y = true -> B x <> None.
Proof.
  intros H. apply (range_ok_iff cfg a ns text x y Hns) in H as (_ & _ & H).
  destruct (bt_complete (shortest_match cfg) _ _ _ _ H) as [k E]. unfold B, bt_at. congruence.
Qed.

Lemma keep_B x : x <= length text -> (keep (entry x) = true <-> B x <> None).
Proof.
  intros Hx. unfold keep, entry. cbn [snd]. split.
  - intros H. destruct (ends_from cfg a text x) as [|y l] eqn:E; [discriminate|].
    apply (range_B x y), in_ends. rewrite E. left. reflexivity.
  - intros H. destruct (B x) as [k|] eqn:E; [|congruence].
    apply (B_range x k Hx) in E as [_ E]. apply in_ends in E.
    destruct (ends_from cfg a text x); [destruct E|reflexivity].
Qed.

Lemma keep_false_B x : x <= length text -> B x = None -> keep (entry x) = false.
Proof.
  intros Hx Hb. destruct (keep (entry x)) eqn:E; [|reflexivity].
  apply keep_B in E; [congruence|exact Hx].
Qed.

Lemma table_nil : (forall x, x <= length text -> B x = None) -> match_table cfg a text = [].
Proof.
  intros H. rewrite table_is. apply filter_map_nil.
  intros m Hm. apply keep_false_B; [lia|apply H; lia].
Qed.

Lemma table_first x :
  x <= length text -> B x <> None -> (forall m, m < x -> B m = None) ->
  hd_error (match_table cfg a text) = Some (entry x).
Proof.
  intros Hx Hb Hmin. rewrite table_is. apply hd_filter_map; [lia|apply keep_B; assumption|].
  intros m Hm Hk. destruct (le_lt_dec x m) as [Hle|Hlt]; [exact Hle|].
  rewrite (keep_false_B m) in Hk; [discriminate|lia|apply Hmin; exact Hlt].
Qed.

Lemma table_last x :
  x <= length text -> B x <> None -> (forall m, x < m -> m <= length text -> B m = None) ->
  hd_error (rev (match_table cfg a text)) = Some (entry x).
Proof.
  intros Hx Hb Hmax. rewrite table_is. apply last_filter_map; [lia|apply keep_B; assumption|].
  intros m Hm Hk. destruct (le_lt_dec m x) as [Hle|Hlt]; [exact Hle|].
  rewrite (keep_false_B m) in Hk; [discriminate|lia|apply Hmax; lia].
Qed.

Hypothesis Hsw : single_width a = true.

(* the entry of a start where bt succeeds satisfies the entry clause: its
   match is an end, and the extremal one where the clause asks for that *)
Lemma entry_accepts x k :
  x <= length text -> B x = Some k -> entry_ok cfg (Some (entry x)) x (x + k) = true.
Proof.
  intros Hx Hb. destruct (B_range x k Hx Hb) as [Hle Hr].
  unfold entry_ok, entry. rewrite Nat.eqb_refl.
  replace (existsb (Nat.eqb (x + k)) (ends_from cfg a text x)) with true.
  2:{ symmetry. apply existsb_exists. exists (x + k). split; [apply in_ends, Hr|apply Nat.eqb_refl]. }
  cbn [andb]. unfold wanted_end.
  destruct (anchor_begin cfg && negb (anchor_end cfg)) eqn:Ea; [|reflexivity].
  apply andb_true_iff in Ea as [Hab Hae]. apply negb_true_iff in Hae.
  assert (Hext : forall y, range_ok cfg a text x y = true ->
                           if shortest_match cfg then x + k <= y else y <= x + k).
  { intros y Hy. apply (range_ok_iff cfg a ns text x y Hns) in Hy as (Hxy & _ & HR).
    pose proof (prefix_extremal _ _ _ _ _ _ _ _ (nodes_glob a ns Hsw Hns) Hab Hae Hb HR) as H.
    destruct (shortest_match cfg); lia. }
  assert (Hin : 0 <= x + k < 0 + S (length text)) by lia.
  unfold ends_from. destruct (shortest_match cfg).
  - rewrite (first_of_filter (fun y => range_ok cfg a text x y) _ _ _ Hin Hr); [apply Nat.eqb_refl|]. intros m _. apply Hext.
  - rewrite (last_of_filter (fun y => range_ok cfg a text x y) _ _ _ Hin Hr); [apply Nat.eqb_refl|]. intros m _. apply Hext.
Qed.

Hypothesis Hlp : literal_period cfg = false.

Lemma table_of_is : table_of cfg a text = match_table cfg a text.
Proof. unfold table_of, period_blocks. rewrite Hlp. reflexivity. Qed.

Lemma find_accepted res :
  leftmost (shortest_match cfg) (rx_cfg cfg ns) text res ->
  oracle_is_match (table_of cfg a text) (is_some res) = true /\
  oracle_find cfg (table_of cfg a text) res = true.
Proof.
  rewrite table_of_is. unfold oracle_is_match, oracle_find.
  destruct res as [[x y]|]; cbn [leftmost is_some].
  - intros (Hx & (k & Hb & ->) & Hmin).
    assert (Hhd : hd_error (match_table cfg a text) = Some (entry x))
      by (apply table_first; [exact Hx|unfold B; congruence|exact Hmin]).
    split; [destruct (match_table cfg a text); [discriminate|reflexivity]|].
    rewrite Hhd. apply entry_accepts; assumption.
  - intros Hnone. rewrite (table_nil Hnone). split; reflexivity.
Qed.

Lemma rfind_accepted res :
  rightmost (shortest_match cfg) (rx_cfg cfg ns) text res ->
  match res with
  | FSome x y => oracle_rfind cfg (table_of cfg a text) (Some (x, y)) = true
  | FNone => oracle_rfind cfg (table_of cfg a text) None = true
  | FFuel => False
  end.
Proof.
  rewrite table_of_is. unfold oracle_rfind. destruct res as [x y| |]; cbn [rightmost].
  - intros (Hx & (k & Hb & ->) & Hmax).
    rewrite (table_last x Hx); [|unfold B; congruence|exact Hmax]. apply entry_accepts; assumption.
  - intros Hnone. rewrite (table_nil Hnone). reflexivity.
  - exact (fun H => H).
Qed.

End Table.
