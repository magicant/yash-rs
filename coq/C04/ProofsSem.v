(* C04 — the intended regex of a pattern matches what the pattern denotes
   (Denote, Spec.v), and dmatch decides Denote. *)
From Yv Require Import Common.Base C04.Model C04.Spec C04.ProofsMatch.
From Coq Require Import List NArith Bool Arith Lia ZifyBool.
Import ListNotations.

Lemma class_tables name :
  match class_of_name name, class_pred name with
  | Some k, Some p => forall x, p x = existsb (in_range x) (ascii_ranges k)
  | None, None => True
  | _, _ => False
  end.
Proof.
  unfold class_of_name, class_pred, class_names, spec_classes. cbn [assoc_str].
  repeat (destruct (str_eqb name _);
          [intros x;
           unfold p_alnum, p_alpha, p_ascii, p_blank, p_cntrl, p_digit, p_graph, p_lower, p_print,
             p_punct, p_space, p_upper, p_word, p_xdigit, p_graph, p_alnum, p_alpha, p_upper,
             p_lower, p_digit, Spec.between, in_range, ascii_ranges;
           cbn [existsb fst snd]; lia|]).
  exact I.
Qed.

Lemma class_names_agree name : is_some (class_pred name) = is_some (class_of_name name).
Proof.
  pose proof (class_tables name) as H.
  destruct (class_of_name name), (class_pred name); try reflexivity; destruct H.
Qed.

Lemma citem_item it ci : citem_of it = Some ci -> forall x, citem_match x ci = item_has1 it x.
Proof.
  destruct it as [[c|v|v|name]|lo hi]; cbn [citem_of]; intros H x.
  2,3: destruct v as [|c [|? ?]]; try discriminate; inversion H; subst;
       cbn [citem_match item_has1 str_eqb list_eqb]; rewrite andb_true_r; apply N.eqb_sym.
  - inversion H; subst. reflexivity.
  - pose proof (class_tables name) as T. cbn [item_has1].
    destruct (class_of_name name) as [k|]; [|discriminate]. inversion H; subst.
    destruct (class_pred name) as [p|]; [|destruct T]. cbn [citem_match]. symmetry. apply T.
  - cbn [item_has1]. destruct (endpoint lo) as [l|]; [|discriminate].
    destruct (endpoint hi) as [h|]; [|discriminate].
    destruct (N.leb l h); [|discriminate]. inversion H; subst. reflexivity.
Qed.

Lemma nonmulti_no_seq it : bitem_multi it = false -> item_seq it = None.
Proof.
  destruct it as [[c|v|v|name]|lo hi]; cbn [bitem_multi batom_multi item_seq]; try reflexivity;
    intros H; rewrite H; reflexivity.
Qed.

Lemma item_ok_citem it :
  bitem_multi it = false -> item_ok it = is_some (citem_of it).
Proof.
  destruct it as [[c|v|v|name]|lo hi]; cbn [bitem_multi batom_multi item_ok citem_of]; intros H.
  2,3: apply Nat.ltb_ge in H; destruct v as [|c [|c2 r]]; try reflexivity; cbn in H; lia.
  - reflexivity.
  - rewrite class_names_agree. destruct (class_of_name name); reflexivity.
  - destruct (endpoint lo), (endpoint hi); try reflexivity. destruct (N.leb n n0); reflexivity.
Qed.

Lemma multi_ok it : bitem_multi it = true ->
  item_ok it = true /\
  exists v, alt_of it = Some (map SLit v) /\ item_seq it = Some v /\ forall x, item_has1 it x = false.
Proof.
  intros Hm. unfold alt_of. rewrite Hm.
  destruct it as [[c|v|v|name]|lo hi]; cbn [bitem_multi batom_multi] in Hm; try discriminate;
    cbn [item_seq]; rewrite Hm; apply Nat.ltb_lt in Hm;
    (destruct v as [|c [|c2 r]]; [cbn in Hm; lia|cbn in Hm; lia|]);
    (split; [reflexivity|]); eexists; (split; [reflexivity|]); (split; [reflexivity|]);
    intros x; cbn [item_has1 str_eqb list_eqb]; destruct (N.eqb c x); reflexivity.
Qed.

Lemma firstn_app_len {A} (u v : list A) : firstn (length u) (u ++ v) = u.
Proof. induction u as [|x u IH]; [destruct v; reflexivity|]. cbn. rewrite IH. reflexivity. Qed.

Lemma skipn_app_len {A} (u v : list A) : skipn (length u) (u ++ v) = v.
Proof. induction u as [|x u IH]; [reflexivity|]. cbn. exact IH. Qed.

Lemma starts_with_iff s t : starts_with s t = true <-> firstn (length s) t = s /\ length s <= length t.
Proof.
  revert t. induction s as [|x s IH]; intros t.
  - cbn. split; [intros _; split; [reflexivity|lia]|reflexivity].
  - destruct t as [|y t]; cbn [starts_with firstn length].
    + split; [discriminate|intros [H _]; discriminate].
    + rewrite andb_true_iff, N.eqb_eq, IH. split.
      * intros (-> & -> & Hl). split; [reflexivity|lia].
      * intros [H Hl]. inversion H as [[Hx Hs]]. rewrite Hs. repeat split; [exact Hs|lia].
Qed.

Lemma starts_with_skip v s : starts_with v s = true -> s = v ++ skipn (length v) s.
Proof.
  intros H. apply starts_with_iff in H as [H _].
  pose proof (firstn_skipn (length v) s) as E. rewrite H in E. symmetry. exact E.
Qed.

Lemma starts_with_app v t : starts_with v (v ++ t) = true.
Proof. induction v as [|x v IH]; [reflexivity|]. cbn. rewrite N.eqb_refl, IH. reflexivity. Qed.

Lemma starts_with_refl l : starts_with l l = true.
Proof. rewrite <- (app_nil_r l) at 2. apply starts_with_app. Qed.

Lemma Denote_nil_iff s : Denote [] s <-> s = [].
Proof. split; [intros H; inversion H; reflexivity|intros ->; constructor]. Qed.

Lemma Denote_cons_iff a p s :
  Denote (a :: p) s <->
  exists j, j <= length s /\ atom_lang a (firstn j s) /\ Denote p (skipn j s).
Proof.
  split.
  - intros H. inversion H as [|? ? u v Hu Hv]; subst. exists (length u).
    rewrite firstn_app_len, skipn_app_len, app_length. repeat split; [lia|assumption|assumption].
  - intros (j & Hj & Hu & Hv). rewrite <- (firstn_skipn j s). constructor; assumption.
Qed.

Definition DenoteK (p : ast) (s : str) (k : nat) : Prop := k <= length s /\ Denote p (firstn k s).

Lemma DK_nil s k : DenoteK [] s k <-> k = 0.
Proof.
  unfold DenoteK. rewrite Denote_nil_iff. split.
  - intros [Hk H]. destruct k; [reflexivity|]. destruct s; [cbn in Hk; lia|discriminate].
  - intros ->. split; [lia|reflexivity].
Qed.

Lemma DK_cons a p s k :
  DenoteK (a :: p) s k <->
  exists j m, k = j + m /\ j <= length s /\ atom_lang a (firstn j s) /\ DenoteK p (skipn j s) m.
Proof.
  unfold DenoteK. rewrite Denote_cons_iff. split.
  - intros (Hk & j & Hj & Hu & Hv). rewrite firstn_length_le in Hj by exact Hk.
    exists j, (k - j). rewrite firstn_firstn, Nat.min_l in Hu by exact Hj.
    rewrite skipn_firstn_comm in Hv. rewrite skipn_length.
    repeat split; try assumption; lia.
  - intros (j & m & -> & Hj & Hu & Hl & Hv). rewrite skipn_length in Hl. split; [lia|].
    exists j. rewrite firstn_length_le by lia.
    rewrite firstn_firstn, Nat.min_l by lia. rewrite skipn_firstn_comm.
    replace (j + m - j) with m by lia. repeat split; [lia|assumption|assumption].
Qed.

Lemma char_lang c u : atom_lang (AChar c) u <-> exists x, u = [x] /\ N.eqb x c = true.
Proof.
  cbn [atom_lang]. split.
  - intros ->. exists c. split; [reflexivity|apply N.eqb_refl].
  - intros (x & -> & Hx). apply N.eqb_eq in Hx. subst. reflexivity.
Qed.

Lemma any_lang u : atom_lang AAnyChar u <-> exists x : N, u = [x] /\ true = true.
Proof. cbn [atom_lang]. split; intros (x & Hx); exists x; [split; [exact Hx|reflexivity]|apply Hx]. Qed.

(* an element that stands for single characters, as dmatch tests it *)
Lemma Denote_single a p (h : N -> bool) (m : str -> bool) s :
  (forall u, atom_lang a u <-> exists x, u = [x] /\ h x = true) ->
  (forall t, m t = true <-> Denote p t) ->
  (match s with x :: s' => h x && m s' | [] => false end = true <-> Denote (a :: p) s).
Proof.
  intros Hl Hm. split.
  - destruct s as [|x s']; [discriminate|]. rewrite andb_true_iff, Hm. intros [Hx Hp].
    change (x :: s') with ([x] ++ s'). constructor; [|exact Hp].
    apply Hl. exists x. split; [reflexivity|exact Hx].
  - intros H. inversion H as [|? ? u v Hu Hv]; subst. apply Hl in Hu as (x & -> & Hx).
    cbn [app]. rewrite Hx. apply Hm, Hv.
Qed.

Lemma Denote_star p s : Denote (AAnyString :: p) s <-> exists j, j <= length s /\ Denote p (skipn j s).
Proof.
  rewrite Denote_cons_iff. split.
  - intros (j & Hj & _ & H). eauto.
  - intros (j & Hj & H). exists j. repeat split; assumption.
Qed.

Lemma dmatch_iff : forall p s, dmatch p s = true <-> Denote p s.
Proof.
  induction p as [|a p IH]; intros s.
  - cbn [dmatch]. rewrite Denote_nil_iff. destruct s; cbn; split; congruence.
  - destruct a as [c| | |b].
    + exact (Denote_single (AChar c) p (fun x => N.eqb x c) (dmatch p) s (char_lang c) IH).
    + exact (Denote_single AAnyChar p (fun _ => true) (dmatch p) s any_lang IH).
    + rewrite Denote_star. cbn [dmatch].
      induction s as [|x s' IHs].
      * rewrite orb_false_r, IH. split.
        -- intros H. exists 0. split; [lia|exact H].
        -- intros (j & Hj & H). cbn [length] in Hj. assert (j = 0) by lia. subst. exact H.
      * rewrite orb_true_iff, IH, IHs. split.
        -- intros [H|(j & Hj & H)].
           ++ exists 0. split; [lia|exact H].
           ++ exists (S j). split; [cbn; lia|exact H].
        -- intros (j & Hj & H). destruct j as [|j].
           ++ left. exact H.
           ++ right. exists j. split; [cbn in Hj; lia|exact H].
    + cbn [dmatch]. rewrite orb_true_iff, andb_true_iff, negb_true_iff. split.
      * intros [H|[Hc H]].
        -- destruct s as [|x s']; [discriminate|]. apply andb_true_iff in H as [Hx Hp].
           apply IH in Hp. change (x :: s') with ([x] ++ s'). constructor; [|exact Hp].
           cbn [atom_lang]. unfold bracket_lang, bracket_has1 in *.
           destruct (b_complement b).
           ++ exists x. split; [reflexivity|]. destruct (set_has1 (b_items b) x); [discriminate|reflexivity].
           ++ left. exists x. split; [reflexivity|]. destruct (set_has1 (b_items b) x); [reflexivity|discriminate].
        -- apply existsb_exists in H as (it & Hin & Hit).
           destruct (item_seq it) as [v|] eqn:Ev; [|discriminate].
           apply andb_true_iff in Hit as [Hsw Hp]. apply IH in Hp.
           rewrite (starts_with_skip v s Hsw). constructor; [|exact Hp].
           cbn [atom_lang]. unfold bracket_lang. rewrite Hc. right. exists it. auto.
      * intros H. inversion H as [|? ? u v Hu Hv]; subst. apply IH in Hv.
        cbn [atom_lang] in Hu. unfold bracket_lang, bracket_has1 in *.
        destruct (b_complement b) eqn:Ec.
        -- destruct Hu as (c & -> & Hc). left. cbn [app]. rewrite Hc, Hv. reflexivity.
        -- destruct Hu as [(c & -> & Hc)|(it & Hin & Hs)].
           ++ left. cbn [app]. rewrite Hc, Hv. reflexivity.
           ++ right. split; [reflexivity|]. apply existsb_exists. exists it. split; [exact Hin|].
              rewrite Hs. rewrite starts_with_app. rewrite skipn_app_len. exact Hv.
Qed.

Lemma matches_b_iff p s : matches_b p s = true <-> Matches p s.
Proof. unfold matches_b, Matches. rewrite andb_true_iff, dmatch_iff. tauto. Qed.

(* the node n means what the pattern element a means *)
Definition atom_sem (a : atom) (n : rnode) : Prop :=
  forall r pos s k,
    RM (n :: r) pos s k <->
    exists j m, k = j + m /\ j <= length s /\ atom_lang a (firstn j s) /\
                RM r (j + pos) (skipn j s) m.

Lemma RM_denote_gen : forall a ns, Forall2 atom_sem a ns ->
  forall tail pos s k,
    RM (ns ++ tail) pos s k <->
    exists j m, k = j + m /\ DenoteK a s j /\ RM tail (j + pos) (skipn j s) m.
Proof.
  intros a ns H. induction H as [|at_ n a ns Hat Hrest IH]; intros tail pos s k.
  - cbn [app]. split.
    + intros HR. exists 0, k. rewrite DK_nil. repeat split. exact HR.
    + intros (j & m & -> & Hd & HR). apply DK_nil in Hd. subst j. exact HR.
  - cbn [app]. rewrite (Hat (ns ++ tail) pos s k). split.
    + intros (j0 & m0 & -> & Hl0 & Hu & HR). apply IH in HR as (j1 & m1 & -> & Hd & HR).
      exists (j0 + j1), m1. split; [lia|]. split.
      * apply DK_cons. exists j0, j1. split; [reflexivity|]. split; [exact Hl0|]. split; [exact Hu|exact Hd].
      * rewrite skipn_skipn in HR. replace (j0 + j1 + pos) with (j1 + (j0 + pos)) by lia.
        replace (j0 + j1) with (j1 + j0) by lia. exact HR.
    + intros (j & m & -> & Hd & HR). apply DK_cons in Hd as (j0 & j1 & -> & Hl & Hu & Hd).
      exists j0, (j1 + m). repeat split; try lia; try assumption.
      apply IH. exists j1, m. split; [reflexivity|]. split; [exact Hd|].
      rewrite skipn_skipn. replace (j1 + j0) with (j0 + j1) by lia.
      replace (j1 + (j0 + pos)) with (j0 + j1 + pos) by lia. exact HR.
Qed.

Lemma firstn_single {A} j (s : list A) x :
  j <= length s -> firstn j s = [x] -> j = 1 /\ exists s', s = x :: s'.
Proof.
  intros Hl H. pose proof (firstn_length_le s Hl) as E. rewrite H in E. cbn [length] in E. subst j.
  destruct s as [|y s']; [discriminate|]. injection H as ->. eauto.
Qed.

Lemma atom_sem_single a sn (h : N -> bool) :
  (forall u, atom_lang a u <-> exists x, u = [x] /\ h x = true) ->
  (forall x, smatch sn x = h x) ->
  atom_sem a (RS sn).
Proof.
  intros Hlang Hm r pos s k. split.
  - intros HR. inversion HR as [|? ? ? x s' k' Hx HR'| | | | |]; subst.
    exists 1, k'. repeat split; [cbn; lia| |exact HR'].
    apply Hlang. exists x. split; [reflexivity|]. rewrite <- Hm. exact Hx.
  - intros (j & m & -> & Hl & Hu & HR). apply Hlang in Hu. destruct Hu as (x & Hu & Hx).
    destruct (firstn_single _ _ _ Hl Hu) as [-> [s' ->]].
    constructor; [rewrite Hm; exact Hx|exact HR].
Qed.

Lemma atom_sem_star : atom_sem AAnyString (RStar SAny).
Proof.
  intros r pos s k. split.
  - intros HR. destruct (RM_star_inv _ _ _ _ HR r eq_refl) as (j & m & Hk & Hl & Hm).
    exists j, m. repeat split; assumption.
  - intros (j & m & -> & Hl & _ & HR). apply RM_star_compose; assumption.
Qed.

Lemma bracket_lang_single b :
  (forall it, In it (b_items b) -> item_seq it = None) \/ b_complement b = true ->
  forall u, bracket_lang b u <-> exists x, u = [x] /\ bracket_has1 b x = true.
Proof.
  intros Hns u. unfold bracket_lang, bracket_has1. destruct (b_complement b) eqn:Ec.
  - split; intros (c & -> & H); exists c; (split; [reflexivity|]).
    + rewrite H. reflexivity.
    + destruct (set_has1 (b_items b) c); [discriminate|reflexivity].
  - destruct Hns as [Hns|Hns]; [|discriminate]. split.
    + intros [(c & -> & H)|(it & Hin & Hs)].
      * exists c. split; [reflexivity|]. rewrite H. reflexivity.
      * rewrite (Hns it Hin) in Hs. discriminate.
    + intros (c & -> & H). left. exists c. split; [reflexivity|].
      destruct (set_has1 (b_items b) c); [reflexivity|discriminate].
Qed.

Lemma all_some_cons {A B} (f : A -> option B) x l ys :
  all_some (map f (x :: l)) = Some ys ->
  exists y ys', f x = Some y /\ all_some (map f l) = Some ys' /\ ys = y :: ys'.
Proof.
  cbn [map all_some]. destruct (f x) as [y|]; [|discriminate].
  destruct (all_some (map f l)) as [ys'|]; [|discriminate].
  intros H. inversion H; subst. eauto.
Qed.

Lemma all_some_is_some {A B} (f : A -> option B) l :
  is_some (all_some (map f l)) = forallb (fun x => is_some (f x)) l.
Proof.
  induction l as [|x l IH]; [reflexivity|]. cbn [map all_some forallb].
  destruct (f x); [|reflexivity]. cbn [is_some andb]. rewrite <- IH.
  destruct (all_some (map f l)); reflexivity.
Qed.

Lemma class_matches items cs :
  all_some (map citem_of items) = Some cs ->
  forall x, existsb (citem_match x) cs = set_has1 items x.
Proof.
  revert cs. induction items as [|it items IH]; intros cs H x.
  - inversion H; subst. reflexivity.
  - destruct (all_some_cons _ _ _ _ H) as (ci & cs' & Ei & Hcs & ->). unfold set_has1. cbn [existsb].
    rewrite (citem_item it ci Ei x). f_equal. apply IH. exact Hcs.
Qed.

Lemma all_some_map_in {A B} (f : A -> option B) : forall l ys x,
  all_some (map f l) = Some ys -> In x l -> exists y, f x = Some y /\ In y ys.
Proof.
  induction l as [|a l IH]; intros ys x H Hin; [destruct Hin|].
  destruct (all_some_cons _ _ _ _ H) as (y0 & ys' & Ea & El & ->).
  destruct Hin as [->|Hin].
  - exists y0. split; [exact Ea|left; reflexivity].
  - destruct (IH ys' x El Hin) as (y & Hy & Hiny). exists y. split; [exact Hy|right; exact Hiny].
Qed.

Lemma all_some_in_map {A B} (f : A -> option B) : forall l ys y,
  all_some (map f l) = Some ys -> In y ys -> exists x, In x l /\ f x = Some y.
Proof.
  induction l as [|a l IH]; intros ys y H Hin.
  - inversion H; subst. destruct Hin.
  - destruct (all_some_cons _ _ _ _ H) as (y0 & ys' & Ea & El & ->).
    destruct Hin as [->|Hin].
    + exists a. split; [left; reflexivity|exact Ea].
    + destruct (IH ys' y El Hin) as (x & Hx & Hfx). exists x. split; [right; exact Hx|exact Hfx].
Qed.

Lemma seq_match_lits : forall v s j s',
  seq_match (map SLit v) s = Some (j, s') <-> j = length v /\ firstn (length v) s = v /\ s' = skipn (length v) s /\ length v <= length s.
Proof.
  induction v as [|c v IH]; intros s j s'; cbn [map seq_match length firstn skipn].
  - split.
    + intros H. inversion H; subst. repeat split; lia.
    + intros (-> & _ & -> & _). reflexivity.
  - destruct s as [|x s0].
    + split; [discriminate|]. intros (_ & H & _). discriminate.
    + cbn [smatch length]. destruct (N.eqb x c) eqn:E.
      * apply N.eqb_eq in E. subst x.
        destruct (seq_match (map SLit v) s0) as [[j0 s0']|] eqn:Es; cbn [omap].
        -- apply IH in Es as (-> & Hf & -> & Hl). split.
           ++ intros H. inversion H; subst. cbn [fst snd]. rewrite Hf. repeat split; lia.
           ++ intros (-> & _ & -> & _). reflexivity.
        -- split; [discriminate|]. intros (-> & Hf & -> & Hl). inversion Hf as [Hf'].
           assert (seq_match (map SLit v) s0 = Some (length v, skipn (length v) s0)).
           { apply IH. repeat split; try assumption; lia. }
           congruence.
      * split; [discriminate|]. intros (_ & Hf & _). inversion Hf. subst. rewrite N.eqb_refl in E. discriminate.
Qed.

(* what the alternative of one member matches is what the member stands for:
   its single characters, or its one sequence *)
Lemma alt_sem it alt s j :
  alt_of it = Some alt -> j <= length s ->
  (seq_match alt s = Some (j, skipn j s) <->
   (exists c, firstn j s = [c] /\ item_has1 it c = true) \/ item_seq it = Some (firstn j s)).
Proof.
  intros Halt Hj. destruct (bitem_multi it) eqn:Hm.
  - destruct (multi_ok it Hm) as (_ & v & Hv & Hseq & Hno). rewrite Hv in Halt. injection Halt as <-.
    rewrite seq_match_lits, Hseq. split.
    + intros (-> & Hf & _). right. rewrite Hf. reflexivity.
    + intros [(c & _ & H)|[= ->]]; [rewrite Hno in H; discriminate|].
      rewrite firstn_length_le by exact Hj. repeat split; trivial.
  - unfold alt_of in Halt. rewrite Hm in Halt.
    destruct (citem_of it) as [ci|] eqn:Eci; [|discriminate]. injection Halt as <-.
    rewrite (nonmulti_no_seq it Hm). split.
    + destruct s as [|x s0]; [discriminate|]. cbn [seq_match smatch existsb].
      rewrite orb_false_r, xorb_false_l, (citem_item it ci Eci).
      destruct (item_has1 it x) eqn:Hx; [|discriminate]. intros [= <-]. left. exists x. split; [reflexivity|exact Hx].
    + intros [(c & Hu & Hc)|H]; [|discriminate].
      destruct (firstn_single _ _ _ Hj Hu) as [-> [s0 ->]]. cbn [seq_match smatch existsb].
      rewrite orb_false_r, xorb_false_l, (citem_item it ci Eci), Hc. reflexivity.
Qed.

Lemma atom_sem_alt b alts :
  b_complement b = false ->
  all_some (map alt_of (b_items b)) = Some alts ->
  atom_sem (ABracket b) (RAlt alts).
Proof.
  intros Hc Halts r pos s k. cbn [atom_lang]. unfold bracket_lang, set_has1. rewrite Hc. split.
  - intros HR. inversion HR as [| | | |? ? ? ? alt j s' k0 Hin Hs HR'| |]; subst.
    destruct (seq_match_length _ _ _ _ Hs) as [-> Hjl].
    destruct (all_some_in_map _ _ _ _ Halts Hin) as (it & Hit & Halt).
    exists j, k0. repeat split; try assumption.
    apply (alt_sem it alt s j Halt Hjl) in Hs as [(c & Hu & Hh)|Hs]; [left|right; eauto].
    exists c. split; [exact Hu|]. apply existsb_exists. eauto.
  - intros (j & m & -> & Hl & Hu & HR).
    assert (G : exists it, In it (b_items b) /\
                ((exists c, firstn j s = [c] /\ item_has1 it c = true) \/ item_seq it = Some (firstn j s))).
    { destruct Hu as [(c & Hu & Hset)|(it & Hit & Hseq)]; [|eauto].
      apply existsb_exists in Hset as (it & Hit & Hh). eauto 6. }
    destruct G as (it & Hit & Hu').
    destruct (all_some_map_in _ _ _ it Halts Hit) as (alt & Halt & Hin).
    eapply RM_alt; [exact Hin|apply (alt_sem it alt s j Halt Hl), Hu'|exact HR].
Qed.

(* a complemented bracket expression with multi-character members: the
   translation drops them, and they cannot match one character anyway; if
   nothing else is left it is "any character" *)

Lemma set_has1_filter items x :
  set_has1 (filter (fun it => negb (bitem_multi it)) items) x = set_has1 items x.
Proof.
  unfold set_has1. induction items as [|it items IH]; [reflexivity|]. cbn [filter existsb].
  destruct (bitem_multi it) eqn:Hm; cbn [negb].
  - destruct (multi_ok it Hm) as (_ & v & _ & _ & Hno). rewrite Hno. exact IH.
  - cbn [existsb]. rewrite IH. reflexivity.
Qed.

Lemma atom_sem_compl_multi b cs :
  b_complement b = true ->
  all_some (map citem_of (filter (fun it => negb (bitem_multi it)) (b_items b))) = Some cs ->
  atom_sem (ABracket b) (RS (SClass true cs)).
Proof.
  intros Hc Hcs. apply (atom_sem_single _ _ (bracket_has1 b)).
  - apply bracket_lang_single. right. exact Hc.
  - intros x. cbn [smatch]. unfold bracket_has1. rewrite Hc.
    rewrite (class_matches _ _ Hcs), set_has1_filter. reflexivity.
Qed.

Lemma set_has1_all_multi items x : forallb bitem_multi items = true -> set_has1 items x = false.
Proof.
  unfold set_has1. induction items as [|it items IH]; [reflexivity|]. cbn [forallb existsb].
  intros H. apply andb_true_iff in H as [Hm H].
  destruct (multi_ok it Hm) as (_ & v & _ & _ & Hno). rewrite Hno, IH by exact H. reflexivity.
Qed.

Lemma atom_sem_compl_all_multi b :
  b_complement b = true -> forallb bitem_multi (b_items b) = true ->
  atom_sem (ABracket b) (RS SAny).
Proof.
  intros Hc Ha. apply (atom_sem_single _ _ (bracket_has1 b)).
  - apply bracket_lang_single. right. exact Hc.
  - intros x. cbn [smatch]. unfold bracket_has1. rewrite Hc, (set_has1_all_multi _ x Ha). reflexivity.
Qed.

Lemma no_multi_in items it :
  existsb bitem_multi items = false -> In it items -> bitem_multi it = false.
Proof.
  intros H Hin. destruct (bitem_multi it) eqn:E; [|reflexivity].
  rewrite <- H. symmetry. apply existsb_exists. exists it. split; assumption.
Qed.

Lemma atom_sem_class b cs :
  existsb bitem_multi (b_items b) = false ->
  all_some (map citem_of (b_items b)) = Some cs ->
  atom_sem (ABracket b) (RS (SClass (b_complement b) cs)).
Proof.
  intros Hm Hcs. apply (atom_sem_single _ _ (bracket_has1 b)).
  - apply bracket_lang_single. left. intros it Hin.
    apply nonmulti_no_seq, (no_multi_in _ _ Hm Hin).
  - intros x. cbn [smatch]. unfold bracket_has1. rewrite (class_matches _ _ Hcs). reflexivity.
Qed.

Lemma forallb_ext_in {A} (f g : A -> bool) l :
  (forall x, In x l -> f x = g x) -> forallb f l = forallb g l.
Proof.
  induction l as [|x l IH]; intros H; [reflexivity|]. cbn [forallb].
  rewrite (H x (or_introl eq_refl)), IH; [reflexivity|]. intros y Hy. apply H. right. exact Hy.
Qed.

Lemma item_ok_alt it : item_ok it = is_some (alt_of it).
Proof.
  destruct (bitem_multi it) eqn:Hm.
  - destruct (multi_ok it Hm) as (Hok & v & Hv & _). rewrite Hok, Hv. reflexivity.
  - rewrite (item_ok_citem it Hm). unfold alt_of. rewrite Hm. destruct (citem_of it); reflexivity.
Qed.

Lemma forallb_ok_filter items :
  forallb item_ok items =
  forallb (fun it => is_some (citem_of it)) (filter (fun it => negb (bitem_multi it)) items).
Proof.
  induction items as [|it items IH]; [reflexivity|]. cbn [forallb filter].
  destruct (bitem_multi it) eqn:Hm; cbn [negb].
  - destruct (multi_ok it Hm) as (Hok & _). rewrite Hok. exact IH.
  - cbn [forallb]. rewrite (item_ok_citem it Hm), IH. reflexivity.
Qed.

Lemma forallb_ok_all_multi items : forallb bitem_multi items = true -> forallb item_ok items = true.
Proof.
  induction items as [|it items IH]; [reflexivity|]. cbn [forallb]. intros H.
  apply andb_true_iff in H as [Hm H]. destruct (multi_ok it Hm) as (Hok & _).
  rewrite Hok, IH by exact H. reflexivity.
Qed.

(* The node of a bracket expression exists exactly when the expression is
   valid, and then means what the expression denotes: one walk through the
   four shapes of node_of_bracket. *)
Lemma node_of_bracket_spec b :
  match node_of_bracket b with
  | Some n => atom_ok (ABracket b) = true /\ atom_sem (ABracket b) n
  | None => atom_ok (ABracket b) = false
  end.
Proof.
  cbn [atom_ok]. unfold node_of_bracket.
  destruct (is_nil (b_items b)); [reflexivity|]. cbn [negb andb].
  destruct (existsb bitem_multi (b_items b)) eqn:Hm; cbn [negb].
  - destruct (b_complement b) eqn:Hc; cbn [negb].
    + destruct (forallb bitem_multi (b_items b)) eqn:Ha.
      * split; [apply forallb_ok_all_multi, Ha|apply atom_sem_compl_all_multi; assumption].
      * rewrite forallb_ok_filter, <- all_some_is_some.
        destruct (all_some (map citem_of _)) as [cs|] eqn:Ea; [|reflexivity].
        split; [reflexivity|apply atom_sem_compl_multi; assumption].
    + rewrite (forallb_ext_in _ _ _ (fun it _ => item_ok_alt it)), <- all_some_is_some.
      destruct (all_some (map alt_of (b_items b))) as [alts|] eqn:Ea; [|reflexivity].
      split; [reflexivity|apply atom_sem_alt; assumption].
  - rewrite (forallb_ext_in _ _ _ (fun it Hin => item_ok_citem it (no_multi_in _ _ Hm Hin))),
      <- all_some_is_some.
    destruct (all_some (map citem_of (b_items b))) as [cs|] eqn:Ea; [|reflexivity].
    split; [reflexivity|apply atom_sem_class; assumption].
Qed.

Lemma atom_sem_of a n : node_of_atom a = Some n -> atom_sem a n.
Proof.
  destruct a as [c| | |b]; cbn [node_of_atom]; intros Hn.
  - inversion Hn; subst. apply (atom_sem_single _ _ (fun x => N.eqb x c)); [apply char_lang|reflexivity].
  - inversion Hn; subst. apply (atom_sem_single _ _ (fun _ => true)); [apply any_lang|reflexivity].
  - inversion Hn; subst. apply atom_sem_star.
  - pose proof (node_of_bracket_spec b) as H. rewrite Hn in H. apply H.
Qed.

Lemma atom_ok_node a : atom_ok a = is_some (node_of_atom a).
Proof.
  destruct a as [c| | |b]; try reflexivity. cbn [node_of_atom].
  pose proof (node_of_bracket_spec b) as H. destruct (node_of_bracket b); [apply H|exact H].
Qed.

Lemma nodes_sem : forall a ns,
  all_some (map node_of_atom a) = Some ns -> Forall2 atom_sem a ns.
Proof.
  induction a as [|at_ a IH]; intros ns H.
  - inversion H; subst. constructor.
  - destruct (all_some_cons _ _ _ _ H) as (n & ns' & Hn & Hns & ->).
    constructor; [apply atom_sem_of; assumption|apply IH; assumption].
Qed.

(* the regex of a pattern under a configuration: rx_of_ast is omap (rx_cfg cfg)
   of the nodes *)
Definition rx_cfg (cfg : config) (ns : rx) : rx :=
  (if anchor_begin cfg then [RStartText] else []) ++ ns ++
  (if anchor_end cfg then [REndText] else []).

Lemma DenoteK_all a s : DenoteK a s (length s) <-> Denote a s.
Proof. unfold DenoteK. rewrite firstn_all. split; [intros [_ H]; exact H|intros H; split; [lia|exact H]]. Qed.

Lemma RM_cfg cfg a ns :
  all_some (map node_of_atom a) = Some ns ->
  forall x s k,
    RM (rx_cfg cfg ns) x s k <->
    (anchor_begin cfg = true -> x = 0) /\ DenoteK a s k /\ (anchor_end cfg = true -> k = length s).
Proof.
  intros Hns x s k.
  assert (Hrest : forall pos,
            RM (ns ++ (if anchor_end cfg then [REndText] else [])) pos s k <->
            DenoteK a s k /\ (anchor_end cfg = true -> k = length s)).
  { intros pos. rewrite (RM_denote_gen a ns (nodes_sem a ns Hns)). destruct (anchor_end cfg); split.
    - (* before \z the nodes have used up the text *)
      intros (j & m & -> & Hd & HR). inversion HR as [| | | | | |? ? ? HR']; subst.
      inversion HR'; subst. pose proof Hd as [Hj _]. pose proof (skipn_length j s) as E.
      match goal with Hs : [] = skipn j s |- _ => rewrite <- Hs in E end. cbn [length] in E.
      replace (j + 0) with j by lia. split; [exact Hd|lia].
    - intros [Hd Hk]. exists k, 0. rewrite (Hk eq_refl), skipn_all in *.
      split; [lia|]. split; [exact Hd|constructor; constructor].
    - intros (j & m & -> & Hd & HR). inversion HR; subst. rewrite Nat.add_0_r. split; [exact Hd|discriminate].
    - intros [Hd _]. exists k, 0. split; [lia|]. split; [exact Hd|constructor]. }
  unfold rx_cfg. destruct (anchor_begin cfg); cbn [app].
  - split.
    + intros HR. inversion HR; subst. split; [reflexivity|]. apply (Hrest 0). assumption.
    + intros (Hx & Hr). rewrite (Hx eq_refl). constructor. apply (Hrest 0). exact Hr.
  - rewrite Hrest. split; [intros Hr; split; [discriminate|exact Hr]|intros [_ Hr]; exact Hr].
Qed.

Lemma nodes_glob : forall a ns,
  single_width a = true -> all_some (map node_of_atom a) = Some ns -> glob_rx ns = true.
Proof.
  induction a as [|at_ a IH]; intros ns Hsw H.
  - inversion H; subst. reflexivity.
  - destruct (all_some_cons _ _ _ _ H) as (n & ns' & Hn & Hns & ->).
    unfold single_width in Hsw. cbn [forallb] in Hsw. apply andb_true_iff in Hsw as [H1 H2].
    unfold glob_rx. cbn [forallb]. apply andb_true_iff. split; [|apply (IH ns' H2 Hns)].
    destruct at_ as [c| | |b]; cbn [node_of_atom] in Hn; try (inversion Hn; subst; reflexivity).
    cbn [single_width_atom] in H1. apply negb_true_iff in H1.
    unfold node_of_bracket in Hn. rewrite H1 in Hn. cbn [negb] in Hn.
    destruct (is_nil (b_items b)); [discriminate|].
    destruct (all_some (map citem_of (b_items b))); [|discriminate]. inversion Hn; subst. reflexivity.
Qed.

Lemma valid_nodes a : valid_ast a = is_some (all_some (map node_of_atom a)).
Proof.
  rewrite all_some_is_some. unfold valid_ast. apply forallb_ext_in.
  intros at_ _. apply atom_ok_node.
Qed.
