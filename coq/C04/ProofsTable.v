(* C04 — the first and the last entry of a filtered range of positions: the
   tables of Spec.v (prefix_lens, suffix_lens, ends_from, match_table) are
   such ranges. *)
From Yv Require Import Common.Base C04.Model C04.Spec.
From Coq Require Import List NArith Bool Arith Lia.
Import ListNotations.

(* the first / last element of a range that passes a test, also under a map *)
Lemma hd_filter_map {B} (h : nat -> B) (p : B -> bool) : forall len s n,
  s <= n < s + len -> p (h n) = true -> (forall m, s <= m < s + len -> p (h m) = true -> n <= m) ->
  hd_error (filter p (map h (seq s len))) = Some (h n).
Proof.
  induction len as [|len IH]; intros s n Hn Hp Hmin; [lia|].
  cbn [seq map filter]. destruct (p (h s)) eqn:Es.
  - specialize (Hmin s ltac:(lia) Es). replace s with n by lia. reflexivity.
  - apply IH; [|exact Hp|intros m Hm; apply Hmin; lia].
    destruct (Nat.eq_dec n s) as [->|]; [congruence|lia].
Qed.

Lemma last_filter_map {B} (h : nat -> B) (p : B -> bool) : forall len s n,
  s <= n < s + len -> p (h n) = true -> (forall m, s <= m < s + len -> p (h m) = true -> m <= n) ->
  hd_error (rev (filter p (map h (seq s len)))) = Some (h n).
Proof.
  induction len as [|len IH]; intros s n Hn Hp Hmax; [lia|].
  rewrite seq_S, map_app, filter_app. cbn [map filter]. destruct (p (h (s + len))) eqn:Es.
  - specialize (Hmax (s + len) ltac:(lia) Es). rewrite rev_app_distr. replace (s + len) with n by lia.
    reflexivity.
  - rewrite app_nil_r. apply IH; [|exact Hp|intros m Hm; apply Hmax; lia].
    destruct (Nat.eq_dec n (s + len)) as [->|]; [congruence|lia].
Qed.

Lemma filter_map_nil {B} (h : nat -> B) (p : B -> bool) : forall len s,
  (forall m, s <= m < s + len -> p (h m) = false) -> filter p (map h (seq s len)) = [].
Proof.
  induction len as [|len IH]; intros s H; [reflexivity|].
  cbn [seq map filter]. rewrite (H s ltac:(lia)). apply IH. intros m Hm. apply H. lia.
Qed.

Lemma first_of_filter (f : nat -> bool) len s n :
  s <= n < s + len -> f n = true -> (forall m, s <= m < s + len -> f m = true -> n <= m) ->
  first_of (filter f (seq s len)) = Some n.
Proof. rewrite <- (map_id (seq s len)). apply (hd_filter_map (fun m => m)). Qed.

Lemma last_of_filter (f : nat -> bool) len s n :
  s <= n < s + len -> f n = true -> (forall m, s <= m < s + len -> f m = true -> m <= n) ->
  last_of (filter f (seq s len)) = Some n.
Proof. rewrite <- (map_id (seq s len)). apply (last_filter_map (fun m => m)). Qed.

Lemma filter_none (f : nat -> bool) len s :
  (forall m, s <= m < s + len -> f m = false) -> filter f (seq s len) = [].
Proof. rewrite <- (map_id (seq s len)). apply (filter_map_nil (fun m => m)). Qed.

Lemma least_first (P : nat -> Prop) (f : nat -> bool) len n :
  (forall m, P m <-> m <= len /\ f m = true) ->
  Least P n -> first_of (filter f (seq 0 (S len))) = Some n.
Proof.
  intros HP [Hn Hmin]. apply HP in Hn as [Hn1 Hn2].
  apply first_of_filter; [lia|exact Hn2|].
  intros m Hm E. apply Hmin, HP. split; [lia|exact E].
Qed.

Lemma greatest_last (P : nat -> Prop) (f : nat -> bool) len n :
  (forall m, P m <-> m <= len /\ f m = true) ->
  Greatest P n -> last_of (filter f (seq 0 (S len))) = Some n.
Proof.
  intros HP [Hn Hmax]. apply HP in Hn as [Hn1 Hn2].
  apply last_of_filter; [lia|exact Hn2|].
  intros m Hm E. apply Hmax, HP. split; [lia|exact E].
Qed.

Lemma none_empty (P : nat -> Prop) (f : nat -> bool) len :
  (forall m, P m <-> m <= len /\ f m = true) ->
  (forall n, ~ P n) -> filter f (seq 0 (S len)) = [].
Proof.
  intros HP Hno. apply filter_none. intros m Hm. destruct (f m) eqn:E; [|reflexivity].
  exfalso. apply (Hno m). apply HP. split; [lia|exact E].
Qed.

Lemma bt_start_only lazy r pos s : 0 < pos -> bt lazy (RStartText :: r) pos s = None.
Proof. intros H. cbn [bt]. destruct pos; [lia|reflexivity]. Qed.
