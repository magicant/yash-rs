(* C02 — the property theorems.  The equivalence of model and specification
   comes from Proofs.v; the others are read off the simulation ([sim_holds]) or
   the model directly.  The driver compares the statements with [Check] and
   prints the assumptions on every run.  [Example]s show that the hypotheses of
   the implication-shaped theorems are satisfiable by non-trivial data. *)
From Yv Require Import Common.Base C02.Model C02.Spec C02.ProofsMono C02.ProofsSim C02.ProofsRev C02.Proofs.

(* Every terminating run of the model (runtime context stack, divert values,
   the loop's status register, the case flags, the flat and-or loop) is a run
   of the POSIX semantics of Spec.v with the same probe trace and the same
   final exit status: for every script whose behaviour POSIX fixes ([wf_prog]),
   without any bound on the size of the script or the length of the run. *)
Theorem exec_sound : forall p o, wf_prog p = true -> model_result p o -> spec_result p o.
Proof. exact exec_sound_lemma. Qed.

(* Conversely, every terminating run of the specification is matched by a
   terminating run of the model with the same observation: on well-formed
   scripts, model and specification are the same partial function. *)
Theorem exec_complete : forall p o, wf_prog p = true -> spec_result p o -> model_result p o.
Proof. exact exec_complete_lemma. Qed.

Theorem model_eq_spec : forall p o, wf_prog p = true -> (model_result p o <-> spec_result p o).
Proof. exact model_eq_spec_lemma. Qed.

Theorem spec_deterministic : forall p o1 o2, spec_result p o1 -> spec_result p o2 -> o1 = o2.
Proof.
  intros p o1 o2 [n1 H1] [n2 H2].
  pose proof (spec_run_mono n1 (n1 + n2) p o1 (Nat.le_add_r _ _) H1) as A.
  pose proof (spec_run_mono n2 (n1 + n2) p o2 ltac:(lia) H2) as B.
  congruence.
Qed.

(* Oracle soundness: whatever fuel the oracle is run with, it accepts the
   output of the model (so a rejection is never a false alarm about a program
   on which model and implementation agree). *)
Theorem oracle_sound : forall p o n m e,
  wf_prog p = true -> model_run n p = Some o -> spec_run m p = Some e ->
  observation_eqb e o = true.
Proof.
  intros p o n m e Hw Hm Hs.
  assert (E : e = o).
  { apply (spec_deterministic p); [exists m; exact Hs|].
    apply exec_sound; [exact Hw | exists n; exact Hm]. }
  subst e. unfold observation_eqb. apply andb_true_iff. split; [|apply N.eqb_refl].
  apply list_eqb_spec; [|reflexivity].
  intros [a b] [c d]. unfold pair_eqb. cbn. rewrite andb_true_iff, !N.eqb_eq.
  split; [intros [-> ->]; reflexivity | intros E; inversion E; auto].
Qed.

(* `&&` / `||`: the implementation's loop over the flat list with a single
   Condition frame computes the evaluation of the left-nested tree
   ((p1 op p2) op p3) ... in which both operators have the same precedence and
   the right operand runs iff the left one succeeded (&&) / failed (||). *)
Theorem andor_short_circuit_left_assoc : forall n stk a s r s' d infun ex,
  exec_andor n stk a s = Some (r, s') -> ctx_ok stk d infun ex ->
  wf_andor d infun a = true -> state_ok s ->
  forall sv, exists m,
    sem_tree (fun ex' p s0 => sem_pipeline m d ex' sv p s0) ex (andor_tree a) true s
    = Some (abs sv r s').
Proof.
  intros n stk a s r s' d infun ex H Hc Hw Hs sv.
  destruct (sa_andor _ (sim_holds n) _ _ _ _ _ _ _ _ H Hc Hw Hs) as (_ & _ & Hok).
  destruct (Hok sv) as [m Hm]. exists m. exact (Hm (S m) (Nat.le_succ_diag_r m)).
Qed.

Theorem andor_tree_left_nested : forall first rest is_and p,
  andor_tree (AndOr first (rest_snoc rest is_and p))
  = AONode (andor_tree (AndOr first rest)) is_and p.
Proof. intros. apply aotree_of_snoc. Qed.

(* `!` changes nothing but the exit status of a pipeline that completes, and
   does not touch a divert (break, continue, return, exit) passing through. *)
Theorem bang_inverts_only_status : forall stk cs s r s',
  (exists n, exec_pipeline n stk (Pipe true cs) s = Some (r, s')) <->
  (exists r1 s1, (exists n, exec_commands n (FCondition :: stk) cs s = Some (r1, s1)) /\
     match r1 with
     | Cont => r = Cont /\ s' = set_status (if N.eqb (status s1) 0 then 1%N else 0%N) s1
     | Brk dv => r = Brk dv /\ s' = s1
     end).
Proof.
  intros stk cs s r s'. split.
  - intros [[|n] H]; [discriminate|]. cbn [exec_pipeline] in H.
    destruct (exec_commands n (FCondition :: stk) cs s) as [[r1 s1]|] eqn:E; [|discriminate].
    exists r1, s1. split; [exists n; exact E|]. destruct r1; inversion H; subst; auto.
  - intros (r1 & s1 & [n E] & H). exists (S n). cbn [exec_pipeline]. rewrite E.
    destruct r1; destruct H as [-> ->]; reflexivity.
Qed.

(* Stack::loop_count (frames of the runtime stack, cut at subshell / trap
   frames, capped) is the number of lexically enclosing loops, capped. *)
Theorem loop_count_eq_syntactic_depth : forall stk d infun ex k,
  ctx_ok stk d infun ex -> (infun = true -> k <= d) ->
  loop_count (FBuiltin :: stk) k = Nat.min k d.
Proof. exact loop_count_builtin. Qed.

(* Loops honour the levels: a command at lexical loop depth [d] never
   completes by breaking / continuing more than [d] loops ... *)
Theorem loop_break_continue_levels : forall n stk c s r s' d infun ex,
  exec_cmd n stk c s = Some (r, s') -> ctx_ok stk d infun ex ->
  wf_cmd d infun c = true -> state_ok s ->
  (forall k, r = Brk (DBreak k) -> k < d) /\ (forall k, r = Brk (DContinue k) -> k < d).
Proof.
  intros n stk c s r s' d infun ex H Hc Hw Hs.
  destruct (sa_cmd _ (sim_holds n) _ _ _ _ _ _ _ _ H Hc Hw Hs) as (_ & Hr & _).
  split; [apply (ro_break _ _ _ Hr) | apply (ro_continue _ _ _ Hr)].
Qed.

(* ... in particular none escapes a function body. *)
Theorem function_body_consumes_break_continue : forall n stk body s r s' ex,
  exec_cmd n stk body s = Some (r, s') -> ex = has_cond stk ->
  wf_cmd 0 true body = true -> state_ok s ->
  forall k, r <> Brk (DBreak k) /\ r <> Brk (DContinue k).
Proof.
  intros n stk body s r s' ex H He Hw Hs k.
  assert (Hc : ctx_ok stk 0 true ex) by (split; [exact He | lia | discriminate]).
  destruct (loop_break_continue_levels n stk body s r s' 0 true ex H Hc Hw Hs) as [A B].
  split; intros E; [specialize (A k E) | specialize (B k E)]; lia.
Qed.

(* `return` leaves exactly the innermost function: the call of a function
   never completes with a Return divert, and when the body returned the call
   completes normally (subject to errexit) with the returned status. *)
Theorem return_leaves_innermost_function : forall n stk dc nm args s r s' body,
  exec_cmd n stk (CCall dc nm args) s = Some (r, s') ->
  via_command dc = false -> classify nm s = TFunction body ->
  (forall o, r <> Brk (DReturn o)) /\
  (bad_redir dc = false ->
   forall m o sb, exec_cmd m stk body s = Some (Brk (DReturn o), sb) ->
     let s1 := match o with Some st => set_status st sb | None => sb end in
     r = apply_errexit stk s1 /\ s' = s1).
Proof.
  intros n stk dc nm args s r s' body H Ev Ec.
  destruct n as [|n]; [discriminate|]. cbn [exec_cmd] in H. rewrite Ev, Ec in H.
  split.
  - intros o E. subst r. destruct (bad_redir dc).
    + inversion H as [[H1 H2]]. unfold apply_errexit in H1. destruct (_ && _); discriminate.
    + destruct (exec_cmd n stk body s) as [[rb sb]|]; [|discriminate].
      destruct rb as [|[c|c|x|x|x|x]]; inversion H as [[H1 H2]];
        unfold apply_errexit in H1; try destruct (_ && _); discriminate.
  - intros Eb m o sb Hb. rewrite Eb in H.
    destruct (exec_cmd n stk body s) as [[rb sb']|] eqn:E; [|discriminate].
    assert (Hsame : rb = Brk (DReturn o) /\ sb' = sb).
    { (* both runs of the body are the same run (fuel monotonicity) *)
      clear H.
      destruct (Nat.le_ge_cases n m) as [L|L].
      - pose proof (exec_cmd_mono _ _ _ _ _ _ L E) as X. rewrite Hb in X. inversion X; auto.
      - pose proof (exec_cmd_mono _ _ _ _ _ _ L Hb) as X. rewrite E in X. inversion X; auto. }
    destruct Hsame as [-> ->]. cbv zeta. destruct o; inversion H; subst; auto.
Qed.

(* A compound command that runs none of its bodies has status zero. *)
Theorem compound_status_zero_if_none :
  (forall n stk cond body s sc,
     exec_list n (FCondition :: stk) cond s = Some (Cont, sc) -> N.eqb (status sc) 0 = false ->
     exec_cmd (S (S n)) stk (CIf cond body ENil false LNil) s = Some (Cont, set_status 0 sc))
  /\ (forall n stk u cond body s sc,
     exec_list n (FCondition :: FLoop :: stk) cond s = Some (Cont, sc) ->
     Bool.eqb (N.eqb (status sc) 0) (negb u) = false ->
     exec_cmd (S (S (S n))) stk (CWhile u cond body) s = Some (Cont, set_status 0 sc))
  /\ (forall n stk x ws body s,
     expand_words ws s = Some [] -> clist_is_empty body = false ->
     exec_cmd (S n) stk (CFor x ws body) s = Some (Cont, set_status 0 s))
  /\ (forall stk w items s fields,
     expand_word w s = Some fields -> find_clause (hd_error fields) items = None ->
     exec_cmd (S (S (items_length items))) stk (CCase w items) s = Some (Cont, set_status 0 s)).
Proof.
  repeat split.
  - intros n stk cond body s sc H E. cbn [exec_cmd].
    rewrite (exec_list_mono n (S n) _ _ _ _ (Nat.le_succ_diag_r n) H), E. reflexivity.
  - intros n stk u cond body s sc H E. cbn [exec_cmd loop_execute loop_iterate].
    rewrite H, E. reflexivity.
  - intros n stk x ws body s H E. cbn [exec_cmd]. rewrite H, E. reflexivity.
  - intros stk w items s fields H E. cbn [exec_cmd]. rewrite H. apply items_none; [lia | exact E].
Qed.

(* Command search: special built-in, then function, then other built-in,
   then PATH (empty in the simulated system): the implementation's classify is
   the four-way priority, also as a finite table. *)
Theorem search_order : forall nm s,
  classify nm s =
  match resolve nm s with
  | RSpecial => TBuiltin true
  | RFunction body => TFunction body
  | RRegular => TBuiltin false
  | RNotFound => TExternal
  end.
Proof. exact classify_resolve. Qed.

Theorem search_order_table : forall nm s,
  target_rank (classify nm s) =
  search_table (is_special nm)
    (match lookup_fun nm (funs s) with Some _ => true | None => false end)
    (is_regular_builtin nm).
Proof.
  intros nm s. unfold classify, search_table.
  destruct (is_special nm), (lookup_fun nm (funs s)), (is_regular_builtin nm); reflexivity.
Qed.

Theorem model_fuel_monotone : forall n m stk c s res,
  n <= m -> exec_cmd n stk c s = Some res -> exec_cmd m stk c s = Some res.
Proof. exact exec_cmd_mono. Qed.

(* f0() { probe 1; return 3; probe 2; }
   for v0 in a b; do f0 && break 2; probe 4 5; done   -- two loop iterations,
   a function call that returns, an and-or list, a break past the depth *)
Definition ex_prog : prog :=
  [ LCmd (LCons (AndOr (Pipe false (CCons
      (CFunDef (NUser 0) (CBrace
         (LCons (AndOr (Pipe false (CCons (CCall plain NProbe [1%N]) CNil)) RNil)
         (LCons (AndOr (Pipe false (CCons (CCall plain NReturn [3%N]) CNil)) RNil)
         (LCons (AndOr (Pipe false (CCons (CCall plain NProbe [2%N]) CNil)) RNil) LNil)))))
      CNil)) RNil) LNil);
    LCmd (LCons (AndOr (Pipe false (CCons
      (CFor 0 [WLit 0; WLit 1]
         (LCons (AndOr (Pipe false (CCons (CCall plain (NUser 0) []) CNil))
                   (RCons true (Pipe false (CCons (CCall plain NBreak [2%N]) CNil)) RNil))
         (LCons (AndOr (Pipe false (CCons (CCall plain NProbe [4%N; 5%N]) CNil)) RNil) LNil)))
      CNil)) RNil) LNil) ].

Example exec_sound_not_vacuous :
  wf_prog ex_prog = true /\
  model_result ex_prog ([(1, 0); (4, 3); (1, 5); (4, 3)]%N, 5%N).
Proof. split; [reflexivity | exists 40; reflexivity]. Qed.

Example ctx_ok_not_vacuous :
  ctx_ok [FCondition; FLoop; FBuiltin; FLoop; FSubshell; FLoop] 2 false true
  /\ loop_count (FBuiltin :: [FCondition; FLoop; FBuiltin; FLoop; FSubshell; FLoop]) 5 = 2.
Proof. split; [split; cbn; auto | reflexivity]. Qed.

Example state_ok_not_vacuous :
  state_ok
    (define_fun (NUser 0) (CBrace (LCons (AndOr (Pipe false (CCons (CCall plain NReturn []) CNil)) RNil) LNil))
       (add_ronly 1 init_state)).
Proof.
  split; cbn; try discriminate.
  intros nm b. destruct (name_eqb nm (NUser 0)); [intros E; inversion E; reflexivity | discriminate].
Qed.

Print Assumptions exec_sound.
Print Assumptions exec_complete.
Print Assumptions model_eq_spec.
Print Assumptions spec_deterministic.
Print Assumptions oracle_sound.
Print Assumptions andor_short_circuit_left_assoc.
Print Assumptions andor_tree_left_nested.
Print Assumptions bang_inverts_only_status.
Print Assumptions loop_count_eq_syntactic_depth.
Print Assumptions loop_break_continue_levels.
Print Assumptions function_body_consumes_break_continue.
Print Assumptions return_leaves_innermost_function.
Print Assumptions compound_status_zero_if_none.
Print Assumptions search_order.
Print Assumptions search_order_table.
Print Assumptions model_fuel_monotone.
