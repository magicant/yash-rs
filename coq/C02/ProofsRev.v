(* C02 — the converse refinement: every terminating run of the specification
   interpreter is matched by a terminating run of the model with the
   corresponding result (so model and specification define the same partial
   function on well-formed scripts).  Induction on the specification's fuel;
   what relates the results of the two interpreters, and the commands that run
   nothing, come from ProofsSim, and so do the invariants of the model's
   intermediate states (through the forward theorem, [fwd_*]). *)
From Yv Require Import Common.Base C02.Model C02.Spec C02.ProofsMono C02.ProofsSim.

(* the counterpart of [post] of ProofsSim; the invariants are not part of it,
   they come from [fwd_*] below *)
Definition rpost (f : nat -> option res) (sv : option N) (out : sres) : Prop :=
  exists r s', ok f (r, s') /\ abs sv r s' = out.

Lemma ok_det {A} (f : nat -> option A) a b : ok f a -> ok f b -> a = b.
Proof.
  intros [m Hm] [m' Hm']. specialize (Hm (m + m') ltac:(lia)). specialize (Hm' (m + m') ltac:(lia)).
  congruence.
Qed.

Lemma rpost_cont s sv : rpost (fun _ => Some (Cont, s)) sv (Normal, s).
Proof. exists Cont, s. split; [exists 0|]; reflexivity. Qed.

Lemma rpost_ext {f g : nat -> option res} {sv out} :
  (forall k, g k = f k) -> rpost f sv out -> rpost g sv out.
Proof.
  intros E (r & s' & H & A). exists r, s'. split; [|exact A].
  apply (ok_ext f); [|exact H]. intros k <-. apply E.
Qed.

Lemma rpost_S {f g : nat -> option res} {sv out} :
  (forall k, g (S k) = f k) -> rpost f sv out -> rpost g sv out.
Proof. intros E (r & s' & H & A). exists r, s'. split; [exact (ok_S _ _ _ E H) | exact A]. Qed.

(* sequencing, from the specification to the model; the state between the two
   parts has to be a good one for the second part to be matched *)
Lemma rpost_bind {sv y g out} {X1 : nat -> option res} {X2 : state -> nat -> option res} :
  bind_normal y g = Some out ->
  (forall o1, y = Some o1 -> rpost X1 sv o1) ->
  (forall r1 s1, ok X1 (r1, s1) -> state_ok s1) ->
  (forall s1, state_ok s1 -> g s1 = Some out -> rpost (X2 s1) sv out) ->
  rpost (fun k => bind_cont (X1 k) (fun t => X2 t k)) sv out.
Proof.
  intros H I1 Inv I2. destruct y as [o1|]; [|discriminate].
  destruct (I1 o1 eq_refl) as (r1 & s1 & Hok1 & Habs1). specialize (Inv r1 s1 Hok1).
  subst o1. destruct r1 as [|dv].
  - destruct (I2 s1 Inv H) as (r & s' & Hok & Habs). exists r, s'. split; [|exact Habs].
    ok_start. ok_rw. cbn [bind_cont]. ok_rw. reflexivity.
  - exists (Brk dv), s1. split; [ok_start; ok_rw; reflexivity|].
    pose proof (abs_not_normal sv dv s1) as Hne.
    destruct (abs sv (Brk dv) s1) as [[] t]; inversion H; try reflexivity. destruct (Hne eq_refl).
Qed.

Lemma rpost_sub_end {A} infun d (G : nat -> option A) child (X : A -> option res) y sv out :
  ok G child -> agree infun d (X child) y -> y sv = Some out ->
  rpost (fun k => match G k with None => None | Some c => X c end) sv out.
Proof.
  intros Hok (r & s' & E & Ey & _) Eo. exists r, s'. split; [ok_start; ok_rw; exact E|].
  rewrite Ey in Eo. congruence.
Qed.

(* invariants of model results, from the forward theorem *)
Lemma fwd {X} exec wf sem : (forall m, simulates exec wf sem m) ->
  forall stk (x : X) s r s' d infun ex,
  ok (fun k => exec k stk x s) (r, s') -> ctx_ok stk d infun ex ->
  wf d infun x = true -> state_ok s ->
  state_ok s' /\ res_ok infun d r.
Proof.
  intros Sim stk x s r s' d infun ex [m Hm] Hc Hw Hs.
  destruct (Sim m _ _ _ _ _ _ _ _ (Hm m (le_n m)) Hc Hw Hs) as (A & B & _). auto.
Qed.

Definition fwd_cmd := fwd _ _ _ (fun m => sa_cmd m (sim_holds m)).
Definition fwd_list := fwd _ _ _ (fun m => sa_list m (sim_holds m)).
Definition fwd_andor := fwd _ _ _ (fun m => sa_andor m (sim_holds m)).
Definition fwd_pipeline := fwd _ _ _ (fun m => sa_pipeline m (sim_holds m)).

Lemma fwd_commands stk cs s r s' d infun ex :
  ok (fun k => exec_commands k stk cs s) (r, s') -> ctx_ok stk d infun ex ->
  wf_pipeline d infun (Pipe false cs) = true -> state_ok s ->
  state_ok s' /\ res_ok infun d r.
Proof. exact (fwd _ _ _ (fun m => sa_commands m (sim_holds m)) stk cs s r s' d infun ex). Qed.

(* the common shape of the claims; [n] is the specification's fuel *)
Definition rsimulates {X} (sem : nat -> nat -> bool -> option N -> X -> state -> option sres)
    (wf : nat -> bool -> X -> bool)
    (exec : nat -> list frame -> X -> state -> option res) (n : nat) : Prop :=
  forall stk x s out d infun ex sv,
    sem n d ex sv x s = Some out -> ctx_ok stk d infun ex ->
    wf d infun x = true -> state_ok s ->
    rpost (fun k => exec k stk x s) sv out.

Definition rsim_cmd := rsimulates sem_cmd wf_cmd exec_cmd.
Definition rsim_list := rsimulates sem_list wf_list exec_list.
Definition rsim_andor := rsimulates sem_andor wf_andor exec_andor.
Definition rsim_pipeline := rsimulates sem_pipeline wf_pipeline exec_pipeline.

Definition rsim_multi (n : nat) : Prop := forall stk cs s0 acc acc' infun ex,
  sem_multi n ex cs s0 acc = Some acc' -> ex = has_cond stk ->
  wf_cmds infun cs = true -> state_ok s0 ->
  ok (fun k => exec_multi k stk cs s0 acc) acc'.

Definition rsim_subshell (n : nat) : Prop := forall stk body s c' infun ex,
  sem_subshell n ex body s = Some c' -> ex = has_cond stk ->
  wf_list 0 infun body = true -> state_ok s ->
  ok (fun k => run_subshell k stk body s) c'.

Definition rsim_trap (n : nat) : Prop := forall stk s s' ex,
  sem_exit_trap n ex s = Some s' -> ex = has_cond stk -> state_ok s ->
  ok (fun k => run_exit_trap k stk s) s'.

Definition rsim_for (n : nat) : Prop := forall stk x values body s out d infun ex sv,
  sem_for n d ex sv x values body s = Some out -> ctx_ok stk (S d) infun ex ->
  wf_list (S d) infun body = true -> state_ok s ->
  rpost (fun k => exec_for k stk x values body s) sv out.

Definition rsim_loop (n : nat) : Prop := forall stk cond u body s reg out d infun ex sv,
  sem_loop n d ex sv u cond body reg s = Some out -> ctx_ok stk (S d) infun ex ->
  wf_list (S d) infun cond = true -> wf_list (S d) infun body = true ->
  state_ok s ->
  rpost (fun k => while_run k stk cond (negb u) body s reg) sv out.

(* a clause that was selected: it heads the items the model has reached *)
Definition rsim_clause (n : nat) : Prop := forall stk subject body kc rest pats ft upd s out d infun ex sv,
  sem_clause n d ex sv subject body kc rest s = Some out -> ctx_ok stk d infun ex ->
  wf_list d infun body = true -> wf_items d infun rest = true -> state_ok s ->
  ft || existsb (match_pat subject) pats = true ->
  rpost (fun k => exec_items k stk subject (ICons pats body kc rest) ft upd s) sv out.

Record rsim_all (n : nat) : Prop := {
  ra_cmd : rsim_cmd n; ra_list : rsim_list n; ra_andor : rsim_andor n;
  ra_pipeline : rsim_pipeline n; ra_multi : rsim_multi n; ra_subshell : rsim_subshell n;
  ra_trap : rsim_trap n; ra_for : rsim_for n; ra_loop : rsim_loop n; ra_clause : rsim_clause n
}.

Lemma abs_normal sv r s s1 : abs sv r s = (Normal, s1) -> r = Cont /\ s1 = s.
Proof. destruct r as [|[c|c|[v|]|[v|]|[v|]|[v|]]]; cbn; intros E; inversion E; auto. Qed.

Lemma abs_brk sv r s c s1 : abs sv r s = (c, s1) -> c <> Normal -> exists dv, r = Brk dv.
Proof. destruct r as [|dv]; cbn; intros E Hc; [inversion E; congruence | eauto]. Qed.

Lemma rstep_list n : rsim_andor n -> rsim_list n -> rsim_list (S n).
Proof.
  intros Iandor Ilist stk l s out d infun ex sv H Hc Hw Hs.
  apply (rpost_S (fun k => eq_refl)). destruct l as [|a l'].
  - inversion H; subst out. apply rpost_cont.
  - cbn [wf_list] in Hw. apply andb_true_iff in Hw as [Hwa Hwl].
    apply (rpost_bind H).
    + intros o1 E. exact (Iandor stk _ _ _ _ _ _ _ E Hc Hwa Hs).
    + intros r1 s1 E. exact (proj1 (fwd_andor _ _ _ _ _ _ _ _ E Hc Hwa Hs)).
    + intros s1 Hs1 E. exact (Ilist stk _ _ _ _ _ _ _ E Hc Hwl Hs1).
Qed.

Lemma rrest n : rsim_pipeline n -> forall rs stk s1 d infun ex sv out,
  rs <> RNil -> tree_rest (tree_P n d sv) ex rs (Some (Normal, s1)) = Some out ->
  ctx_ok stk d infun ex -> wf_rest d infun rs = true -> state_ok s1 ->
  rpost (fun k => exec_rest k stk rs s1) sv out.
Proof.
  intros Ipipe. induction rs as [|op p rs IH]; intros stk s1 d infun ex sv out Hn H Hc Hw Hs;
    [congruence|].
  cbn [wf_rest] in Hw. apply andb_true_iff in Hw as [Hwp Hwr].
  apply (rpost_S (fun k => eq_refl)). destruct rs as [|op' p' rs'].
  - rewrite tree_rest_last in H. cbn [exec_rest]. destruct (Bool.eqb (N.eqb (status s1) 0) op).
    + exact (Ipipe stk _ _ _ _ _ _ _ H Hc Hwp Hs).
    + inversion H; subst out. apply rpost_cont.
  - cbn [exec_rest]. remember (RCons op' p' rs') as rs eqn:Ers.
    assert (Hn' : rs <> RNil) by (subst rs; discriminate).
    rewrite tree_rest_cons in H by exact Hn'.
    apply (rpost_bind H).
    + intros o1 E. destruct (Bool.eqb (N.eqb (status s1) 0) op).
      * exact (Ipipe (FCondition :: stk) _ _ _ _ _ _ _ E (ctx_cond _ _ _ _ Hc) Hwp Hs).
      * inversion E; subst o1. apply rpost_cont.
    + intros r1 s2 E. destruct (Bool.eqb (N.eqb (status s1) 0) op).
      * exact (proj1 (fwd_pipeline _ _ _ _ _ _ _ _ E (ctx_cond _ _ _ _ Hc) Hwp Hs)).
      * destruct E as [m E]. specialize (E m (le_n m)). inversion E; subst s2. exact Hs.
    + intros s2 Hs2 E. exact (IH stk s2 d infun ex sv out Hn' E Hc Hwr Hs2).
Qed.

Lemma rstep_andor n : rsim_pipeline n -> rsim_andor (S n).
Proof.
  intros Ipipe stk a s out d infun ex sv H Hc Hw Hs.
  destruct a as [first rest].
  cbn [wf_andor] in Hw. apply andb_true_iff in Hw as [Hwf Hwr].
  apply (rpost_S (fun k => eq_refl)). cbn [exec_andor]. destruct rest as [|op p rest'].
  - rewrite sem_andor_single in H. exact (Ipipe stk _ _ _ _ _ _ _ H Hc Hwf Hs).
  - remember (RCons op p rest') as rest eqn:Er.
    assert (Hn : rest <> RNil) by (subst rest; discriminate).
    rewrite sem_andor_eq in H by exact Hn. apply (rpost_bind H).
    + intros o1 E. exact (Ipipe (FCondition :: stk) _ _ _ _ _ _ _ E (ctx_cond _ _ _ _ Hc) Hwf Hs).
    + intros r1 s1 E. exact (proj1 (fwd_pipeline _ _ _ _ _ _ _ _ E (ctx_cond _ _ _ _ Hc) Hwf Hs)).
    + intros s1 Hs1 E. exact (rrest n Ipipe rest stk s1 d infun ex sv out Hn E Hc Hwr Hs1).
Qed.

(* [pipeline_commands] and [if_else] are parts of [sem_pipeline] and of [sem_cmd]
   on `if` that use no fuel of their own: what is claimed of them follows from the
   claims at the same fuel *)
Definition rsim_commands :=
  rsimulates pipeline_commands (fun d infun cs => wf_pipeline d infun (Pipe false cs)) exec_commands.

Lemma rcommands n : rsim_cmd n -> rsim_multi n -> rsim_commands n.
Proof.
  intros Icmd Imulti stk cs s out d infun ex sv H Hc Hw Hs.
  unfold pipeline_commands in H. destruct cs as [|c [|c2 cs2]].
  - inversion H; subst out. apply (rpost_S (fun k => eq_refl)), rpost_cont.
  - exact (rpost_S (fun k => eq_refl) (Icmd stk _ _ _ _ _ _ _ H Hc Hw Hs)).
  - remember (CCons c (CCons c2 cs2)) as cs eqn:Ecs.
    destruct (sem_multi n ex cs s s) as [s1|] eqn:Em; [|discriminate].
    inversion H; subst out.
    assert (Hwm : wf_cmds infun cs = true) by (subst cs; exact Hw).
    pose proof (Imulti stk _ _ _ _ infun ex Em (co_ex _ _ _ _ Hc) Hwm Hs) as Hok.
    exists (apply_errexit stk s1), s1. split.
    + ok_start. cbn [exec_commands]. rewrite Ecs, <- Ecs. ok_rw. reflexivity.
    + apply abs_apply_errexit. exact (co_ex _ _ _ _ Hc).
Qed.

Lemma rstep_pipeline n : rsim_commands n -> rsim_pipeline (S n).
Proof.
  intros Icmds stk p s out d infun ex sv H Hc Hw Hs.
  destruct p as [neg cs].
  assert (Hw' : wf_pipeline d infun (Pipe false cs) = true) by exact Hw.
  apply (rpost_S (fun k => eq_refl)). cbn [exec_pipeline]. destruct neg.
  - rewrite sem_pipeline_eq, orb_true_r in H. apply (rpost_bind H).
    + intros o1 E. exact (Icmds (FCondition :: stk) _ _ _ _ _ _ _ E (ctx_cond _ _ _ _ Hc) Hw' Hs).
    + intros r1 s1 E. exact (proj1 (fwd_commands _ _ _ _ _ _ _ _ E (ctx_cond _ _ _ _ Hc) Hw' Hs)).
    + intros s1 _ E. inversion E; subst out. unfold fails.
      destruct (N.eqb (status s1) 0); apply rpost_cont.
  - rewrite sem_pipeline_plain in H. exact (Icmds stk _ _ _ _ _ _ _ H Hc Hw' Hs).
Qed.

Lemma rstep_multi n : rsim_cmd n -> rsim_trap n -> rsim_multi n -> rsim_multi (S n).
Proof.
  intros Icmd Itrap Imulti stk cs s0 acc acc' infun ex H He Hw Hs.
  cbn [sem_multi] in H. destruct cs as [|c cs'].
  - inversion H; subst acc'. ok_now. reflexivity.
  - cbn [wf_cmds] in Hw. apply andb_true_iff in Hw as [Hwc Hwr].
    destruct (sem_cmd n 0 ex None c (child_state (set_trace (trace acc) s0)))
      as [[c1 c1s]|] eqn:Ec; [|discriminate].
    destruct (sem_exit_trap n ex c1s) as [c2|] eqn:Et; [|discriminate].
    pose proof (ctx_child stk ex infun He) as Hctx.
    assert (Hs0 : state_ok (child_state (set_trace (trace acc) s0))).
    { apply state_ok_child, (state_ok_same s0 _ Hs); reflexivity. }
    destruct (Icmd (FSubshell :: stk) _ _ _ _ _ _ _ Ec Hctx Hwc Hs0) as (r & cs1 & Hok1 & Habs1).
    destruct (fwd_cmd _ _ _ _ _ _ _ _ Hok1 Hctx Hwc Hs0) as [Hs1 _].
    assert (E1 : c1s = apply_result r cs1).
    { rewrite <- abs_none_apply_result, Habs1. reflexivity. }
    subst c1s.
    pose proof (Itrap (FSubshell :: stk) _ _ ex Et He (state_ok_apply_result r _ Hs1)) as Hok2.
    pose proof (Imulti stk _ _ _ _ infun ex H He Hwr Hs) as Hok3.
    ok_start. cbn [exec_multi]. ok_rw. reflexivity.
Qed.

Lemma rstep_trap n : rsim_list n -> rsim_trap (S n).
Proof.
  intros Ilist stk s s' ex H He Hs.
  cbn [sem_exit_trap] in H. destruct (exit_trap s) as [action|] eqn:Etrap.
  - destruct (sem_list n 0 ex (Some (status s)) action s) as [[c1 s1]|] eqn:El; [|discriminate].
    pose proof (so_trap _ Hs _ Etrap) as Hwa.
    destruct (Ilist (FTrap :: stk) _ _ _ _ _ _ _ El (ctx_trap stk ex false He) Hwa Hs)
      as (r & s1' & Hok1 & Habs1).
    destruct (fwd_list _ _ _ _ _ _ _ _ Hok1 (ctx_trap stk ex false He) Hwa Hs) as [_ [R1 R3 _ _]].
    assert (E : s' = trap_end (status s) (r, s1')).
    { rewrite (abs_trap _ _ _ (R1 eq_refl) R3), Habs1. destruct c1; inversion H; reflexivity. }
    ok_start. rewrite run_exit_trap_eq, Etrap. ok_rw. rewrite E. reflexivity.
  - inversion H; subst s'. ok_now. cbn [run_exit_trap]. rewrite Etrap. reflexivity.
Qed.

Lemma rstep_subshell n : rsim_list n -> rsim_trap n -> rsim_subshell (S n).
Proof.
  intros Ilist Itrap stk body s c' infun ex H He Hw Hs.
  cbn [sem_subshell] in H.
  destruct (sem_list n 0 ex None body (child_state s)) as [[c1 c1s]|] eqn:El; [|discriminate].
  pose proof (ctx_child stk ex infun He) as Hctx.
  destruct (Ilist (FSubshell :: stk) _ _ _ _ _ _ _ El Hctx Hw (state_ok_child _ Hs))
    as (r & cs1 & Hok1 & Habs1).
  destruct (fwd_list _ _ _ _ _ _ _ _ Hok1 Hctx Hw (state_ok_child _ Hs)) as [Hs1 _].
  assert (E1 : c1s = apply_result r cs1).
  { rewrite <- abs_none_apply_result, Habs1. reflexivity. }
  subst c1s.
  pose proof (Itrap (FSubshell :: stk) _ _ ex H He (state_ok_apply_result r _ Hs1)) as Hok2.
  ok_start. cbn [run_subshell]. ok_rw. reflexivity.
Qed.

Definition rsim_else (n : nat) : Prop := forall stk e has_else els s out d infun ex sv,
  if_else n d ex sv e has_else els s = Some out -> ctx_ok stk d infun ex ->
  wf_elifs d infun e = true -> wf_list d infun els = true -> state_ok s ->
  rpost (fun k => exec_elifs k stk e has_else els s) sv out.

Lemma relse n : rsim_list n -> rsim_cmd n -> rsim_else n.
Proof.
  intros Ilist Icmd stk e has_else els s out d infun ex sv H Hc Hwe Hwl Hs.
  unfold if_else in H. destruct e as [|cond body e'].
  - destruct has_else.
    + exact (rpost_S (fun k => eq_refl) (Ilist stk _ _ _ _ _ _ _ H Hc Hwl Hs)).
    + inversion H; subst out. apply (rpost_S (fun k => eq_refl)), rpost_cont.
  - cbn [wf_elifs] in Hwe. apply andb_true_iff in Hwe as [Hwe Hwe'].
    apply andb_true_iff in Hwe as [Hwc Hwb].
    assert (Hw : wf_cmd d infun (CIf cond body e' has_else els) = true).
    { cbn [wf_cmd]. rewrite Hwc, Hwb, Hwe', Hwl. reflexivity. }
    refine (rpost_ext _ (Icmd stk _ _ _ _ _ _ _ H Hc Hw Hs)).
    intros k. symmetry. apply exec_if_eq.
Qed.

Lemma rstep_else n : rsim_list n -> rsim_else n -> forall stk cond body e has_else els s out d infun ex sv,
  sem_cmd (S n) d ex sv (CIf cond body e has_else els) s = Some out -> ctx_ok stk d infun ex ->
  wf_list d infun cond = true -> wf_list d infun body = true ->
  wf_elifs d infun e = true -> wf_list d infun els = true -> state_ok s ->
  rpost (fun k => exec_elifs k stk (ECons cond body e) has_else els s) sv out.
Proof.
  intros Ilist Ielse stk cond body e has_else els s out d infun ex sv H Hc Hwc Hwb Hwe Hwl Hs.
  rewrite sem_if_eq in H. apply (rpost_S (fun k => eq_refl)), (rpost_bind H).
  - intros o1 E. exact (Ilist (FCondition :: stk) _ _ _ _ _ _ _ E (ctx_cond _ _ _ _ Hc) Hwc Hs).
  - intros r1 s1 E. exact (proj1 (fwd_list _ _ _ _ _ _ _ _ E (ctx_cond _ _ _ _ Hc) Hwc Hs)).
  - intros s1 Hs1 E. unfold fails in E. destruct (N.eqb (status s1) 0).
    + exact (Ilist stk _ _ _ _ _ _ _ E Hc Hwb Hs1).
    + exact (Ielse stk _ _ _ _ _ _ _ _ _ E Hc Hwe Hwl Hs1).
Qed.

Lemma rstep_for n : rsim_list n -> rsim_for n -> rsim_for (S n).
Proof.
  intros Ilist Ifor stk x values body s out d infun ex sv H Hc Hw Hs.
  cbn [sem_for] in H. destruct values as [|v values'].
  - inversion H; subst out. apply (rpost_S (fun k => eq_refl)), rpost_cont.
  - destruct (is_ronly x s) eqn:Ero.
    + inversion H; subst out. exists (handle_expansion_error stk s), s. split.
      * ok_now. cbn [exec_for]. rewrite Ero. reflexivity.
      * apply (abs_expansion_error stk sv s ErrAssignment eq_refl eq_refl ex).
    + destruct (sem_list n (S d) ex sv body (set_var x (Some v) s)) as [[c1 s1]|] eqn:Eb; [|discriminate].
      pose proof (state_ok_set_var x (Some v) s Hs) as Hsv.
      destruct (Ilist stk _ _ _ _ _ _ _ Eb Hc Hw Hsv) as (rb & sb & Hokb & Habsb).
      destruct (fwd_list _ _ _ _ _ _ _ _ Hokb Hc Hw Hsv) as [Hsb _].
      pose proof (abs_react _ _ _ _ _ Habsb) as R. destruct (flow_react rb) as [r'|] eqn:Er.
      * destruct R as (c' & R & Habs'). rewrite R in H. inversion H; subst out.
        exists r', sb. split; [|exact Habs'].
        ok_start. rewrite exec_for_eq, Ero. ok_rw. cbv beta iota. rewrite Er. reflexivity.
      * destruct R as [R ->]. rewrite R in H.
        destruct (Ifor stk _ _ _ _ _ _ _ _ _ H Hc Hw Hsb) as (r & s' & Hok & Habs).
        exists r, s'. split; [|exact Habs].
        ok_start. rewrite exec_for_eq, Ero. ok_rw. cbv beta iota. rewrite Er. ok_rw. reflexivity.
Qed.

Lemma while_run_S k stk cond e body s reg X :
  while_run k stk cond e body s reg = Some X -> while_run (S k) stk cond e body s reg = Some X.
Proof.
  unfold while_run. destruct (loop_execute k stk cond e body s reg) as [x|] eqn:E; [|discriminate].
  rewrite (loop_execute_mono k (S k) _ _ _ _ _ _ _ (Nat.le_succ_diag_r k) E). auto.
Qed.

(* [while_run], one round at a time: the counterparts of the [sem_loop_*] rules *)
Section WhileRun.
Variables (stk : list frame) (cond : clist) (e : bool) (body : clist).

Lemma while_cond_stop s reg rc sc r' :
  ok (fun k => exec_list k (FCondition :: stk) cond s) (rc, sc) -> flow_react rc = Some r' ->
  ok (fun k => while_run k stk cond e body s reg) (r', sc).
Proof.
  intros [m H] Er. destruct rc as [|dv]; [discriminate|].
  exists (S (S m)). intros [|[|k]] Hk; try lia.
  rewrite while_run_eq. cbn [loop_iterate]. rewrite H by lia. cbv beta iota. rewrite Er. reflexivity.
Qed.

Lemma while_cond_next s reg sc X :
  ok (fun k => exec_list k (FCondition :: stk) cond s) (Brk (DContinue 0), sc) ->
  ok (fun k => while_run k stk cond e body sc reg) X ->
  ok (fun k => while_run k stk cond e body s reg) X.
Proof.
  intros [m1 H1] [m2 H2]. exists (S (S (m1 + m2))). intros [|[|k]] Hk; try lia.
  rewrite while_run_eq. cbn [loop_iterate]. rewrite H1 by lia. apply H2. lia.
Qed.

Lemma while_done s reg sc :
  ok (fun k => exec_list k (FCondition :: stk) cond s) (Cont, sc) ->
  Bool.eqb (N.eqb (status sc) 0) e = false ->
  ok (fun k => while_run k stk cond e body s reg) (Cont, set_status reg sc).
Proof.
  intros [m H] Ht. exists (S (S m)). intros [|[|k]] Hk; try lia.
  rewrite while_run_eq. cbn [loop_iterate]. rewrite H by lia. rewrite Ht. reflexivity.
Qed.

Lemma while_body_stop s reg sc rb sb r' :
  ok (fun k => exec_list k (FCondition :: stk) cond s) (Cont, sc) ->
  Bool.eqb (N.eqb (status sc) 0) e = true ->
  ok (fun k => exec_list k stk body sc) (rb, sb) -> flow_react rb = Some r' ->
  ok (fun k => while_run k stk cond e body s reg) (r', sb).
Proof.
  intros [m1 H1] Ht [m2 H2] Er. destruct rb as [|dv]; [discriminate|].
  exists (S (S (m1 + m2))). intros [|[|k]] Hk; try lia.
  rewrite while_run_eq. cbn [loop_iterate]. rewrite H1 by lia. rewrite Ht. rewrite H2 by lia.
  cbv beta iota. rewrite Er. reflexivity.
Qed.

Lemma while_body_next s reg sc rb sb X :
  ok (fun k => exec_list k (FCondition :: stk) cond s) (Cont, sc) ->
  Bool.eqb (N.eqb (status sc) 0) e = true ->
  ok (fun k => exec_list k stk body sc) (rb, sb) -> flow_react rb = None ->
  ok (fun k => while_run k stk cond e body sb (status sb)) X ->
  ok (fun k => while_run k stk cond e body s reg) X.
Proof.
  intros [m1 H1] Ht [m2 H2] Er [m3 H3].
  exists (S (S (m1 + m2 + m3))). intros [|[|k]] Hk; try lia.
  rewrite while_run_eq. cbn [loop_iterate]. rewrite H1 by lia. rewrite Ht. rewrite H2 by lia.
  specialize (H3 (S k) ltac:(lia)). destruct rb as [|dv].
  - (* Loop::iterate itself goes on, with one unit of fuel less than a fresh round would have *)
    rewrite while_run_eq in H3.
    destruct (loop_iterate k stk cond e body sb (status sb)) as [[[[|dv] s1] reg1]|]; try exact H3.
    destruct (flow_react (Brk dv)); [exact H3 | apply while_run_S, H3].
  - pose proof (flow_react_next _ Er) as ->. exact H3.
Qed.
End WhileRun.

Lemma rstep_loop n : rsim_list n -> rsim_loop n -> rsim_loop (S n).
Proof.
  intros Ilist Iloop stk cond u body s reg out d infun ex sv H Hc Hwc Hwb Hs.
  cbn [sem_loop] in H.
  destruct (sem_list n (S d) true sv cond s) as [[c1 s1]|] eqn:Ec; [|discriminate].
  destruct (Ilist (FCondition :: stk) _ _ _ _ _ _ _ Ec (ctx_cond _ _ _ _ Hc) Hwc Hs)
    as (rc & sc & Hokc & Habsc).
  destruct (fwd_list _ _ _ _ _ _ _ _ Hokc (ctx_cond _ _ _ _ Hc) Hwc Hs) as [Hsc _].
  pose proof (abs_react _ _ _ _ _ Habsc) as R. destruct (flow_react rc) as [r'|] eqn:Er.
  - destruct R as (c' & R & Habs'). rewrite R in H. inversion H; subst out.
    exists r', sc. split; [exact (while_cond_stop _ _ _ _ _ _ _ _ _ Hokc Er) | exact Habs'].
  - destruct R as [R ->]. rewrite R in H. destruct rc as [|dv].
    + (* the condition completed *)
      injection Habsc as <-. destruct (Bool.eqb (fails sc) u) eqn:Et;
        unfold fails in Et; rewrite <- eqb_negb2 in Et.
      * destruct (sem_list n (S d) ex sv body sc) as [[c2 s2]|] eqn:Eb; [|discriminate].
        destruct (Ilist stk _ _ _ _ _ _ _ Eb Hc Hwb Hsc) as (rb & sb & Hokb & Habsb).
        destruct (fwd_list _ _ _ _ _ _ _ _ Hokb Hc Hwb Hsc) as [Hsb _].
        pose proof (abs_react _ _ _ _ _ Habsb) as Rb. destruct (flow_react rb) as [rb'|] eqn:Erb.
        -- destruct Rb as (c' & Rb & Habs'). rewrite Rb in H. inversion H; subst out.
           exists rb', sb.
           split; [exact (while_body_stop _ _ _ _ _ _ _ _ _ _ Hokc Et Hokb Erb) | exact Habs'].
        -- destruct Rb as [Rb ->]. rewrite Rb in H.
           destruct (Iloop stk _ _ _ _ _ _ _ _ _ _ H Hc Hwc Hwb Hsb) as (r & s' & Hok & Habs).
           exists r, s'.
           split; [exact (while_body_next _ _ _ _ _ _ _ _ _ _ Hokc Et Hokb Erb Hok) | exact Habs].
      * inversion H; subst out. exists Cont, (set_status reg sc).
        split; [exact (while_done _ _ _ _ _ _ _ Hokc Et) | reflexivity].
    + (* `continue` in the condition *)
      pose proof (flow_react_next _ Er) as ->. injection Habsc as <-.
      destruct (Iloop stk _ _ _ _ _ _ _ _ _ _ H Hc Hwc Hwb Hsc) as (r & s' & Hok & Habs).
      exists r, s'. split; [exact (while_cond_next _ _ _ _ _ _ _ _ Hokc Hok) | exact Habs].
Qed.

(* the items up to the selected clause are skipped by the model one by one *)
Lemma ritems n : rsim_clause n -> forall stk subject items ft upd s out d infun ex sv,
  case_items n d ex sv subject items ft upd s = Some out -> ctx_ok stk d infun ex ->
  wf_items d infun items = true -> state_ok s ->
  rpost (fun k => exec_items k stk subject items ft upd s) sv out.
Proof.
  intros Iclause stk subject items.
  induction items as [|pats body kc items IH]; intros ft upd s out d infun ex sv H Hc Hw Hs.
  - assert (E : out = (Normal, if upd then s else set_status 0 s))
      by (destruct ft; inversion H; reflexivity).
    subst out. apply (rpost_S (fun k => eq_refl)), rpost_cont.
  - rewrite case_items_cons in H. cbn [wf_items] in Hw. apply andb_true_iff in Hw as [Hwb Hwi].
    destruct (ft || existsb (match_pat subject) pats) eqn:Esel.
    + exact (Iclause stk _ _ _ _ pats ft upd _ _ _ _ _ _ H Hc Hwb Hwi Hs Esel).
    + destruct (IH false upd s out d infun ex sv H Hc Hwi Hs) as (r & s' & Hok & Habs).
      exists r, s'. split; [|exact Habs].
      ok_start. cbn [exec_items]. rewrite Esel. ok_rw. reflexivity.
Qed.

Lemma rstep_clause n : rsim_list n -> rsim_clause n -> rsim_clause (S n).
Proof.
  intros Ilist Iclause stk subject body kc rest pats ft upd s out d infun ex sv H Hc Hwb Hwr Hs Hsel.
  rewrite sem_clause_eq in H. apply (rpost_S (fun k => eq_refl)). cbn [exec_items]. rewrite Hsel.
  apply (rpost_bind H).
  - intros o1 E. exact (Ilist stk _ _ _ _ _ _ _ E Hc Hwb Hs).
  - intros r1 s1 E. exact (proj1 (fwd_list _ _ _ _ _ _ _ _ E Hc Hwb Hs)).
  - intros s1 Hs1 E. destruct kc; try exact (ritems n Iclause stk _ _ _ _ _ _ _ _ _ _ E Hc Hwr Hs1).
    inversion E; subst out. unfold clause_status. destruct (clist_is_empty body); apply rpost_cont.
Qed.

Lemma rsim_of_leaf n stk d infun ex c s sv out :
  leaf stk d infun ex c s -> sem_cmd n d ex sv c s = Some out ->
  rpost (fun k => exec_cmd k stk c s) sv out.
Proof.
  intros (r & s' & E1 & E2 & _) H. destruct n as [|n]; [discriminate|].
  rewrite (sem_cmd_mono 1 (S n) _ _ _ _ _ _ ltac:(lia) (E2 sv)) in H. inversion H; subst out.
  exists r, s'. split; [|reflexivity].
  exists 1. intros k Hk. exact (exec_cmd_mono 1 k _ _ _ _ Hk E1).
Qed.

Lemma rstep_call n : rsim_cmd n -> forall stk dc nm args s out d infun ex sv,
  sem_cmd (S n) d ex sv (CCall dc nm args) s = Some out -> ctx_ok stk d infun ex ->
  wf_cmd d infun (CCall dc nm args) = true -> state_ok s ->
  rpost (fun k => exec_cmd k stk (CCall dc nm args) s) sv out.
Proof.
  intros Icmd stk dc nm args s out d infun ex sv H Hc Hw Hs.
  destruct (via_command dc) eqn:Evia; [|destruct (bad_redir dc) eqn:Ebad;
    [|destruct (classify nm s) as [sp|body|] eqn:Ecl]];
    try (apply (rsim_of_leaf _ _ _ _ _ _ _ _ _ (call_leaf _ _ _ _ _ _ _ _ Hc Hw Hs ltac:(congruence)) H)).
  (* what is left is the call of a function: the only call that runs a command *)
  rewrite (sem_call_fun _ _ _ _ _ _ _ _ _ Evia Ebad Ecl) in H.
  destruct (sem_cmd n 0 ex sv body s) as [[c1 s1]|] eqn:Eb; [|discriminate].
  destruct (Icmd stk _ _ _ _ _ _ _ Eb (ctx_fun _ _ _ _ Hc) (so_funs _ Hs _ _ (classify_fun _ _ _ Ecl)) Hs)
    as (rb & sb & Hokb & Habsb).
  destruct (call_end stk (rb, sb)) as [r s'] eqn:E. exists r, s'. split.
  - ok_start. rewrite (exec_call_fun _ _ _ _ _ _ _ Evia Ebad Ecl). ok_rw. cbn [option_map].
    rewrite E. reflexivity.
  - rewrite (abs_call_end _ _ sv _ _ _ _ (co_ex _ _ _ _ Hc) E), Habsb.
    destruct c1; inversion H; reflexivity.
Qed.

Lemma rstep_cmd n : rsim_all n -> rsim_cmd (S n).
Proof.
  intros [Icmd Ilist Iandor Ipipe Imulti Isub Itrap Ifor Iloop Iclause].
  intros stk c s out d infun ex sv H Hc Hw Hs.
  pose proof (co_ex _ _ _ _ Hc) as Hex.
  destruct (sub_body c) as [body|] eqn:Esb.
  { destruct (sub_cmd stk d infun ex c s body Esb Hex Hs) as (X & Y & E1 & E2 & Ha).
    pose proof (wf_sub_body _ _ _ _ Esb Hw) as Hwb.
    rewrite E2 in H. destruct (sem_subshell n ex body s) as [ch|] eqn:Esub; [|discriminate].
    exact (rpost_S E1
             (rpost_sub_end _ _ _ _ _ _ _ _ (Isub stk _ _ _ infun ex Esub Hex Hwb Hs) (Ha ch) H)). }
  destruct c; try discriminate Esb;
    try (apply (rsim_of_leaf _ _ _ _ _ _ _ _ _ (cmd_leaf _ _ _ _ _ _ Hc Hw Hs I) H)).
  - (* x=w NAME ARGS *)
    destruct (expand_word w s) as [fields|] eqn:Ew; [destruct (is_ronly x s) eqn:Ero|];
      try (apply (rsim_of_leaf _ _ _ _ _ _ _ _ _ (cmd_leaf _ _ _ _ _ _ Hc Hw Hs ltac:(cbn; auto)) H)).
    cbn [sem_cmd] in H. rewrite Ew, Ero in H. rewrite wf_prefix_call in Hw.
    destruct (sem_cmd n d ex sv (CCall plain nm args) (set_var x (hd_error fields) s))
      as [[c1 t1]|] eqn:Ecall; [|discriminate].
    inversion H; subst out.
    pose proof (state_ok_set_var x (hd_error fields) s Hs) as Hs0.
    destruct (Icmd stk _ _ _ _ _ _ _ Ecall Hc Hw Hs0) as (r1 & s1 & Hok1 & Habs1).
    exists r1, (if is_special nm then s1 else restore_var x s s1). split.
    + ok_start. cbn [exec_cmd]. rewrite Ew, Ero. ok_rw. reflexivity.
    + destruct (is_special nm); [exact Habs1|]. rewrite abs_restore, Habs1. reflexivity.
  - exact (rstep_call n Icmd _ _ _ _ _ _ _ _ _ _ H Hc Hw Hs).
  - (* brace group *)
    exact (rpost_S (fun k => eq_refl) (Ilist stk _ _ _ _ _ _ _ H Hc Hw Hs)).
  - (* if *)
    cbn [wf_cmd] in Hw.
    apply andb_true_iff in Hw as [Hw Hwl]. apply andb_true_iff in Hw as [Hw Hwe].
    apply andb_true_iff in Hw as [Hwc Hwb].
    refine (rpost_ext _ (rstep_else n Ilist (relse n Ilist Icmd) stk _ _ _ _ _ _ _ _ _ _ _ H Hc Hwc Hwb Hwe Hwl Hs)).
    intros k. apply exec_if_eq.
  - (* while / until *)
    cbn [sem_cmd] in H. cbn [wf_cmd] in Hw. apply andb_true_iff in Hw as [Hwc Hwb].
    exact (rpost_S (fun k => exec_while_eq k stk is_until cond body s)
             (Iloop (FLoop :: stk) _ _ _ _ _ _ _ _ _ _ H (ctx_loop _ _ _ _ Hc) Hwc Hwb Hs)).
  - (* for *)
    destruct (expand_words ws s) as [[|v values']|] eqn:Ew;
      try (apply (rsim_of_leaf _ _ _ _ _ _ _ _ _ (cmd_leaf _ _ _ _ _ _ Hc Hw Hs ltac:(cbn; auto)) H)).
    cbn [sem_cmd] in H. rewrite Ew in H. cbn [wf_cmd] in Hw. apply andb_true_iff in Hw as [_ Hwb].
    refine (rpost_S _ (Ifor (FLoop :: stk) _ _ _ _ _ _ _ _ _ H (ctx_loop _ _ _ _ Hc) Hwb Hs)).
    intros k. cbn [exec_cmd]. rewrite Ew. reflexivity.
  - (* case *)
    destruct (expand_word w s) as [fields|] eqn:Ew;
      [|apply (rsim_of_leaf _ _ _ _ _ _ _ _ _ (cmd_leaf _ _ _ _ _ _ Hc Hw Hs Ew) H)].
    rewrite sem_case_eq, Ew in H. cbn [wf_cmd] in Hw.
    refine (rpost_S _ (ritems n Iclause stk _ _ _ _ _ _ _ _ _ _ H Hc Hw Hs)).
    intros k. cbn [exec_cmd]. rewrite Ew. reflexivity.
Qed.

Theorem rsim_holds : forall n, rsim_all n.
Proof.
  induction n as [|n IH].
  - split; repeat intro; discriminate.
  - pose proof IH as [Icmd Ilist Iandor Ipipe Imulti Isub Itrap Ifor Iloop Iclause].
    assert (Jcmd : rsim_cmd (S n)) by (apply rstep_cmd; exact IH).
    assert (Jlist : rsim_list (S n)) by (apply rstep_list; assumption).
    assert (Jtrap : rsim_trap (S n)) by (apply rstep_trap; assumption).
    assert (Jmulti : rsim_multi (S n)) by (apply rstep_multi; assumption).
    split.
    + exact Jcmd.
    + exact Jlist.
    + apply rstep_andor; assumption.
    + apply rstep_pipeline, rcommands; assumption.
    + exact Jmulti.
    + apply rstep_subshell; assumption.
    + exact Jtrap.
    + apply rstep_for; assumption.
    + apply rstep_loop; assumption.
    + apply rstep_clause; assumption.
Qed.
