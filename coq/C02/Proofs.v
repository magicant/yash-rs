(* C02 — whole scripts: the read-eval loop of the model against [sem_lines] in
   both directions, hence the equivalence of [model_result] and [spec_result];
   at the end, the definitions that statements of Properties.v are written with. *)
From Yv Require Import Common.Base C02.Model C02.Spec C02.ProofsMono C02.ProofsSim C02.ProofsRev.

Lemma state_ok_init : state_ok init_state.
Proof. split; cbn; intros; try discriminate; reflexivity. Qed.

Lemma set_status_zero s : status s = 0%N -> set_status 0 s = s.
Proof. intros E. rewrite <- E. apply set_status_same. Qed.

(* read_eval_loop_impl sets `$?` to 0 when it ends without having run a command
   ([executed] = false); [sem_lines] does not, and the two agree because a
   script starts with `$?` = 0 (the last hypothesis) *)
Lemma lines_sim n : forall p executed s r s1,
  run_lines n p executed s = Some (r, s1) ->
  forallb wf_line p = true -> state_ok s ->
  (executed = false -> status s = 0%N) ->
  state_ok s1 /\ (forall o, r <> Brk (DAbort o)) /\
  ok (fun k => sem_lines k p s) (abs None r s1).
Proof.
  induction p as [|l p IH]; intros executed s r s1 H Hw Hs Hex.
  - cbn in H. inversion H; subst r s1.
    assert (E : (if executed then s else set_status 0 s) = s).
    { destruct executed; [reflexivity|]. apply set_status_zero. auto. }
    rewrite E. split; [exact Hs|]. split; [intros; discriminate|].
    exists 0. intros k _. reflexivity.
  - cbn [forallb] in Hw. apply andb_true_iff in Hw as [Hwl Hwp].
    destruct l as [l|]; cbn [run_lines] in H.
    + cbn [wf_line] in Hwl.
      destruct (exec_list n [] l s) as [[rl sl]|] eqn:El; [|discriminate].
      assert (Hc : ctx_ok [] 0 false false) by (split; cbn; auto).
      destruct (sa_list _ (sim_holds n) _ _ _ _ _ _ _ _ El Hc Hwl Hs) as (Hs1 & Hr1 & Hok1).
      destruct rl as [|dv].
      * destruct (IH _ _ _ _ H Hwp Hs1) as (Hs2 & Hr2 & Hok2); [discriminate|].
        split; [exact Hs2|]. split; [exact Hr2|].
        exact (ok_bind None _ _ Cont sl _ (Hok1 None) Hok2).
      * inversion H; subst r s1. split; [exact Hs1|]. split; [apply Hr1|].
        exact (ok_bind None _ _ (Brk dv) sl _ (Hok1 None) eq_refl).
    + inversion H; subst r s1.
      split; [exact Hs|]. split; [intros; discriminate|].
      exists 0. intros k _. reflexivity.
Qed.

Lemma exec_sound_lemma p o : wf_prog p = true -> model_result p o -> spec_result p o.
Proof.
  intros Hw [n H]. unfold model_run in H.
  destruct (run_lines n p false init_state) as [[r s1]|] eqn:El; [|discriminate].
  destruct (lines_sim n _ _ _ _ _ El Hw state_ok_init) as (Hs1 & Hr1 & Hok1);
    [reflexivity|].
  assert (Hrun : exists s3, run_exit_trap n [] (apply_result r s1) = Some s3 /\ o = observe s3).
  { destruct r as [|[c|c|x|x|x|x]];
      try (destruct (run_exit_trap n [] _) as [s3|]; [|discriminate];
           inversion H; subst o; eexists; split; reflexivity).
    exfalso. eapply Hr1. reflexivity. }
  destruct Hrun as (s3 & Et & ->).
  pose proof (sa_trap _ (sim_holds n) _ _ _ false Et eq_refl
                (state_ok_apply_result r s1 Hs1)) as Hok2.
  rewrite <- abs_none_apply_result in Hok2.
  destruct (abs None r s1) as [c s2]. cbn [snd] in Hok2.
  apply ok_some. unfold spec_run. ok_start. ok_rw. reflexivity.
Qed.

Lemma lines_rsim n : forall p executed s out,
  sem_lines n p s = Some out ->
  forallb wf_line p = true -> state_ok s ->
  (executed = false -> status s = 0%N) ->
  rpost (fun k => run_lines k p executed s) None out.
Proof.
  induction p as [|l p IH]; intros executed s out H Hw Hs Hex.
  - inversion H; subst out. exists Cont, s. split; [|reflexivity]. exists 0. intros k _.
    cbn [run_lines]. destruct executed; [reflexivity|]. rewrite set_status_zero; auto.
  - cbn [forallb] in Hw. apply andb_true_iff in Hw as [Hwl Hwp].
    destruct l as [l|].
    + cbn [wf_line] in Hwl.
      assert (Hc : ctx_ok [] 0 false false) by (split; cbn; auto).
      apply (rpost_bind H).
      * intros o1 E. exact (ra_list _ (rsim_holds n) [] _ _ _ _ _ _ _ E Hc Hwl Hs).
      * intros r1 s1 E. exact (proj1 (fwd_list _ _ _ _ _ _ _ _ E Hc Hwl Hs)).
      * intros s1 Hs1 E. apply (IH true s1 out E Hwp Hs1). discriminate.
    + inversion H; subst out. exists (Brk (DInterrupt (Some 2%N))), s.
      split; [exists 0|]; reflexivity.
Qed.

Lemma exec_complete_lemma p o : wf_prog p = true -> spec_result p o -> model_result p o.
Proof.
  intros Hw [n H]. unfold spec_run in H.
  destruct (sem_lines n p init_state) as [[c s1']|] eqn:El; [|discriminate].
  destruct (sem_exit_trap n false s1') as [s2|] eqn:Et; [|discriminate].
  inversion H; subst o.
  destruct (lines_rsim n _ false _ _ El Hw state_ok_init (fun _ => eq_refl)) as (r & s1 & Hok1 & Habs1).
  (* the invariants of the model's run, from the forward theorem *)
  assert (Hinv : state_ok s1 /\ forall o, r <> Brk (DAbort o)).
  { destruct Hok1 as [m Hm].
    destruct (lines_sim m _ _ _ _ _ (Hm m (le_n m)) Hw state_ok_init (fun _ => eq_refl)) as (A & B & _).
    auto. }
  destruct Hinv as [Hs1 Hr1].
  assert (E : s1' = apply_result r s1) by (rewrite <- abs_none_apply_result, Habs1; reflexivity).
  subst s1'.
  pose proof (ra_trap _ (rsim_holds n) [] _ _ false Et eq_refl
                (state_ok_apply_result r s1 Hs1)) as Hok2.
  apply ok_some. unfold model_run. ok_start. ok_rw.
  destruct r as [|[c0|c0|x|x|x|x]]; try reflexivity. exfalso. eapply Hr1. reflexivity.
Qed.

Lemma model_eq_spec_lemma p o : wf_prog p = true -> (model_result p o <-> spec_result p o).
Proof. intros H; split; [apply exec_sound_lemma | apply exec_complete_lemma]; exact H. Qed.

Fixpoint rest_snoc (r : aorest) (is_and : bool) (p : pipeline) : aorest :=
  match r with
  | RNil => RCons is_and p RNil
  | RCons a q r' => RCons a q (rest_snoc r' is_and p)
  end.

Lemma aotree_of_snoc r : forall t is_and p,
  aotree_of t (rest_snoc r is_and p) = AONode (aotree_of t r) is_and p.
Proof. induction r as [|a q r IH]; intros; cbn; [reflexivity | apply IH]. Qed.

(* the four-way priority as a finite table *)
Definition search_table (special : bool) (function : bool) (regular : bool) : N :=
  if special then 1 else if function then 2 else if regular then 3 else 4.

Definition target_rank (t : target) : N :=
  match t with
  | TBuiltin true => 1 | TFunction _ => 2 | TBuiltin false => 3 | TExternal => 4
  end.

Fixpoint items_length (is : itemlist) : nat :=
  match is with INil => 0 | ICons _ _ _ is' => S (items_length is') end.

Lemma items_none stk subject s : forall items n, items_length items < n ->
  find_clause subject items = None ->
  exec_items n stk subject items false false s = Some (Cont, set_status 0 s).
Proof.
  induction items as [|pats body k items IH]; intros n Hn Hf; (destruct n as [|n]; [cbn in Hn; lia|]).
  - reflexivity.
  - cbn [find_clause] in Hf. cbn [exec_items]. cbn [orb].
    destruct (existsb (match_pat subject) pats); [discriminate|].
    apply IH; [cbn in Hn; lia | exact Hf].
Qed.
