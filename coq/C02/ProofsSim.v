(* C02 — the model refines the specification: every terminating run of the
   model interpreter ([exec_*], runtime context stack, divert values) is a run
   of the specification interpreter ([sem_*], lexical depth / "-e ignored"
   flag, completions) with the corresponding result.

   The first half of the file is what both directions of the equivalence use:
   how the runtime stack determines the lexical context ([ctx_ok]); how a
   result of the model is read as a completion ([abs]) and how [abs] commutes
   with what each construct does to the result of its part ([ok_bind] for
   sequencing, [abs_react] for loops, [abs_call_end] for function calls,
   [abs_apply_errexit], ...); the invariants ([res_ok], [state_ok]); equations
   that present loops, and-or lists and calls of the two interpreters in
   matching shapes; and the commands on which neither interpreter calls itself
   ([leaf]), related once.
   The second half is the simulation: one claim per function of the model,
   proved together by induction on the model's fuel ([sim_holds]). *)
From Yv Require Import Common.Base C02.Model C02.Spec C02.ProofsMono.

(* "eventually always": the form in which results of [sem_*] are carried *)
Definition ok {A} (f : nat -> option A) (res : A) : Prop :=
  exists m, forall k, m <= k -> f k = Some res.

Lemma ok_some {A} (f : nat -> option A) res : ok f res -> exists m, f m = Some res.
Proof. intros [m H]. exists m. apply H. lia. Qed.

Lemma ok_ext {A} (f g : nat -> option A) res :
  (forall k, f k = Some res -> g k = Some res) -> ok f res -> ok g res.
Proof. intros H [m Hm]. exists m. intros k Hk. apply H, Hm, Hk. Qed.

Lemma ok_S {A} (f g : nat -> option A) res : (forall k, g (S k) = f k) -> ok f res -> ok g res.
Proof. intros E [m H]. exists (S m). intros [|k] Hk; [lia|]. rewrite E. apply H. lia. Qed.

(* sum of the bounds of all "eventually" hypotheses in the context *)
Ltac fuel_sum :=
  let rec go acc :=
    match goal with
    | H : forall k, ?m <= k -> _ |- _ =>
        lazymatch acc with
        | context [m] => fail
        | _ => go (m + acc)
        end
    | _ => acc
    end in
  go 0.

Ltac ok_open :=
  repeat match goal with
         | H : ok _ _ |- _ => let m := fresh "m" in destruct H as [m H]
         end.

(* goal [ok (fun k => f k ...) res]: choose the bound, expose one step *)
Ltac ok_start :=
  ok_open;
  let t := fuel_sum in
  exists (S t); intros [|k] Hk; [exfalso; lia|]; cbv beta.

Ltac ok_rw :=
  repeat match goal with
         | H : forall k, _ <= k -> _ = Some _ |- _ => rewrite H by lia
         end.

(* goal [ok f res] where [f 1] already computes to [Some res] *)
Ltac ok_now := let k := fresh "k" in let Hk := fresh "Hk" in
  exists 1; intros [|k] Hk; [lia|].

Lemma set_status_same s : set_status (status s) s = s.
Proof. destruct s; reflexivity. Qed.

Lemma set_status_twice a b s : set_status a (set_status b s) = set_status a s.
Proof. reflexivity. Qed.

Lemma eqb_negb2 (a b : bool) : Bool.eqb a (negb b) = Bool.eqb (negb a) b.
Proof. destruct a, b; reflexivity. Qed.

(* [ctx_ok stk d infun ex]: the runtime stack [stk] realises the lexical context
   in which the specification runs a command ([d] enclosing loops, inside a
   function body or not, -e ignored or not).  [ld] is Stack::loop_count without
   its cap.  yash-rs pushes no frame for a function call, so inside a function
   body the loops around the callers are still counted: there [ld stk] may
   exceed [d] ([co_le]) and it is [wf_cmd] that keeps `break n` within [d];
   outside function bodies the two counts are equal ([co_eq]). *)
Definition ld (stk : list frame) : nat :=
  length (filter frame_is_loop (take_while retains_context stk)).
Definition has_cond (stk : list frame) : bool := existsb frame_is_condition stk.

Record ctx_ok (stk : list frame) (d : nat) (infun ex : bool) : Prop := {
  co_ex : ex = has_cond stk;
  co_le : d <= ld stk;
  co_eq : infun = false -> d = ld stk
}.

Lemma loop_count_min stk k : loop_count stk k = Nat.min k (ld stk).
Proof. unfold loop_count, ld. apply firstn_length. Qed.

Lemma ctx_cond stk d infun ex : ctx_ok stk d infun ex -> ctx_ok (FCondition :: stk) d infun true.
Proof. intros [A B C]; split; auto. Qed.

Lemma ctx_loop stk d infun ex : ctx_ok stk d infun ex -> ctx_ok (FLoop :: stk) (S d) infun ex.
Proof.
  intros [A B C]; split.
  - exact A.
  - unfold ld in *; cbn; lia.
  - intros E. specialize (C E). unfold ld in *; cbn; lia.
Qed.

Lemma ctx_builtin stk d infun ex : ctx_ok stk d infun ex -> ctx_ok (FBuiltin :: stk) d infun ex.
Proof. intros [A B C]; split; auto. Qed.

(* a subshell or a trap action starts a context of its own: no enclosing loop
   counts, only "-e ignored" is inherited *)
Lemma ctx_child stk ex infun : ex = has_cond stk -> ctx_ok (FSubshell :: stk) 0 infun ex.
Proof. intros A; split; cbn; auto. Qed.

Lemma ctx_trap stk ex infun : ex = has_cond stk -> ctx_ok (FTrap :: stk) 0 infun ex.
Proof. intros A; split; cbn; auto. Qed.

Lemma ctx_subshell stk d infun infun' ex :
  ctx_ok stk d infun ex -> ctx_ok (FSubshell :: stk) 0 infun' ex.
Proof. intros Hc. exact (ctx_child stk ex infun' (co_ex _ _ _ _ Hc)). Qed.

Lemma ctx_fun stk d infun ex : ctx_ok stk d infun ex -> ctx_ok stk 0 true ex.
Proof. intros [A B C]; split; auto; [lia | discriminate]. Qed.

(* How the specification reads a result of the model.  The count of a Break /
   Continue divert is the number of loops to leave beyond the innermost one;
   a completion counts the loops themselves.  Interrupt and Abort end a
   non-interactive shell as Exit does.  The optional status of a divert, which
   the model stores only where the divert is caught (apply_result, the end of
   a function call), is in `$?` at once; an Exit without one inside a trap
   action stands for the `$?` from before the action ([saved]), which
   run_trap restores after the action. *)
Definition abs (saved : option N) (r : flow) (s : state) : sres :=
  match r with
  | Cont => (Normal, s)
  | Brk (DContinue k) => (Continuing (S k), s)
  | Brk (DBreak k) => (Breaking (S k), s)
  | Brk (DReturn None) => (Returning, s)
  | Brk (DReturn (Some v)) => (Returning, set_status v s)
  | Brk (DExit None) => (Exiting, exit_no_operand saved s)
  | Brk (DExit (Some v)) => (Exiting, set_status v s)
  | Brk (DInterrupt None) => (Exiting, s)
  | Brk (DInterrupt (Some v)) => (Exiting, set_status v s)
  | Brk (DAbort None) => (Exiting, s)
  | Brk (DAbort (Some v)) => (Exiting, set_status v s)
  end.

Lemma abs_none_apply_result r s : snd (abs None r s) = apply_result r s.
Proof. destruct r as [|[k|k|[v|]|[v|]|[v|]|[v|]]]; reflexivity. Qed.

Lemma abs_apply_errexit stk ex sv s :
  ex = has_cond stk -> abs sv (apply_errexit stk s) s = done ex sv s.
Proof.
  intros ->. unfold apply_errexit, done, errexit_applies, errexit_is_applicable, fails, has_cond.
  destruct (N.eqb (status s) 0), (errexit s), (existsb frame_is_condition stk); reflexivity.
Qed.

Lemma abs_expansion_error stk sv s k :
  error_exits k = true -> error_status k 0 = 2%N ->
  forall ex, abs sv (handle_expansion_error stk s) s = shell_error k 0 ex sv s.
Proof.
  intros E1 E2 ex. unfold handle_expansion_error, shell_error. rewrite E1, E2.
  destruct (errexit_is_applicable stk s); reflexivity.
Qed.

Lemma abs_not_normal sv dv s : fst (abs sv (Brk dv) s) <> Normal.
Proof. destruct dv as [c|c|[v|]|[v|]|[v|]|[v|]]; discriminate. Qed.

(* what the simulation guarantees about a model result *)
Record res_ok (infun : bool) (d : nat) (r : flow) : Prop := {
  ro_return : infun = false -> forall o, r <> Brk (DReturn o);
  ro_abort : forall o, r <> Brk (DAbort o);
  (* break / continue never reach past the lexically enclosing loops *)
  ro_break : forall c, r = Brk (DBreak c) -> c < d;
  ro_continue : forall c, r = Brk (DContinue c) -> c < d
}.

Lemma res_ok_cont infun d : res_ok infun d Cont.
Proof. split; intros; discriminate. Qed.

Lemma res_ok_levels infun d j (b : bool) :
  j < d -> res_ok infun d (Brk (if b then DBreak j else DContinue j)).
Proof.
  intros L. destruct b; split; try (intros; discriminate); intros c E; injection E as <-; exact L.
Qed.

Lemma res_ok_errexit infun d stk s : res_ok infun d (apply_errexit stk s).
Proof. unfold apply_errexit. destruct (_ && _); split; intros; discriminate. Qed.

Lemma res_ok_expansion infun d stk s : res_ok infun d (handle_expansion_error stk s).
Proof.
  unfold handle_expansion_error.
  destruct (errexit_is_applicable stk s); split; intros; congruence.
Qed.

(* How a loop of the model reacts to the result of its body (or of the
   condition of a while loop): [None] is "next round"; otherwise the loop ends
   with a result of its own, one level of break / continue being used up.
   [loop_react] is the specification's version of this, and [abs] takes one to
   the other. *)
Definition flow_react (r : flow) : option flow :=
  match r with
  | Cont | Brk (DContinue O) => None
  | Brk (DBreak O) => Some Cont
  | Brk (DBreak (S c)) => Some (Brk (DBreak c))
  | Brk (DContinue (S c)) => Some (Brk (DContinue c))
  | Brk dv => Some (Brk dv)
  end.

Lemma abs_react sv r s c t : abs sv r s = (c, t) ->
  match flow_react r with
  | None => loop_react c = LoopNext /\ t = s
  | Some r' => exists c', loop_react c = LoopStop c' /\ abs sv r' s = (c', t)
  end.
Proof.
  destruct r as [|[[|k]|[|k]|[v|]|[v|]|[v|]|[v|]]]; cbn [abs flow_react];
    intros E; inversion E; subst c t; cbn [loop_react]; eauto.
Qed.

Lemma flow_react_next dv : flow_react (Brk dv) = None -> dv = DContinue 0.
Proof. destruct dv as [[|c]|[|c]|o|o|o|o]; cbn; congruence. Qed.

Lemma res_ok_react infun d r r' :
  res_ok infun (S d) r -> flow_react r = Some r' -> res_ok infun d r'.
Proof.
  intros [A B C D] E.
  destruct r as [|[[|c]|[|c]|o|o|o|o]]; inversion E; subst r'; split; auto; try congruence;
    intros c0 E0; inversion E0; subst c0;
    [specialize (D (S c) eq_refl) | specialize (C (S c) eq_refl)]; lia.
Qed.

(* [wf_prog] is a condition on the text of the script, but function bodies and
   the trap action are run out of the state: the state has to carry it *)
Record state_ok (s : state) : Prop := {
  so_funs : forall nm b, lookup_fun nm (funs s) = Some b -> wf_cmd 0 true b = true;
  so_trap : forall a, exit_trap s = Some a -> wf_list 0 false a = true
}.

Lemma state_ok_same s s' :
  state_ok s -> funs s' = funs s -> exit_trap s' = exit_trap s -> state_ok s'.
Proof. intros [F T] A B; split; rewrite ?A, ?B; auto. Qed.

Lemma state_ok_set_status st s : state_ok s -> state_ok (set_status st s).
Proof. intros Hs. apply (state_ok_same s _ Hs); reflexivity. Qed.

Lemma state_ok_set_var x v s : state_ok s -> state_ok (set_var x v s).
Proof. intros Hs. apply (state_ok_same s _ Hs); reflexivity. Qed.

Lemma state_ok_child s : state_ok s -> state_ok (child_state s).
Proof. intros [F T]; split; cbn; auto. discriminate. Qed.

Lemma state_ok_apply_result r s : state_ok s -> state_ok (apply_result r s).
Proof.
  intros Hs. destruct r as [|dv]; [exact Hs|]. cbn [apply_result].
  destruct (divert_exit_status dv); [apply state_ok_set_status, Hs | exact Hs].
Qed.

Lemma state_ok_define_fun nm body s :
  wf_cmd 0 true body = true -> state_ok s -> state_ok (define_fun nm body s).
Proof.
  intros Hw [F T]. split; [|exact T]. intros nm' b. cbn.
  destruct (name_eqb nm' nm); [intros E; inversion E; subst; exact Hw | apply F].
Qed.

Lemma state_ok_set_trap a s :
  wf_list 0 false a = true -> state_ok s -> state_ok (set_exit_trap (Some a) s).
Proof. intros Hw [F T]. split; [exact F|]. intros a' E; inversion E; subst; exact Hw. Qed.

Definition wf_call (d : nat) (infun : bool) (nm : name) (args : list N) : bool :=
  match nm with
  | NBreak | NContinue =>
      if infun then match loop_operand args with Some k => Nat.leb k d | None => true end
      else true
  | NReturn => infun
  | _ => true
  end.

Lemma loop_count_builtin stk d infun ex k :
  ctx_ok stk d infun ex -> (infun = true -> k <= d) ->
  loop_count (FBuiltin :: stk) k = Nat.min k d.
Proof.
  intros [A B C] Hk. rewrite loop_count_min. change (ld (FBuiltin :: stk)) with (ld stk).
  destruct infun.
  - specialize (Hk eq_refl). lia.
  - rewrite (C eq_refl). reflexivity.
Qed.

(* What is claimed of one run of a built-in from state [s]: [x] is what
   run_builtin returned, [y] what the specification's utility returns.  A
   built-in that leaves no divert is subject to errexit on both sides. *)
Definition builtin_ok (stk : list frame) (d : nat) (infun : bool) (sv : option N) (s : state)
    (x : bres * state) (y : sres) : Prop :=
  let '((st, dv), s') := x in
  let s1 := set_status st s' in
  let r := match dv with Cont => apply_errexit stk s1 | _ => dv end in
  abs sv r s1 = y /\ res_ok infun d r /\ funs s1 = funs s /\ exit_trap s1 = exit_trap s.

Lemma builtin_done stk d infun ex sv s st s' :
  ex = has_cond stk -> funs s' = funs s -> exit_trap s' = exit_trap s ->
  builtin_ok stk d infun sv s ((st, Cont), s') (done ex sv (set_status st s')).
Proof.
  intros He A B. split; [exact (abs_apply_errexit stk ex sv _ He)|].
  split; [apply res_ok_errexit | split; assumption].
Qed.

(* common/report.rs: a special built-in that fails interrupts the script, any
   other one just returns its status *)
Lemma builtin_error stk d infun ex sv s spf st :
  ex = has_cond stk ->
  builtin_ok stk d infun sv s ((st, error_divert spf), s) (utility_error spf st ex sv s).
Proof.
  intros He. destruct spf; [|apply builtin_done; auto].
  split; [reflexivity|]. split; [split; intros; discriminate | split; reflexivity].
Qed.

(* break.rs / continue.rs resolve their operand against the lexical depth *)
Lemma builtin_break_eq b spf stk d infun ex args :
  ctx_ok stk d infun ex -> wf_call d infun NBreak args = true ->
  builtin_break b spf (FBuiltin :: stk) args =
  match loop_operand args with
  | None => (2%N, error_divert spf)
  | Some k => match Nat.min k d with
              | O => (1%N, error_divert spf)
              | S c => (0%N, Brk (if b then DBreak c else DContinue c))
              end
  end.
Proof.
  intros Hc Hw. unfold builtin_break. change (parse_count args) with (loop_operand args).
  destruct (loop_operand args) as [k|] eqn:Ek; [|reflexivity].
  rewrite (loop_count_builtin stk d infun ex k Hc); [reflexivity|].
  intros E. cbn in Hw. rewrite E, Ek in Hw. apply Nat.leb_le, Hw.
Qed.

Lemma break_sim (b : bool) spf stk d infun ex sv args s :
  ctx_ok stk d infun ex -> wf_call d infun NBreak args = true ->
  builtin_ok stk d infun sv s (builtin_break b spf (FBuiltin :: stk) args, s)
    (run_utility (if b then NBreak else NContinue) spf d ex sv args s).
Proof.
  intros Hc Hw. pose proof (co_ex _ _ _ _ Hc) as Hex.
  rewrite (builtin_break_eq b spf stk d infun ex args Hc Hw).
  destruct b; cbn [run_utility].
  all: destruct (loop_operand args) as [k|]; [destruct (Nat.min k d) as [|j] eqn:Emin|];
    try apply builtin_error, Hex.
  (* a divert of [j] more levels, where [S j <= d] *)
  - split; [reflexivity|]. split; [apply (res_ok_levels _ _ _ true); lia | split; reflexivity].
  - split; [reflexivity|]. split; [apply (res_ok_levels _ _ _ false); lia | split; reflexivity].
Qed.

Lemma return_sim (b : bool) spf stk d infun ex sv args s :
  ex = has_cond stk -> (b = true -> infun = true) ->
  builtin_ok stk d infun sv s (builtin_return b spf s args, s)
    (run_utility (if b then NReturn else NExit) spf d ex sv args s).
Proof.
  intros Hex Hb. unfold builtin_return.
  destruct args as [|a [|a' args]]; [| |destruct b; apply builtin_error, Hex].
  (* no operand: the status stays; one operand: it becomes the status *)
  all: unfold builtin_ok; rewrite ?set_status_same; destruct b; [rewrite (Hb eq_refl)|].
  all: split; [reflexivity|]; split; [split; intros; discriminate | split; reflexivity].
Qed.

Lemma builtin_sim nm spf stk d infun ex sv args s :
  ctx_ok stk d infun ex -> wf_call d infun nm args = true ->
  builtin_ok stk d infun sv s (run_builtin nm spf (FBuiltin :: stk) args s)
    (run_utility nm spf d ex sv args s).
Proof.
  intros Hc Hw. pose proof (co_ex _ _ _ _ Hc) as Hex.
  (* most built-ins just complete; so does a name that is none, with 127 *)
  destruct nm; cbn [run_builtin]; try (apply builtin_done; auto).
  - exact (break_sim true _ _ _ _ _ _ _ _ Hc Hw).
  - exact (break_sim false _ _ _ _ _ _ _ _ Hc Hw).
  - exact (return_sim true _ _ _ _ _ _ _ _ Hex (fun _ => Hw)).
  - apply (return_sim false); [exact Hex | discriminate].
  - (* . of a missing file *) apply builtin_error, Hex.
  - (* wait *) cbn [run_utility]. destruct (job_wait args s) as [stw sw] eqn:Ew.
    apply builtin_done; [exact Hex | ..]; unfold job_wait in Ew;
      (destruct (match args with [_] => last_async s | _ => None end) as [id|];
        [destruct (lookup_job id (jobs s))|]); inversion Ew; reflexivity.
Qed.

(* what the while command keeps of the result of Loop::execute *)
Definition loop_result (x : flow * state * N) : res :=
  match x with
  | (Cont, s, reg) => (Cont, set_status reg s)
  | (Brk dv, s, _) => (Brk dv, s)
  end.

Definition while_run (k : nat) (stk : list frame) (cond : clist) (e : bool) (body : clist)
    (s : state) (reg : N) : option res :=
  option_map loop_result (loop_execute k stk cond e body s reg).

Lemma exec_while_eq n stk u cond body s :
  exec_cmd (S n) stk (CWhile u cond body) s = while_run n (FLoop :: stk) cond (negb u) body s 0.
Proof.
  cbn [exec_cmd]. unfold while_run.
  destruct (loop_execute n _ cond _ body s 0) as [[[[|dv] s1] reg]|]; reflexivity.
Qed.

Lemma while_run_eq k stk cond e body s reg :
  while_run (S k) stk cond e body s reg =
  match loop_iterate k stk cond e body s reg with
  | None => None
  | Some (Cont, s1, reg1) => Some (Cont, set_status reg1 s1)
  | Some (Brk dv, s1, reg1) =>
      match flow_react (Brk dv) with
      | None => while_run k stk cond e body s1 reg1
      | Some r' => Some (r', s1)
      end
  end.
Proof.
  unfold while_run. cbn [loop_execute].
  destruct (loop_iterate k stk cond e body s reg) as [[[[|[[|c]|[|c]|o|o|o|o]] s1] reg1]|];
    cbn [option_map loop_result flow_react]; rewrite ?set_status_same; reflexivity.
Qed.

Lemma exec_for_eq n stk x v vs body s :
  exec_for (S n) stk x (v :: vs) body s =
  if is_ronly x s then Some (handle_expansion_error stk s, s)
  else match exec_list n stk body (set_var x (Some v) s) with
       | None => None
       | Some (r, s1) =>
           match flow_react r with
           | None => exec_for n stk x vs body s1
           | Some r' => Some (r', s1)
           end
       end.
Proof.
  cbn [exec_for]. destruct (is_ronly x s); [reflexivity|].
  destruct (exec_list n stk body _) as [[[|[[|c]|[|c]|o|o|o|o]] s1]|]; reflexivity.
Qed.

(* Sequencing, the shape of lists, and-or lists, negated pipelines, if / elif, case
   clauses and script lines in both interpreters: run the first part; go on from
   its state if it completed, hand its result up otherwise. *)
Definition bind_cont (x : option res) (f : state -> option res) : option res :=
  match x with
  | None => None
  | Some (Brk dv, s1) => Some (Brk dv, s1)
  | Some (Cont, s1) => f s1
  end.

Definition bind_normal (y : option sres) (g : state -> option sres) : option sres :=
  match y with
  | None => None
  | Some (Normal, s1) => g s1
  | Some other => Some other
  end.

(* [abs] reads [Cont] as [Normal] and a divert as another completion, so the two
   sequencings correspond *)
Lemma ok_bind sv (F1 : nat -> option sres) (F2 : state -> nat -> option sres) r1 s1 out :
  ok F1 (abs sv r1 s1) ->
  match r1 with Cont => ok (F2 s1) out | Brk _ => out = abs sv r1 s1 end ->
  ok (fun k => bind_normal (F1 k) (fun t => F2 t k)) out.
Proof.
  intros H1 H2. destruct r1 as [|dv].
  - cbn [abs] in H1. ok_start. ok_rw. cbn [bind_normal]. ok_rw. reflexivity.
  - subst out. pose proof (abs_not_normal sv dv s1) as Hne.
    destruct (abs sv (Brk dv) s1) as [c t]. ok_start. ok_rw.
    destruct c; [destruct (Hne eq_refl)|..]; reflexivity.
Qed.

(* the part of [sem_pipeline] below the negation *)
Definition pipeline_commands (k : nat) (d : nat) (ex : bool) (sv : option N) (cs : cmds) (s : state)
  : option sres :=
  match cs with
  | CNil => Some (Normal, set_status 0 s)
  | CCons c CNil => sem_cmd k d ex sv c s
  | _ => match sem_multi k ex cs s s with
         | None => None
         | Some s1 => Some (done ex sv s1)
         end
  end.

(* the part of [sem_cmd (CIf ..)] after a failed condition *)
Definition if_else (k : nat) (d : nat) (ex : bool) (sv : option N) (e : eliflist)
    (has_else : bool) (els : clist) (s : state) : option sres :=
  match e with
  | ENil => if has_else then sem_list k d ex sv els s else Some (Normal, set_status 0 s)
  | ECons c b e' => sem_cmd k d ex sv (CIf c b e' has_else els) s
  end.

Definition tree_P (k d : nat) (sv : option N) : bool -> pipeline -> state -> option sres :=
  fun ex' p s' => sem_pipeline k d ex' sv p s'.

(* One operand more: [x] is the value of the operands so far, [last] says
   whether [p] is the last operand of the whole list. *)
Definition tree_operand (P : bool -> pipeline -> state -> option sres) (ex last : bool)
    (is_and : bool) (p : pipeline) (x : option sres) : option sres :=
  match x with
  | Some (Normal, s1) =>
      if Bool.eqb (negb (N.eqb (status s1) 0)) is_and then Some (Normal, s1)
      else P (ex || negb last) p s1
  | other => other
  end.

(* [sem_tree] of the left-nested tree, as the loop over the flat list that
   and_or.rs runs: [x] is the value of the operands before [rs] *)
Fixpoint tree_rest (P : bool -> pipeline -> state -> option sres) (ex : bool) (rs : aorest)
    (x : option sres) : option sres :=
  match rs with
  | RNil => x
  | RCons is_and p rs' =>
      tree_rest P ex rs'
        (tree_operand P ex (match rs' with RNil => true | _ => false end) is_and p x)
  end.

Lemma sem_tree_rest P ex s0 : forall rs t, rs <> RNil ->
  sem_tree P ex (aotree_of t rs) true s0 = tree_rest P ex rs (sem_tree P ex t false s0).
Proof.
  induction rs as [|op p rs IH]; intros t Hn; [congruence|].
  cbn [aotree_of tree_rest]. destruct rs as [|op' p' rs'].
  - cbn [aotree_of tree_rest sem_tree tree_operand].
    destruct (sem_tree P ex t false s0) as [[[] ?]|]; reflexivity.
  - rewrite IH by discriminate. cbn [sem_tree tree_operand].
    destruct (sem_tree P ex t false s0) as [[[] ?]|]; reflexivity.
Qed.

(* a completion other than Normal, or running out of fuel, passes every operand *)
Lemma tree_rest_bind P ex x rs :
  tree_rest P ex rs x = bind_normal x (fun t => tree_rest P ex rs (Some (Normal, t))).
Proof.
  destruct x as [[[] t]|]; try reflexivity;
    (induction rs as [|op p rs IH]; [reflexivity | exact IH]).
Qed.

Lemma tree_operand_normal P ex last op p s1 :
  tree_operand P ex last op p (Some (Normal, s1)) =
  if Bool.eqb (N.eqb (status s1) 0) op then P (ex || negb last) p s1 else Some (Normal, s1).
Proof. cbn [tree_operand]. destruct (N.eqb (status s1) 0), op; reflexivity. Qed.

(* and_or.rs's loop on the side of the specification: the last operand runs in
   the context of the list, the others with -e ignored *)
Lemma tree_rest_last k d ex sv op p s1 :
  tree_rest (tree_P k d sv) ex (RCons op p RNil) (Some (Normal, s1)) =
  if Bool.eqb (N.eqb (status s1) 0) op then sem_pipeline k d ex sv p s1 else Some (Normal, s1).
Proof. cbn [tree_rest]. rewrite tree_operand_normal. cbn [negb]. rewrite orb_false_r. reflexivity. Qed.

Lemma tree_rest_cons k d ex sv op p rs s1 : rs <> RNil ->
  tree_rest (tree_P k d sv) ex (RCons op p rs) (Some (Normal, s1)) =
  bind_normal (if Bool.eqb (N.eqb (status s1) 0) op then sem_pipeline k d true sv p s1
               else Some (Normal, s1))
              (fun t => tree_rest (tree_P k d sv) ex rs (Some (Normal, t))).
Proof.
  intros Hn.
  replace (tree_rest (tree_P k d sv) ex (RCons op p rs) (Some (Normal, s1)))
    with (tree_rest (tree_P k d sv) ex rs (tree_operand (tree_P k d sv) ex false op p (Some (Normal, s1))))
    by (destruct rs; [congruence | reflexivity]).
  rewrite tree_rest_bind, tree_operand_normal. cbn [negb]. rewrite orb_true_r. reflexivity.
Qed.

Lemma sem_andor_single k d ex sv p s :
  sem_andor (S k) d ex sv (AndOr p RNil) s = sem_pipeline k d ex sv p s.
Proof. cbn [sem_andor andor_tree aotree_of sem_tree negb]. rewrite orb_false_r. reflexivity. Qed.

Lemma sem_andor_eq k d ex sv first rest s : rest <> RNil ->
  sem_andor (S k) d ex sv (AndOr first rest) s
  = bind_normal (sem_pipeline k d true sv first s)
                (fun t => tree_rest (tree_P k d sv) ex rest (Some (Normal, t))).
Proof.
  intros Hn. cbn [sem_andor andor_tree]. fold (tree_P k d sv).
  rewrite sem_tree_rest, tree_rest_bind by exact Hn. cbn [sem_tree negb]. rewrite orb_true_r. reflexivity.
Qed.

Lemma sem_pipeline_eq k d ex sv neg cs s :
  sem_pipeline (S k) d ex sv (Pipe neg cs) s =
  bind_normal (pipeline_commands k d (ex || neg) sv cs s)
    (fun s1 => Some (Normal, if neg then set_status (if fails s1 then 0%N else 1%N) s1 else s1)).
Proof. reflexivity. Qed.

Lemma sem_pipeline_plain k d ex sv cs s :
  sem_pipeline (S k) d ex sv (Pipe false cs) s = pipeline_commands k d ex sv cs s.
Proof.
  rewrite sem_pipeline_eq, orb_false_r. destruct (pipeline_commands k d ex sv cs s) as [[[] ?]|]; reflexivity.
Qed.

Lemma sem_if_eq k d ex sv cond body e has_else els s :
  sem_cmd (S k) d ex sv (CIf cond body e has_else els) s =
  bind_normal (sem_list k d true sv cond s)
    (fun s1 => if fails s1 then if_else k d ex sv e has_else els s1 else sem_list k d ex sv body s1).
Proof. reflexivity. Qed.

(* Command::execute for `if` is the first round of the loop over the elif clauses *)
Lemma exec_if_eq k stk cond body e has_else els s :
  exec_cmd k stk (CIf cond body e has_else els) s = exec_elifs k stk (ECons cond body e) has_else els s.
Proof. destruct k; reflexivity. Qed.

Lemma apply_errexit_zero stk s : status s = 0%N -> apply_errexit stk s = Cont.
Proof. intros E. unfold apply_errexit. rewrite E. reflexivity. Qed.

Lemma classify_resolve nm s :
  classify nm s =
  match resolve nm s with
  | RSpecial => TBuiltin true
  | RFunction body => TFunction body
  | RRegular => TBuiltin false
  | RNotFound => TExternal
  end.
Proof.
  unfold classify, resolve.
  destruct (is_special nm), (lookup_fun nm (funs s)), (is_regular_builtin nm); reflexivity.
Qed.

Lemma classify_fun nm s body :
  classify nm s = TFunction body -> lookup_fun nm (funs s) = Some body.
Proof.
  unfold classify. destruct (is_special nm); [discriminate|].
  destruct (lookup_fun nm (funs s)); [congruence|]. destruct (is_regular_builtin nm); discriminate.
Qed.

(* The model's result [x] and the specification's results [y] (one for every
   saved status) of the same command correspond, and the model's result
   satisfies the invariants. *)
Definition agree (infun : bool) (d : nat) (x : option res) (y : option N -> option sres) : Prop :=
  exists r s', x = Some (r, s') /\ (forall sv, y sv = Some (abs sv r s'))
               /\ state_ok s' /\ res_ok infun d r.

(* a command on which both interpreters answer without calling themselves *)
Definition leaf (stk : list frame) (d : nat) (infun ex : bool) (c : cmd) (s : state) : Prop :=
  agree infun d (exec_cmd 1 stk c s) (fun sv => sem_cmd 1 d ex sv c s).

Lemma agree_done infun d stk ex s1 :
  ex = has_cond stk -> state_ok s1 ->
  agree infun d (Some (apply_errexit stk s1, s1)) (fun sv => Some (done ex sv s1)).
Proof.
  intros He Hs. exists (apply_errexit stk s1), s1. split; [reflexivity|].
  split; [|split; [exact Hs | apply res_ok_errexit]].
  intros sv. rewrite (abs_apply_errexit stk ex) by exact He. reflexivity.
Qed.

Lemma agree_cont infun d s1 :
  state_ok s1 -> agree infun d (Some (Cont, s1)) (fun _ => Some (Normal, s1)).
Proof.
  intros Hs. exists Cont, s1.
  split; [reflexivity|]. split; [reflexivity|]. split; [exact Hs | apply res_ok_cont].
Qed.

Lemma agree_error infun d stk ex s1 k :
  error_exits k = true -> error_status k 0 = 2%N -> state_ok s1 ->
  agree infun d (Some (handle_expansion_error stk s1, s1))
        (fun sv => Some (shell_error k 0 ex sv s1)).
Proof.
  intros E1 E2 Hs. exists (handle_expansion_error stk s1), s1. split; [reflexivity|].
  split; [|split; [exact Hs | apply res_ok_expansion]].
  intros sv. rewrite (abs_expansion_error stk sv s1 k E1 E2 ex). reflexivity.
Qed.

Lemma agree_builtin infun d stk ex nm spf args s st dv sb :
  ctx_ok stk d infun ex -> wf_call d infun nm args = true -> state_ok s ->
  run_builtin nm spf (FBuiltin :: stk) args s = ((st, dv), sb) ->
  agree infun d
    (Some (match dv with Cont => apply_errexit stk (set_status st sb) | _ => dv end,
           set_status st sb))
    (fun sv => Some (run_utility nm spf d ex sv args s)).
Proof.
  intros Hc Hw Hs Eb.
  pose proof (fun sv => builtin_sim nm spf stk d infun ex sv args s Hc Hw) as B.
  rewrite Eb in B. eexists; eexists. split; [reflexivity|].
  split; [intros sv; rewrite <- (proj1 (B sv)); reflexivity|].
  destruct (B None) as (_ & Hr & A1 & A2).
  split; [exact (state_ok_same s _ Hs A1 A2) | exact Hr].
Qed.

Lemma wf_call_of_cmd d infun dc nm args :
  wf_cmd d infun (CCall dc nm args) = true -> bad_redir dc = false ->
  wf_call d infun nm args = true.
Proof.
  intros H E. cbn [wf_cmd] in H. rewrite E in H. unfold wf_call.
  destruct nm; try reflexivity; rewrite ?andb_true_r, ?orb_false_r in H; exact H.
Qed.

Lemma call_leaf stk d infun ex dc nm args s :
  ctx_ok stk d infun ex -> wf_cmd d infun (CCall dc nm args) = true -> state_ok s ->
  (via_command dc = false -> bad_redir dc = false -> forall b, classify nm s <> TFunction b) ->
  leaf stk d infun ex (CCall dc nm args) s.
Proof.
  intros Hc Hw Hs Hnf. pose proof (co_ex _ _ _ _ Hc) as Hex.
  pose proof (wf_call_of_cmd _ _ _ _ _ Hw) as Hwc.
  assert (Hst : forall st, state_ok (set_status st s))
    by (intros st; apply state_ok_set_status, Hs).
  unfold leaf. cbn [exec_cmd sem_cmd].
  destruct (via_command dc) eqn:Evia; destruct (bad_redir dc) eqn:Ebad.
  - apply (agree_done _ _ stk); auto.
  - unfold classify_via_command.
    destruct (is_special nm) eqn:Esp; [|destruct (is_regular_builtin nm) eqn:Ereg]; cbn [orb].
    + destruct (run_builtin nm false _ args s) as [[st dv] sb] eqn:Eb.
      destruct dv; exact (agree_builtin _ _ (FBuiltin :: stk) _ _ _ _ _ _ _ _ (ctx_builtin _ _ _ _ Hc) (Hwc eq_refl) Hs Eb).
    + destruct (run_builtin nm false _ args s) as [[st dv] sb] eqn:Eb.
      destruct dv; exact (agree_builtin _ _ (FBuiltin :: stk) _ _ _ _ _ _ _ _ (ctx_builtin _ _ _ _ Hc) (Hwc eq_refl) Hs Eb).
    + apply (agree_done _ _ stk); auto.
  - rewrite (classify_resolve nm s). unfold execute_builtin.
    destruct (resolve nm s); try (apply (agree_done _ _ stk); auto).
    exists (Brk (DInterrupt None)), (set_status 2 s).
    split; [reflexivity|]. split; [reflexivity|]. split; [apply Hst | split; intros; congruence].
  - rewrite (classify_resolve nm s). unfold execute_builtin.
    destruct (resolve nm s) as [|b| |] eqn:Er.
    + destruct (run_builtin nm true _ args s) as [[st dv] sb] eqn:Eb.
      destruct dv; exact (agree_builtin _ _ _ _ _ _ _ _ _ _ _ Hc (Hwc eq_refl) Hs Eb).
    + exfalso. apply (Hnf eq_refl eq_refl b). rewrite classify_resolve, Er. reflexivity.
    + destruct (run_builtin nm false _ args s) as [[st dv] sb] eqn:Eb.
      destruct dv; exact (agree_builtin _ _ _ _ _ _ _ _ _ _ _ Hc (Hwc eq_refl) Hs Eb).
    + apply (agree_done _ _ stk); auto.
Qed.

(* the commands, and the situations, in which no command is run *)
Lemma cmd_leaf stk d infun ex c s :
  ctx_ok stk d infun ex -> wf_cmd d infun c = true -> state_ok s ->
  match c with
  | CAssign _ _ | CReadonly _ | CFunDef _ _ | CTrapExit _ | CRedirFail _ => True
  | CPrefixCall x w _ _ => expand_word w s = None \/ is_ronly x s = true
  | CFor _ ws _ => expand_words ws s = None \/ expand_words ws s = Some []
  | CCase w _ => expand_word w s = None
  | _ => False
  end -> leaf stk d infun ex c s.
Proof.
  intros Hc Hw Hs Hl. pose proof (co_ex _ _ _ _ Hc) as Hex.
  destruct c; try contradiction; unfold leaf; cbn [exec_cmd sem_cmd].
  - destruct (expand_word w s); [destruct (is_ronly x s)|].
    + apply agree_error; auto.
    + rewrite apply_errexit_zero by reflexivity. apply agree_cont, (state_ok_same s _ Hs); reflexivity.
    + apply agree_error; auto.
  - rewrite apply_errexit_zero by reflexivity. apply agree_cont, (state_ok_same s _ Hs); reflexivity.
  - destruct Hl as [E|E].
    + rewrite E. apply agree_error; auto.
    + destruct (expand_word w s); rewrite ?E; apply agree_error; auto.
  - cbn [wf_cmd] in Hw. apply andb_true_iff in Hw as [Hne _].
    destruct Hl as [E|E]; rewrite E; [apply agree_error; auto|].
    rewrite Hne. apply agree_cont, (state_ok_same s _ Hs); reflexivity.
  - rewrite Hl. apply agree_error; auto.
  - rewrite apply_errexit_zero by reflexivity. apply agree_cont.
    apply (state_ok_same _ _ (state_ok_define_fun nm c s Hw Hs)); reflexivity.
  - rewrite apply_errexit_zero by reflexivity. apply agree_cont.
    apply (state_ok_same _ _ (state_ok_set_trap action s Hw Hs)); reflexivity.
  - apply (agree_done _ _ stk); [exact Hex|]. apply (state_ok_same s _ Hs); reflexivity.
Qed.

(* the commands that run one subshell and end without running anything else *)
Definition sub_body (c : cmd) : option clist :=
  match c with
  | CAssignSub _ b | CSubstArg b | CSubshell b => Some b
  | CAsync a => Some (LCons a LNil)
  | _ => None
  end.

Lemma wf_sub_body d infun c body :
  sub_body c = Some body -> wf_cmd d infun c = true -> wf_list 0 infun body = true.
Proof.
  destruct c; intros E Hw; inversion E; subst body; cbn [wf_cmd wf_list] in *;
    try apply andb_true_iff in Hw as [_ Hw]; rewrite ?Hw; reflexivity.
Qed.

(* both interpreters run the subshell and then finish by [X] / [Y], which agree
   whatever state [ch] the subshell ended in *)
Lemma sub_cmd stk d infun ex c s body :
  sub_body c = Some body -> ex = has_cond stk -> state_ok s ->
  exists (X : state -> option res) (Y : option N -> state -> option sres),
    (forall n, exec_cmd (S n) stk c s =
               match run_subshell n stk body s with None => None | Some ch => X ch end) /\
    (forall k sv, sem_cmd (S k) d ex sv c s =
                  match sem_subshell k ex body s with None => None | Some ch => Y sv ch end) /\
    forall ch, agree infun d (X ch) (fun sv => Y sv ch).
Proof.
  intros Eb He Hs.
  (* [X] and [Y] are read off the two interpreters *)
  destruct c; inversion Eb; subst body;
    (eexists (fun ch => _), (fun sv ch => _);
     split; [intros n; cbn [exec_cmd]; reflexivity|];
     split; [intros k sv; cbn [sem_cmd]; reflexivity|]; intros ch).
  - (* x=$(body) *)
    destruct (is_ronly x s); [apply agree_error | apply (agree_done _ _ stk)]; auto;
      apply (state_ok_same s _ Hs); reflexivity.
  - (* : $(body) *)
    cbv zeta. rewrite apply_errexit_zero by reflexivity. apply agree_cont, (state_ok_same s _ Hs); reflexivity.
  - (* { a & } *) apply agree_cont, (state_ok_same s _ Hs); reflexivity.
  - (* ( body ) *) apply (agree_done _ _ stk); [exact He|]. apply (state_ok_same s _ Hs); reflexivity.
Qed.

(* trap.rs run_trap and the apply_result that follows it: the state in which the
   EXIT trap leaves the shell; [saved] is `$?` from before the action *)
Definition trap_end (saved : N) (x : res) : state :=
  let '(r, s1) := x in
  apply_result r match r with
                 | Brk (DInterrupt (Some v)) => set_status v s1
                 | Brk (DInterrupt None) => s1
                 | _ => set_status saved s1
                 end.

Lemma run_exit_trap_eq n stk s :
  run_exit_trap (S n) stk s =
  match exit_trap s with
  | None => Some s
  | Some action => option_map (trap_end (status s)) (exec_list n (FTrap :: stk) action s)
  end.
Proof.
  cbn [run_exit_trap]. destruct (exit_trap s) as [action|]; [|reflexivity].
  destruct (exec_list n (FTrap :: stk) action s) as [[[|[c|c|o|[v|]|o|o]] s1]|]; reflexivity.
Qed.

(* the action's own exit keeps the status it chose; any other end restores `$?` *)
Lemma abs_trap saved r s1 :
  (forall o, r <> Brk (DReturn o)) -> (forall o, r <> Brk (DAbort o)) ->
  trap_end saved (r, s1) = match abs (Some saved) r s1 with
                           | (Exiting, t) => t
                           | (_, t) => set_status saved t
                           end.
Proof.
  intros R A. destruct r as [|[c|c|o|[v|]|[v|]|o]]; try reflexivity;
    [destruct (R o eq_refl) | destruct (A o eq_refl)].
Qed.

(* function.rs: what the caller makes of the result of the body *)
Definition call_end (stk : list frame) (x : res) : res :=
  let '(r, s) := x in
  match r with
  | Brk (DReturn o) =>
      let s1 := match o with Some st => set_status st s | None => s end in
      (apply_errexit stk s1, s1)
  | Brk dv => (Brk dv, s)
  | Cont => (apply_errexit stk s, s)
  end.

Lemma exec_call_fun n stk dc nm args s body :
  via_command dc = false -> bad_redir dc = false -> classify nm s = TFunction body ->
  exec_cmd (S n) stk (CCall dc nm args) s = option_map (call_end stk) (exec_cmd n stk body s).
Proof.
  intros E1 E2 E3. cbn [exec_cmd]. rewrite E1, E2, E3.
  destruct (exec_cmd n stk body s) as [[[|[c|c|[v|]|o|o|o]] sb]|]; reflexivity.
Qed.

Lemma sem_call_fun n d ex sv dc nm args s body :
  via_command dc = false -> bad_redir dc = false -> classify nm s = TFunction body ->
  sem_cmd (S n) d ex sv (CCall dc nm args) s =
  match sem_cmd n 0 ex sv body s with
  | None => None
  | Some (Normal, s1) | Some (Returning, s1) => Some (done ex sv s1)
  | Some other => Some other
  end.
Proof.
  intros E1 E2 E3. cbn [sem_cmd]. rewrite E1, E2.
  rewrite classify_resolve in E3. destruct (resolve nm s); inversion E3; reflexivity.
Qed.

Lemma abs_call_end stk ex sv rb sb r s' :
  ex = has_cond stk -> call_end stk (rb, sb) = (r, s') ->
  abs sv r s' = match abs sv rb sb with
                | (Normal, s1) | (Returning, s1) => done ex sv s1
                | other => other
                end.
Proof.
  intros He E. destruct rb as [|[c|c|[v|]|[v|]|[v|]|[v|]]]; inversion E; subst r s';
    cbn [abs]; try reflexivity; apply abs_apply_errexit; exact He.
Qed.

Lemma res_ok_call_end infun d stk rb sb r s' :
  res_ok true 0 rb -> call_end stk (rb, sb) = (r, s') -> res_ok infun d r.
Proof.
  intros [A B C D] E.
  destruct rb as [|[c|c|o|o|o|o]]; inversion E; subst r s'; try apply res_ok_errexit;
    split; intros; try congruence.
  - specialize (D c eq_refl). lia.
  - specialize (C c eq_refl). lia.
Qed.

Lemma state_ok_call_end stk rb sb r s' :
  state_ok sb -> call_end stk (rb, sb) = (r, s') -> state_ok s'.
Proof.
  intros H E. destruct rb as [|[c|c|[v|]|o|o|o]]; inversion E; subst r s'; try exact H.
  apply state_ok_set_status, H.
Qed.

Lemma wf_prefix_call d infun x w nm args :
  wf_cmd d infun (CPrefixCall x w nm args) = wf_cmd d infun (CCall plain nm args).
Proof. cbn. destruct nm; try reflexivity; rewrite ?andb_true_r, ?orb_false_r; reflexivity. Qed.

Lemma abs_restore sv r x old s :
  abs sv r (restore_var x old s) = (fst (abs sv r s), restore_var x old (snd (abs sv r s))).
Proof. destruct r as [|[c|c|[v|]|[v|]|[v|]|[v|]]]; try reflexivity. destruct sv; reflexivity. Qed.

(* case.rs's loop over the items, on the side of the specification: the clause
   that falling through ([ft]) or the subject selects, or the end of the items *)
Definition pick (ft : bool) (subject : option N) (items : itemlist) :=
  if ft then next_clause items else find_clause subject items.

Definition case_items (k d : nat) (ex : bool) (sv : option N) (subject : option N)
    (items : itemlist) (ft upd : bool) (s : state) : option sres :=
  match pick ft subject items with
  | None => Some (Normal, if upd then s else set_status 0 s)
  | Some (b, kc, rest) => sem_clause k d ex sv subject b kc rest s
  end.

Lemma case_items_cons k d ex sv subject pats body kc items ft upd s :
  case_items k d ex sv subject (ICons pats body kc items) ft upd s =
  if ft || existsb (match_pat subject) pats then sem_clause k d ex sv subject body kc items s
  else case_items k d ex sv subject items false upd s.
Proof.
  unfold case_items, pick. destruct ft; [reflexivity|]. cbn [find_clause orb].
  destruct (existsb (match_pat subject) pats); reflexivity.
Qed.

Lemma sem_clause_eq k d ex sv subject body kc rest s :
  sem_clause (S k) d ex sv subject body kc rest s =
  bind_normal (sem_list k d ex sv body s)
    (fun s1 => match kc with
               | KBreak => Some (Normal, clause_status body s1)
               | KFall => case_items k d ex sv subject rest true (negb (clist_is_empty body)) s1
               | KCont => case_items k d ex sv subject rest false (negb (clist_is_empty body)) s1
               end).
Proof.
  cbn [sem_clause]. destruct (sem_list k d ex sv body s) as [[[] s1]|]; try reflexivity.
  unfold case_items, pick, clause_status.
  destruct kc; [reflexivity | destruct (next_clause rest) as [[[b' k'] r']|]
                            | destruct (find_clause subject rest) as [[[b' k'] r']|]];
    try reflexivity; destruct (clist_is_empty body); reflexivity.
Qed.

Lemma sem_case_eq k d ex sv w items s :
  sem_cmd (S k) d ex sv (CCase w items) s =
  match expand_word w s with
  | None => Some (shell_error ErrExpansion 0 ex sv s)
  | Some fields => case_items k d ex sv (hd_error fields) items false false s
  end.
Proof.
  cbn [sem_cmd]. destruct (expand_word w s) as [fields|]; [|reflexivity].
  unfold case_items, pick. destruct (find_clause (hd_error fields) items) as [[[b kc] rest]|]; reflexivity.
Qed.

(* The claims, one per function of the model: a run with result [(r, s')]
   from a good state, in a stack that realises the lexical context, leaves a
   good state, a result within the lexical bounds, and is matched by the
   specification for every saved status [sv]. *)
Definition post (infun : bool) (d : nat) (r : flow) (s' : state)
    (f : option N -> nat -> option sres) : Prop :=
  state_ok s' /\ res_ok infun d r /\ forall sv, ok (f sv) (abs sv r s').

Ltac post_split := split; [| split].

Lemma post_cont infun d s1 : state_ok s1 -> post infun d Cont s1 (fun _ _ => Some (Normal, s1)).
Proof.
  intros Hs. post_split; [exact Hs | apply res_ok_cont |]. intros sv. exists 0. reflexivity.
Qed.

(* [g] is [f] written differently, or [f] one call further down *)
Lemma post_ext {infun d r s'} {f g : option N -> nat -> option sres} :
  (forall sv k, g sv k = f sv k) -> post infun d r s' f -> post infun d r s' g.
Proof.
  intros E (A & B & C). post_split; [exact A | exact B |].
  intros sv. apply (ok_ext (f sv)); [|exact (C sv)]. intros k <-. apply E.
Qed.

Lemma post_S {infun d r s'} {f g : option N -> nat -> option sres} :
  (forall sv k, g sv (S k) = f sv k) -> post infun d r s' f -> post infun d r s' g.
Proof.
  intros E (A & B & C). post_split; [exact A | exact B |]. intros sv. exact (ok_S _ _ _ (E sv) (C sv)).
Qed.

Lemma post_bind {infun d x f r s'} {F1 : option N -> nat -> option sres}
    {F2 : state -> option N -> nat -> option sres} :
  bind_cont x f = Some (r, s') ->
  (forall r1 s1, x = Some (r1, s1) -> post infun d r1 s1 F1) ->
  (forall s1, state_ok s1 -> f s1 = Some (r, s') -> post infun d r s' (F2 s1)) ->
  post infun d r s' (fun sv k => bind_normal (F1 sv k) (fun t => F2 t sv k)).
Proof.
  intros H I1 I2. destruct x as [[r1 s1]|]; [|discriminate].
  destruct (I1 r1 s1 eq_refl) as (Hs1 & Hr1 & Hok1). destruct r1 as [|dv]; cbn [bind_cont] in H.
  - destruct (I2 s1 Hs1 H) as (Hs2 & Hr2 & Hok2). post_split; [exact Hs2 | exact Hr2 |].
    intros sv. exact (ok_bind sv _ _ Cont s1 _ (Hok1 sv) (Hok2 sv)).
  - inversion H; subst r s'. post_split; [exact Hs1 | exact Hr1 |].
    intros sv. exact (ok_bind sv _ _ (Brk dv) s1 _ (Hok1 sv) eq_refl).
Qed.

(* after a part that yields only a state (a subshell, the subshells of a
   pipeline): an end on which the two interpreters agree *)
Lemma post_sub_end {A} infun d (F : nat -> option A) child x (Y : option N -> A -> option sres) r s' :
  ok F child -> agree infun d x (fun sv => Y sv child) -> x = Some (r, s') ->
  post infun d r s' (fun sv k => match F k with None => None | Some c => Y sv c end).
Proof.
  intros Hok (r0 & s0 & E & Ey & Hs0 & Hr0) Ex. rewrite Ex in E. inversion E; subst r0 s0.
  post_split; [exact Hs0 | exact Hr0 |]. intros sv. ok_start. ok_rw. apply Ey.
Qed.

(* the common shape: [exec], on a syntactic class with well-formedness [wf], is
   matched by [sem]; [n] is the model's fuel *)
Definition simulates {X} (exec : nat -> list frame -> X -> state -> option res)
    (wf : nat -> bool -> X -> bool)
    (sem : nat -> nat -> bool -> option N -> X -> state -> option sres) (n : nat) : Prop :=
  forall stk x s r s' d infun ex,
    exec n stk x s = Some (r, s') -> ctx_ok stk d infun ex ->
    wf d infun x = true -> state_ok s ->
    post infun d r s' (fun sv k => sem k d ex sv x s).

Definition sim_cmd := simulates exec_cmd wf_cmd sem_cmd.
Definition sim_list := simulates exec_list wf_list sem_list.
Definition sim_andor := simulates exec_andor wf_andor sem_andor.
Definition sim_pipeline := simulates exec_pipeline wf_pipeline sem_pipeline.
Definition sim_commands :=
  simulates exec_commands (fun d infun cs => wf_pipeline d infun (Pipe false cs)) pipeline_commands.

Definition sim_rest (n : nat) : Prop := forall stk rs s1 r s' d infun ex,
  exec_rest n stk rs s1 = Some (r, s') -> rs <> RNil -> ctx_ok stk d infun ex ->
  wf_rest d infun rs = true -> state_ok s1 ->
  post infun d r s' (fun sv k => tree_rest (tree_P k d sv) ex rs (Some (Normal, s1))).

Definition sim_multi (n : nat) : Prop := forall stk cs s0 acc acc' infun ex,
  exec_multi n stk cs s0 acc = Some acc' -> ex = has_cond stk ->
  wf_cmds infun cs = true -> state_ok s0 ->
  ok (fun k => sem_multi k ex cs s0 acc) acc'.

Definition sim_subshell (n : nat) : Prop := forall stk body s c' infun ex,
  run_subshell n stk body s = Some c' -> ex = has_cond stk ->
  wf_list 0 infun body = true -> state_ok s ->
  ok (fun k => sem_subshell k ex body s) c'.

Definition sim_trap (n : nat) : Prop := forall stk s s' ex,
  run_exit_trap n stk s = Some s' -> ex = has_cond stk -> state_ok s ->
  ok (fun k => sem_exit_trap k ex s) s'.

Definition sim_elifs (n : nat) : Prop := forall stk e has_else els s r s' d infun ex,
  exec_elifs n stk e has_else els s = Some (r, s') -> ctx_ok stk d infun ex ->
  wf_elifs d infun e = true -> wf_list d infun els = true -> state_ok s ->
  post infun d r s' (fun sv k => if_else k d ex sv e has_else els s).

Definition ok_loop d ex sv u cond body (last : N) (s : state) (res : sres) : Prop :=
  ok (fun k => sem_loop k d ex sv u cond body last s) res.

(* One run of Loop::iterate makes as many rounds as end with [Cont] and hands
   the register back, so it is no single call of [sem_loop].  [sim_iter] is
   therefore in continuation form: [after_iter] says what [sem_loop] has to
   yield from the point where the run ended with [r] ([W]: go on with the
   loop from there), and then [sem_loop] yields the same from the start. *)
Definition after_iter (sv : option N) (W : N -> state -> sres -> Prop)
    (r : flow) (s1 : state) (reg1 : N) (out : sres) : Prop :=
  match r, flow_react r with
  | Cont, _ => out = (Normal, set_status reg1 s1)
  | _, Some r' => out = abs sv r' s1
  | _, None => W reg1 s1 out
  end.

Definition sim_iter (n : nat) : Prop := forall stk cond u body s reg r s1 reg1 d infun ex,
  loop_iterate n stk cond (negb u) body s reg = Some (r, s1, reg1) ->
  ctx_ok stk (S d) infun ex ->
  wf_list (S d) infun cond = true -> wf_list (S d) infun body = true ->
  state_ok s ->
  state_ok s1 /\ res_ok infun (S d) r /\
  forall sv out, after_iter sv (ok_loop d ex sv u cond body) r s1 reg1 out ->
                 ok_loop d ex sv u cond body reg s out.

Definition sim_while (n : nat) : Prop := forall stk cond u body s reg r s' d infun ex,
  while_run n stk cond (negb u) body s reg = Some (r, s') ->
  ctx_ok stk (S d) infun ex ->
  wf_list (S d) infun cond = true -> wf_list (S d) infun body = true ->
  state_ok s ->
  post infun d r s' (fun sv k => sem_loop k d ex sv u cond body reg s).

Definition sim_for (n : nat) : Prop := forall stk x values body s r s' d infun ex,
  exec_for n stk x values body s = Some (r, s') -> ctx_ok stk (S d) infun ex ->
  wf_list (S d) infun body = true -> state_ok s ->
  post infun d r s' (fun sv k => sem_for k d ex sv x values body s).

Definition sim_items (n : nat) : Prop := forall stk subject items ft upd s r s' d infun ex,
  exec_items n stk subject items ft upd s = Some (r, s') -> ctx_ok stk d infun ex ->
  wf_items d infun items = true -> state_ok s ->
  post infun d r s' (fun sv k => case_items k d ex sv subject items ft upd s).

Record sim_all (n : nat) : Prop := {
  sa_cmd : sim_cmd n; sa_list : sim_list n; sa_andor : sim_andor n; sa_rest : sim_rest n;
  sa_pipeline : sim_pipeline n; sa_commands : sim_commands n; sa_multi : sim_multi n;
  sa_subshell : sim_subshell n; sa_trap : sim_trap n; sa_elifs : sim_elifs n;
  sa_iter : sim_iter n; sa_while : sim_while n; sa_for : sim_for n; sa_items : sim_items n
}.

Lemma step_list n : sim_andor n -> sim_list n -> sim_list (S n).
Proof.
  intros Iandor Ilist stk l s r s' d infun ex H Hc Hw Hs.
  (* [sem_list (S k)] and [exec_list (S n)] unfold to the same sequencing *)
  apply (post_S (fun sv k => eq_refl)). destruct l as [|a l'].
  - inversion H; subst r s'. apply post_cont, Hs.
  - cbn [wf_list] in Hw. apply andb_true_iff in Hw as [Hwa Hwl].
    apply (post_bind H).
    + intros r1 s1 E. exact (Iandor _ _ _ _ _ _ _ _ E Hc Hwa Hs).
    + intros s1 Hs1 E. exact (Ilist _ _ _ _ _ _ _ _ E Hc Hwl Hs1).
Qed.

Lemma step_rest n : sim_pipeline n -> sim_rest n -> sim_rest (S n).
Proof.
  intros Ipipe Irest stk rs s1 r s' d infun ex H Hn Hc Hw Hs.
  destruct rs as [|op p rs']; [congruence|].
  cbn [wf_rest] in Hw. apply andb_true_iff in Hw as [Hwp Hwr].
  destruct rs' as [|op' p' rs'']; cbn [exec_rest] in H.
  - apply (post_ext (fun sv k => tree_rest_last k d ex sv op p s1)).
    destruct (Bool.eqb (N.eqb (status s1) 0) op).
    + exact (Ipipe _ _ _ _ _ _ _ _ H Hc Hwp Hs).
    + inversion H; subst r s'. apply post_cont, Hs.
  - remember (RCons op' p' rs'') as rs' eqn:Ers.
    assert (Hn' : rs' <> RNil) by (subst rs'; discriminate).
    apply (post_ext (fun sv k => tree_rest_cons k d ex sv op p rs' s1 Hn')), (post_bind H).
    + (* [p] runs under the Condition frame, or is skipped *)
      intros r1 s2 E. destruct (Bool.eqb (N.eqb (status s1) 0) op).
      * exact (Ipipe _ _ _ _ _ _ _ _ E (ctx_cond _ _ _ _ Hc) Hwp Hs).
      * inversion E; subst r1 s2. apply post_cont, Hs.
    + intros s2 Hs2 E. exact (Irest _ _ _ _ _ _ _ _ E Hn' Hc Hwr Hs2).
Qed.

Lemma step_andor n : sim_pipeline n -> sim_rest n -> sim_andor (S n).
Proof.
  intros Ipipe Irest stk a s r s' d infun ex H Hc Hw Hs.
  cbn [exec_andor] in H. destruct a as [first rest].
  cbn [wf_andor] in Hw. apply andb_true_iff in Hw as [Hwf Hwr].
  destruct rest as [|op p rest'].
  - apply (post_S (fun sv k => sem_andor_single k d ex sv first s)).
    exact (Ipipe _ _ _ _ _ _ _ _ H Hc Hwf Hs).
  - remember (RCons op p rest') as rest eqn:Er.
    assert (Hn : rest <> RNil) by (subst rest; discriminate).
    apply (post_S (fun sv k => sem_andor_eq k d ex sv first rest s Hn)), (post_bind H).
    + intros r1 s1 E. exact (Ipipe _ _ _ _ _ _ _ _ E (ctx_cond _ _ _ _ Hc) Hwf Hs).
    + intros s1 Hs1 E. exact (Irest _ _ _ _ _ _ _ _ E Hn Hc Hwr Hs1).
Qed.

Lemma step_pipeline n : sim_commands n -> sim_pipeline (S n).
Proof.
  intros Icmds stk p s r s' d infun ex H Hc Hw Hs.
  cbn [exec_pipeline] in H. destruct p as [neg cs].
  assert (Hw' : wf_pipeline d infun (Pipe false cs) = true) by exact Hw.
  destruct neg.
  - apply (post_S (fun sv k => sem_pipeline_eq k d ex sv true cs s)), (post_bind H).
    + intros r1 s1 E. rewrite orb_true_r.
      exact (Icmds _ _ _ _ _ _ _ _ E (ctx_cond _ _ _ _ Hc) Hw' Hs).
    + intros s1 Hs1 E. inversion E; subst r s'. unfold fails.
      destruct (N.eqb (status s1) 0); apply post_cont, state_ok_set_status, Hs1.
  - apply (post_S (fun sv k => sem_pipeline_plain k d ex sv cs s)).
    exact (Icmds _ _ _ _ _ _ _ _ H Hc Hw' Hs).
Qed.

Lemma multi_same m : forall stk cs s0 acc acc',
  exec_multi m stk cs s0 acc = Some acc' ->
  funs acc = funs s0 /\ exit_trap acc = exit_trap s0 ->
  funs acc' = funs s0 /\ exit_trap acc' = exit_trap s0.
Proof.
  induction m as [|m IHm]; intros stk cs s0 acc acc' E Hsame; [discriminate|].
  cbn [exec_multi] in E. destruct cs as [|c0 cs']; [inversion E; subst; exact Hsame|].
  destruct (exec_cmd m _ c0 _) as [[r0 c1]|]; [|discriminate].
  destruct (run_exit_trap m _ _) as [c2|]; [|discriminate].
  eapply IHm; [exact E|]. repeat split; reflexivity.
Qed.

Lemma step_commands n : sim_cmd n -> sim_multi n -> sim_commands (S n).
Proof.
  intros Icmd Imulti stk cs s r s' d infun ex H Hc Hw Hs.
  cbn [exec_commands] in H. destruct cs as [|c [|c2 cs2]].
  - inversion H; subst r s'. apply post_cont, state_ok_set_status, Hs.
  - exact (Icmd _ _ _ _ _ _ _ _ H Hc Hw Hs).
  - remember (CCons c (CCons c2 cs2)) as cs eqn:Ecs.
    destruct (exec_multi n stk cs s s) as [s1|] eqn:Em; [|discriminate].
    assert (Hwm : wf_cmds infun cs = true) by (subst cs; exact Hw).
    pose proof (Imulti _ _ _ _ _ infun ex Em (co_ex _ _ _ _ Hc) Hwm Hs) as Hok.
    assert (Hs1 : state_ok s1).
    { destruct (multi_same _ _ _ _ _ _ Em) as (A & B); [split; reflexivity|].
      exact (state_ok_same s s1 Hs A B). }
    refine (post_ext _ (post_sub_end _ _ _ _ _ (fun sv t => Some (done ex sv t)) _ _ Hok
                          (agree_done infun d stk ex s1 (co_ex _ _ _ _ Hc) Hs1) H)).
    intros sv k. rewrite Ecs. reflexivity.
Qed.

Lemma step_multi n : sim_cmd n -> sim_trap n -> sim_multi n -> sim_multi (S n).
Proof.
  intros Icmd Itrap Imulti stk cs s0 acc acc' infun ex H He Hw Hs.
  cbn [exec_multi] in H. destruct cs as [|c cs'].
  - inversion H; subst acc'. ok_now. reflexivity.
  - cbn [wf_cmds] in Hw. apply andb_true_iff in Hw as [Hwc Hwr].
    destruct (exec_cmd n (FSubshell :: stk) c (child_state (set_trace (trace acc) s0)))
      as [[r c1]|] eqn:Ec; [|discriminate].
    destruct (run_exit_trap n (FSubshell :: stk) (apply_result r c1)) as [c2|] eqn:Et; [|discriminate].
    pose proof (ctx_child stk ex infun He) as Hctx.
    assert (Hs0 : state_ok (child_state (set_trace (trace acc) s0))).
    { apply state_ok_child, (state_ok_same s0 _ Hs); reflexivity. }
    destruct (Icmd _ _ _ _ _ _ _ _ Ec Hctx Hwc Hs0) as (Hs1 & Hr1 & Hok1).
    specialize (Hok1 None).
    pose proof (Itrap _ _ _ ex Et He (state_ok_apply_result r _ Hs1)) as Hok2.
    pose proof (Imulti _ _ _ _ _ infun ex H He Hwr Hs) as Hok3.
    rewrite <- abs_none_apply_result in Hok2.
    destruct (abs None r c1) as [cc c1'] eqn:Eabs. cbn [snd] in Hok2.
    ok_start. cbn [sem_multi]. ok_rw. reflexivity.
Qed.

Lemma step_trap n : sim_list n -> sim_trap (S n).
Proof.
  intros Ilist stk s s' ex H He Hs.
  rewrite run_exit_trap_eq in H. destruct (exit_trap s) as [action|] eqn:Etrap.
  - destruct (exec_list n (FTrap :: stk) action s) as [[r s1]|] eqn:El; [|discriminate].
    assert (E : s' = trap_end (status s) (r, s1)) by (cbn [option_map] in H; congruence).
    destruct (Ilist _ _ _ _ _ _ _ _ El (ctx_trap stk ex false He) (so_trap _ Hs _ Etrap) Hs)
      as (_ & [R1 R3 _ _] & Hok1).
    rewrite E, (abs_trap _ _ _ (R1 eq_refl) R3). specialize (Hok1 (Some (status s))).
    destruct (abs (Some (status s)) r s1) as [c t].
    ok_start. cbn [sem_exit_trap]. rewrite Etrap. ok_rw. destruct c; reflexivity.
  - inversion H; subst s'. ok_now. cbn [sem_exit_trap]. rewrite Etrap. reflexivity.
Qed.

Lemma step_subshell n : sim_list n -> sim_trap n -> sim_subshell (S n).
Proof.
  intros Ilist Itrap stk body s c' infun ex H He Hw Hs.
  cbn [run_subshell] in H.
  destruct (exec_list n (FSubshell :: stk) body (child_state s)) as [[r c1]|] eqn:El; [|discriminate].
  pose proof (ctx_child stk ex infun He) as Hctx.
  destruct (Ilist _ _ _ _ _ _ _ _ El Hctx Hw (state_ok_child _ Hs)) as (Hs1 & Hr1 & Hok1).
  specialize (Hok1 None).
  pose proof (Itrap _ _ _ ex H He (state_ok_apply_result r _ Hs1)) as Hok2.
  rewrite <- abs_none_apply_result in Hok2.
  destruct (abs None r c1) as [cc c1'] eqn:Eabs. cbn [snd] in Hok2.
  ok_start. cbn [sem_subshell]. ok_rw. reflexivity.
Qed.

Lemma step_elifs n : sim_list n -> sim_elifs n -> sim_elifs (S n).
Proof.
  intros Ilist Ielifs stk e has_else els s r s' d infun ex H Hc Hwe Hwl Hs.
  cbn [exec_elifs] in H. destruct e as [|cond body e'].
  - destruct has_else.
    + exact (Ilist _ _ _ _ _ _ _ _ H Hc Hwl Hs).
    + inversion H; subst r s'. apply post_cont, state_ok_set_status, Hs.
  - cbn [wf_elifs] in Hwe. apply andb_true_iff in Hwe as [Hwe Hwe'].
    apply andb_true_iff in Hwe as [Hwc Hwb].
    apply (post_S (fun sv k => sem_if_eq k d ex sv cond body e' has_else els s)), (post_bind H).
    + intros r1 s1 E. exact (Ilist _ _ _ _ _ _ _ _ E (ctx_cond _ _ _ _ Hc) Hwc Hs).
    + intros s1 Hs1 E. unfold fails. destruct (N.eqb (status s1) 0).
      * exact (Ilist _ _ _ _ _ _ _ _ E Hc Hwb Hs1).
      * exact (Ielifs _ _ _ _ _ _ _ _ _ _ E Hc Hwe' Hwl Hs1).
Qed.

Section SemLoop.
Variables (d : nat) (ex : bool) (sv : option N) (u : bool) (cond body : clist).

Lemma sem_loop_cond_stop last s rc sc r' :
  ok (fun k => sem_list k (S d) true sv cond s) (abs sv rc sc) -> flow_react rc = Some r' ->
  ok_loop d ex sv u cond body last s (abs sv r' sc).
Proof.
  intros Hc Er. destruct (abs sv rc sc) as [c t] eqn:Ea.
  pose proof (abs_react _ _ _ _ _ Ea) as R. rewrite Er in R. destruct R as (c' & R & ->).
  unfold ok_loop. ok_start. cbn [sem_loop]. ok_rw. rewrite R. reflexivity.
Qed.

Lemma sem_loop_cond_next last s sc out :
  ok (fun k => sem_list k (S d) true sv cond s) (Continuing 1, sc) ->
  ok_loop d ex sv u cond body last sc out -> ok_loop d ex sv u cond body last s out.
Proof.
  intros Hc Hn. unfold ok_loop in *. ok_start. cbn [sem_loop]. ok_rw. cbn [loop_react]. ok_rw.
  reflexivity.
Qed.

Lemma sem_loop_done last s sc :
  ok (fun k => sem_list k (S d) true sv cond s) (Normal, sc) -> Bool.eqb (fails sc) u = false ->
  ok_loop d ex sv u cond body last s (Normal, set_status last sc).
Proof.
  intros Hc Ht. unfold ok_loop. ok_start. cbn [sem_loop]. ok_rw. cbn [loop_react]. rewrite Ht.
  reflexivity.
Qed.

Lemma sem_loop_body_stop last s sc rb sb r' :
  ok (fun k => sem_list k (S d) true sv cond s) (Normal, sc) -> Bool.eqb (fails sc) u = true ->
  ok (fun k => sem_list k (S d) ex sv body sc) (abs sv rb sb) -> flow_react rb = Some r' ->
  ok_loop d ex sv u cond body last s (abs sv r' sb).
Proof.
  intros Hc Ht Hb Er. destruct (abs sv rb sb) as [c t] eqn:Ea.
  pose proof (abs_react _ _ _ _ _ Ea) as R. rewrite Er in R. destruct R as (c' & R & ->).
  unfold ok_loop. ok_start. cbn [sem_loop]. ok_rw. cbn [loop_react]. rewrite Ht. ok_rw. rewrite R.
  reflexivity.
Qed.

Lemma sem_loop_body_next last s sc rb sb out :
  ok (fun k => sem_list k (S d) true sv cond s) (Normal, sc) -> Bool.eqb (fails sc) u = true ->
  ok (fun k => sem_list k (S d) ex sv body sc) (abs sv rb sb) -> flow_react rb = None ->
  ok_loop d ex sv u cond body (status sb) sb out -> ok_loop d ex sv u cond body last s out.
Proof.
  intros Hc Ht Hb Er Hn. destruct (abs sv rb sb) as [c t] eqn:Ea.
  pose proof (abs_react _ _ _ _ _ Ea) as R. rewrite Er in R. destruct R as [R ->].
  unfold ok_loop in *. ok_start. cbn [sem_loop]. ok_rw. cbn [loop_react]. rewrite Ht. ok_rw.
  rewrite R. ok_rw. reflexivity.
Qed.
End SemLoop.

Lemma step_iter n : sim_list n -> sim_iter n -> sim_iter (S n).
Proof.
  intros Ilist Iiter stk cond u body s reg r s1 reg1 d infun ex H Hc Hwc Hwb Hs.
  cbn [loop_iterate] in H.
  destruct (exec_list n (FCondition :: stk) cond s) as [[rc sc]|] eqn:Ec; [|discriminate].
  destruct (Ilist _ _ _ _ _ _ _ _ Ec (ctx_cond _ _ _ _ Hc) Hwc Hs) as (Hs1 & Hr1 & Hok1).
  destruct rc as [|dv].
  - cbn [abs] in Hok1. rewrite eqb_negb2 in H. fold (fails sc) in H.
    destruct (Bool.eqb (fails sc) u) eqn:Et.
    + destruct (exec_list n stk body sc) as [[rb sb]|] eqn:Eb; [|discriminate].
      destruct (Ilist _ _ _ _ _ _ _ _ Eb Hc Hwb Hs1) as (Hs2 & Hr2 & Hok2).
      destruct rb as [|dvb].
      * destruct (Iiter _ _ _ _ _ _ _ _ _ _ _ _ H Hc Hwc Hwb Hs2) as (Hs3 & Hr3 & Hok3).
        post_split; [exact Hs3 | exact Hr3 |]. intros sv out Hout.
        exact (sem_loop_body_next _ _ _ _ _ _ _ _ _ Cont _ _ (Hok1 sv) Et (Hok2 sv) eq_refl
                 (Hok3 sv out Hout)).
      * inversion H; subst r s1 reg1. post_split; [exact Hs2 | exact Hr2 |]. intros sv out.
        unfold after_iter. destruct (flow_react (Brk dvb)) as [r'|] eqn:Er.
        -- intros ->. exact (sem_loop_body_stop _ _ _ _ _ _ _ _ _ _ _ _ (Hok1 sv) Et (Hok2 sv) Er).
        -- pose proof (flow_react_next _ Er) as ->.
           exact (sem_loop_body_next _ _ _ _ _ _ _ _ _ _ _ _ (Hok1 sv) Et (Hok2 sv) Er).
    + inversion H; subst r s1 reg1. post_split; [exact Hs1 | apply res_ok_cont |].
      intros sv out ->. exact (sem_loop_done _ _ _ _ _ _ _ _ _ (Hok1 sv) Et).
  - inversion H; subst r s1 reg1. post_split; [exact Hs1 | exact Hr1 |]. intros sv out.
    unfold after_iter. destruct (flow_react (Brk dv)) as [r'|] eqn:Er.
    + intros ->. exact (sem_loop_cond_stop _ _ _ _ _ _ _ _ _ _ _ (Hok1 sv) Er).
    + pose proof (flow_react_next _ Er) as ->.
      exact (sem_loop_cond_next _ _ _ _ _ _ _ _ _ _ (Hok1 sv)).
Qed.

Lemma step_while n : sim_iter n -> sim_while n -> sim_while (S n).
Proof.
  intros Iiter Iwhile stk cond u body s reg r s' d infun ex H Hc Hwc Hwb Hs.
  rewrite while_run_eq in H.
  destruct (loop_iterate n stk cond (negb u) body s reg) as [[[ri si] regi]|] eqn:Ei; [|discriminate].
  destruct (Iiter _ _ _ _ _ _ _ _ _ _ _ _ Ei Hc Hwc Hwb Hs) as (Hs1 & Hr1 & Hok1).
  unfold after_iter in Hok1. destruct ri as [|dv].
  - inversion H; subst r s'.
    post_split; [apply state_ok_set_status, Hs1 | apply res_ok_cont |].
    intros sv. apply Hok1. reflexivity.
  - destruct (flow_react (Brk dv)) as [r'|] eqn:Er.
    + inversion H; subst r s'. post_split; [exact Hs1 | exact (res_ok_react _ _ _ _ Hr1 Er) |].
      intros sv. apply Hok1. reflexivity.
    + destruct (Iwhile _ _ _ _ _ _ _ _ _ _ _ H Hc Hwc Hwb Hs1) as (Hs2 & Hr2 & Hok2).
      post_split; [exact Hs2 | exact Hr2 |]. intros sv. apply Hok1. exact (Hok2 sv).
Qed.

Lemma step_for n : sim_list n -> sim_for n -> sim_for (S n).
Proof.
  intros Ilist Ifor stk x values body s r s' d infun ex H Hc Hw Hs.
  destruct values as [|v values'].
  - inversion H; subst r s'. post_split; [exact Hs | apply res_ok_cont |].
    intros sv. ok_now. reflexivity.
  - rewrite exec_for_eq in H. destruct (is_ronly x s) eqn:Ero.
    + inversion H; subst r s'.
      post_split; [exact Hs | apply res_ok_expansion |]. intros sv.
      rewrite (abs_expansion_error stk sv s ErrAssignment eq_refl eq_refl ex).
      ok_now. cbn [sem_for]. rewrite Ero. reflexivity.
    + destruct (exec_list n stk body (set_var x (Some v) s)) as [[rb sb]|] eqn:Eb; [|discriminate].
      pose proof (state_ok_set_var x (Some v) s Hs) as Hsv.
      destruct (Ilist _ _ _ _ _ _ _ _ Eb Hc Hw Hsv) as (Hs2 & Hr2 & Hok2).
      destruct (flow_react rb) as [r'|] eqn:Er.
      * inversion H; subst r s'.
        post_split; [exact Hs2 | exact (res_ok_react _ _ _ _ Hr2 Er) |].
        intros sv. specialize (Hok2 sv). destruct (abs sv rb sb) as [c t] eqn:Ea.
        pose proof (abs_react _ _ _ _ _ Ea) as R. rewrite Er in R. destruct R as (c' & R & ->).
        ok_start. cbn [sem_for]. rewrite Ero. ok_rw. rewrite R. reflexivity.
      * destruct (Ifor _ _ _ _ _ _ _ _ _ _ H Hc Hw Hs2) as (Hs3 & Hr3 & Hok3).
        post_split; [exact Hs3 | exact Hr3 |].
        intros sv. specialize (Hok2 sv). specialize (Hok3 sv).
        destruct (abs sv rb sb) as [c t] eqn:Ea.
        pose proof (abs_react _ _ _ _ _ Ea) as R. rewrite Er in R. destruct R as [R ->].
        ok_start. cbn [sem_for]. rewrite Ero. ok_rw. rewrite R. ok_rw. reflexivity.
Qed.

Lemma step_items n : sim_list n -> sim_items n -> sim_items (S n).
Proof.
  intros Ilist Iitems stk subject items ft upd s r s' d infun ex H Hc Hw Hs.
  cbn [exec_items] in H. destruct items as [|pats body kc items'].
  - inversion H; subst r s'. destruct ft; apply post_cont; destruct upd;
      try apply state_ok_set_status; exact Hs.
  - cbn [wf_items] in Hw. apply andb_true_iff in Hw as [Hwb Hwi].
    apply (post_ext (fun sv k => case_items_cons k d ex sv subject pats body kc items' ft upd s)).
    destruct (ft || existsb (match_pat subject) pats).
    + apply (post_S (fun sv k => sem_clause_eq k d ex sv subject body kc items' s)), (post_bind H).
      * intros r1 s1 E. exact (Ilist _ _ _ _ _ _ _ _ E Hc Hwb Hs).
      * intros s1 Hs1 E. destruct kc; try exact (Iitems _ _ _ _ _ _ _ _ _ _ _ E Hc Hwi Hs1).
        inversion E; subst r s'. unfold clause_status.
        destruct (clist_is_empty body); apply post_cont; try apply state_ok_set_status; exact Hs1.
    + exact (Iitems _ _ _ _ _ _ _ _ _ _ _ H Hc Hwi Hs).
Qed.

(* on a leaf, fuel 1 decides both runs; more fuel changes nothing *)
Lemma sim_of_leaf n stk d infun ex c s r s' :
  leaf stk d infun ex c s -> exec_cmd n stk c s = Some (r, s') ->
  post infun d r s' (fun sv k => sem_cmd k d ex sv c s).
Proof.
  intros (r0 & s0 & E1 & E2 & Hs0 & Hr0) H. destruct n as [|n]; [discriminate|].
  rewrite (exec_cmd_mono 1 (S n) _ _ _ _ ltac:(lia) E1) in H. inversion H; subst r0 s0.
  post_split; [exact Hs0 | exact Hr0 |].
  intros sv. exists 1. intros k Hk. exact (sem_cmd_mono 1 k _ _ _ _ _ _ Hk (E2 sv)).
Qed.

Lemma step_call n : sim_cmd n -> forall stk dc nm args s r s' d infun ex,
  exec_cmd (S n) stk (CCall dc nm args) s = Some (r, s') -> ctx_ok stk d infun ex ->
  wf_cmd d infun (CCall dc nm args) = true -> state_ok s ->
  post infun d r s' (fun sv k => sem_cmd k d ex sv (CCall dc nm args) s).
Proof.
  intros Icmd stk dc nm args s r s' d infun ex H Hc Hw Hs.
  destruct (via_command dc) eqn:Evia; [|destruct (bad_redir dc) eqn:Ebad;
    [|destruct (classify nm s) as [sp|body|] eqn:Ecl]];
    try (apply (sim_of_leaf _ _ _ _ _ _ _ _ _ (call_leaf _ _ _ _ _ _ _ _ Hc Hw Hs ltac:(congruence)) H)).
  (* what is left is the call of a function: the only call that runs a command *)
  rewrite (exec_call_fun _ _ _ _ _ _ _ Evia Ebad Ecl) in H.
  destruct (exec_cmd n stk body s) as [[rb sb]|] eqn:Eb; [|discriminate].
  assert (E : call_end stk (rb, sb) = (r, s')) by (inversion H; reflexivity).
  destruct (Icmd _ _ _ _ _ _ _ _ Eb (ctx_fun _ _ _ _ Hc) (so_funs _ Hs _ _ (classify_fun _ _ _ Ecl)) Hs)
    as (Hs1 & Hr1 & Hok1).
  post_split; [exact (state_ok_call_end _ _ _ _ _ Hs1 E) | exact (res_ok_call_end _ _ _ _ _ _ _ Hr1 E) |].
  intros sv. rewrite (abs_call_end _ _ sv _ _ _ _ (co_ex _ _ _ _ Hc) E). specialize (Hok1 sv).
  ok_start. rewrite (sem_call_fun _ _ _ _ _ _ _ _ _ Evia Ebad Ecl). ok_rw.
  destruct (abs sv rb sb) as [[] ?]; reflexivity.
Qed.

Lemma step_cmd n : sim_all n -> sim_cmd (S n).
Proof.
  intros [Icmd Ilist Iandor Irest Ipipe Icmds Imulti Isub Itrap Ielifs Iiter Iwhile Ifor Iitems].
  intros stk c s r s' d infun ex H Hc Hw Hs.
  pose proof (co_ex _ _ _ _ Hc) as Hex.
  destruct (sub_body c) as [body|] eqn:Esb.
  { destruct (sub_cmd stk d infun ex c s body Esb Hex Hs) as (X & Y & E1 & E2 & Ha).
    pose proof (wf_sub_body _ _ _ _ Esb Hw) as Hwb.
    rewrite E1 in H. destruct (run_subshell n stk body s) as [ch|] eqn:Esub; [|discriminate].
    exact (post_S (fun sv k => E2 k sv)
             (post_sub_end _ _ _ _ _ _ _ _ (Isub _ _ _ _ infun ex Esub Hex Hwb Hs) (Ha ch) H)). }
  destruct c; try discriminate Esb;
    try (apply (sim_of_leaf _ _ _ _ _ _ _ _ _ (cmd_leaf _ _ _ _ _ _ Hc Hw Hs I) H)).
  - (* x=w NAME ARGS *)
    destruct (expand_word w s) as [fields|] eqn:Ew; [destruct (is_ronly x s) eqn:Ero|];
      try (apply (sim_of_leaf _ _ _ _ _ _ _ _ _ (cmd_leaf _ _ _ _ _ _ Hc Hw Hs ltac:(cbn; auto)) H)).
    cbn [exec_cmd] in H. rewrite Ew, Ero in H. rewrite wf_prefix_call in Hw.
    destruct (exec_cmd n stk (CCall plain nm args) (set_var x (hd_error fields) s))
      as [[r1 s1]|] eqn:Ecall; [|discriminate].
    inversion H; subst r s'.
    pose proof (state_ok_set_var x (hd_error fields) s Hs) as Hs0.
    destruct (Icmd _ _ _ _ _ _ _ _ Ecall Hc Hw Hs0) as (Hs1 & Hr1 & Hok1).
    post_split; [destruct (is_special nm); [exact Hs1 | apply (state_ok_same s1 _ Hs1); reflexivity]
                | exact Hr1 |].
    intros sv. specialize (Hok1 sv).
    destruct (abs sv r1 s1) as [c1 t1] eqn:Eabs.
    assert (Hgoal : abs sv r1 (if is_special nm then s1 else restore_var x s s1)
                    = (c1, if is_special nm then t1 else restore_var x s t1)).
    { destruct (is_special nm); [exact Eabs|]. rewrite abs_restore, Eabs. reflexivity. }
    rewrite Hgoal. ok_start. cbn [sem_cmd]. rewrite Ew, Ero. ok_rw. reflexivity.
  - (* call *) exact (step_call n Icmd _ _ _ _ _ _ _ _ _ _ H Hc Hw Hs).
  - (* brace group *)
    exact (post_S (fun sv k => eq_refl) (Ilist _ _ _ _ _ _ _ _ H Hc Hw Hs)).
  - (* if *)
    rewrite exec_if_eq in H. cbn [wf_cmd] in Hw.
    apply andb_true_iff in Hw as [Hw Hwl]. apply andb_true_iff in Hw as [Hw Hwe].
    apply (step_elifs n Ilist Ielifs stk (ECons cond body elifs) _ _ _ _ _ _ _ _ H Hc); auto.
    cbn [wf_elifs]. rewrite Hw, Hwe. reflexivity.
  - (* while / until *)
    rewrite exec_while_eq in H. cbn [wf_cmd] in Hw. apply andb_true_iff in Hw as [Hwc Hwb].
    exact (post_S (fun sv k => eq_refl) (Iwhile _ _ _ _ _ _ _ _ _ _ _ H (ctx_loop _ _ _ _ Hc) Hwc Hwb Hs)).
  - (* for *)
    destruct (expand_words ws s) as [[|v values']|] eqn:Ew;
      try (apply (sim_of_leaf _ _ _ _ _ _ _ _ _ (cmd_leaf _ _ _ _ _ _ Hc Hw Hs ltac:(cbn; auto)) H)).
    cbn [exec_cmd] in H. rewrite Ew in H. cbn [wf_cmd] in Hw. apply andb_true_iff in Hw as [_ Hwb].
    refine (post_S _ (Ifor _ _ _ _ _ _ _ _ _ _ H (ctx_loop _ _ _ _ Hc) Hwb Hs)).
    intros sv k. cbn [sem_cmd]. rewrite Ew. reflexivity.
  - (* case *)
    destruct (expand_word w s) as [fields|] eqn:Ew;
      [|apply (sim_of_leaf _ _ _ _ _ _ _ _ _ (cmd_leaf _ _ _ _ _ _ Hc Hw Hs Ew) H)].
    cbn [exec_cmd] in H. rewrite Ew in H. cbn [wf_cmd] in Hw.
    refine (post_S _ (Iitems _ _ _ _ _ _ _ _ _ _ _ H Hc Hw Hs)).
    intros sv k. rewrite sem_case_eq, Ew. reflexivity.
Qed.

Theorem sim_holds : forall n, sim_all n.
Proof.
  induction n as [|n IH].
  - split; repeat intro; discriminate.
  - pose proof IH as [Icmd Ilist Iandor Irest Ipipe Icmds Imulti Isub Itrap Ielifs Iiter Iwhile Ifor Iitems].
    split.
    + apply step_cmd; exact IH.
    + apply step_list; assumption.
    + apply step_andor; assumption.
    + apply step_rest; assumption.
    + apply step_pipeline; assumption.
    + apply step_commands; assumption.
    + apply step_multi; assumption.
    + apply step_subshell; assumption.
    + apply step_trap; assumption.
    + apply step_elifs; assumption.
    + apply step_iter; assumption.
    + apply step_while; assumption.
    + apply step_for; assumption.
    + apply step_items; assumption.
Qed.
