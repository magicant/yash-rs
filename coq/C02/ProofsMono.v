(* C02 — more fuel never changes a result, for the specification interpreter
   [sem_*] (hence for [spec_run]) and for the model [exec_*].  Each family of
   mutually recursive functions is treated as a whole: [sem_le n m] says that
   all of them, run with fuel [n], are below ([le_opt]) themselves run with
   fuel [m]. *)
From Yv Require Import Common.Base C02.Model C02.Spec.

Definition le_opt {A} (a b : option A) : Prop :=
  match a with None => True | Some x => b = Some x end.

Lemma le_opt_refl {A} (a : option A) : le_opt a a.
Proof. destruct a; cbn; auto. Qed.

Lemma le_opt_elim {A} (a b : option A) x : le_opt a b -> a = Some x -> b = Some x.
Proof. intros H E; rewrite E in H; exact H. Qed.

Lemma le_opt_trans {A} (a b c : option A) : le_opt a b -> le_opt b c -> le_opt a c.
Proof. destruct a; cbn; auto. intros ->. cbn. auto. Qed.

Ltac innermost e :=
  lazymatch e with
  | match ?e' with _ => _ end => innermost e'
  | _ => e
  end.

(* One step on a goal [le_opt (match .. with ..) _] whose two sides are the
   same code run with two fuels.  If the innermost scrutinee is a recursive
   call, a hypothesis puts it below its counterpart: either it is [None] and
   nothing is claimed, or both sides go on with the same value.  Any other
   scrutinee is the same on both sides and is split. *)
Ltac le_step :=
  match goal with
  | |- le_opt None _ => exact I
  | |- le_opt ?a ?a => apply le_opt_refl
  | |- le_opt (match ?e with _ => _ end) _ =>
      let i := innermost e in
      first
        [ let H := fresh "H" in
          eassert (H : le_opt i _) by (match goal with J : _ |- _ => apply J end);
          revert H; destruct i; intro H; [cbn [le_opt] in H; rewrite H | exact I]
        | destruct i ]
  end.

Lemma sem_tree_le (P P' : bool -> pipeline -> state -> option (completion * state)) :
  (forall ex p s, le_opt (P ex p s) (P' ex p s)) ->
  forall ex t il s, le_opt (sem_tree P ex t il s) (sem_tree P' ex t il s).
Proof.
  intros HP ex t; induction t as [p | t IH is_and p]; intros il s; cbn [sem_tree].
  - apply HP.
  - specialize (IH false s).
    destruct (sem_tree P ex t false s) as [[c s1]|]; [cbn [le_opt] in IH; rewrite IH | exact I].
    destruct c; try apply le_opt_refl.
    destruct (Bool.eqb _ _); [apply le_opt_refl | apply HP].
Qed.

Record sem_le (n m : nat) : Prop := {
  sl_cmd : forall d ex sv c s, le_opt (sem_cmd n d ex sv c s) (sem_cmd m d ex sv c s);
  sl_subshell : forall ex b s, le_opt (sem_subshell n ex b s) (sem_subshell m ex b s);
  sl_trap : forall ex s, le_opt (sem_exit_trap n ex s) (sem_exit_trap m ex s);
  sl_loop : forall d ex sv u c b l s, le_opt (sem_loop n d ex sv u c b l s) (sem_loop m d ex sv u c b l s);
  sl_for : forall d ex sv x vs b s, le_opt (sem_for n d ex sv x vs b s) (sem_for m d ex sv x vs b s);
  sl_clause : forall d ex sv sj b k rest s, le_opt (sem_clause n d ex sv sj b k rest s) (sem_clause m d ex sv sj b k rest s);
  sl_list : forall d ex sv l s, le_opt (sem_list n d ex sv l s) (sem_list m d ex sv l s);
  sl_andor : forall d ex sv a s, le_opt (sem_andor n d ex sv a s) (sem_andor m d ex sv a s);
  sl_pipeline : forall d ex sv p s, le_opt (sem_pipeline n d ex sv p s) (sem_pipeline m d ex sv p s);
  sl_multi : forall ex cs s0 acc, le_opt (sem_multi n ex cs s0 acc) (sem_multi m ex cs s0 acc)
}.

Lemma sem_le_S n m : sem_le n m -> sem_le (S n) (S m).
Proof.
  intros [Jcmd Jsub Jtrap Jloop Jfor Jclause Jlist Jandor Jpipe Jmulti].
  split; intros;
    cbn [sem_cmd sem_subshell sem_exit_trap sem_loop sem_for sem_clause sem_list sem_andor
         sem_pipeline sem_multi];
    try (apply sem_tree_le; intros; apply Jpipe);   (* [sem_andor], through [sem_tree] *)
    repeat le_step; auto.
Qed.

Lemma sem_le_mono : forall n m, n <= m -> sem_le n m.
Proof.
  induction n as [|n IH]; intros m L.
  - split; intros; exact I.
  - destruct m as [|m]; [lia|]. apply sem_le_S, IH. lia.
Qed.

Lemma sem_cmd_mono n m d ex sv c s r : n <= m -> sem_cmd n d ex sv c s = Some r -> sem_cmd m d ex sv c s = Some r.
Proof. intros L. apply le_opt_elim, (sl_cmd n m), sem_le_mono, L. Qed.

Lemma sem_subshell_mono n m ex b s r : n <= m -> sem_subshell n ex b s = Some r -> sem_subshell m ex b s = Some r.
Proof. intros L. apply le_opt_elim, (sl_subshell n m), sem_le_mono, L. Qed.

Lemma sem_exit_trap_mono n m ex s r : n <= m -> sem_exit_trap n ex s = Some r -> sem_exit_trap m ex s = Some r.
Proof. intros L. apply le_opt_elim, (sl_trap n m), sem_le_mono, L. Qed.

Lemma sem_loop_mono n m d ex sv u c b l s r : n <= m -> sem_loop n d ex sv u c b l s = Some r -> sem_loop m d ex sv u c b l s = Some r.
Proof. intros L. apply le_opt_elim, (sl_loop n m), sem_le_mono, L. Qed.

Lemma sem_for_mono n m d ex sv x vs b s r : n <= m -> sem_for n d ex sv x vs b s = Some r -> sem_for m d ex sv x vs b s = Some r.
Proof. intros L. apply le_opt_elim, (sl_for n m), sem_le_mono, L. Qed.

Lemma sem_clause_mono n m d ex sv sj b k rest s r : n <= m -> sem_clause n d ex sv sj b k rest s = Some r -> sem_clause m d ex sv sj b k rest s = Some r.
Proof. intros L. apply le_opt_elim, (sl_clause n m), sem_le_mono, L. Qed.

Lemma sem_list_mono n m d ex sv l s r : n <= m -> sem_list n d ex sv l s = Some r -> sem_list m d ex sv l s = Some r.
Proof. intros L. apply le_opt_elim, (sl_list n m), sem_le_mono, L. Qed.

Lemma sem_andor_mono n m d ex sv a s r : n <= m -> sem_andor n d ex sv a s = Some r -> sem_andor m d ex sv a s = Some r.
Proof. intros L. apply le_opt_elim, (sl_andor n m), sem_le_mono, L. Qed.

Lemma sem_pipeline_mono n m d ex sv p s r : n <= m -> sem_pipeline n d ex sv p s = Some r -> sem_pipeline m d ex sv p s = Some r.
Proof. intros L. apply le_opt_elim, (sl_pipeline n m), sem_le_mono, L. Qed.

Lemma sem_multi_mono n m ex cs s0 acc r : n <= m -> sem_multi n ex cs s0 acc = Some r -> sem_multi m ex cs s0 acc = Some r.
Proof. intros L. apply le_opt_elim, (sl_multi n m), sem_le_mono, L. Qed.

Lemma sem_lines_mono n m : n <= m -> forall p s r, sem_lines n p s = Some r -> sem_lines m p s = Some r.
Proof.
  intros L. induction p as [|l p IH]; intros s r H; cbn [sem_lines] in *; [exact H|].
  destruct l as [l|]; [|exact H].
  destruct (sem_list n 0 false None l s) as [[c s1]|] eqn:E; [|discriminate].
  rewrite (sem_list_mono n m _ _ _ _ _ _ L E). destruct c; auto.
Qed.

Lemma spec_run_mono n m p o : n <= m -> spec_run n p = Some o -> spec_run m p = Some o.
Proof.
  intros L H. unfold spec_run in *.
  destruct (sem_lines n p init_state) as [[c s1]|] eqn:E; [|discriminate].
  rewrite (sem_lines_mono n m L _ _ _ E).
  destruct (sem_exit_trap n false s1) as [s2|] eqn:Et; [|discriminate].
  rewrite (sem_exit_trap_mono n m _ _ _ L Et). exact H.
Qed.

Record exec_le (n m : nat) : Prop := {
  el_cmd : forall stk c s, le_opt (exec_cmd n stk c s) (exec_cmd m stk c s);
  el_subshell : forall stk b s, le_opt (run_subshell n stk b s) (run_subshell m stk b s);
  el_trap : forall stk s, le_opt (run_exit_trap n stk s) (run_exit_trap m stk s);
  el_elifs : forall stk e he els s, le_opt (exec_elifs n stk e he els s) (exec_elifs m stk e he els s);
  el_iterate : forall stk c ex b s reg, le_opt (loop_iterate n stk c ex b s reg) (loop_iterate m stk c ex b s reg);
  el_execute : forall stk c ex b s reg, le_opt (loop_execute n stk c ex b s reg) (loop_execute m stk c ex b s reg);
  el_for : forall stk x vs b s, le_opt (exec_for n stk x vs b s) (exec_for m stk x vs b s);
  el_items : forall stk sj it ft up s, le_opt (exec_items n stk sj it ft up s) (exec_items m stk sj it ft up s);
  el_list : forall stk l s, le_opt (exec_list n stk l s) (exec_list m stk l s);
  el_andor : forall stk a s, le_opt (exec_andor n stk a s) (exec_andor m stk a s);
  el_rest : forall stk r s, le_opt (exec_rest n stk r s) (exec_rest m stk r s);
  el_pipeline : forall stk p s, le_opt (exec_pipeline n stk p s) (exec_pipeline m stk p s);
  el_commands : forall stk cs s, le_opt (exec_commands n stk cs s) (exec_commands m stk cs s);
  el_multi : forall stk cs s0 acc, le_opt (exec_multi n stk cs s0 acc) (exec_multi m stk cs s0 acc)
}.

Lemma exec_le_S n m : exec_le n m -> exec_le (S n) (S m).
Proof.
  intros [].
  split; intros;
    cbn [exec_cmd run_subshell run_exit_trap exec_elifs loop_iterate loop_execute exec_for
         exec_items exec_list exec_andor exec_rest exec_pipeline exec_commands exec_multi];
    repeat le_step; auto.
Qed.

Lemma exec_le_mono : forall n m, n <= m -> exec_le n m.
Proof.
  induction n as [|n IH]; intros m L.
  - split; intros; exact I.
  - destruct m as [|m]; [lia|]. apply exec_le_S, IH. lia.
Qed.

Lemma exec_cmd_mono n m stk c s res : n <= m -> exec_cmd n stk c s = Some res -> exec_cmd m stk c s = Some res.
Proof. intros L. apply le_opt_elim, (el_cmd n m), exec_le_mono, L. Qed.

Lemma run_subshell_mono n m stk b s res : n <= m -> run_subshell n stk b s = Some res -> run_subshell m stk b s = Some res.
Proof. intros L. apply le_opt_elim, (el_subshell n m), exec_le_mono, L. Qed.

Lemma run_exit_trap_mono n m stk s res : n <= m -> run_exit_trap n stk s = Some res -> run_exit_trap m stk s = Some res.
Proof. intros L. apply le_opt_elim, (el_trap n m), exec_le_mono, L. Qed.

Lemma exec_elifs_mono n m stk e he els s res : n <= m -> exec_elifs n stk e he els s = Some res -> exec_elifs m stk e he els s = Some res.
Proof. intros L. apply le_opt_elim, (el_elifs n m), exec_le_mono, L. Qed.

Lemma loop_iterate_mono n m stk c ex b s reg res : n <= m -> loop_iterate n stk c ex b s reg = Some res -> loop_iterate m stk c ex b s reg = Some res.
Proof. intros L. apply le_opt_elim, (el_iterate n m), exec_le_mono, L. Qed.

Lemma loop_execute_mono n m stk c ex b s reg res : n <= m -> loop_execute n stk c ex b s reg = Some res -> loop_execute m stk c ex b s reg = Some res.
Proof. intros L. apply le_opt_elim, (el_execute n m), exec_le_mono, L. Qed.

Lemma exec_for_mono n m stk x vs b s res : n <= m -> exec_for n stk x vs b s = Some res -> exec_for m stk x vs b s = Some res.
Proof. intros L. apply le_opt_elim, (el_for n m), exec_le_mono, L. Qed.

Lemma exec_items_mono n m stk sj it ft up s res : n <= m -> exec_items n stk sj it ft up s = Some res -> exec_items m stk sj it ft up s = Some res.
Proof. intros L. apply le_opt_elim, (el_items n m), exec_le_mono, L. Qed.

Lemma exec_list_mono n m stk l s res : n <= m -> exec_list n stk l s = Some res -> exec_list m stk l s = Some res.
Proof. intros L. apply le_opt_elim, (el_list n m), exec_le_mono, L. Qed.

Lemma exec_andor_mono n m stk a s res : n <= m -> exec_andor n stk a s = Some res -> exec_andor m stk a s = Some res.
Proof. intros L. apply le_opt_elim, (el_andor n m), exec_le_mono, L. Qed.

Lemma exec_rest_mono n m stk r s res : n <= m -> exec_rest n stk r s = Some res -> exec_rest m stk r s = Some res.
Proof. intros L. apply le_opt_elim, (el_rest n m), exec_le_mono, L. Qed.

Lemma exec_pipeline_mono n m stk p s res : n <= m -> exec_pipeline n stk p s = Some res -> exec_pipeline m stk p s = Some res.
Proof. intros L. apply le_opt_elim, (el_pipeline n m), exec_le_mono, L. Qed.

Lemma exec_commands_mono n m stk cs s res : n <= m -> exec_commands n stk cs s = Some res -> exec_commands m stk cs s = Some res.
Proof. intros L. apply le_opt_elim, (el_commands n m), exec_le_mono, L. Qed.

Lemma exec_multi_mono n m stk cs s0 acc res : n <= m -> exec_multi n stk cs s0 acc = Some res -> exec_multi m stk cs s0 acc = Some res.
Proof. intros L. apply le_opt_elim, (el_multi n m), exec_le_mono, L. Qed.
