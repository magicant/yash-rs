(* C20 — the oracle of Spec.v.  [spells_b] decides the grammar [Spells].
   [rejects_b]: what the parser rejects it finds justified ([skip_options] and
   [good_field_b] follow the parser field by field), and what it finds
   justified is malformed (so an accepted result always agrees with the model
   up to spelling). *)
From Yv Require Import Common.Base C20.Model C20.Spec C20.ProofsNames C20.ProofsFields C20.ProofsMain.

Lemma strs_eqb_eq a b : list_eqb str_eqb a b = true <-> a = b.
Proof. apply list_eqb_spec. apply str_eqb_eq. Qed.

Lemma strs_eqb_refl a : list_eqb str_eqb a a = true.
Proof. apply strs_eqb_eq. reflexivity. Qed.

Lemma optionlike_b_spec f : optionlike_b f = true <-> OptionLike f.
Proof.
  unfold OptionLike. destruct f as [|c0 [|c1 t]]; cbn.
  - split; [discriminate | intros [c [t E]]; discriminate].
  - split; [discriminate | intros [c [t E]]; discriminate].
  - rewrite N.eqb_eq. split; [intros ->; eauto | intros [c [t' E]]; inversion E; reflexivity].
Qed.

Lemma optionlike_b_false f : optionlike_b f = false <-> ~ OptionLike f.
Proof.
  rewrite <- optionlike_b_spec. destruct (optionlike_b f); split; congruence.
Qed.

Lemma shorts_w_first specs m c cs i s oa os next :
  FirstShort specs c i s -> ShortAllowed m s ->
  shorts_w specs m (c :: cs) ((i, oa) :: os) next =
  match oa with
  | None => if sp_arg s then None else shorts_w specs m cs os next
  | Some a =>
      if sp_arg s then
        match cs with
        | [] => match next with
                | Some n => if str_eqb n a then Some (os, true) else None
                | None => None
                end
        | _ :: _ => if m_same m && str_eqb a cs then Some (os, false) else None
        end
      else None
  end.
Proof.
  intros FS Al. cbn [shorts_w]. rewrite (first_short_at _ _ _ _ FS), (first_short_b_intro _ _ _ _ FS).
  apply short_allowed_b_spec in Al. rewrite Al. reflexivity.
Qed.

Lemma long_w_resolved specs m body name oeq i s oa os next :
  split_eq body = (name, oeq) -> Resolves specs name i s -> LongAllowed m s ->
  long_w specs m body ((i, oa) :: os) next =
  match sp_arg s, oeq, oa with
  | false, None, None => Some (os, false)
  | true, Some a, Some a' => if str_eqb a a' then Some (os, false) else None
  | true, None, Some a' =>
      match next with
      | Some n => if str_eqb n a' then Some (os, true) else None
      | None => None
      end
  | _, _, _ => None
  end.
Proof.
  intros SE R Al. unfold long_w. rewrite SE, (resolves_nth _ _ _ _ R), (resolves_b_intro _ _ _ _ R).
  apply long_allowed_b_spec in Al. rewrite Al. reflexivity.
Qed.

Lemma field_w_long specs m body os next :
  body <> [] -> field_w specs m (HYPHEN :: HYPHEN :: body) os next = long_w specs m body os next.
Proof. destruct body; [congruence | reflexivity]. Qed.

Lemma shorts_w_complete specs m cs extra os :
  Shorts specs m cs extra os -> forall os' next,
  match extra with
  | None => shorts_w specs m cs (os ++ os') next = Some (os', false)
  | Some a => shorts_w specs m cs (os ++ os') (Some a) = Some (os', true)
  end.
Proof.
  induction 1 as [|c i s cs extra os FS Ar Al Sh IH|c i s a FS Ar Al NE Sm|c i s a FS Ar Al]; intros os' next;
    cbn [app].
  - reflexivity.
  - specialize (IH os' next).
    destruct extra as [a|]; rewrite (shorts_w_first _ _ _ _ _ _ _ _ _ FS Al), Ar; exact IH.
  - rewrite (shorts_w_first _ _ _ _ _ _ _ _ _ FS Al), Ar, Sm. destruct a as [|a0 a]; [congruence|].
    cbn [andb]. rewrite str_eqb_refl. reflexivity.
  - rewrite (shorts_w_first _ _ _ _ _ _ _ _ _ FS Al), Ar, str_eqb_refl. reflexivity.
Qed.

Lemma field_w_complete specs m f extra os :
  OptField specs m f extra os -> forall os' next,
  match extra with
  | None => field_w specs m f (os ++ os') next = Some (os', false)
  | Some a => field_w specs m f (os ++ os') (Some a) = Some (os', true)
  end.
Proof.
  intros OF os' next.
  destruct OF as [c cs extra os NE Sh|name i s NN NI R Ar Al|name a i s NI R Ar Al|name a i s NN NI R Ar Al].
  - pose proof (shorts_w_complete _ _ _ _ _ Sh os' next) as H.
    cbn [field_w]. rewrite N.eqb_refl. apply N.eqb_neq in NE. rewrite NE. exact H.
  - rewrite field_w_long by exact NN. cbn [app].
    rewrite (long_w_resolved _ _ _ _ _ _ _ _ _ _ (split_eq_noeq _ NI) R Al), Ar. reflexivity.
  - rewrite field_w_long by (destruct name; discriminate). cbn [app].
    rewrite (long_w_resolved _ _ _ _ _ _ _ _ _ _ (split_eq_eq _ _ NI) R Al), Ar, str_eqb_refl. reflexivity.
  - rewrite field_w_long by exact NN. cbn [app].
    rewrite (long_w_resolved _ _ _ _ _ _ _ _ _ _ (split_eq_noeq _ NI) R Al), Ar, str_eqb_refl. reflexivity.
Qed.

Lemma optfield_nonempty specs m f extra os : OptField specs m f extra os -> os <> [].
Proof.
  destruct 1 as [c cs extra os NE Sh| | |]; try discriminate. inversion Sh; discriminate.
Qed.

Lemma spells_b_nil specs m os ops :
  spells_b specs m os ops [] = match os, ops with [], [] => true | _, _ => false end.
Proof. reflexivity. Qed.

Lemma spells_b_complete specs m cos ops args :
  Spells specs m cos ops args -> spells_b specs m cos ops args = true.
Proof.
  induction 1 as [ops P|ops|f extra os os' ops rest OF Sp IH].
  - destruct P as [->|[f [t [-> N]]]]; [reflexivity|].
    cbn [spells_b]. apply optionlike_b_false in N. rewrite N, strs_eqb_refl. cbn. apply orb_true_r.
  - cbn [spells_b]. unfold SEP. rewrite str_eqb_refl, strs_eqb_refl. reflexivity.
  - pose proof (optfield_nonempty _ _ _ _ _ OF) as NE.
    pose proof (field_w_complete _ _ _ _ _ OF os') as H.
    destruct (os ++ os') as [|o0 l] eqn:EO; [destruct os; [congruence | discriminate]|].
    cbn [spells_b]. destruct extra as [a|]; cbn [opt_list app].
    + rewrite (H None). exact IH.
    + destruct rest as [|a rest'].
      * rewrite (H None). rewrite spells_b_nil in IH. exact IH.
      * rewrite (H (Some a)). exact IH.
Qed.

Lemma shorts_w_sound specs m : forall cs os next os' b,
  shorts_w specs m cs os next = Some (os', b) ->
  exists os1, os = os1 ++ os' /\ Shorts specs m cs (if b then next else None) os1.
Proof.
  induction cs as [|c cs IH]; intros os next os' b E; cbn [shorts_w] in E.
  - inversion E; subst. exists []. split; [reflexivity | constructor].
  - destruct os as [|[i oa] os0]; [discriminate|].
    destruct (first_short_b specs c i) eqn:FB; [|discriminate].
    apply first_short_b_at in FB. rename FB into FS. set (s := spec_at specs i) in *.
    destruct (short_allowed_b m s) eqn:Al; [|discriminate]. apply short_allowed_b_spec in Al.
    cbn [andb] in E. destruct oa as [a|].
    + destruct (sp_arg s) eqn:Ar; [|discriminate].
      destruct cs as [|c' cs'].
      * destruct next as [n|]; [|discriminate]. destruct (str_eqb n a) eqn:Ea; [|discriminate].
        apply str_eqb_eq in Ea. subst n. inversion E; subst.
        exists [(i, Some a)]. split; [reflexivity | eapply Sh_next; eauto].
      * destruct (m_same m) eqn:Sm; [|discriminate]. cbn [andb] in E.
        destruct (str_eqb a (c' :: cs')) eqn:Ea; [|discriminate]. apply str_eqb_eq in Ea. subst a.
        inversion E; subst. exists [(i, Some (c' :: cs'))]. split; [reflexivity|].
        eapply Sh_attached; eauto. discriminate.
    + destruct (sp_arg s) eqn:Ar; [discriminate|].
      destruct (IH _ _ _ _ E) as [os1 [-> Sh]]. exists ((i, None) :: os1). split; [reflexivity|].
      eapply Sh_flag; eauto.
Qed.

Lemma field_w_sound specs m f os next os' b :
  field_w specs m f os next = Some (os', b) ->
  exists os1, os = os1 ++ os' /\ OptField specs m f (if b then next else None) os1.
Proof.
  intros E. destruct f as [|c0 [|c1 t]]; try discriminate. cbn [field_w] in E.
  destruct (N.eqb_spec c0 HYPHEN) as [->|]; [|discriminate].
  destruct (N.eqb_spec c1 HYPHEN) as [->|NE].
  - destruct t as [|t0 t]; [discriminate|]. unfold long_w in E.
    pose proof (split_eq_spec (t0 :: t)) as SE. destruct (split_eq (t0 :: t)) as [name oeq].
    destruct os as [|[i oa] os0]; [discriminate|].
    destruct (resolves_b specs name i) eqn:RB; [|discriminate].
    apply resolves_b_at in RB. rename RB into R. set (s := spec_at specs i) in *.
    destruct (long_allowed_b m s) eqn:Al; [|discriminate]. apply long_allowed_b_spec in Al.
    cbn [andb] in E.
    destruct (sp_arg s) eqn:Ar, oeq as [a|], oa as [a'|]; try discriminate.
    + destruct (str_eqb a a') eqn:Ea; [|discriminate]. apply str_eqb_eq in Ea. subst a'.
      inversion E; subst. destruct SE as [-> NI]. exists [(i, Some a)]. split; [reflexivity|].
      eapply OF_long_eq; eauto.
    + destruct next as [n|]; [|discriminate]. destruct (str_eqb n a') eqn:Ea; [|discriminate].
      apply str_eqb_eq in Ea. subst n. inversion E; subst. destruct SE as [<- NI].
      exists [(i, Some a')]. split; [reflexivity|]. eapply OF_long_next; eauto. discriminate.
    + inversion E; subst. destruct SE as [<- NI]. exists [(i, None)]. split; [reflexivity|].
      eapply OF_long_flag; eauto. discriminate.
  - destruct (shorts_w_sound _ _ _ _ _ _ _ E) as [os1 [-> Sh]]. exists os1. split; [reflexivity|].
    apply OF_short; assumption.
Qed.

Lemma spells_b_sound specs m : forall args cos ops,
  spells_b specs m cos ops args = true -> Spells specs m cos ops args.
Proof.
  intros args. induction args as [|f rest IH1 IH2] using list_ind2; intros cos ops E.
  - rewrite spells_b_nil in E. destruct cos, ops; try discriminate. apply Sp_plain. left. reflexivity.
  - cbn [spells_b] in E. destruct cos as [|c0 cos0].
    + apply orb_true_iff in E. destruct E as [E|E]; apply andb_true_iff in E; destruct E as [A B].
      * apply str_eqb_eq in A. apply strs_eqb_eq in B. subst. apply Sp_sep.
      * apply negb_true_iff, optionlike_b_false in A. apply strs_eqb_eq in B. subst.
        apply Sp_plain. right. eauto.
    + destruct rest as [|a rest'].
      * destruct (field_w specs m f (c0 :: cos0) None) as [[os' b]|] eqn:FW; [|discriminate].
        destruct b; [discriminate|].
        destruct (field_w_sound _ _ _ _ _ _ _ FW) as [os1 [-> OF]].
        destruct os', ops; try discriminate.
        apply (Sp_opt specs m f None os1 [] [] []); [exact OF|]. apply Sp_plain. left. reflexivity.
      * destruct (field_w specs m f (c0 :: cos0) (Some a)) as [[os' b]|] eqn:FW; [|discriminate].
        destruct (field_w_sound _ _ _ _ _ _ _ FW) as [os1 [-> OF]]. destruct b.
        -- apply (Sp_opt specs m f (Some a) os1 os' ops rest'); [exact OF|].
           apply (IH2 a rest' eq_refl). exact E.
        -- apply (Sp_opt specs m f None os1 os' ops (a :: rest')); [exact OF|]. apply IH1. exact E.
Qed.

Lemma is_flag_b_spec specs m c :
  is_flag_b specs m c = true <->
  exists i s, FirstShort specs c i s /\ sp_arg s = false /\ ShortAllowed m s.
Proof.
  unfold is_flag_b. rewrite find_short_is. destruct (find_short specs c) as [[i s]|] eqn:F; cbn.
  - apply find_short_some in F. rewrite andb_true_iff, negb_true_iff, short_allowed_b_spec. split.
    + intros [A B]. eauto.
    + intros [i' [s' [FS [A B]]]]. destruct (first_short_fun _ _ _ _ _ _ F FS) as [-> ->]. auto.
  - split; [discriminate|]. intros [i [s [FS _]]]. apply find_short_some in FS. congruence.
Qed.

Lemma good_field_short specs m c0 cs next :
  c0 <> HYPHEN ->
  good_field_b specs m (HYPHEN :: c0 :: cs) next =
  match snd (span_flags specs m (c0 :: cs)) with
  | [] => Some false
  | c :: post =>
      match find (short_is c) specs with
      | Some s =>
          if sp_arg s && short_allowed_b m s then
            match post with
            | [] => match next with Some _ => Some true | None => None end
            | _ :: _ => if m_same m then Some false else None
            end
          else None
      | None => None
      end
  end.
Proof.
  intros NE. unfold good_field_b. rewrite N.eqb_refl. apply N.eqb_neq in NE. rewrite NE. reflexivity.
Qed.

Lemma short_culprit_spec specs m c0 cs :
  c0 <> HYPHEN ->
  short_culprit specs m (HYPHEN :: c0 :: cs) =
  match snd (span_flags specs m (c0 :: cs)) with
  | c :: post => Some (c, post)
  | [] => None
  end.
Proof.
  intros NE. unfold short_culprit. rewrite is_short_field_intro by exact NE. reflexivity.
Qed.

Lemma long_parts_short c0 cs : c0 <> HYPHEN -> long_parts (HYPHEN :: c0 :: cs) = None.
Proof.
  intros NE. unfold long_parts. cbn. apply N.eqb_neq in NE. rewrite NE.
  destruct cs; reflexivity.
Qed.

Lemma span_flags_spec specs m cs :
  cs = fst (span_flags specs m cs) ++ snd (span_flags specs m cs)
  /\ Flags specs m (fst (span_flags specs m cs))
  /\ match snd (span_flags specs m cs) with c :: _ => is_flag_b specs m c = false | [] => True end.
Proof.
  induction cs as [|c cs [IH1 [IH2 IH3]]]; cbn [span_flags].
  - splits; [reflexivity | apply flags_nil | exact I].
  - destruct (is_flag_b specs m c) eqn:F.
    + destruct (span_flags specs m cs) as [a b]. cbn [fst snd] in *. splits.
      * cbn. rewrite <- IH1. reflexivity.
      * apply is_flag_b_spec in F. destruct F as [i [s [FS [Ar Al]]]]. eapply flags_cons; eauto.
      * exact IH3.
    + splits; [reflexivity | apply flags_nil | exact F].
Qed.

(* what the oracle says of a field [f] of which the parser makes [r] *)
Definition good_follows specs m (f : str) (r : field_res) : Prop :=
  match r with
  | FDone _ => forall next, good_field_b specs m f next = Some false
  | FNeed _ i _ => (forall a, good_field_b specs m f (Some a) = Some true)
                   /\ good_field_b specs m f None = None
                   /\ justified_b specs m f [] (MissingArg f i) = true
  | FErr e => (forall next, good_field_b specs m f next = None)
              /\ err_field e = f
              /\ forall rest, justified_b specs m f rest e = true
  | FEnd => forall next, good_field_b specs m f next = None
  end.

(* the oracle's verdict on a group follows the model's: the model's loop gets
   past the flags, and both look at the first character that is none *)
Lemma good_short specs m c0 cs :
  c0 <> HYPHEN ->
  let f := HYPHEN :: c0 :: cs in
  good_follows specs m f (field_of_short (short_chars specs m f 1 (c0 :: cs))).
Proof.
  intros NE f. subst f. unfold good_follows, field_of_short.
  destruct (span_flags_spec specs m (c0 :: cs)) as [D [Fl NF]].
  destruct (short_chars_flags specs m (HYPHEN :: c0 :: cs) _ Fl (snd (span_flags specs m (c0 :: cs))) 1%N)
    as [idx' E].
  rewrite <- D in E. clear D Fl.
  remember (short_chars specs m (HYPHEN :: c0 :: cs) 1 (c0 :: cs)) as r eqn:R. clear R.
  pose proof (fun next => good_field_short specs m c0 cs next NE) as G.
  pose proof (short_culprit_spec specs m c0 cs NE) as SC.
  revert E NF G SC. destruct (snd (span_flags specs m (c0 :: cs))) as [|c post]; intros E NF G SC.
  - (* nothing but flags *)
    destruct r; cbn in E; inversion E. exact G.
  - (* [c] is the first character that is no flag: E is how the model's loop ends
       at [c], G the oracle's verdict there *)
    unfold is_flag_b in NF. rewrite find_short_is in NF, G. cbn [short_chars] in E.
    revert E NF G. destruct (find_short specs c) as [[i s]|] eqn:F; cbn [option_map snd]; intros E NF G.
    + apply find_short_some in F.
      assert (FB := first_short_b_intro _ _ _ _ F). assert (SA := first_short_at _ _ _ _ F).
      rewrite short_test in E. destruct (short_allowed_b m s) eqn:A; cbn [negb] in E.
      * (* known and allowed, so it takes an argument: the next field, the rest of
           this one, or that is not allowed *)
        rewrite andb_true_r in NF. apply negb_false_iff in NF. rewrite NF in E, G. cbn [andb] in G.
        destruct post as [|p0 post]; [|destruct (m_same m) eqn:Sm];
          destruct r; cbn [short_end] in E; inversion E.
        -- splits; [intros a; apply G | apply G|]. unfold justified_b. rewrite SC, FB, SA, A, NF. reflexivity.
        -- exact G.
        -- splits; [exact G | reflexivity|]. intros rest. unfold justified_b.
           rewrite SC, FB, SA, A, NF, Sm. reflexivity.
      * rewrite andb_false_r in G.
        destruct r; cbn [short_end] in E; inversion E.
        splits; [exact G | reflexivity|]. intros rest. unfold justified_b.
        rewrite SC, N.eqb_refl, FB, SA, A. reflexivity.
    + destruct r; cbn [short_end] in E; inversion E.
      splits; [exact G | reflexivity|]. intros rest. unfold justified_b. rewrite SC, N.eqb_refl. cbn [andb].
      apply negb_true_iff, no_short_spec, find_short_none. exact F.
Qed.

Definition candidates specs name : list nat :=
  match indices (long_is name) specs with
  | j :: _ => [j]
  | [] => indices (long_has_prefix name) specs
  end.

Lemma candidates_spec specs name :
  candidates specs name = match long_match specs name with inl i => [i] | inr l => l end.
Proof.
  unfold candidates. rewrite long_match_indices.
  destruct (indices (long_is name) specs); [|reflexivity].
  destruct (indices (long_has_prefix name) specs) as [|a [|b l]]; reflexivity.
Qed.

Lemma good_field_long specs m body next :
  body <> [] ->
  good_field_b specs m (HYPHEN :: HYPHEN :: body) next =
  let (name, oeq) := split_eq body in
  match candidates specs name with
  | [i] =>
      let s := spec_at specs i in
      if long_allowed_b m s then
        match sp_arg s, oeq with
        | false, None => Some false
        | true, Some _ => Some false
        | true, None => match next with Some _ => Some true | None => None end
        | false, Some _ => None
        end
      else None
  | _ => None
  end.
Proof.
  intros NE. unfold good_field_b, candidates. rewrite !N.eqb_refl. cbn [negb].
  destruct body; [congruence|]. reflexivity.
Qed.

Lemma long_parts_spec body :
  body <> [] -> long_parts (HYPHEN :: HYPHEN :: body) = Some (split_eq body).
Proof.
  intros NE. unfold long_parts. destruct (is_long_field_intro body NE) as [-> _]. reflexivity.
Qed.

Lemma short_culprit_long specs m body : short_culprit specs m (HYPHEN :: HYPHEN :: body) = None.
Proof. unfold short_culprit. cbn. reflexivity. Qed.

Lemma good_long specs m body :
  body <> [] ->
  let f := HYPHEN :: HYPHEN :: body in
  good_follows specs m f (field_of_long (long_field specs m f)).
Proof.
  intros NE f. subst f. unfold good_follows, field_of_long.
  pose proof (good_field_long specs m body) as G.
  unfold long_field. cbn [skipn]. unfold justified_b. rewrite short_culprit_long, long_parts_spec by exact NE.
  destruct (split_eq body) as [name oeq] eqn:SE. cbv zeta in G.
  assert (C := candidates_spec specs name).
  destruct (long_match specs name) as [i|l] eqn:LM.
  - assert (RB : resolves_b specs name i = true).
    { apply resolves_b_spec. apply long_match_resolves. exact LM. }
    rewrite long_test.
    destruct (long_allowed_b m (spec_at specs i)) eqn:A.
    + destruct (sp_arg (spec_at specs i)) eqn:Ar, oeq as [a|].
      * intros next. rewrite G, C, A, Ar by exact NE. reflexivity.
      * splits; [intros a| |]; rewrite ?G, ?C, ?A, ?Ar, ?RB by exact NE; reflexivity.
      * splits; [intros next| |intros rest]; rewrite ?G, ?C, ?A, ?Ar, ?RB by exact NE; reflexivity.
      * intros next. rewrite G, C, A, Ar by exact NE. reflexivity.
    + splits; [intros next| |intros rest]; rewrite ?G, ?C, ?A, ?RB by exact NE; reflexivity.
  - destruct l as [|a l].
    + splits; [intros next| |intros rest]; rewrite ?G, ?C by exact NE; try reflexivity.
      apply negb_true_iff, existsb_false_indices, no_long_prefix_spec, long_match_unknown. exact LM.
    + destruct (long_match_ambiguous specs name (a :: l)) as [EL Am]; [discriminate | exact LM|].
      apply ambiguous_spec in Am. destruct Am as [EX L2]. rewrite <- EL in L2.
      splits; [intros next| |intros rest]; rewrite ?G, ?C by exact NE.
      * destruct l; [cbn in L2; lia | reflexivity].
      * reflexivity.
      * rewrite (proj2 (existsb_false_indices _ _) EX), <- EL. cbn [negb andb].
        rewrite (proj2 (list_eqb_spec Nat.eqb Nat.eqb_eq (a :: l) (a :: l)) eq_refl). cbn [andb].
        apply Nat.leb_le. exact L2.
Qed.

Lemma skip_options_stop specs m f rest :
  (forall next, good_field_b specs m f next = None) -> skip_options specs m (f :: rest) = f :: rest.
Proof.
  intros G. cbn [skip_options]. destruct rest; rewrite G; reflexivity.
Qed.

Lemma skip_options_done specs m f a rest :
  (forall next, good_field_b specs m f next = Some false) ->
  skip_options specs m (f :: a :: rest) = skip_options specs m (a :: rest).
Proof. intros G. cbn [skip_options]. rewrite G. reflexivity. Qed.

Lemma first_field_good specs m f : good_follows specs m f (first_field specs m f).
Proof.
  unfold first_field. destruct (is_short_field f) eqn:SF.
  { apply is_short_field_inv in SF. destruct SF as [c [cs [-> NE]]]. exact (good_short specs m c cs NE). }
  destruct (is_long_field f) eqn:LF.
  { apply is_long_field_inv in LF. destruct LF as [body [-> NE]]. exact (good_long specs m body NE). }
  intros next. destruct f as [|c0 [|c1 t]]; try reflexivity. unfold good_field_b.
  cbn [is_short_field is_long_field] in SF, LF.
  destruct (N.eqb c0 HYPHEN); cbn [negb andb] in *; [|reflexivity].
  destruct (N.eqb c1 HYPHEN); cbn [negb] in *; [|discriminate SF].
  destruct t; [reflexivity | discriminate LF].
Qed.

Lemma parse_err_rejects specs m : forall args e,
  parse specs m args = Err e ->
  exists f rest, skip_options specs m args = f :: rest /\ err_field e = f
                 /\ justified_b specs m f rest e = true.
Proof.
  intros args. induction args as [|f rest IH1 IH2] using list_ind2; intros e E.
  - discriminate.
  - rewrite parse_step in E. pose proof (first_field_good specs m f) as H. unfold good_follows in H.
    destruct (first_field specs m f) as [e'|os|os i sp|].
    + inversion E; subst e'. destruct H as [G [EF J]].
      exists f, rest. splits; auto. apply skip_options_stop. exact G.
    + apply prepend_err in E. destruct rest as [|a rest']; [discriminate|].
      rewrite skip_options_done by exact H. apply IH1. exact E.
    + destruct H as [G1 [G2 J]]. destruct rest as [|a rest'].
      * inversion E; subst e. exists f, []. splits; auto. cbn [skip_options]. rewrite G2. reflexivity.
      * apply prepend_err in E. cbn [skip_options]. rewrite G1. apply (IH2 a rest' eq_refl). exact E.
    + destruct (is_separator f); discriminate.
Qed.

Lemma good_field_optfield specs m f next b :
  good_field_b specs m f next = Some b ->
  (b = true -> next <> None)
  /\ exists cos, OptField specs m f (if b then next else None) cos.
Proof.
  intros G. pose proof (first_field_good specs m f) as FG. unfold good_follows in FG.
  pose proof (first_field_struct specs m f) as FS. unfold field_reads in FS.
  destruct (first_field specs m f) as [e|os|os i sp|].
  - destruct FG as [G0 _]. rewrite G0 in G. discriminate.
  - rewrite FG in G. inversion G; subst b. split; [discriminate|]. eexists. exact FS.
  - destruct FG as [G1 [G2 _]]. destruct next as [a|]; [|rewrite G2 in G; discriminate].
    rewrite G1 in G. inversion G; subst b. split; [discriminate|]. eexists. apply FS.
  - rewrite FG in G. discriminate.
Qed.

Lemma skip_options_prefix specs m : forall args f rest,
  skip_options specs m args = f :: rest ->
  exists pre cos, args = pre ++ f :: rest /\ OptPrefix specs m pre cos.
Proof.
  intros args. induction args as [|f0 rest0 IH1 IH2] using list_ind2; intros f rest E.
  - discriminate.
  - cbn [skip_options] in E. destruct rest0 as [|a rest'].
    + destruct (good_field_b specs m f0 None) as [[|]|] eqn:G.
      * inversion E; subst. exists [], []. split; [reflexivity | constructor].
      * discriminate.
      * inversion E; subst. exists [], []. split; [reflexivity | constructor].
    + destruct (good_field_b specs m f0 (Some a)) as [[|]|] eqn:G.
      * destruct (good_field_optfield _ _ _ _ _ G) as [_ [cos OF]].
        destruct (IH2 a rest' eq_refl f rest E) as [pre [cos' [-> OP]]].
        exists (f0 :: a :: pre), (cos ++ cos'). split; [reflexivity|].
        apply (OP_cons specs m f0 (Some a) cos pre cos'); assumption.
      * destruct (good_field_optfield _ _ _ _ _ G) as [_ [cos OF]].
        destruct (IH1 f rest E) as [pre [cos' [EQ OP]]].
        exists (f0 :: pre), (cos ++ cos'). split; [cbn; rewrite EQ; reflexivity|].
        apply (OP_cons specs m f0 None cos pre cos'); assumption.
      * inversion E; subst. exists [], []. split; [reflexivity | constructor].
Qed.

Lemma short_culprit_inv specs m f c post :
  short_culprit specs m f = Some (c, post) ->
  exists c0 cs pre, f = HYPHEN :: c0 :: cs /\ c0 <> HYPHEN /\ c0 :: cs = pre ++ c :: post
                    /\ Flags specs m pre.
Proof.
  unfold short_culprit. destruct (is_short_field f) eqn:SF; [|discriminate].
  apply is_short_field_inv in SF. destruct SF as [c0 [cs [-> NE]]]. cbn [skipn].
  destruct (span_flags_spec specs m (c0 :: cs)) as [E [Fl _]].
  destruct (snd (span_flags specs m (c0 :: cs))) as [|c' post'] eqn:SP; [discriminate|].
  intros X. inversion X; subst. eauto 8.
Qed.

Lemma long_parts_inv f name oeq :
  long_parts f = Some (name, oeq) ->
  exists body, f = HYPHEN :: HYPHEN :: body /\ body <> [] /\ split_eq body = (name, oeq).
Proof.
  unfold long_parts. destruct (is_long_field f) eqn:LF; [|discriminate].
  apply is_long_field_inv in LF. destruct LF as [body [-> NE]]. cbn [skipn].
  intros X. inversion X. eauto.
Qed.

Lemma justified_badfield specs m f rest e :
  justified_b specs m f rest e = true -> BadField specs m f rest (class_of e).
Proof.
  unfold justified_b. destruct e as [c f'|f'|c f' i|f' i|f' l|f' i|f' i|f' i]; cbn [class_of].
  - destruct (short_culprit specs m f) as [[c' post]|] eqn:SC; [|discriminate].
    rewrite andb_true_iff, N.eqb_eq, negb_true_iff. intros [<- X].
    destruct (short_culprit_inv _ _ _ _ _ SC) as [c0 [cs [pre [-> [NE [E Fl]]]]]].
    apply no_short_spec in X. eapply BF_unknown_short; eauto.
  - destruct (long_parts f) as [[name oeq]|] eqn:LP; [|discriminate].
    rewrite negb_true_iff. intros X.
    destruct (long_parts_inv _ _ _ LP) as [body [-> [NE SE]]].
    eapply BF_unknown_long; eauto. apply no_long_prefix_spec, existsb_false_indices. exact X.
  - destruct (short_culprit specs m f) as [[c' post]|] eqn:SC; [|discriminate].
    rewrite !andb_true_iff, N.eqb_eq, negb_true_iff. intros [[<- FB] NA].
    apply first_short_b_at in FB.
    destruct (short_culprit_inv _ _ _ _ _ SC) as [c0 [cs [pre [-> [NE [E Fl]]]]]].
    apply short_allowed_b_false in NA. eapply BF_nonportable_short; eauto.
  - destruct (long_parts f) as [[name oeq]|] eqn:LP; [|discriminate].
    rewrite andb_true_iff, negb_true_iff. intros [RB NA].
    apply resolves_b_at in RB.
    destruct (long_parts_inv _ _ _ LP) as [body [-> [NE SE]]].
    apply long_allowed_b_false in NA. eapply BF_nonportable_long; eauto.
  - destruct (long_parts f) as [[name oeq]|] eqn:LP; [|discriminate].
    rewrite !andb_true_iff, negb_true_iff. intros [[NX EL] L2].
    destruct (long_parts_inv _ _ _ LP) as [body [-> [NE SE]]].
    apply (list_eqb_spec Nat.eqb Nat.eqb_eq) in EL. apply Nat.leb_le in L2.
    eapply BF_ambiguous; eauto. apply ambiguous_spec.
    split; [apply existsb_false_indices; exact NX | rewrite <- EL; exact L2].
  - destruct rest as [|r0 rest]; [|discriminate].
    destruct (short_culprit specs m f) as [[c post]|] eqn:SC.
    + destruct (short_culprit_inv _ _ _ _ _ SC) as [c0 [cs [pre [-> [NE [E Fl]]]]]].
      rewrite long_parts_short by exact NE. destruct post as [|p0 post]; [|discriminate].
      rewrite !andb_true_iff. intros [[FB Al] Ar].
      apply first_short_b_at in FB.
      apply short_allowed_b_spec in Al. eapply BF_missing_short; eauto.
    + destruct (long_parts f) as [[name [a|]]|] eqn:LP; try discriminate.
      rewrite !andb_true_iff. intros [[RB Al] Ar].
      apply resolves_b_at in RB.
      apply long_allowed_b_spec in Al.
      destruct (long_parts_inv _ _ _ LP) as [body [-> [NE SE]]].
      eapply BF_missing_long; eauto.
  - destruct (short_culprit specs m f) as [[c [|p0 post]]|] eqn:SC; try discriminate.
    rewrite !andb_true_iff, negb_true_iff. intros [[[FB Al] Ar] Sm].
    apply first_short_b_at in FB.
    apply short_allowed_b_spec in Al.
    destruct (short_culprit_inv _ _ _ _ _ SC) as [c0 [cs [pre [-> [NE [E Fl]]]]]].
    eapply BF_unseparated; eauto. discriminate.
  - destruct (long_parts f) as [[name [a|]]|] eqn:LP; try discriminate.
    rewrite !andb_true_iff, negb_true_iff. intros [[RB Al] Ar].
    apply resolves_b_at in RB.
    apply long_allowed_b_spec in Al.
    destruct (long_parts_inv _ _ _ LP) as [body [-> [NE SE]]].
    eapply BF_unexpected; eauto.
Qed.

