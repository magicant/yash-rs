(* C20 — the getopts model.  First: the loop over `next` (re-entered with the
   $OPTIND indices) delivers exactly the structural reading [gdirect] of the
   arguments, never runs out of fuel, and grouped and separate spellings read
   alike.  Then: [gdirect] against the grammar of spellings — every argument
   vector that spells an abstract invocation (for the table of the option string
   followed by the letters used as unknown options) gives exactly the expected
   ($name, $OPTARG) sequence, leaves exactly the operands, and writes to stderr
   exactly when expected. *)
From Yv Require Import Common.Base C20.Model C20.Spec C20.Getopts C20.ProofsNames.

Definition gresult_t : Type := list gevent * nat * bool.

Definition gcons (evs : list gevent) (q : bool) (r : gresult_t) : gresult_t :=
  match r with (evs', fin, q') => (evs ++ evs', fin, q && q') end.

Lemma skipn_add {A} (l : list A) : forall n k, skipn (n + k) l = skipn k (skipn n l).
Proof.
  induction l as [|x l IH]; intros n k.
  - rewrite !skipn_nil. reflexivity.
  - destruct n; cbn; [reflexivity | apply IH].
Qed.

Lemma skipn_cons_S {A} (l : list A) n a t : skipn n l = a :: t -> skipn (S n) l = t.
Proof. intros E. replace (S n) with (n + 1)%nat by lia. rewrite skipn_add, E. reflexivity. Qed.

Lemma gloop_mono fuel : forall args raw ai ci r k,
  gloop fuel args raw ai ci = Some r -> gloop (fuel + k) args raw ai ci = Some r.
Proof.
  induction fuel as [|fuel IH]; intros args raw ai ci r k E; [discriminate|].
  cbn [gloop Nat.add] in *. destruct (gr_option (gnext args raw ai ci)) as [occ|]; [|exact E].
  destruct (greport (starts_with_colon raw) occ) as [[var optarg] quiet].
  destruct (gloop fuel args raw (gr_ai (gnext args raw ai ci)) (gr_ci (gnext args raw ai ci))) as [[[evs fin] q]|] eqn:L;
    [|discriminate].
  rewrite (IH _ _ _ _ _ k L). exact E.
Qed.

Lemma gloop_mono_le fuel fuel' args raw ai ci r :
  (fuel <= fuel')%nat -> gloop fuel args raw ai ci = Some r -> gloop fuel' args raw ai ci = Some r.
Proof.
  intros L E. replace fuel' with (fuel + (fuel' - fuel))%nat by lia. apply gloop_mono. exact E.
Qed.

Lemma gclass_incr raw opt rem rest a incr e :
  gclass raw opt rem rest = (a, incr, e) ->
  (incr = 0%nat /\ rem <> []) \/ incr = 1%nat \/ (incr = 2%nat /\ exists x r, rest = x :: r).
Proof.
  intros E. apply (f_equal (fun x => snd (fst x))) in E. cbn [fst snd] in E. subst incr.
  unfold gclass. destruct (judge raw opt), rem as [|r0 rem]; cbn;
    try (left; split; [reflexivity | discriminate]); try (right; left; reflexivity).
  destruct rest; cbn; [right; left; reflexivity | right; right; eauto].
Qed.

Lemma gnext_in_field (args : list str) raw ai ci (chars : str) (rest : list str) opt (rem : str) :
  skipn (ai - 1) args = (HYPHEN :: chars) :: rest -> chars <> [HYPHEN] ->
  skipn (ci - 1) chars = opt :: rem ->
  gnext args raw ai ci =
  let '(argument, incr, err) := gclass raw opt rem rest in
  mkGResult (Some (opt, argument, err)) (ai + incr) (match incr with O => ci + 1 | S _ => 1 end).
Proof.
  intros E NS Ec. unfold gnext. rewrite E, N.eqb_refl. cbn [negb].
  rewrite (proj2 (str_eqb_neq _ _) NS), Ec. reflexivity.
Qed.

(* the characters of one argument, then the loop goes on behind it *)
Lemma gloop_chars raw (args : list str) ai (chars : str) (rest : list str) :
  skipn (ai - 1) args = (HYPHEN :: chars) :: rest -> chars <> [HYPHEN] ->
  forall cs ci fuel r,
  (1 <= ci)%nat -> skipn (ci - 1) chars = cs -> cs <> [] ->
  let '(evs, q, n) := gchars raw (starts_with_colon raw) ai ci cs rest in
  gloop fuel args raw (ai + n) 1 = Some r ->
  gloop (length cs + fuel) args raw ai ci = Some (gcons evs q r).
Proof.
  intros E NS. induction cs as [|opt rem IH]; intros ci fuel r Lc Ec NE; [congruence|].
  cbn [gchars length Nat.add].
  pose proof (gnext_in_field args raw ai ci chars rest opt rem E NS Ec) as GN.
  destruct (gclass raw opt rem rest) as [[argument incr] err] eqn:GC.
  destruct (greport (starts_with_colon raw) (opt, argument, err)) as [[var optarg] quiet] eqn:GR.
  destruct incr as [|incr'].
  - assert (NR : rem <> []).
    { destruct (gclass_incr _ _ _ _ _ _ _ GC) as [[_ NR]|[X|[X _]]]; [exact NR | discriminate X | discriminate X]. }
    assert (Ec' : skipn (ci + 1 - 1) chars = rem).
    { replace (ci + 1 - 1)%nat with (S (ci - 1)) by lia. eapply skipn_cons_S; eauto. }
    specialize (IH (ci + 1)%nat fuel r ltac:(lia) Ec' NR).
    destruct (gchars raw (starts_with_colon raw) ai (ci + 1) rem rest) as [[evs q] n].
    intros L. specialize (IH L). cbn [gloop]. rewrite GN. cbn [gr_option gr_ai gr_ci]. rewrite GR.
    rewrite Nat.add_0_r, IH. destruct r as [[evs' fin] q']. cbn [gcons app].
    rewrite andb_assoc. reflexivity.
  - intros L. cbn [gloop]. rewrite GN. cbn [gr_option gr_ai gr_ci]. rewrite GR.
    rewrite (gloop_mono_le fuel (length rem + fuel) args raw _ 1 r ltac:(lia) L).
    destruct r as [[evs' fin] q']. reflexivity.
Qed.

Lemma gfuel_cons f rest : gfuel (f :: rest) = (S (length f) + gfuel rest)%nat.
Proof. unfold gfuel. cbn. lia. Qed.

Lemma gfuel_pos l : (1 <= gfuel l)%nat.
Proof. unfold gfuel. lia. Qed.

Definition gwithout_ops (r : list gevent * nat * list str * bool) : gresult_t :=
  match r with (evs, fin, _, q) => (evs, fin, q) end.
Definition gfin (r : list gevent * nat * list str * bool) : nat :=
  match r with (_, fin, _, _) => fin end.
Definition gops (r : list gevent * nat * list str * bool) : list str :=
  match r with (_, _, ops, _) => ops end.

Lemma gwithout_ops_prepend evs q r : gwithout_ops (gprepend evs q r) = gcons evs q (gwithout_ops r).
Proof. destruct r as [[[a b] c] d]. reflexivity. Qed.
Lemma gfin_prepend evs q r : gfin (gprepend evs q r) = gfin r.
Proof. destruct r as [[[a b] c] d]. reflexivity. Qed.
Lemma gops_prepend evs q r : gops (gprepend evs q r) = gops r.
Proof. destruct r as [[[a b] c] d]. reflexivity. Qed.

(* a non-empty group consumes its own argument, and the next one only if there is one *)
Lemma gchars_consumed raw colon ai rest : forall cs ci,
  cs <> [] ->
  let n := snd (gchars raw colon ai ci cs rest) in
  n = 1%nat \/ (n = 2%nat /\ exists x r, rest = x :: r).
Proof.
  induction cs as [|opt rem IH]; intros ci NE; [congruence|]. cbn [gchars].
  destruct (gclass raw opt rem rest) as [[argument incr] err] eqn:GC.
  destruct (greport colon (opt, argument, err)) as [[var optarg] quiet].
  destruct (gclass_incr _ _ _ _ _ _ _ GC) as [[-> NR]|[->|[-> X]]].
  - specialize (IH (ci + 1)%nat NR). destruct (gchars raw colon ai (ci + 1) rem rest) as [[evs q] n]. exact IH.
  - left. reflexivity.
  - right. split; [reflexivity | exact X].
Qed.

(* the loop, entered at the argument number [ai], delivers the structural
   reading of the arguments from there on, within the fuel *)
Lemma gloop_direct raw (args : list str) : forall (rem : list str) ai,
  (1 <= ai)%nat -> skipn (ai - 1) args = rem ->
  let D := gdirect raw (starts_with_colon raw) ai rem in
  gloop (gfuel rem) args raw ai 1 = Some (gwithout_ops D) /\ skipn (gfin D - 1) args = gops D.
Proof.
  intros rem. induction rem as [|f rest IH1 IH2] using list_ind2; intros ai La E; cbv zeta.
  - split; [|exact E]. unfold gfuel. cbn [gloop length fold_right Nat.add]. unfold gnext. rewrite E. reflexivity.
  - assert (Stop : forall fuel, gr_option (gnext args raw ai 1) = None ->
                                gloop (S fuel) args raw ai 1 = Some ([], gr_ai (gnext args raw ai 1), true)).
    { intros fuel X. cbn [gloop]. rewrite X. reflexivity. }
    assert (E1 : skipn (ai + 1 - 1) args = rest).
    { replace (ai + 1 - 1)%nat with (S (ai - 1)) by lia. eapply skipn_cons_S; eauto. }
    rewrite gfuel_cons. cbn [Nat.add gdirect].
    destruct f as [|c0 [|c1 cs]].
    + split; [|exact E]. rewrite Stop; unfold gnext; rewrite E; reflexivity.
    + split; [|exact E]. rewrite Stop; unfold gnext; rewrite E;
        destruct (negb (N.eqb c0 HYPHEN)); cbn; reflexivity.
    + destruct (N.eqb_spec c0 HYPHEN) as [->|NE]; cbn [negb].
      2:{ split; [|exact E]. rewrite Stop; unfold gnext; rewrite E; apply N.eqb_neq in NE; rewrite NE; reflexivity. }
      destruct (str_eqb (c1 :: cs) [HYPHEN]) eqn:SEP.
      { split; [|exact E1]. rewrite Stop; unfold gnext; rewrite E, N.eqb_refl, SEP; reflexivity. }
      assert (NS := proj1 (str_eqb_neq _ _) SEP).
      pose proof (gloop_chars raw args ai (c1 :: cs) rest E NS (c1 :: cs) 1%nat) as CH.
      pose proof (gchars_consumed raw (starts_with_colon raw) ai rest (c1 :: cs) 1%nat ltac:(discriminate)) as CN.
      destruct (gchars raw (starts_with_colon raw) ai 1 (c1 :: cs) rest) as [[evs q] n].
      cbn [snd] in CN. destruct CN as [->|[-> [x [rest' ->]]]].
      * destruct (IH1 (ai + 1)%nat ltac:(lia) E1) as [L S1].
        rewrite gwithout_ops_prepend, gfin_prepend, gops_prepend. split; [|exact S1].
        specialize (CH (gfuel rest) _ ltac:(lia) eq_refl ltac:(discriminate) L).
        eapply gloop_mono_le; [|exact CH]. cbn [length]. lia.
      * assert (E2 : skipn (ai + 2 - 1) args = rest').
        { replace (ai + 2 - 1)%nat with (S (ai + 1 - 1)) by lia. eapply skipn_cons_S; eauto. }
        destruct (IH2 x rest' eq_refl (ai + 2)%nat ltac:(lia) E2) as [L S2].
        rewrite gwithout_ops_prepend, gfin_prepend, gops_prepend. split; [|exact S2].
        specialize (CH (gfuel rest') _ ltac:(lia) eq_refl ltac:(discriminate) L).
        eapply gloop_mono_le; [|exact CH]. rewrite gfuel_cons. cbn [length]. lia.
Qed.

Lemma getopts_run_direct raw args :
  getopts_run raw args = Some (gobserved (gdirect raw (starts_with_colon raw) 1 args)).
Proof.
  unfold getopts_run. destruct (gloop_direct raw args args 1%nat (le_n 1) eq_refl) as [L S1].
  rewrite L. destruct (gdirect raw (starts_with_colon raw) 1 args) as [[[evs fin] ops] q].
  cbn in *. rewrite S1. reflexivity.
Qed.

Lemma gvisible_run raw args :
  gvisible (getopts_run raw args) = Some (gstrip (gdirect raw (starts_with_colon raw) 1 args)).
Proof.
  rewrite getopts_run_direct.
  destruct (gdirect raw (starts_with_colon raw) 1 args) as [[[evs fin] ops] q]. reflexivity.
Qed.

Lemma gstrip_prepend evs q r :
  gstrip (gprepend evs q r) =
  match gstrip r with (ce, ops, q') => (map fst evs ++ ce, ops, q && q') end.
Proof. destruct r as [[[a b] c] d]. cbn. rewrite map_app. reflexivity. Qed.

(* the ($name, $OPTARG) of a group do not depend on the indices *)
Lemma gchars_strip raw colon rest : forall cs ai ci ai' ci',
  map fst (fst (fst (gchars raw colon ai ci cs rest))) = map fst (fst (fst (gchars raw colon ai' ci' cs rest)))
  /\ snd (fst (gchars raw colon ai ci cs rest)) = snd (fst (gchars raw colon ai' ci' cs rest))
  /\ snd (gchars raw colon ai ci cs rest) = snd (gchars raw colon ai' ci' cs rest).
Proof.
  induction cs as [|opt rem IH]; intros ai ci ai' ci'; cbn [gchars]; [auto|].
  destruct (gclass raw opt rem rest) as [[argument incr] err].
  destruct (greport colon (opt, argument, err)) as [[var optarg] quiet].
  destruct incr; [|cbn; auto].
  specialize (IH ai (ci + 1)%nat ai' (ci' + 1)%nat).
  destruct (gchars raw colon ai (ci + 1) rem rest) as [[evs q] n],
           (gchars raw colon ai' (ci' + 1) rem rest) as [[evs' q'] n'].
  cbn in *. destruct IH as [A [B C]]. rewrite A, B, C. auto.
Qed.

Lemma gdirect_strip raw colon : forall args ai ai',
  gstrip (gdirect raw colon ai args) = gstrip (gdirect raw colon ai' args).
Proof.
  intros args. induction args as [|f rest IH1 IH2] using list_ind2; intros ai ai'; [reflexivity|].
  cbn [gdirect]. destruct f as [|c0 [|c1 cs]]; try reflexivity.
  destruct (negb (N.eqb c0 HYPHEN)); [reflexivity|].
  destruct (str_eqb (c1 :: cs) [HYPHEN]); [reflexivity|].
  destruct (gchars_strip raw colon rest (c1 :: cs) ai 1%nat ai' 1%nat) as [A [B C]].
  pose proof (gchars_consumed raw colon ai rest (c1 :: cs) 1%nat ltac:(discriminate)) as CN.
  destruct (gchars raw colon ai 1 (c1 :: cs) rest) as [[evs q] n],
           (gchars raw colon ai' 1 (c1 :: cs) rest) as [[evs' q'] n'].
  cbn [fst snd] in A, B, C, CN. subst q' n'.
  destruct CN as [->|[-> [x [rest' ->]]]]; rewrite !gstrip_prepend, A.
  - rewrite (IH1 (ai + 1)%nat (ai' + 1)%nat). reflexivity.
  - rewrite (IH2 x rest' eq_refl (ai + 2)%nat (ai' + 2)%nat). reflexivity.
Qed.

Lemma gdirect_option raw colon ai c1 cs rest :
  str_eqb (c1 :: cs) [HYPHEN] = false ->
  gdirect raw colon ai ((HYPHEN :: c1 :: cs) :: rest) =
  let '(evs, q, n) := gchars raw colon ai 1 (c1 :: cs) rest in
  match n, rest with
  | S (S _), _ :: rest' => gprepend evs q (gdirect raw colon (ai + 2) rest')
  | _, _ => gprepend evs q (gdirect raw colon (ai + 1) rest)
  end.
Proof.
  intros X. remember (gchars raw colon ai 1 (c1 :: cs) rest) as G.
  cbn [gdirect]. rewrite N.eqb_refl. cbn [negb]. rewrite X, <- HeqG. reflexivity.
Qed.

Lemma gchars_cons raw colon ai ci opt rem rest :
  gchars raw colon ai ci (opt :: rem) rest =
  let '(argument, incr, err) := gclass raw opt rem rest in
  let '(var, optarg, quiet) := greport colon (opt, argument, err) in
  match incr with
  | O => let '(evs, q, n) := gchars raw colon ai (ci + 1) rem rest in
         ((var, optarg, (ai, (ci + 1)%nat)) :: evs, quiet && q, n)
  | S _ => ([(var, optarg, ((ai + incr)%nat, 1%nat))], quiet, incr)
  end.
Proof. reflexivity. Qed.

Lemma str_eqb_hyphen_long c c1 cs : str_eqb (c :: c1 :: cs) [HYPHEN] = false.
Proof. cbn. apply andb_false_r. Qed.

(* -xy...  =  -x -y...  for an option letter x that takes no argument — known
   or unknown — as long as what is split off is not `--`; at any position *)
Lemma gdirect_group_split raw colon ai c cs rest :
  judge raw c <> GTakesArg -> c <> HYPHEN -> cs <> [] -> cs <> [HYPHEN] ->
  gstrip (gdirect raw colon ai ((HYPHEN :: c :: cs) :: rest)) =
  gstrip (gdirect raw colon ai ([HYPHEN; c] :: (HYPHEN :: cs) :: rest)).
Proof.
  intros NT NH NE NS.
  destruct cs as [|c1 cs']; [congruence|].
  assert (X2 : str_eqb [c] [HYPHEN] = false) by (apply str_eqb_neq; congruence).
  assert (X3 := proj2 (str_eqb_neq _ _) NS).
  assert (GC : exists e, gclass raw c (c1 :: cs') rest = (None, 0%nat, e) /\
                         gclass raw c [] ((HYPHEN :: c1 :: cs') :: rest) = (None, 1%nat, e)).
  { unfold gclass. destruct (judge raw c); [eauto | congruence | eauto]. }
  destruct GC as [e [G1 G2]].
  rewrite (gdirect_option raw colon ai c (c1 :: cs') rest (str_eqb_hyphen_long _ _ _)).
  rewrite (gdirect_option raw colon ai c [] ((HYPHEN :: c1 :: cs') :: rest) X2).
  rewrite (gchars_cons raw colon ai 1 c (c1 :: cs') rest), G1.
  rewrite (gchars_cons raw colon ai 1 c [] ((HYPHEN :: c1 :: cs') :: rest)), G2.
  destruct (greport colon (c, None, e)) as [[var optarg] quiet].
  cbv beta iota zeta.
  rewrite (gdirect_option raw colon (ai + 1) c1 cs' rest X3).
  destruct (gchars_strip raw colon rest (c1 :: cs') ai (1 + 1)%nat (ai + 1)%nat 1%nat) as [A [B C]].
  destruct (gchars raw colon ai (1 + 1) (c1 :: cs') rest) as [[evs q] n],
           (gchars raw colon (ai + 1) 1 (c1 :: cs') rest) as [[evs' q'] n'].
  cbn [fst snd] in A, B, C. subst q' n'.
  assert (F : forall r r', gstrip r = gstrip r' ->
              gstrip (gprepend ((var, optarg, (ai, (1 + 1)%nat)) :: evs) (quiet && q) r) =
              gstrip (gprepend [(var, optarg, ((ai + 1)%nat, 1%nat))] quiet (gprepend evs' q r'))).
  { intros r r' R. rewrite !gstrip_prepend, R. cbn [map fst app]. rewrite A.
    destruct (gstrip r') as [[ce ops] q']. rewrite andb_assoc. reflexivity. }
  destruct n as [|[|n]]; [| |destruct rest as [|x rest']]; apply F; apply gdirect_strip.
Qed.

(* -oARG  =  -o ARG  for an option letter that takes an argument *)
Lemma gdirect_attached raw colon ai c a rest :
  judge raw c = GTakesArg -> c <> HYPHEN -> a <> [] ->
  gstrip (gdirect raw colon ai ((HYPHEN :: c :: a) :: rest)) =
  gstrip (gdirect raw colon ai ([HYPHEN; c] :: a :: rest)).
Proof.
  intros T NH NE.
  destruct a as [|a0 a']; [congruence|].
  assert (X2 : str_eqb [c] [HYPHEN] = false) by (apply str_eqb_neq; congruence).
  rewrite (gdirect_option raw colon ai c (a0 :: a') rest (str_eqb_hyphen_long _ _ _)).
  rewrite (gdirect_option raw colon ai c [] ((a0 :: a') :: rest) X2).
  rewrite (gchars_cons raw colon ai 1 c (a0 :: a') rest).
  rewrite (gchars_cons raw colon ai 1 c [] ((a0 :: a') :: rest)).
  unfold gclass. rewrite T. cbv beta iota zeta.
  destruct (greport colon _) as [[var optarg] quiet].
  cbv beta iota zeta. rewrite !gstrip_prepend. cbn [map fst app].
  rewrite (gdirect_strip raw colon rest (ai + 1)%nat (ai + 2)%nat). reflexivity.
Qed.

Lemma gtable_known_no_colon raw : forall s, In s (gtable_known raw) -> sp_short s <> Some COLON.
Proof.
  induction raw as [|x r IH]; intros s I; [destruct I|]. cbn [gtable_known] in I.
  destruct (N.eqb_spec x COLON) as [->|NE]; [auto|].
  destruct I as [<-|I]; [cbn; congruence | auto].
Qed.

(* judge = looking the letter up in the table of the option string *)
Lemma judge_find_short raw c : forall k,
  match find_short_from k (gtable_known raw) c with
  | Some (_, s) => judge raw c = if sp_arg s then GTakesArg else GNoArg
  | None => judge raw c = GUnknown
  end.
Proof.
  intros k. destruct (N.eqb_spec c COLON) as [->|NC].
  { (* a colon is never a letter of the option string *)
    pose proof (find_short_from_spec (gtable_known raw) COLON k) as H.
    destruct (find_short_from k (gtable_known raw) COLON) as [[i s]|]; [|reflexivity].
    destruct H as [n [_ [N [Sh _]]]]. exfalso. exact (gtable_known_no_colon raw s (nth_error_In _ _ N) Sh). }
  unfold judge. apply N.eqb_neq in NC. rewrite NC. revert k.
  induction raw as [|x r IH]; intros k; cbn [gtable_known find_after find_short_from]; [reflexivity|].
  destruct (N.eqb_spec x COLON) as [->|NX].
  - rewrite N.eqb_sym, NC. apply IH.
  - cbn [find_short_from sp_short option_eqb]. destruct (N.eqb_spec x c) as [->|NE].
    + cbn [sp_arg]. destruct r as [|n r']; cbn; [reflexivity|]. destruct (N.eqb n COLON); reflexivity.
    + apply IH.
Qed.

(* what the letter designated by entry [i] of the table is for getopts: a letter
   listed as unknown that the option string knows is never designated by its
   own entry, the entry of the option string comes first *)
Lemma first_short_judge raw unknown c i s :
  FirstShort (gtable raw unknown) c i s ->
  ((i < length (gtable_known raw))%nat /\ judge raw c = (if sp_arg s then GTakesArg else GNoArg))
  \/ ((length (gtable_known raw) <= i)%nat /\ judge raw c = GUnknown /\ sp_arg s = false).
Proof.
  intros FS. apply find_short_some in FS. unfold find_short, gtable in FS.
  rewrite find_short_from_app in FS. pose proof (judge_find_short raw c 0) as J.
  destruct (find_short_from 0 (gtable_known raw) c) as [[j s']|] eqn:F.
  - inversion FS; subst. left. destruct (find_short_from_bounds _ _ _ _ _ F) as [B _].
    split; [lia | exact J].
  - right. destruct (find_short_from_bounds _ _ _ _ _ FS) as [B [_ I]].
    apply in_map_iff in I. destruct I as [u [<- _]]. cbn. split; [lia|]. split; [exact J | reflexivity].
Qed.

Lemma expected_event_known raw unknown c i s oa :
  FirstShort (gtable raw unknown) c i s -> (i < length (gtable_known raw))%nat ->
  expected_event raw unknown (i, oa) = ([c], oa).
Proof.
  intros FS L. unfold expected_event. cbn [fst snd].
  rewrite (first_short_at _ _ _ _ FS). destruct FS as [_ [Sh _]]. rewrite Sh.
  apply Nat.ltb_lt in L. rewrite L. reflexivity.
Qed.

Lemma expected_event_unknown raw unknown c i s oa :
  FirstShort (gtable raw unknown) c i s -> (length (gtable_known raw) <= i)%nat ->
  expected_event raw unknown (i, oa) =
  if starts_with_colon raw then ([QUESTION], Some [c]) else ([QUESTION], None).
Proof.
  intros FS L. unfold expected_event. cbn [fst snd].
  rewrite (first_short_at _ _ _ _ FS). destruct FS as [_ [Sh _]]. rewrite Sh.
  apply Nat.ltb_ge in L. rewrite L. reflexivity.
Qed.

(* an argument-less letter, of the option string or not: what `next` classifies it
   as and what is reported for it *)
Lemma flag_report raw unknown c i s rem rest :
  FirstShort (gtable raw unknown) c i s -> sp_arg s = false ->
  exists err,
    gclass raw c rem rest = (None, match rem with [] => 1%nat | _ :: _ => 0%nat end, err) /\
    greport (starts_with_colon raw) (c, None, err) =
    (expected_event raw unknown (i, None), starts_with_colon raw || known_b raw (i, None)).
Proof.
  intros FS Ar. unfold gclass, known_b. cbn [fst].
  destruct (first_short_judge _ _ _ _ _ FS) as [[L J]|[L [J _]]]; [rewrite Ar in J|]; rewrite J;
    eexists; (split; [reflexivity|]).
  - rewrite (expected_event_known _ _ _ _ _ None FS L). apply Nat.ltb_lt in L. rewrite L, orb_true_r.
    reflexivity.
  - rewrite (expected_event_unknown _ _ _ _ _ None FS L). apply Nat.ltb_ge in L. rewrite L.
    destruct (starts_with_colon raw); reflexivity.
Qed.

(* a letter that takes an argument is one of the option string *)
Lemma arg_letter_known raw unknown c i s :
  FirstShort (gtable raw unknown) c i s -> sp_arg s = true ->
  judge raw c = GTakesArg
  /\ forall oa, expected_event raw unknown (i, oa) = ([c], oa) /\ known_b raw (i, oa) = true.
Proof.
  intros FS Ar. destruct (first_short_judge _ _ _ _ _ FS) as [[L J]|[L [J Ar']]]; [|congruence].
  rewrite Ar in J. split; [exact J|]. intros oa.
  split; [exact (expected_event_known _ _ _ _ _ oa FS L) | apply Nat.ltb_lt; exact L].
Qed.

Lemma gchars_shorts raw unknown cs extra os :
  Shorts (gtable raw unknown) gmode cs extra os -> cs <> [] ->
  forall ai ci rest,
  let r := gchars raw (starts_with_colon raw) ai ci cs (opt_list extra ++ rest) in
  map fst (fst (fst r)) = map (expected_event raw unknown) os
  /\ snd (fst r) = (starts_with_colon raw || forallb (known_b raw) os)
  /\ snd r = (1 + length (opt_list extra))%nat.
Proof.
  intros Sh. induction Sh as [|c i s cs extra os FS Ar Al Sh IH|c i s a FS Ar Al NE Sm|c i s a FS Ar Al];
    intros NEcs ai ci rest; [congruence| | |].
  - cbv zeta. rewrite gchars_cons. cbn [map forallb].
    destruct (flag_report raw unknown c i s cs (opt_list extra ++ rest) FS Ar) as [err [GC GR]].
    rewrite GC, GR. destruct (expected_event raw unknown (i, None)) as [var optarg].
    destruct cs as [|c1 cs'].
    + inversion Sh; subst. cbn [fst snd map forallb opt_list length]. rewrite andb_true_r. auto.
    + specialize (IH ltac:(discriminate) ai (ci + 1)%nat rest). cbv zeta in IH.
      destruct (gchars raw (starts_with_colon raw) ai (ci + 1) (c1 :: cs') (opt_list extra ++ rest)) as [[evs q] n].
      cbn [fst snd map] in *. destruct IH as [A [B C]].
      rewrite A, B, C. destruct (starts_with_colon raw); auto.
  - (* attached option-argument *)
    cbv zeta. rewrite gchars_cons. cbn [map forallb].
    destruct (arg_letter_known _ _ _ _ _ FS Ar) as [J K].
    unfold gclass. rewrite J, (proj1 (K _)), (proj2 (K _)). destruct a as [|a0 a']; [congruence|].
    cbn. rewrite orb_true_r. auto.
  - (* the next argument is the option-argument *)
    cbv zeta. rewrite gchars_cons. cbn [map forallb].
    destruct (arg_letter_known _ _ _ _ _ FS Ar) as [J K].
    unfold gclass. rewrite J, (proj1 (K _)), (proj2 (K _)). cbn. rewrite orb_true_r. auto.
Qed.

Lemma gdirect_plain raw colon ai ops :
  PlainStart ops -> gdirect raw colon ai ops = ([], ai, ops, true).
Proof.
  intros [->|[f [t [-> N]]]]; [reflexivity|]. cbn [gdirect].
  destruct f as [|c0 [|c1 cs]]; try reflexivity.
  destruct (N.eqb_spec c0 HYPHEN) as [->|NE]; [|reflexivity].
  exfalso. apply N. exists c1, cs. reflexivity.
Qed.

Lemma optfield_gmode raw unknown f extra os :
  OptField (gtable raw unknown) gmode f extra os ->
  exists c cs, f = HYPHEN :: c :: cs /\ c <> HYPHEN /\ Shorts (gtable raw unknown) gmode (c :: cs) extra os.
Proof.
  intros OF. destruct OF as [c cs extra os NE Sh|? ? ? ? ? ? ? [X _]|? ? ? ? ? ? ? [X _]|? ? ? ? ? ? ? ? [X _]];
    try discriminate X. eauto.
Qed.

Definition gexpect raw unknown (os : list cocc) (ops : list str) : list cevent_t * list str * bool :=
  (map (expected_event raw unknown) os, ops, starts_with_colon raw || forallb (known_b raw) os).

Lemma gdirect_optfield raw unknown f extra os rest ai :
  OptField (gtable raw unknown) gmode f extra os ->
  gstrip (gdirect raw (starts_with_colon raw) ai (f :: opt_list extra ++ rest)) =
  match gstrip (gdirect raw (starts_with_colon raw) ai rest) with
  | (ce, ops, q) => (map (expected_event raw unknown) os ++ ce, ops,
                     (starts_with_colon raw || forallb (known_b raw) os) && q)
  end.
Proof.
  intros OF. destruct (optfield_gmode _ _ _ _ _ OF) as [c [cs [-> [NE Sh]]]].
  assert (X : str_eqb (c :: cs) [HYPHEN] = false) by (apply str_eqb_neq; congruence).
  rewrite (gdirect_option _ _ _ _ _ _ X).
  pose proof (gchars_shorts raw unknown (c :: cs) extra os Sh ltac:(discriminate) ai 1%nat rest) as G.
  cbv zeta in G.
  destruct (gchars raw (starts_with_colon raw) ai 1 (c :: cs) (opt_list extra ++ rest)) as [[evs q] n].
  cbn [fst snd] in G. destruct G as [A [B C]]. subst q n.
  destruct extra as [a|]; cbn [opt_list app length Nat.add].
  - rewrite gstrip_prepend, A. rewrite (gdirect_strip raw _ rest (ai + 2)%nat ai). reflexivity.
  - destruct rest; rewrite gstrip_prepend, A, (gdirect_strip raw _ _ (ai + 1)%nat ai); reflexivity.
Qed.

Lemma gdirect_spells raw unknown os ops args :
  Spells (gtable raw unknown) gmode os ops args ->
  forall ai, gstrip (gdirect raw (starts_with_colon raw) ai args) = gexpect raw unknown os ops.
Proof.
  intros Sp. induction Sp as [ops P|ops|f extra os os' ops rest OF Sp IH]; intros ai; unfold gexpect.
  - rewrite gdirect_plain by exact P. cbn. rewrite orb_true_r. reflexivity.
  - assert (E : gdirect raw (starts_with_colon raw) ai (SEP :: ops) = ([], (ai + 1)%nat, ops, true)) by reflexivity.
    rewrite E. cbn. rewrite orb_true_r. reflexivity.
  - rewrite (gdirect_optfield _ _ _ _ _ _ _ OF), (IH ai). unfold gexpect.
    rewrite map_app, forallb_app. f_equal.
    destruct (starts_with_colon raw); cbn; [reflexivity|]. reflexivity.
Qed.

(* complete option fields in front: their events come first, then the loop
   goes on as if it started behind them *)
Lemma gdirect_optprefix raw unknown pre os :
  OptPrefix (gtable raw unknown) gmode pre os ->
  forall l ai,
  gstrip (gdirect raw (starts_with_colon raw) ai (pre ++ l)) =
  match gstrip (gdirect raw (starts_with_colon raw) ai l) with
  | (ce, ops, q) => (map (expected_event raw unknown) os ++ ce, ops,
                     (starts_with_colon raw || forallb (known_b raw) os) && q)
  end.
Proof.
  intros OP. induction OP as [|f extra os pre os' OF OP IH]; intros l ai.
  - cbn. destruct (gstrip (gdirect raw (starts_with_colon raw) ai l)) as [[ce ops] q].
    rewrite orb_true_r. reflexivity.
  - cbn [app]. rewrite <- app_assoc, (gdirect_optfield _ _ _ _ _ _ _ OF), (IH l ai).
    destruct (gstrip (gdirect raw (starts_with_colon raw) ai l)) as [[ce ops] q].
    rewrite map_app, forallb_app, app_assoc. f_equal.
    destruct (starts_with_colon raw); cbn; [reflexivity|]. apply andb_assoc.
Qed.

