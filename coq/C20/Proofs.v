(* C20 — the proof files gathered for Properties.v, and non-vacuity examples:
   concrete instances of the hypotheses of the theorems there ([Spells],
   [FirstShort], [Resolves], [OptPrefix], [Respell], [Malformed], [judge]) and
   of an oracle that both accepts and rejects. *)
From Yv Require Import Common.Base C20.Model C20.Spec C20.Getopts.
From Yv Require Export C20.ProofsNames C20.ProofsFields C20.ProofsMain
  C20.ProofsOracle C20.ProofsGetopts C20.ProofsKill.

(* -a/--long   -b/--lot   -o ARG/--other ARG *)
Definition ex_specs : list ospec :=
  [ mkSpec (Some 97%N) (Some [108; 111; 110; 103]%N) false false;
    mkSpec (Some 98%N) (Some [108; 111; 116]%N) false false;
    mkSpec (Some 111%N) (Some [111; 116; 104; 101; 114]%N) true false ].

Definition ex_X : str := [88%N].
Definition f_ab : str := [45; 97; 98]%N.                          (* -ab *)
Definition f_a : str := [45; 97]%N.                               (* -a *)
Definition f_b : str := [45; 98]%N.                               (* -b *)
Definition f_oX : str := [45; 111; 88]%N.                         (* -oX *)
Definition f_o : str := [45; 111]%N.                              (* -o *)
Definition f_lon : str := [45; 45; 108; 111; 110]%N.              (* --lon *)
Definition f_lo : str := [45; 45; 108; 111]%N.                    (* --lo *)
Definition f_other_eq : str := [45; 45; 111; 116; 61; 88]%N.      (* --ot=X *)

(* `-ab -oX X` spells the invocation (a, b, o=X; X) ... *)
Example ex_spells_1 :
  Spells ex_specs with_extensions [(0, None); (1, None); (2, Some ex_X)]%nat [ex_X]
         [f_ab; f_oX; ex_X].
Proof. apply spells_b_sound. vm_compute. reflexivity. Qed.

(* ... and so does `--lon -b --ot=X -- X` *)
Example ex_spells_2 :
  Spells ex_specs with_extensions [(0, None); (1, None); (2, Some ex_X)]%nat [ex_X]
         [f_lon; f_b; f_other_eq; SEP; ex_X].
Proof. apply spells_b_sound. vm_compute. reflexivity. Qed.

Example ex_first_short : FirstShort ex_specs 97%N 0%nat (spec_at ex_specs 0).
Proof. apply find_short_some. vm_compute. reflexivity. Qed.

Example ex_first_short_o : FirstShort ex_specs 111%N 2%nat (spec_at ex_specs 2).
Proof. apply find_short_some. vm_compute. reflexivity. Qed.

Example ex_resolves : Resolves ex_specs [108; 111; 110]%N 0%nat (spec_at ex_specs 0).
Proof.
  apply resolves_b_at. vm_compute. reflexivity.
Qed.

(* `-a` is a complete option field in front of something *)
Example ex_optprefix : OptPrefix ex_specs with_extensions [f_a] [(0%nat, None)].
Proof.
  apply (OP_cons ex_specs with_extensions f_a None [(0%nat, None)] [] []); [|constructor].
  apply OF_short; [discriminate|].
  eapply Sh_flag; [exact ex_first_short | reflexivity | discriminate | constructor].
Qed.

(* `-a -ab` can be respelled `-a -a -b` (grouping, behind a complete field) *)
Example ex_respell :
  Respell ex_specs with_extensions [f_a; f_ab] [f_a; f_a; f_b].
Proof.
  apply (RS_step ex_specs with_extensions [f_a] [(0%nat, None)] [f_ab] [f_a; f_b]).
  - exact ex_optprefix.
  - eapply RW_group; [exact ex_first_short | reflexivity | discriminate | discriminate | discriminate].
Qed.

(* `-a --lo` is malformed: `lo` is a prefix of both `long` and `lot` *)
Example ex_malformed : Malformed ex_specs with_extensions [f_a; f_lo] DAmbiguous.
Proof.
  exact (parse_err_malformed ex_specs with_extensions [f_a; f_lo]
           (AmbiguousLong f_lo [0; 1]%nat) eq_refl).
Qed.

(* `-ab -o` is malformed: the argument of -o is missing *)
Example ex_malformed_missing : Malformed ex_specs with_extensions [f_ab; f_o] DMissingArg.
Proof.
  exact (parse_err_malformed ex_specs with_extensions [f_ab; f_o] (MissingArg f_o 2%nat) eq_refl).
Qed.

(* getopts: `-axb arg` with the option string `ab:` (x unknown, then more
   characters in the same group) and its separate spelling *)
Example ex_getopts_unknown_in_group :
  gvisible (getopts_run [97; 98; 58]%N [[45; 97; 120; 98]%N; [97; 114; 103]%N])
  = Some ([([97]%N, None); ([63]%N, None); ([98]%N, Some [97; 114; 103]%N)], [], false)
  /\ gvisible (getopts_run [97; 98; 58]%N [[45; 97]%N; [45; 120]%N; [45; 98]%N; [97; 114; 103]%N])
     = gvisible (getopts_run [97; 98; 58]%N [[45; 97; 120; 98]%N; [97; 114; 103]%N]).
Proof. split; vm_compute; reflexivity. Qed.

Example ex_getopts_judge : judge [97; 98; 58]%N 120%N <> GTakesArg /\ judge [97; 98; 58]%N 98%N = GTakesArg.
Proof. split; [vm_compute; discriminate | reflexivity]. Qed.

(* a result the oracle accepts *)
Example ex_oracle_accepts :
  oracle_parse ex_specs with_extensions [f_ab; f_oX; ex_X]
    (Ok [mkOcc 0 f_ab (Short 1) None; mkOcc 1 f_ab (Short 2) None;
         mkOcc 2 f_oX (Short 1) (Some (ex_X, f_oX))] [ex_X]) = None.
Proof. vm_compute. reflexivity. Qed.

(* ... and the oracle is not trivially quiet: dropping an option, keeping `--`
   as an operand, or accepting an ambiguous prefix are all rejected *)
Example ex_oracle_rejects_1 :
  oracle_parse ex_specs with_extensions [f_ab; ex_X] (Ok [mkOcc 0 f_ab (Short 1) None] [ex_X]) = Some 0%N.
Proof. vm_compute. reflexivity. Qed.
Example ex_oracle_rejects_2 :
  oracle_parse ex_specs with_extensions [f_a; SEP; ex_X] (Ok [mkOcc 0 f_a (Short 1) None] [SEP; ex_X]) = Some 0%N.
Proof. vm_compute. reflexivity. Qed.
Example ex_oracle_rejects_3 :
  oracle_parse ex_specs with_extensions [f_lo] (Ok [mkOcc 0 f_lo Long None] []) = Some 0%N.
Proof. vm_compute. reflexivity. Qed.
Example ex_oracle_rejects_4 :
  oracle_parse ex_specs with_extensions [f_lon] (Err (UnknownLong f_lon)) = Some 1%N.
Proof. vm_compute. reflexivity. Qed.
