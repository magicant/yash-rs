(* C20 — the parser against the grammar of spellings: [parse_step] is its step
   on what [first_field] makes of the first field; the theorems are inductions
   on it, with [first_field_struct] for the grammar's side.  Then the rewrite
   rules of the syntax guidelines: both sides of a rule are read through
   [cstep], the spelling-independent content of a field. *)
From Yv Require Import Common.Base C20.Model C20.Spec C20.ProofsNames C20.ProofsFields.

Lemma prepend_ok os r os' ops :
  prepend os r = Ok os' ops -> exists os2, r = Ok os2 ops /\ os' = os ++ os2.
Proof. destruct r; cbn; intros E; inversion E; eauto. Qed.

Lemma prepend_err os r e : prepend os r = Err e -> r = Err e.
Proof. destruct r; cbn; intros E; inversion E; eauto. Qed.

Definition lift (cos : list cocc) (x : option (list cocc * list str)) :=
  match x with Some (c, ops) => Some (cos ++ c, ops) | None => None end.

Lemma canon_prepend os r : canon (prepend os r) = lift (map canon_occ os) (canon r).
Proof. destruct r; cbn; [rewrite map_app|]; reflexivity. Qed.

Lemma parse_sep specs m ops : parse specs m (SEP :: ops) = Ok [] ops.
Proof. reflexivity. Qed.

Lemma parse_plain specs m ops : PlainStart ops -> parse specs m ops = Ok [] ops.
Proof.
  intros [->|[f [t [-> N]]]]; [reflexivity|].
  destruct (plain_field f N) as [S [L P]]. cbn [parse]. rewrite S, L, P. reflexivity.
Qed.

Lemma malformed_cons specs m f extra os args d :
  OptField specs m f extra os -> Malformed specs m args d ->
  Malformed specs m (f :: opt_list extra ++ args) d.
Proof.
  intros OF [pre [os' [b [rest [-> [OP BF]]]]]].
  exists (f :: opt_list extra ++ pre), (os ++ os'), b, rest. split; [|split; [|exact BF]].
  - cbn. rewrite <- app_assoc. reflexivity.
  - apply OP_cons; assumption.
Qed.

Lemma malformed_here specs m f rest d :
  BadField specs m f rest d -> Malformed specs m (f :: rest) d.
Proof. intros BF. exists [], [], f, rest. split; [reflexivity|]. split; [constructor | exact BF]. Qed.

Lemma parse_step specs m f rest :
  parse specs m (f :: rest) =
  match first_field specs m f with
  | FErr e => Err e
  | FDone os => prepend os (parse specs m rest)
  | FNeed os i sp =>
      match rest with
      | [] => Err (MissingArg f i)
      | a :: rest' => prepend (os ++ [mkOcc i f sp (Some (a, a))]) (parse specs m rest')
      end
  | FEnd => if is_separator f then Ok [] rest else Ok [] (f :: rest)
  end.
Proof.
  unfold first_field, field_of_short, field_of_long. cbn [parse]. destruct (is_short_field f).
  - destruct (short_chars specs m f 1 (skipn 1 f)); reflexivity.
  - destruct (is_long_field f); [destruct (long_field specs m f); reflexivity | reflexivity].
Qed.

(* [parse_step] at a group of short options and at a long option *)
Lemma parse_short_step specs m c cs rest :
  c <> HYPHEN ->
  parse specs m ((HYPHEN :: c :: cs) :: rest) =
  let f := HYPHEN :: c :: cs in
  match short_chars specs m f 1 (c :: cs) with
  | SErr e => Err e
  | SDone os => prepend os (parse specs m rest)
  | SNeed os i idx =>
      match rest with
      | [] => Err (MissingArg f i)
      | a :: rest' => prepend (os ++ [mkOcc i f (Short idx) (Some (a, a))]) (parse specs m rest')
      end
  end.
Proof.
  intros NE. rewrite parse_step. unfold first_field, field_of_short. rewrite is_short_field_intro by exact NE.
  cbn [skipn]. destruct (short_chars specs m (HYPHEN :: c :: cs) 1 (c :: cs)); reflexivity.
Qed.

Lemma parse_long_step specs m body rest :
  body <> [] ->
  parse specs m ((HYPHEN :: HYPHEN :: body) :: rest) =
  let f := HYPHEN :: HYPHEN :: body in
  match long_field specs m f with
  | LErr e => Err e
  | LDone o => prepend [o] (parse specs m rest)
  | LNeed i =>
      match rest with
      | [] => Err (MissingArg f i)
      | a :: rest' => prepend [mkOcc i f Long (Some (a, a))] (parse specs m rest')
      end
  end.
Proof.
  intros NE. rewrite parse_step. unfold first_field, field_of_long. destruct (is_long_field_intro body NE) as [-> ->].
  destruct (long_field specs m (HYPHEN :: HYPHEN :: body)); reflexivity.
Qed.

Lemma parse_complete specs m : forall args os ops,
  parse specs m args = Ok os ops -> Spells specs m (map canon_occ os) ops args.
Proof.
  intros args. induction args as [|f rest IH1 IH2] using list_ind2; intros os ops E.
  - cbn in E. inversion E; subst. apply Sp_plain. left. reflexivity.
  - rewrite parse_step in E. pose proof (first_field_struct specs m f) as H. unfold field_reads in H.
    destruct (first_field specs m f) as [e|os1|os1 i sp|].
    + discriminate.
    + apply prepend_ok in E. destruct E as [os2 [E ->]]. rewrite map_app.
      apply (Sp_opt specs m f None); [exact H | apply IH1; exact E].
    + destruct H as [OF _]. destruct rest as [|a rest']; [discriminate|].
      apply prepend_ok in E. destruct E as [os2 [E ->]]. rewrite map_app.
      apply (Sp_opt specs m f (Some a)); [apply OF | apply (IH2 a rest' eq_refl); exact E].
    + destruct H as [SF LF]. destruct (is_separator f) eqn:SP; inversion E; subst.
      * apply str_eqb_eq in SP. subst f. apply Sp_sep.
      * apply Sp_plain. right. exists f, rest. split; [reflexivity | apply not_option_field; assumption].
Qed.

Lemma parse_err_malformed specs m : forall args e,
  parse specs m args = Err e -> Malformed specs m args (class_of e).
Proof.
  intros args. induction args as [|f rest IH1 IH2] using list_ind2; intros e E.
  - discriminate.
  - rewrite parse_step in E. pose proof (first_field_struct specs m f) as H. unfold field_reads in H.
    destruct (first_field specs m f) as [e'|os1|os1 i sp|].
    + inversion E; subst e'. apply malformed_here, H.
    + apply prepend_err in E.
      apply (malformed_cons specs m f None (map canon_occ os1) rest); [exact H | apply IH1; exact E].
    + destruct H as [OF BF]. destruct rest as [|a rest'].
      * inversion E; subst e. apply malformed_here. exact BF.
      * apply prepend_err in E.
        eapply (malformed_cons specs m f (Some a)); [apply OF | apply (IH2 a rest' eq_refl); exact E].
    + destruct (is_separator f); discriminate.
Qed.

Lemma parse_long_resolved specs m body name oeq i s rest :
  body <> [] -> split_eq body = (name, oeq) -> Resolves specs name i s -> LongAllowed m s ->
  parse specs m ((HYPHEN :: HYPHEN :: body) :: rest) =
  let f := HYPHEN :: HYPHEN :: body in
  match sp_arg s, oeq with
  | false, None => prepend [mkOcc i f Long None] (parse specs m rest)
  | false, Some _ => Err (UnexpectedArg f i)
  | true, Some a => prepend [mkOcc i f Long (Some (a, f))] (parse specs m rest)
  | true, None =>
      match rest with
      | [] => Err (MissingArg f i)
      | a :: rest' => prepend [mkOcc i f Long (Some (a, a))] (parse specs m rest')
      end
  end.
Proof.
  intros NN SE R Al. rewrite parse_long_step by exact NN. cbv zeta.
  rewrite (long_field_resolved specs m body name oeq i s SE R). cbv zeta.
  apply long_allowed_b_spec in Al. rewrite Al. destruct (sp_arg s), oeq; reflexivity.
Qed.

Lemma optfield_parse specs m f extra cos :
  OptField specs m f extra cos ->
  exists os, map canon_occ os = cos /\ forall rest,
             parse specs m (f :: opt_list extra ++ rest) = prepend os (parse specs m rest).
Proof.
  intros OF. destruct OF as [c cs extra os NE Sh|name i s NN NI R Ar Al|name a i s NI R Ar Al|name a i s NN NI R Ar Al].
  - pose proof (shorts_short_chars _ _ _ _ _ Sh (HYPHEN :: c :: cs) 1%N) as H.
    destruct extra as [a|].
    + destruct H as [os1 [i [idx' [E C]]]].
      exists (os1 ++ [mkOcc i (HYPHEN :: c :: cs) (Short idx') (Some (a, a))]).
      split; [rewrite map_app; exact C|].
      intros rest. rewrite parse_short_step by exact NE. cbv zeta. rewrite E. reflexivity.
    + destruct H as [os1 [E C]]. exists os1. split; [exact C|].
      intros rest. rewrite parse_short_step by exact NE. cbv zeta. rewrite E. reflexivity.
  - exists [mkOcc i (HYPHEN :: HYPHEN :: name) Long None]. split; [reflexivity|]. intros rest.
    rewrite (parse_long_resolved specs m name name None i s _ NN (split_eq_noeq _ NI) R Al), Ar. reflexivity.
  - assert (NN : name ++ EQUAL :: a <> []) by (destruct name; discriminate).
    set (f := HYPHEN :: HYPHEN :: name ++ EQUAL :: a).
    exists [mkOcc i f Long (Some (a, f))]. split; [reflexivity|]. intros rest. subst f.
    rewrite (parse_long_resolved specs m _ name (Some a) i s _ NN (split_eq_eq _ _ NI) R Al), Ar. reflexivity.
  - exists [mkOcc i (HYPHEN :: HYPHEN :: name) Long (Some (a, a))]. split; [reflexivity|]. intros rest.
    rewrite (parse_long_resolved specs m name name None i s _ NN (split_eq_noeq _ NI) R Al), Ar. reflexivity.
Qed.

Lemma parse_sound specs m cos ops args :
  Spells specs m cos ops args -> canon (parse specs m args) = Some (cos, ops).
Proof.
  induction 1 as [ops P|ops|f extra os os' ops rest OF Sp IH].
  - rewrite parse_plain by exact P. reflexivity.
  - rewrite parse_sep. reflexivity.
  - destruct (optfield_parse _ _ _ _ _ OF) as [os1 [C E]].
    rewrite E, canon_prepend, IH, C. reflexivity.
Qed.

Lemma optprefix_parse specs m pre cos :
  OptPrefix specs m pre cos ->
  exists os, map canon_occ os = cos /\
             forall rest, parse specs m (pre ++ rest) = prepend os (parse specs m rest).
Proof.
  induction 1 as [|f extra os pre os' OF OP IH].
  - exists []. split; [reflexivity|]. intros rest. cbn [app]. destruct (parse specs m rest); reflexivity.
  - destruct IH as [os2 [C2 E2]].
    pose proof (optfield_parse _ _ _ _ _ OF) as X.
    destruct X as [os1 [C1 E1]]. exists (os1 ++ os2). split.
    + rewrite map_app, C1, C2. reflexivity.
    + intros rest. cbn [app]. rewrite <- app_assoc, E1, E2.
      destruct (parse specs m rest); cbn; [rewrite app_assoc|]; reflexivity.
Qed.

(* a group with a prefix of flags ends as the rest of it does *)
Lemma parse_short_err specs m c0 cs pre c post rest e :
  c0 <> HYPHEN -> c0 :: cs = pre ++ c :: post -> Flags specs m pre ->
  (forall idx, short_end (short_chars specs m (HYPHEN :: c0 :: cs) idx (c :: post)) = SErr e) ->
  parse specs m ((HYPHEN :: c0 :: cs) :: rest) = Err e.
Proof.
  intros NE Ecs Fl E. rewrite parse_short_step by exact NE. cbv zeta.
  destruct (short_chars_flags specs m (HYPHEN :: c0 :: cs) pre Fl (c :: post) 1%N) as [idx' E'].
  rewrite <- Ecs, E in E'.
  destruct (short_chars specs m (HYPHEN :: c0 :: cs) 1 (c0 :: cs)); inversion E'. reflexivity.
Qed.

Lemma parse_short_need_nil specs m c0 cs pre c i :
  c0 <> HYPHEN -> c0 :: cs = pre ++ [c] -> Flags specs m pre ->
  (forall idx, short_end (short_chars specs m (HYPHEN :: c0 :: cs) idx [c]) = SNeed [] i 0) ->
  parse specs m [HYPHEN :: c0 :: cs] = Err (MissingArg (HYPHEN :: c0 :: cs) i).
Proof.
  intros NE Ecs Fl E. rewrite parse_short_step by exact NE. cbv zeta.
  destruct (short_chars_flags specs m (HYPHEN :: c0 :: cs) pre Fl [c] 1%N) as [idx' E'].
  rewrite <- Ecs, E in E'.
  destruct (short_chars specs m (HYPHEN :: c0 :: cs) 1 (c0 :: cs)); inversion E'. reflexivity.
Qed.

Lemma badfield_parse specs m f rest d :
  BadField specs m f rest d -> exists e, parse specs m (f :: rest) = Err e /\ class_of e = d.
Proof.
  intros BF.
  destruct BF as [c0 cs pre c post rest NE Ecs Fl NS
                 |c0 cs pre c post rest i s NE Ecs Fl FS NA
                 |c0 cs pre c post rest i s NE Ecs Fl FS Al Ar NP Sm
                 |c0 cs pre c i s NE Ecs Fl FS Al Ar
                 |body name oa rest NN SE NL
                 |body name oa rest NN SE Am
                 |body name oa rest i s NN SE R NA
                 |body name a rest i s SE R Al Ar
                 |body name i s NN SE R Al Ar].
  - exists (UnknownShort c (HYPHEN :: c0 :: cs)). split; [|reflexivity].
    apply (parse_short_err _ _ _ _ _ _ _ _ _ NE Ecs Fl). intros idx.
    cbn [short_chars]. apply find_short_none in NS. rewrite NS. reflexivity.
  - exists (NonPortableShort c (HYPHEN :: c0 :: cs) i). split; [|reflexivity].
    apply (parse_short_err _ _ _ _ _ _ _ _ _ NE Ecs Fl). intros idx.
    cbn [short_chars]. apply find_short_some in FS. rewrite FS, short_test.
    apply short_allowed_b_false in NA. rewrite NA. reflexivity.
  - exists (Unseparated (HYPHEN :: c0 :: cs) i). split; [|reflexivity].
    apply (parse_short_err _ _ _ _ _ _ _ _ _ NE Ecs Fl). intros idx.
    rewrite (short_chars_first _ _ _ _ _ _ _ _ FS Al), Ar, Sm. destruct post; [congruence|]. reflexivity.
  - exists (MissingArg (HYPHEN :: c0 :: cs) i). split; [|reflexivity].
    apply (parse_short_need_nil _ _ _ _ _ _ _ NE Ecs Fl). intros idx.
    rewrite (short_chars_first _ _ _ _ _ _ _ _ FS Al), Ar. reflexivity.
  - rewrite parse_long_step by exact NN. cbv zeta. unfold long_field. cbn [skipn]. rewrite SE.
    apply long_match_unknown in NL. rewrite NL. eexists. split; reflexivity.
  - rewrite parse_long_step by exact NN. cbv zeta. unfold long_field. cbn [skipn]. rewrite SE.
    apply ambiguous_long_match in Am. destruct Am as [l [-> L]].
    destruct l as [|a l]; [cbn in L; lia|]. eexists. split; reflexivity.
  - rewrite parse_long_step by exact NN. cbv zeta.
    rewrite (long_field_resolved specs m body name oa i s SE R). cbv zeta.
    apply long_allowed_b_false in NA. rewrite NA. eexists. split; reflexivity.
  - assert (NN : body <> []) by (intros ->; discriminate SE).
    rewrite (parse_long_resolved specs m body name (Some a) i s _ NN SE R Al), Ar.
    eexists. split; reflexivity.
  - rewrite (parse_long_resolved specs m body name None i s _ NN SE R Al), Ar.
    eexists. split; reflexivity.
Qed.

(* the spelling-independent content of what one field contributes *)
Inductive cfield :=
| CErr
| CDone (cos : list cocc)
| CNeed (cos : list cocc) (i : nat).

Definition cshort_of (r : short_res) : cfield :=
  match r with
  | SErr _ => CErr
  | SDone os => CDone (map canon_occ os)
  | SNeed os i _ => CNeed (map canon_occ os) i
  end.

Definition clong_of (r : long_res) : cfield :=
  match r with
  | LErr _ => CErr
  | LDone o => CDone [canon_occ o]
  | LNeed i => CNeed [] i
  end.

Definition cstep (cf : cfield) (rest : list str) (k : list str -> option (list cocc * list str)) :=
  match cf with
  | CErr => None
  | CDone cos => lift cos (k rest)
  | CNeed cos i =>
      match rest with
      | [] => None
      | a :: rest' => lift (cos ++ [(i, Some a)]) (k rest')
      end
  end.

Lemma canon_parse_short specs m c cs rest :
  c <> HYPHEN ->
  canon (parse specs m ((HYPHEN :: c :: cs) :: rest)) =
  cstep (cshort_of (short_chars specs m (HYPHEN :: c :: cs) 1 (c :: cs))) rest
        (fun l => canon (parse specs m l)).
Proof.
  intros NE. rewrite parse_short_step by exact NE. cbv zeta.
  destruct (short_chars specs m (HYPHEN :: c :: cs) 1 (c :: cs)) as [e|os|os i idx]; cbn [cshort_of cstep].
  - reflexivity.
  - apply canon_prepend.
  - destruct rest as [|a rest']; [reflexivity|]. rewrite canon_prepend, map_app. reflexivity.
Qed.

Lemma canon_parse_long specs m body rest :
  body <> [] ->
  canon (parse specs m ((HYPHEN :: HYPHEN :: body) :: rest)) =
  cstep (clong_of (long_field specs m (HYPHEN :: HYPHEN :: body))) rest
        (fun l => canon (parse specs m l)).
Proof.
  intros NE. rewrite parse_long_step by exact NE. cbv zeta.
  destruct (long_field specs m (HYPHEN :: HYPHEN :: body)) as [e|o|i]; cbn [clong_of cstep].
  - reflexivity.
  - apply canon_prepend.
  - destruct rest as [|a rest']; [reflexivity|]. rewrite canon_prepend. reflexivity.
Qed.

Definition ccons (c : cocc) (cf : cfield) : cfield :=
  match cf with
  | CErr => CErr
  | CDone cos => CDone (c :: cos)
  | CNeed cos i => CNeed (c :: cos) i
  end.

Lemma cshort_cons o r : cshort_of (short_cons o r) = ccons (canon_occ o) (cshort_of r).
Proof. destruct r; reflexivity. Qed.

(* the content of a group does not depend on the field text or the byte offset *)
Lemma cshort_indep specs m cs : forall f idx f' idx',
  cshort_of (short_chars specs m f idx cs) = cshort_of (short_chars specs m f' idx' cs).
Proof.
  induction cs as [|c cs IH]; intros f idx f' idx'; cbn [short_chars]; [reflexivity|].
  destruct (find_short specs c) as [[i s]|]; [|reflexivity].
  destruct (sp_ext s && negb (m_ext m)); [reflexivity|].
  destruct (sp_arg s).
  - destruct cs; [reflexivity|]. destruct (m_same m); reflexivity.
  - rewrite !cshort_cons. rewrite (IH f (idx + utf8_len c)%N f' (idx' + utf8_len c)%N). reflexivity.
Qed.

Lemma lift_lift a b x : lift a (lift b x) = lift (a ++ b) x.
Proof. destruct x as [[c ops]|]; cbn; [rewrite app_assoc|]; reflexivity. Qed.

Lemma cstep_ccons c cf rest k : cstep (ccons c cf) rest k = lift [c] (cstep cf rest k).
Proof.
  destruct cf as [|cos|cos i]; cbn; [reflexivity| |].
  - rewrite lift_lift. reflexivity.
  - destruct rest; [reflexivity|]. rewrite lift_lift. reflexivity.
Qed.

(* each rule of the guidelines, read by the parser on both sides *)
Theorem rewrite_same specs m l r :
  Rewrite specs m l r -> canon (parse specs m l) = canon (parse specs m r).
Proof.
  intros RW.
  destruct RW as [c i s c' cs rest FS Ar Al NE NE'|c i s a rest FS Ar Sm NE NA
                 |name i s a rest R Ar NN NI|p q i s rest Rp Rq NP NQ IP IQ
                 |p q i s a rest Rp Rq IP IQ|c name i s rest FS R Al NE NN NI|ops P].
  - (* -xy... = -x -y...: the group continues with the same content, whatever the
       field text and the byte offsets *)
    rewrite !canon_parse_short by assumption.
    rewrite !(short_chars_first specs m _ _ c _ i s FS Al), Ar.
    rewrite !cshort_cons, !cstep_ccons.
    change (short_chars specs m [HYPHEN; c] (1 + utf8_len c) []) with (SDone []).
    cbn [cshort_of map cstep lift app].
    rewrite canon_parse_short by assumption.
    rewrite (cshort_indep specs m (c' :: cs) (HYPHEN :: c :: c' :: cs) (1 + utf8_len c)%N (HYPHEN :: c' :: cs) 1%N).
    cbn [canon_occ o_spec o_arg option_map].
    destruct (cstep _ rest _) as [[x y]|]; reflexivity.
  - (* -oARG = -o ARG *)
    rewrite !canon_parse_short by assumption.
    apply find_short_some in FS. cbn [short_chars]. rewrite FS, Ar, Sm.
    destruct (sp_ext s && negb (m_ext m)); [reflexivity|].
    destruct a as [|a0 a]; [congruence|]. reflexivity.
  - (* --name=ARG = --name ARG *)
    rewrite !canon_parse_long by (try assumption; destruct name; discriminate).
    rewrite (long_field_resolved specs m _ name (Some a) i s (split_eq_eq _ _ NI) R).
    rewrite (long_field_resolved specs m _ name None i s (split_eq_noeq _ NI) R).
    cbv zeta. rewrite Ar. destruct (long_allowed_b m s); reflexivity.
  - (* --p = --q *)
    rewrite !canon_parse_long by assumption.
    rewrite (long_field_resolved specs m _ p None i s (split_eq_noeq _ IP) Rp).
    rewrite (long_field_resolved specs m _ q None i s (split_eq_noeq _ IQ) Rq).
    cbv zeta. destruct (long_allowed_b m s), (sp_arg s); reflexivity.
  - (* --p=ARG = --q=ARG *)
    rewrite !canon_parse_long by (destruct p + destruct q; discriminate).
    rewrite (long_field_resolved specs m _ p (Some a) i s (split_eq_eq _ _ IP) Rp).
    rewrite (long_field_resolved specs m _ q (Some a) i s (split_eq_eq _ _ IQ) Rq).
    cbv zeta. destruct (long_allowed_b m s), (sp_arg s); reflexivity.
  - (* -x = --name *)
    rewrite canon_parse_short, canon_parse_long by assumption.
    rewrite (long_field_resolved specs m _ name None i s (split_eq_noeq _ NI) R). cbv zeta.
    rewrite (short_chars_first specs m _ _ c _ i s FS (proj2 Al)).
    apply long_allowed_b_spec in Al. rewrite Al. destruct (sp_arg s); reflexivity.
  - (* operands = -- operands *)
    rewrite parse_plain by exact P. reflexivity.
Qed.
