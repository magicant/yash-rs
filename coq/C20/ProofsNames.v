(* C20 — how the model resolves option names (find_short, long_match), against
   the declarative relations of Spec.v and against the oracle's boolean forms;
   the bridge between the three is the oracle's [indices]. *)
From Yv Require Import Common.Base C20.Model C20.Spec C20.Typeset C20.Tables.

Lemma str_eqb_refl a : str_eqb a a = true.
Proof. apply str_eqb_eq. reflexivity. Qed.

Lemma str_eqb_neq a b : str_eqb a b = false <-> a <> b.
Proof. rewrite <- str_eqb_eq. destruct (str_eqb a b); split; congruence. Qed.

Lemma prefixb_spec p s : prefixb p s = true <-> Prefix p s.
Proof.
  revert s; induction p as [|a p IH]; intros s; cbn.
  - split; [intros _; exists s; reflexivity | reflexivity].
  - destruct s as [|b s].
    + split; [discriminate | intros [t E]; discriminate].
    + rewrite andb_true_iff, N.eqb_eq, IH. split.
      * intros [-> [t ->]]. exists t. reflexivity.
      * intros [t E]. cbn in E. inversion E; subst. split; [reflexivity | exists t; reflexivity].
Qed.

Lemma prefix_same_length p s : Prefix p s -> length s = length p -> s = p.
Proof.
  intros [t ->] L. rewrite app_length in L.
  destruct t; [apply app_nil_r | cbn in L; lia].
Qed.

Lemma prefix_refl p : Prefix p p.
Proof. exists []. symmetry. apply app_nil_r. Qed.

Lemma split_eq_spec s :
  match split_eq s with
  | (name, None) => s = name /\ ~ In EQUAL name
  | (name, Some a) => s = name ++ EQUAL :: a /\ ~ In EQUAL name
  end.
Proof.
  induction s as [|c s IH]; cbn.
  - split; [reflexivity | intros []].
  - destruct (N.eqb_spec c EQUAL) as [->|NE].
    + split; [reflexivity | intros []].
    + destruct (split_eq s) as [name [a|]]; destruct IH as [-> NI]; (split; [reflexivity|]);
        intros [E|I]; auto.
Qed.

Lemma split_eq_noeq name : ~ In EQUAL name -> split_eq name = (name, None).
Proof.
  induction name as [|c s IH]; cbn; intros NI; [reflexivity|].
  destruct (N.eqb_spec c EQUAL) as [->|NE]; [exfalso; auto|].
  rewrite IH by auto. reflexivity.
Qed.

Lemma split_eq_eq name a : ~ In EQUAL name -> split_eq (name ++ EQUAL :: a) = (name, Some a).
Proof.
  induction name as [|c s IH]; cbn; intros NI.
  - reflexivity.
  - destruct (N.eqb_spec c EQUAL) as [->|NE]; [exfalso; auto|].
    rewrite IH by auto. reflexivity.
Qed.

Lemma nth_error_firstn_lt {A} (l : list A) : forall i j,
  (j < i)%nat -> nth_error (firstn i l) j = nth_error l j.
Proof.
  induction l as [|a l IH]; intros i j L.
  - rewrite firstn_nil. reflexivity.
  - destruct i; [lia|]. destruct j; cbn; [reflexivity|]. apply IH. lia.
Qed.

(* induction for functions that consume one or two arguments per step *)
Lemma list_ind2 {A} (P : list A -> Prop) :
  P [] ->
  (forall f rest, P rest -> (forall a rest', rest = a :: rest' -> P rest') -> P (f :: rest)) ->
  forall l, P l.
Proof.
  intros H0 HS.
  assert (H : forall l, P l /\ (forall a rest', l = a :: rest' -> P rest')).
  { induction l as [|f rest [IH1 IH2]].
    - split; [exact H0 | discriminate].
    - split; [apply HS; assumption|]. intros a rest' E. inversion E; subst. exact IH1. }
  intros l. apply H.
Qed.

Lemma spec_at_nth specs i s : nth_error specs i = Some s -> spec_at specs i = s.
Proof. intros H. unfold spec_at. apply nth_error_nth. exact H. Qed.

Lemma indices_from_spec p specs : forall k j,
  In j (indices_from k p specs) <->
  exists i s, j = (k + i)%nat /\ nth_error specs i = Some s /\ p s = true.
Proof.
  induction specs as [|s t IH]; intros k j; cbn [indices_from].
  - split; [intros [] | intros [[|i] [s [_ [E _]]]]; discriminate].
  - assert (Tail : In j (indices_from (S k) p t) <->
                   exists i s', j = (k + S i)%nat /\ nth_error t i = Some s' /\ p s' = true).
    { rewrite IH. split; intros [i [s' [-> H]]]; exists i, s'; (split; [lia | exact H]). }
    destruct (p s) eqn:Ps; cbn [In]; rewrite Tail; split.
    + intros [<-|[i [s' [-> H]]]]; [exists 0%nat, s; auto | exists (S i), s'; auto].
    + intros [[|i] [s' [-> [E P]]]]; [left; lia | right; exists i, s'; auto].
    + intros [i [s' [-> H]]]. exists (S i), s'. auto.
    + intros [[|i] [s' [-> [E P]]]]; [cbn in E; congruence | exists i, s'; auto].
Qed.

Lemma indices_spec p specs j :
  In j (indices p specs) <-> exists s, nth_error specs j = Some s /\ p s = true.
Proof.
  unfold indices. rewrite indices_from_spec.
  split; [intros [i [s [-> H]]]; exists s; exact H | intros [s H]; exists j, s; auto].
Qed.

(* the list of indices is increasing: what follows its head is larger *)
Lemma indices_from_head p specs : forall k a r,
  indices_from k p specs = a :: r -> forall b, In b r -> (a < b)%nat.
Proof.
  induction specs as [|s t IH]; intros k a r; cbn [indices_from]; [discriminate|].
  destruct (p s); [|apply IH].
  intros E b I. inversion E; subst. apply indices_from_spec in I. destruct I as [i [s' [-> _]]]. lia.
Qed.

Lemma indices_two_lt p specs a b r : indices p specs = a :: b :: r -> (a < b)%nat.
Proof. intros E. apply (indices_from_head _ _ _ _ _ E). left. reflexivity. Qed.

Lemma indices_unique p specs i :
  In i (indices p specs) -> (forall j, In j (indices p specs) -> j = i) -> indices p specs = [i].
Proof.
  intros Ii U. destruct (indices p specs) as [|a [|b r]] eqn:E.
  - destruct Ii.
  - destruct Ii as [<-|[]]. reflexivity.
  - pose proof (indices_two_lt _ _ _ _ _ E) as L.
    assert (a = i) by (apply U; left; reflexivity).
    assert (b = i) by (apply U; right; left; reflexivity). lia.
Qed.

Lemma indices_head_least p specs j l :
  indices p specs = j :: l -> forall j', In j' (indices p specs) -> (j <= j')%nat.
Proof.
  intros E j' I. rewrite E in I. destruct I as [<-|I]; [lia|].
  apply (indices_from_head _ _ _ _ _ E) in I. lia.
Qed.

Lemma indices_nil p specs :
  indices p specs = [] <-> forall s, In s specs -> p s = false.
Proof.
  split.
  - intros E s I. apply In_nth_error in I. destruct I as [j Ej].
    destruct (p s) eqn:Ps; [|reflexivity].
    assert (In j (indices p specs)) by (apply indices_spec; exists s; auto).
    rewrite E in H. destruct H.
  - intros H. destruct (indices p specs) as [|j l] eqn:E; [reflexivity|].
    assert (I : In j (indices p specs)) by (rewrite E; left; reflexivity).
    apply indices_spec in I. destruct I as [s [Ej Ps]].
    apply nth_error_In in Ej. rewrite H in Ps by exact Ej. discriminate.
Qed.

Lemma existsb_false_indices p specs : existsb p specs = false <-> indices p specs = [].
Proof.
  rewrite indices_nil. split.
  - intros X s I. destruct (p s) eqn:Ps; [|reflexivity].
    assert (existsb p specs = true) by (apply existsb_exists; eauto). congruence.
  - intros H. destruct (existsb p specs) eqn:X; [|reflexivity].
    apply existsb_exists in X. destruct X as [s [I Ps]]. rewrite (H s I) in Ps. discriminate.
Qed.

Lemma short_is_spec c s : short_is c s = true <-> sp_short s = Some c.
Proof.
  unfold short_is. apply option_eqb_spec. intros; apply N.eqb_eq.
Qed.

Lemma find_short_from_spec specs c : forall k,
  match find_short_from k specs c with
  | Some (i, s) =>
      exists n, i = (k + n)%nat /\ nth_error specs n = Some s /\ sp_short s = Some c /\
      forall j s', (j < n)%nat -> nth_error specs j = Some s' -> sp_short s' <> Some c
  | None => forall s, In s specs -> sp_short s <> Some c
  end.
Proof.
  induction specs as [|s t IH]; intros k; cbn.
  - intros s [].
  - fold (short_is c s). destruct (short_is c s) eqn:E.
    + apply short_is_spec in E. exists 0%nat. cbn. repeat split; auto. intros j s' L; lia.
    + assert (NE : sp_short s <> Some c).
      { intros X. apply short_is_spec in X. congruence. }
      specialize (IH (S k)). destruct (find_short_from (S k) t c) as [[i s0]|].
      * destruct IH as [n [-> [N [Sh Min]]]]. exists (S n). cbn. repeat split; auto.
        intros [|j] s' Lj Ej; cbn in Ej; [congruence|]. eapply Min; [|exact Ej]. lia.
      * intros s' [<-|I]; auto.
Qed.

Lemma find_short_from_bounds t c : forall k i s,
  find_short_from k t c = Some (i, s) -> (k <= i < k + length t)%nat /\ sp_short s = Some c /\ In s t.
Proof.
  intros k i s E. pose proof (find_short_from_spec t c k) as H. rewrite E in H.
  destruct H as [n [-> [N [Sh _]]]]. split; [|split; [exact Sh | eapply nth_error_In; exact N]].
  assert (n < length t)%nat by (apply nth_error_Some; congruence). lia.
Qed.

Lemma find_short_from_app t1 t2 c : forall k,
  find_short_from k (t1 ++ t2) c =
  match find_short_from k t1 c with
  | Some r => Some r
  | None => find_short_from (k + length t1) t2 c
  end.
Proof.
  induction t1 as [|s t IH]; intros k; cbn [app find_short_from length].
  - rewrite Nat.add_0_r. reflexivity.
  - destruct (option_eqb N.eqb (sp_short s) (Some c)); [reflexivity|].
    rewrite IH. replace (S k + length t)%nat with (k + S (length t))%nat by lia. reflexivity.
Qed.

Lemma find_short_some specs c i s :
  find_short specs c = Some (i, s) <-> FirstShort specs c i s.
Proof.
  unfold find_short, FirstShort. pose proof (find_short_from_spec specs c 0) as H. split.
  - intros E. rewrite E in H. destruct H as [n [-> H]]. exact H.
  - intros [N [Sh Min]]. destruct (find_short_from 0 specs c) as [[i' s']|].
    + destruct H as [n [-> [N' [Sh' Min']]]]. cbn [Nat.add].
      destruct (Nat.lt_trichotomy i n) as [L|[->|L]].
      * exfalso. eapply Min'; eauto.
      * congruence.
      * exfalso. eapply Min; eauto.
    + exfalso. apply (H s); [eapply nth_error_In; eauto | exact Sh].
Qed.

Lemma find_short_none specs c : find_short specs c = None <-> NoShort specs c.
Proof.
  unfold find_short, NoShort. pose proof (find_short_from_spec specs c 0) as H. split.
  - intros E. rewrite E in H. exact H.
  - intros NS. destruct (find_short_from 0 specs c) as [[i s]|]; [|reflexivity].
    destruct H as [n [_ [N [Sh _]]]]. exfalso.
    apply (NS s); [eapply nth_error_In; eauto | exact Sh].
Qed.

Lemma no_short_spec specs c : NoShort specs c <-> existsb (short_is c) specs = false.
Proof.
  unfold NoShort. split.
  - intros NS. destruct (existsb (short_is c) specs) eqn:X; [|reflexivity]. exfalso.
    apply existsb_exists in X. destruct X as [s [I Sh]]. apply short_is_spec in Sh. exact (NS s I Sh).
  - intros X s I Sh. apply short_is_spec in Sh.
    assert (existsb (short_is c) specs = true); [|congruence]. apply existsb_exists. eauto.
Qed.

Lemma first_short_fun specs c i s i' s' :
  FirstShort specs c i s -> FirstShort specs c i' s' -> i = i' /\ s = s'.
Proof.
  intros A B. apply find_short_some in A, B. rewrite A in B. inversion B. auto.
Qed.

Lemma find_short_is specs c :
  find (short_is c) specs = option_map snd (find_short specs c).
Proof.
  unfold find_short. generalize 0%nat. induction specs as [|s t IH]; intros k; cbn; [reflexivity|].
  fold (short_is c s). destruct (short_is c s); [reflexivity | apply IH].
Qed.

Lemma first_short_b_spec specs c i :
  first_short_b specs c i = true <-> exists s, FirstShort specs c i s.
Proof.
  unfold first_short_b, FirstShort. destruct (nth_error specs i) as [s|] eqn:N.
  - rewrite andb_true_iff, short_is_spec, negb_true_iff. split.
    + intros [Sh NE]. exists s. repeat split; auto. intros j s' L Ej X.
      apply short_is_spec in X.
      assert (existsb (short_is c) (firstn i specs) = true); [|congruence].
      apply existsb_exists. exists s'. split; [|exact X].
      apply nth_error_In with (n := j). rewrite nth_error_firstn_lt by exact L. exact Ej.
    + intros [s0 [E [Sh Min]]]. inversion E; subst s0. split; [exact Sh|].
      destruct (existsb (short_is c) (firstn i specs)) eqn:X; [|reflexivity]. exfalso.
      apply existsb_exists in X. destruct X as [s' [I Ps]]. apply In_nth_error in I.
      destruct I as [j Ej].
      assert (L : (j < i)%nat).
      { assert (j < length (firstn i specs))%nat by (apply nth_error_Some; congruence).
        rewrite firstn_length in H. lia. }
      rewrite nth_error_firstn_lt in Ej by exact L. apply short_is_spec in Ps. eapply Min; eauto.
  - split; [discriminate | intros [s [E _]]; discriminate].
Qed.

Lemma first_short_at specs c i s : FirstShort specs c i s -> spec_at specs i = s.
Proof. intros [E _]. apply spec_at_nth. exact E. Qed.

Lemma first_short_b_at specs c i :
  first_short_b specs c i = true -> FirstShort specs c i (spec_at specs i).
Proof.
  intros H. apply first_short_b_spec in H. destruct H as [s FS].
  rewrite (first_short_at _ _ _ _ FS). exact FS.
Qed.

Lemma first_short_b_intro specs c i s : FirstShort specs c i s -> first_short_b specs c i = true.
Proof. intros H. apply first_short_b_spec. eauto. Qed.

Lemma long_is_spec name s : long_is name s = true <-> sp_long s = Some name.
Proof. unfold long_is. apply option_eqb_spec. intros; apply str_eqb_eq. Qed.

Lemma long_has_prefix_spec name s :
  long_has_prefix name s = true <-> exists l, sp_long s = Some l /\ Prefix name l.
Proof.
  unfold long_has_prefix. destruct (sp_long s) as [l|].
  - rewrite prefixb_spec. split; [intros P; exists l; auto | intros [l' [E P]]; inversion E; subst; exact P].
  - split; [discriminate | intros [l [E _]]; discriminate].
Qed.

Lemma spec_long_match_spec s name :
  match spec_long_match s name with
  | LExact => long_is name s = true
  | LPartial => long_is name s = false /\ long_has_prefix name s = true
  | LNone => long_is name s = false /\ long_has_prefix name s = false
  end.
Proof.
  unfold spec_long_match, long_has_prefix, long_is. destruct (sp_long s) as [l|]; cbn; [|auto].
  destruct (prefixb name l) eqn:P.
  - destruct (Nat.eqb_spec (length l) (length name)) as [L|L].
    + apply prefixb_spec in P. rewrite (prefix_same_length _ _ P L). apply str_eqb_eq. reflexivity.
    + split; [|reflexivity]. apply str_eqb_neq. congruence.
  - split; [|reflexivity]. apply str_eqb_neq. intros ->.
    rewrite (proj2 (prefixb_spec _ _) (prefix_refl name)) in P. discriminate.
Qed.

Lemma long_scan_spec name specs : forall k acc,
  long_scan k specs name acc =
  match indices_from k (long_is name) specs with
  | j :: _ => inl j
  | [] => inr (acc ++ indices_from k (long_has_prefix name) specs)
  end.
Proof.
  induction specs as [|s t IH]; intros k acc; cbn.
  - rewrite app_nil_r. reflexivity.
  - pose proof (spec_long_match_spec s name) as M.
    destruct (spec_long_match s name).
    + destruct M as [-> ->]. apply IH.
    + destruct M as [-> ->]. rewrite IH, <- app_assoc. reflexivity.
    + rewrite M. reflexivity.
Qed.

(* the model's long_match, as the oracle computes it *)
Lemma long_match_indices specs name :
  long_match specs name =
  match indices (long_is name) specs with
  | j :: _ => inl j
  | [] => match indices (long_has_prefix name) specs with
          | [i] => inl i
          | l => inr l
          end
  end.
Proof.
  unfold long_match, indices. rewrite long_scan_spec.
  destruct (indices_from 0 (long_is name) specs); [|reflexivity].
  cbn [app]. destruct (indices_from 0 (long_has_prefix name) specs) as [|a [|b r]]; reflexivity.
Qed.

(* and in the terms of typeset's own rule *)
Lemma common_match_indices specs name :
  common_match specs name =
  match indices (long_is name) specs with
  | j :: _ => TFound j
  | [] => tmatch specs name
  end.
Proof.
  unfold common_match, tmatch. rewrite long_match_indices.
  destruct (indices (long_is name) specs); [|reflexivity].
  destruct (indices (long_has_prefix name) specs) as [|a [|b l]]; reflexivity.
Qed.

Lemma has_long_spec specs j l :
  HasLong specs j l <-> In j (indices (long_is l) specs).
Proof.
  unfold HasLong. rewrite indices_spec. split; intros [s [E P]]; exists s; split; auto; apply long_is_spec; exact P.
Qed.

Lemma has_long_prefix_spec specs j name :
  (exists l, HasLong specs j l /\ Prefix name l) <-> In j (indices (long_has_prefix name) specs).
Proof.
  rewrite indices_spec. unfold HasLong. split.
  - intros [l [[s [E Lg]] P]]. exists s. split; [exact E|]. apply long_has_prefix_spec. exists l. auto.
  - intros [s [E P]]. apply long_has_prefix_spec in P. destruct P as [l [Lg P]]. exists l. split; [exists s; auto | exact P].
Qed.

Lemma long_is_has_prefix specs name j :
  In j (indices (long_is name) specs) -> In j (indices (long_has_prefix name) specs).
Proof.
  rewrite !indices_spec. intros [s [E L]]. exists s. split; [exact E|].
  apply long_is_spec in L. apply long_has_prefix_spec. exists name. split; [exact L | apply prefix_refl].
Qed.

Lemma no_long_prefix_spec specs name :
  NoLongPrefix specs name <-> indices (long_has_prefix name) specs = [].
Proof.
  unfold NoLongPrefix. split.
  - intros H. destruct (indices (long_has_prefix name) specs) as [|a r] eqn:E; [reflexivity|]. exfalso.
    assert (I : In a (indices (long_has_prefix name) specs)) by (rewrite E; left; reflexivity).
    apply has_long_prefix_spec in I. destruct I as [l [HL P]]. exact (H a l HL P).
  - intros E j l HL P.
    assert (I : In j (indices (long_has_prefix name) specs)) by (apply has_long_prefix_spec; eauto).
    rewrite E in I. destruct I.
Qed.

(* the two witnesses of an ambiguity are the first two prefix matches *)
Lemma ambiguous_spec specs name :
  Ambiguous specs name <->
  indices (long_is name) specs = [] /\ (2 <= length (indices (long_has_prefix name) specs))%nat.
Proof.
  unfold Ambiguous. split.
  - intros [NoEx [j1 [j2 [l1 [l2 [NE [H1 [H2 [P1 P2]]]]]]]]]. split.
    + destruct (indices (long_is name) specs) as [|j r] eqn:EX; [reflexivity|]. exfalso.
      apply (NoEx j), has_long_spec. rewrite EX. left. reflexivity.
    + assert (I1 : In j1 (indices (long_has_prefix name) specs)) by (apply has_long_prefix_spec; eauto).
      assert (I2 : In j2 (indices (long_has_prefix name) specs)) by (apply has_long_prefix_spec; eauto).
      destruct (indices (long_has_prefix name) specs) as [|a [|b t]]; [destruct I1 | | cbn; lia].
      destruct I1 as [<-|[]], I2 as [<-|[]]. congruence.
  - intros [EX L2]. split.
    + intros j H. apply has_long_spec in H. rewrite EX in H. destruct H.
    + destruct (indices (long_has_prefix name) specs) as [|a [|b t]] eqn:EP; cbn in L2; try lia.
      assert (Ia : In a (indices (long_has_prefix name) specs)) by (rewrite EP; left; reflexivity).
      assert (Ib : In b (indices (long_has_prefix name) specs)) by (rewrite EP; right; left; reflexivity).
      apply has_long_prefix_spec in Ia, Ib. destruct Ia as [l1 [H1 P1]], Ib as [l2 [H2 P2]].
      exists a, b, l1, l2. repeat split; auto. apply indices_two_lt in EP. lia.
Qed.

Lemma resolves_b_spec specs name i :
  resolves_b specs name i = true <-> exists s, Resolves specs name i s.
Proof.
  unfold resolves_b, Resolves.
  destruct (indices (long_is name) specs) as [|j l] eqn:EX.
  - (* no exact match *)
    assert (NoEx : forall j, ~ HasLong specs j name).
    { intros j H. apply has_long_spec in H. rewrite EX in H. destruct H. }
    split.
    + intros E. apply (list_eqb_spec Nat.eqb Nat.eqb_eq) in E.
      assert (I : In i (indices (long_has_prefix name) specs)) by (rewrite E; left; reflexivity).
      apply indices_spec in I. destruct I as [s [Ei P]]. exists s. split; [exact Ei|]. right.
      apply long_has_prefix_spec in P. split; [exact P|]. split; [exact NoEx|].
      intros j l' HL Pl.
      assert (Ij : In j (indices (long_has_prefix name) specs)).
      { apply has_long_prefix_spec. exists l'. auto. }
      rewrite E in Ij. destruct Ij as [<-|[]]. reflexivity.
    + intros [s [Ei [[Lg _]|[[l [Lg P]] [_ Uniq]]]]].
      * exfalso. apply (NoEx i). exists s. auto.
      * apply (list_eqb_spec Nat.eqb Nat.eqb_eq). apply indices_unique.
        -- apply has_long_prefix_spec. exists l. split; [exists s; auto | exact P].
        -- intros j Ij. apply has_long_prefix_spec in Ij. destruct Ij as [l' [HL Pl]]. eapply Uniq; eauto.
  - (* an exact match exists; j is the first *)
    assert (Ij : In j (indices (long_is name) specs)) by (rewrite EX; left; reflexivity).
    rewrite Nat.eqb_eq. split.
    + intros ->. apply indices_spec in Ij. destruct Ij as [s [Ej P]]. exists s. split; [exact Ej|]. left.
      apply long_is_spec in P. split; [exact P|]. intros j' L H. apply has_long_spec in H.
      pose proof (indices_head_least _ _ _ _ EX j' H). lia.
    + intros [s [Ei [[Lg Min]|[_ [NoEx _]]]]].
      * assert (Ii : In i (indices (long_is name) specs)).
        { apply has_long_spec. exists s. auto. }
        pose proof (indices_head_least _ _ _ _ EX i Ii).
        destruct (Nat.eq_dec i j) as [|NE]; [assumption|]. exfalso.
        apply (Min j); [lia|]. apply has_long_spec. exact Ij.
      * exfalso. apply (NoEx j). apply has_long_spec. exact Ij.
Qed.

Lemma resolves_nth specs name i s : Resolves specs name i s -> spec_at specs i = s.
Proof. intros [E _]. apply spec_at_nth. exact E. Qed.

Lemma resolves_b_at specs name i :
  resolves_b specs name i = true -> Resolves specs name i (spec_at specs i).
Proof.
  intros H. apply resolves_b_spec in H. destruct H as [s R].
  rewrite (resolves_nth _ _ _ _ R). exact R.
Qed.

Lemma resolves_b_intro specs name i s : Resolves specs name i s -> resolves_b specs name i = true.
Proof. intros H. apply resolves_b_spec. eauto. Qed.

Lemma resolves_fun specs name i s i' s' :
  Resolves specs name i s -> Resolves specs name i' s' -> i = i' /\ s = s'.
Proof.
  intros A B.
  assert (Ai : resolves_b specs name i = true) by (apply resolves_b_spec; eauto).
  assert (Bi : resolves_b specs name i' = true) by (apply resolves_b_spec; eauto).
  unfold resolves_b in *. 
  assert (i = i').
  { destruct (indices (long_is name) specs).
    - apply (list_eqb_spec Nat.eqb Nat.eqb_eq) in Ai, Bi. congruence.
    - apply Nat.eqb_eq in Ai, Bi. congruence. }
  subst i'. split; [reflexivity|]. destruct A as [A _], B as [B _]. congruence.
Qed.

Lemma long_match_resolves specs name i :
  long_match specs name = inl i <-> exists s, Resolves specs name i s.
Proof.
  rewrite <- resolves_b_spec. unfold resolves_b. rewrite long_match_indices.
  destruct (indices (long_is name) specs) as [|j l].
  - destruct (indices (long_has_prefix name) specs) as [|a [|b r]]; cbn.
    + split; discriminate.
    + rewrite andb_true_r, Nat.eqb_eq. split; congruence.
    + split; [discriminate|]. rewrite andb_true_iff. intros [_ X]. discriminate.
  - rewrite Nat.eqb_eq. split; congruence.
Qed.

Lemma long_match_unknown specs name :
  long_match specs name = inr [] <-> NoLongPrefix specs name.
Proof.
  rewrite long_match_indices, no_long_prefix_spec.
  destruct (indices (long_is name) specs) as [|j r] eqn:EX.
  - destruct (indices (long_has_prefix name) specs) as [|a [|b t]]; split; congruence.
  - assert (I : In j (indices (long_has_prefix name) specs)).
    { apply long_is_has_prefix. rewrite EX. left. reflexivity. }
    split; [discriminate|]. intros E. rewrite E in I. destruct I.
Qed.

Lemma long_match_ambiguous specs name l :
  l <> [] -> long_match specs name = inr l ->
  l = indices (long_has_prefix name) specs /\ Ambiguous specs name.
Proof.
  intros NE. rewrite long_match_indices, ambiguous_spec.
  destruct (indices (long_is name) specs) as [|j r]; [|discriminate].
  destruct (indices (long_has_prefix name) specs) as [|a [|b t]]; intros E; inversion E; subst;
    [congruence | split; [reflexivity | split; [reflexivity | cbn; lia]]].
Qed.

Lemma ambiguous_long_match specs name :
  Ambiguous specs name -> exists l, long_match specs name = inr l /\ (2 <= length l)%nat.
Proof.
  rewrite ambiguous_spec, long_match_indices. intros [-> L2].
  destruct (indices (long_has_prefix name) specs) as [|a [|b t]]; cbn in L2; try lia.
  eexists. split; [reflexivity | exact L2].
Qed.

Lemma entries_ok_from_nth t : forall l i0 i s,
  entries_ok_from t i0 l = true -> nth_error l i = Some s -> entry_ok t (i0 + i) s = true.
Proof.
  induction l as [|a l IH]; intros i0 i s E N.
  - destruct i; discriminate.
  - cbn in E. apply andb_true_iff in E. destruct E as [E1 E2]. destruct i as [|i]; cbn in N.
    + inversion N; subst. rewrite Nat.add_0_r. exact E1.
    + replace (i0 + S i)%nat with (S i0 + i)%nat by lia. eapply IH; eauto.
Qed.
