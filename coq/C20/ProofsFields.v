(* C20 — what the model does with one option field, in the words of the grammar
   of Spec.v: a group of short options (short_chars) and a long option
   (long_field) each, in both directions; then [first_field], the outcome for
   a field of either kind, and [field_reads], what an outcome says in the
   grammar. *)
From Yv Require Import Common.Base C20.Model C20.Spec C20.ProofsNames.

Ltac splits := repeat match goal with |- _ /\ _ => split end.

Lemma short_allowed_b_spec m s : short_allowed_b m s = true <-> ShortAllowed m s.
Proof.
  unfold short_allowed_b, ShortAllowed. destruct (sp_ext s), (m_ext m); cbn; intuition congruence.
Qed.

Lemma long_allowed_b_spec m s : long_allowed_b m s = true <-> LongAllowed m s.
Proof.
  unfold long_allowed_b, LongAllowed. destruct (m_long m), (sp_ext s), (m_ext m); cbn; intuition congruence.
Qed.

Lemma short_allowed_b_false m s : short_allowed_b m s = false <-> ~ ShortAllowed m s.
Proof. rewrite <- short_allowed_b_spec. destruct (short_allowed_b m s); split; congruence. Qed.

Lemma long_allowed_b_false m s : long_allowed_b m s = false <-> ~ LongAllowed m s.
Proof. rewrite <- long_allowed_b_spec. destruct (long_allowed_b m s); split; congruence. Qed.

Lemma short_test m s : sp_ext s && negb (m_ext m) = negb (short_allowed_b m s).
Proof. unfold short_allowed_b. destruct (sp_ext s), (m_ext m); reflexivity. Qed.

Lemma long_test m s : m_long m && (m_ext m || negb (sp_ext s)) = long_allowed_b m s.
Proof. unfold long_allowed_b. destruct (m_long m), (sp_ext s), (m_ext m); reflexivity. Qed.

Lemma short_allowed_dec m s : ShortAllowed m s \/ ~ ShortAllowed m s.
Proof.
  destruct (short_allowed_b m s) eqn:E.
  - left. apply short_allowed_b_spec. exact E.
  - right. apply short_allowed_b_false. exact E.
Qed.

Lemma long_allowed_dec m s : LongAllowed m s \/ ~ LongAllowed m s.
Proof.
  destruct (long_allowed_b m s) eqn:E.
  - left. apply long_allowed_b_spec. exact E.
  - right. apply long_allowed_b_false. exact E.
Qed.

Lemma is_short_field_inv f :
  is_short_field f = true -> exists c cs, f = HYPHEN :: c :: cs /\ c <> HYPHEN.
Proof.
  destruct f as [|c0 [|c1 t]]; cbn; try discriminate.
  rewrite andb_true_iff, negb_true_iff, N.eqb_eq, N.eqb_neq. intros [-> NE]. eauto.
Qed.

Lemma is_short_field_intro c cs : c <> HYPHEN -> is_short_field (HYPHEN :: c :: cs) = true.
Proof. intros NE. cbn. apply N.eqb_neq in NE. rewrite NE. reflexivity. Qed.

Lemma is_long_field_inv f :
  is_long_field f = true -> exists body, f = HYPHEN :: HYPHEN :: body /\ body <> [].
Proof.
  destruct f as [|c0 [|c1 [|c2 t]]]; cbn; try discriminate.
  rewrite andb_true_iff, !N.eqb_eq. intros [-> ->]. eexists. split; [reflexivity | discriminate].
Qed.

Lemma is_long_field_intro body :
  body <> [] -> is_long_field (HYPHEN :: HYPHEN :: body) = true
                /\ is_short_field (HYPHEN :: HYPHEN :: body) = false.
Proof. destruct body; [congruence|]. intros _. split; reflexivity. Qed.

Lemma not_option_field f :
  is_short_field f = false -> is_long_field f = false -> is_separator f = false ->
  ~ OptionLike f.
Proof.
  intros S L P [c [t ->]]. destruct (N.eqb_spec c HYPHEN) as [->|NE].
  - destruct t; [discriminate P | discriminate L].
  - rewrite is_short_field_intro in S by exact NE. discriminate.
Qed.

Lemma plain_field f :
  ~ OptionLike f ->
  is_short_field f = false /\ is_long_field f = false /\ is_separator f = false.
Proof.
  intros N. destruct f as [|c0 [|c1 t]]; [splits; reflexivity| |].
  - splits; try reflexivity. unfold is_separator. cbn. rewrite andb_false_r. reflexivity.
  - destruct (N.eqb_spec c0 HYPHEN) as [->|NE].
    + exfalso. apply N. exists c1, t. reflexivity.
    + apply N.eqb_neq in NE. unfold is_separator. cbn. rewrite NE.
      destruct t; splits; reflexivity.
Qed.

(* the defect found by the loop over the characters of a group, at character
   [c] followed by [post] *)
Definition ShortDefect specs m (f : str) (c : N) (post : str) (e : perr) : Prop :=
  (e = UnknownShort c f /\ NoShort specs c)
  \/ (exists i s, e = NonPortableShort c f i /\ FirstShort specs c i s /\ ~ ShortAllowed m s)
  \/ (exists i s, e = Unseparated f i /\ FirstShort specs c i s /\ ShortAllowed m s /\
                  sp_arg s = true /\ post <> [] /\ m_same m = false).

Lemma flags_nil specs m : Flags specs m [].
Proof. unfold Flags. intros c []. Qed.

Lemma flags_cons specs m c i s cs :
  FirstShort specs c i s -> sp_arg s = false -> ShortAllowed m s ->
  Flags specs m cs -> Flags specs m (c :: cs).
Proof. unfold Flags. intros A B C D c' [<-|I]; [eauto | auto]. Qed.

Lemma short_chars_first specs m f idx c cs i s :
  FirstShort specs c i s -> ShortAllowed m s ->
  short_chars specs m f idx (c :: cs) =
  if sp_arg s then
    match cs with
    | [] => SNeed [] i idx
    | _ :: _ => if m_same m then SDone [mkOcc i f (Short idx) (Some (cs, f))]
                else SErr (Unseparated f i)
    end
  else short_cons (mkOcc i f (Short idx) None) (short_chars specs m f (idx + utf8_len c) cs).
Proof.
  intros FS Al. cbn [short_chars]. apply find_short_some in FS. apply short_allowed_b_spec in Al.
  rewrite FS, short_test, Al. reflexivity.
Qed.

Lemma short_chars_struct specs m f : forall cs idx,
  match short_chars specs m f idx cs with
  | SDone os => Shorts specs m cs None (map canon_occ os)
  | SNeed os i _ =>
      exists pre c s, cs = pre ++ [c] /\ Flags specs m pre /\ FirstShort specs c i s /\
                      ShortAllowed m s /\ sp_arg s = true /\
                      forall a, Shorts specs m cs (Some a) (map canon_occ os ++ [(i, Some a)])
  | SErr e =>
      exists pre c post, cs = pre ++ c :: post /\ Flags specs m pre /\ ShortDefect specs m f c post e
  end.
Proof.
  induction cs as [|c cs IH]; intros idx; cbn [short_chars].
  - constructor.
  - destruct (find_short specs c) as [[i s]|] eqn:F.
    + apply find_short_some in F. rewrite short_test.
      destruct (short_allowed_b m s) eqn:A; cbn [negb].
      * apply short_allowed_b_spec in A. destruct (sp_arg s) eqn:Ar.
        -- destruct cs as [|c' cs'].
           ++ exists [], c, s. splits; auto using flags_nil.
              intros a. cbn. eapply Sh_next; eauto.
           ++ destruct (m_same m) eqn:Sm.
              ** cbn. eapply Sh_attached; eauto. discriminate.
              ** exists [], c, (c' :: cs'). splits; auto using flags_nil.
                 right. right. exists i, s. splits; auto. discriminate.
        -- specialize (IH (idx + utf8_len c)%N).
           destruct (short_chars specs m f (idx + utf8_len c) cs) as [e|os|os j idx']; cbn [short_cons].
           ++ destruct IH as [pre [c1 [post [E [Fl D]]]]]. exists (c :: pre), c1, post.
              subst cs. splits; eauto using flags_cons.
           ++ cbn. eapply Sh_flag; eauto.
           ++ destruct IH as [pre [c1 [s1 [E [Fl [FS [Al [Ar1 Sh]]]]]]]]. exists (c :: pre), c1, s1.
              subst cs. splits; eauto using flags_cons.
              intros a. cbn. eapply Sh_flag; eauto.
      * exists [], c, cs. splits; auto using flags_nil. right. left. exists i, s.
        splits; auto. apply short_allowed_b_false. exact A.
    + exists [], c, cs. splits; auto using flags_nil. left. split; [reflexivity|].
      apply find_short_none. exact F.
Qed.

Lemma shorts_short_chars specs m cs extra cos :
  Shorts specs m cs extra cos -> forall f idx,
  match extra with
  | None => exists os, short_chars specs m f idx cs = SDone os /\ map canon_occ os = cos
  | Some a => exists os i idx', short_chars specs m f idx cs = SNeed os i idx'
                                /\ map canon_occ os ++ [(i, Some a)] = cos
  end.
Proof.
  induction 1 as [|c i s cs extra os FS Ar Al Sh IH|c i s a FS Ar Al NE Sm|c i s a FS Ar Al]; intros f idx.
  - exists []. split; reflexivity.
  - rewrite (short_chars_first _ _ _ _ _ _ _ _ FS Al), Ar.
    specialize (IH f (idx + utf8_len c)%N). destruct extra as [a|].
    + destruct IH as [os' [j [idx' [E C]]]]. rewrite E. cbn [short_cons].
      eexists _, j, idx'. split; [reflexivity|]. rewrite <- C. reflexivity.
    + destruct IH as [os' [E C]]. rewrite E. cbn [short_cons].
      eexists. split; [reflexivity|]. rewrite <- C. reflexivity.
  - rewrite (short_chars_first _ _ _ _ _ _ _ _ FS Al), Ar, Sm.
    destruct a; [congruence|]. eexists. split; reflexivity.
  - rewrite (short_chars_first _ _ _ _ _ _ _ _ FS Al), Ar.
    exists [], i, idx. split; reflexivity.
Qed.

(* [short_cons] keeps the kind of outcome; the proofs use this fact in the
   form [short_end_cons] below, which also keeps the error and the index *)
Definition short_kind (r : short_res) : N :=
  match r with SErr _ => 0%N | SDone _ => 1%N | SNeed _ _ _ => 2%N end.

Lemma short_cons_kind o r : short_kind (short_cons o r) = short_kind r.
Proof. destruct r; reflexivity. Qed.

(* how a group ends, without the options read on the way; the byte offset of
   [SNeed] is dropped too, because it depends on where the loop was entered
   ([short_chars_flags] compares a loop over the whole group with one entered
   behind the leading flags) *)
Definition short_end (r : short_res) : short_res :=
  match r with SErr e => SErr e | SDone _ => SDone [] | SNeed _ i _ => SNeed [] i 0 end.

Lemma short_end_cons o r : short_end (short_cons o r) = short_end r.
Proof. destruct r; reflexivity. Qed.

Lemma short_chars_flags specs m f pre :
  Flags specs m pre -> forall rest idx, exists idx',
    short_end (short_chars specs m f idx (pre ++ rest)) = short_end (short_chars specs m f idx' rest).
Proof.
  induction pre as [|c pre IH]; intros Fl rest idx.
  - exists idx. reflexivity.
  - destruct (Fl c (or_introl eq_refl)) as [i [s [FS [Ar Al]]]].
    cbn [app]. rewrite (short_chars_first _ _ _ _ _ _ _ _ FS Al), Ar.
    destruct (IH (fun c' I => Fl c' (or_intror I)) rest (idx + utf8_len c)%N) as [idx' E].
    exists idx'. rewrite short_end_cons. exact E.
Qed.

Lemma long_field_resolved specs m body name oeq i s :
  split_eq body = (name, oeq) -> Resolves specs name i s ->
  long_field specs m (HYPHEN :: HYPHEN :: body) =
  let f := HYPHEN :: HYPHEN :: body in
  if long_allowed_b m s then
    match sp_arg s, oeq with
    | false, None => LDone (mkOcc i f Long None)
    | false, Some _ => LErr (UnexpectedArg f i)
    | true, None => LNeed i
    | true, Some a => LDone (mkOcc i f Long (Some (a, f)))
    end
  else LErr (NonPortableLong f i).
Proof.
  intros SE R. unfold long_field. cbn [skipn]. rewrite SE.
  assert (LM : long_match specs name = inl i) by (apply long_match_resolves; eauto).
  rewrite LM, (resolves_nth _ _ _ _ R), long_test. reflexivity.
Qed.

(* what the parser makes of the first field, a group of short options or a
   long option alike; [FNeed]: the last option takes the next field *)
Inductive field_res :=
| FErr (e : perr)
| FDone (os : list occ)
| FNeed (os : list occ) (i : nat) (sp : spelling)
| FEnd.

Definition field_of_short (r : short_res) : field_res :=
  match r with
  | SErr e => FErr e
  | SDone os => FDone os
  | SNeed os i idx => FNeed os i (Short idx)
  end.

Definition field_of_long (r : long_res) : field_res :=
  match r with
  | LErr e => FErr e
  | LDone o => FDone [o]
  | LNeed i => FNeed [] i Long
  end.

Definition first_field specs m (f : str) : field_res :=
  if is_short_field f then field_of_short (short_chars specs m f 1 (skipn 1 f))
  else if is_long_field f then field_of_long (long_field specs m f)
  else FEnd.

(* the same in the grammar's words.  The [FNeed] case carries both readings of
   the field: an option field if a field follows, a missing argument if none
   does; [parse_complete] uses the first, [parse_err_malformed] the second. *)
Definition field_reads specs m (f : str) (r : field_res) : Prop :=
  match r with
  | FDone os => OptField specs m f None (map canon_occ os)
  | FNeed os i sp =>
      (forall a, OptField specs m f (Some a) (map canon_occ (os ++ [mkOcc i f sp (Some (a, a))])))
      /\ BadField specs m f [] DMissingArg
  | FErr e => forall rest, BadField specs m f rest (class_of e)
  | FEnd => is_short_field f = false /\ is_long_field f = false
  end.

Lemma short_field_struct specs m c cs :
  c <> HYPHEN ->
  let f := HYPHEN :: c :: cs in
  field_reads specs m f (field_of_short (short_chars specs m f 1 (c :: cs))).
Proof.
  intros NE f. subst f. unfold field_reads, field_of_short.
  pose proof (short_chars_struct specs m (HYPHEN :: c :: cs) (c :: cs) 1%N) as H.
  destruct (short_chars specs m (HYPHEN :: c :: cs) 1 (c :: cs)) as [e|os1|os1 i idx].
  - intros rest. destruct H as [pre [c1 [post [Ecs [Fl D]]]]].
    destruct D as [[-> NS]|[[i [s [-> [FS NA]]]]|[i [s [-> [FS [Al [Ar [NP Sm]]]]]]]]]; cbn [class_of].
    + eapply BF_unknown_short; eauto.
    + eapply BF_nonportable_short; eauto.
    + eapply BF_unseparated; eauto.
  - apply OF_short; assumption.
  - destruct H as [pre [c1 [s [Ecs [Fl [FS [Al [Ar Sh]]]]]]]]. split.
    + intros a. rewrite map_app. apply OF_short; [assumption | apply Sh].
    + eapply BF_missing_short; eauto.
Qed.

Lemma long_field_struct specs m body :
  body <> [] ->
  let f := HYPHEN :: HYPHEN :: body in
  field_reads specs m f (field_of_long (long_field specs m f)).
Proof.
  intros NE f. subst f. unfold field_reads, field_of_long. unfold long_field. cbn [skipn].
  pose proof (split_eq_spec body) as SE.
  destruct (split_eq body) as [name oeq] eqn:SEq.
  destruct (long_match specs name) as [i|l] eqn:LM.
  - apply long_match_resolves in LM. destruct LM as [s R].
    rewrite (resolves_nth _ _ _ _ R), long_test.
    destruct (long_allowed_b m s) eqn:A.
    + apply long_allowed_b_spec in A.
      destruct (sp_arg s) eqn:Ar, oeq as [a|]; destruct SE as [-> NI]; unfold canon_occ;
        cbn [o_spec o_arg option_map fst class_of map app].
      * eapply OF_long_eq; eauto.
      * split; [intros a; eapply OF_long_next; eauto | eapply BF_missing_long; eauto].
      * intros rest. eapply BF_unexpected; eauto.
      * eapply OF_long_flag; eauto.
    + apply long_allowed_b_false in A. intros rest. eapply BF_nonportable_long; eauto.
  - destruct l as [|a l]; intros rest; cbn [class_of].
    + eapply BF_unknown_long; eauto. apply long_match_unknown. exact LM.
    + eapply BF_ambiguous; eauto. apply long_match_ambiguous in LM; [apply LM | discriminate].
Qed.

Lemma first_field_struct specs m f : field_reads specs m f (first_field specs m f).
Proof.
  unfold first_field. destruct (is_short_field f) eqn:SF.
  { apply is_short_field_inv in SF. destruct SF as [c [cs [-> NE]]]. exact (short_field_struct specs m c cs NE). }
  destruct (is_long_field f) eqn:LF; [|split; assumption].
  apply is_long_field_inv in LF. destruct LF as [body [-> NE]]. exact (long_field_struct specs m body NE).
Qed.
