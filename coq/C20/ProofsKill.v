(* C20 — the model of kill's parser from a given state on: after a signal
   come the targets and nothing else; after -l/-v come clusters of l and v,
   then the operands; a signal together with -l/-v is rejected whatever
   follows.  These are the branches of the documented grammar (kref). *)
From Yv Require Import Common.Base C20.Model C20.Spec C20.Kill C20.ProofsNames.

Definition Flagged (st : kstate) : Prop := ks_list st <> None \/ ks_verbose st <> None.

Lemma set_signal_with_origin st o new a : ks_origin st = Some o -> exists e, set_signal st new a = inl e.
Proof. intros E. unfold set_signal. destruct new; rewrite ?E; eauto. Qed.

(* what happens to the rest of the vector after the character loop *)
Definition kcont (t : sigtable) (f : str) (rest : list str) (s : kstep) : kresult :=
  match s with
  | KSErr e => KErr e
  | KSDone st' => kfrom t st' rest
  | KSNeed st' c =>
      match rest with
      | [] => KErr (KMissingSignal c f)
      | a :: rest' =>
          match set_signal st' (parse_signal t a) a with
          | inl e => KErr e
          | inr st'' => kfrom t st'' rest'
          end
      end
  end.

Lemma kfrom_option_arg t st f rest :
  is_option_arg f = true -> str_eqb (skipn 1 f) [HYPHEN] = false ->
  kfrom t st (f :: rest) = kcont t f rest (kchars t f (skipn 1 f) st (skipn 1 f)).
Proof.
  intros O S. unfold kfrom. cbn [kloop]. rewrite O. cbv zeta. rewrite S.
  destruct (kchars t f (skipn 1 f) st (skipn 1 f)) as [e|st'|st' c]; cbn [kcont]; try reflexivity.
  destruct rest as [|a rest']; [reflexivity|].
  destruct (set_signal st' (parse_signal t a) a); reflexivity.
Qed.

Lemma kfrom_plain t st f rest : is_option_arg f = false -> kfrom t st (f :: rest) = kfinish st (f :: rest).
Proof. intros O. unfold kfrom. cbn [kloop]. rewrite O. reflexivity. Qed.

Lemma kfrom_sep t st rest : kfrom t st (SEP :: rest) = kfinish st rest.
Proof. reflexivity. Qed.

Lemma kfrom_nil t st : kfrom t st [] = kfinish st [].
Proof. reflexivity. Qed.

Lemma kfinish_doomed st o ops : ks_origin st = Some o -> Flagged st -> kcanon (kfinish st ops) = None.
Proof.
  intros E [F|F]; unfold kfinish, list_case; rewrite E;
    destruct (ks_verbose st), (ks_list st); try congruence; reflexivity.
Qed.

(* once a signal is given, the character loop can only fail, flag, or ask for
   a second signal *)
Lemma kchars_origin t arg opts o : forall cs st,
  ks_origin st = Some o ->
  match kchars t arg opts st cs with
  | KSErr _ => True
  | KSNeed st' _ => ks_origin st' = Some o
  | KSDone st' => ks_origin st' = Some o /\ (Flagged st \/ cs <> [] -> Flagged st')
  end.
Proof.
  induction cs as [|c rem IH]; intros st E; cbn [kchars].
  - split; [exact E|]. intros [F|F]; [exact F | congruence].
  - destruct (N.eqb c CH_s || N.eqb c CH_n).
    + destruct rem; [exact E|]. destruct (set_signal_with_origin st o (orelse (parse_signal t (n :: rem)) (parse_signal t opts)) arg E) as [e ->]. exact I.
    + destruct (N.eqb c CH_l).
      * specialize (IH (mkK (ks_sig st) (ks_origin st) (Some arg) (ks_verbose st)) E).
        destruct (kchars t arg opts _ rem); auto. destruct IH as [A B]. split; [exact A|].
        intros _. apply B. left. left. cbn. discriminate.
      * destruct (N.eqb c CH_v).
        -- specialize (IH (mkK (ks_sig st) (ks_origin st) (ks_list st) (Some arg)) E).
           destruct (kchars t arg opts _ rem); auto. destruct IH as [A B]. split; [exact A|].
           intros _. apply B. left. right. cbn. discriminate.
        -- destruct (set_signal_with_origin st o (parse_signal t opts) arg E) as [e ->].
           destruct e; exact I.
Qed.

Lemma option_arg_cases f :
  is_option_arg f = true ->
  f = SEP \/ (str_eqb (skipn 1 f) [HYPHEN] = false /\ exists c rem, f = HYPHEN :: c :: rem).
Proof.
  destruct f as [|c0 [|c rem]]; cbn; try discriminate. rewrite N.eqb_eq. intros ->.
  destruct (str_eqb (c :: rem) [HYPHEN]) eqn:S.
  - left. apply str_eqb_eq in S. rewrite S. reflexivity.
  - right. split; [exact S | eauto].
Qed.

Lemma option_not_sep c rem :
  str_eqb (c :: rem) [HYPHEN] = false -> str_eqb (HYPHEN :: c :: rem) SEP = false.
Proof.
  intros S. change (str_eqb (HYPHEN :: c :: rem) SEP) with (N.eqb HYPHEN HYPHEN && str_eqb (c :: rem) [HYPHEN]).
  rewrite S. reflexivity.
Qed.

Lemma sn_field c rem :
  str_eqb (HYPHEN :: c :: rem) [HYPHEN; CH_s] || str_eqb (HYPHEN :: c :: rem) [HYPHEN; CH_n]
  = (N.eqb c CH_s || N.eqb c CH_n) && match rem with [] => true | _ :: _ => false end.
Proof. cbn. destruct rem; rewrite ?andb_true_r, ?andb_false_r; reflexivity. Qed.

Lemma operands_of_option c rem rest :
  str_eqb (c :: rem) [HYPHEN] = false -> operands_of ((HYPHEN :: c :: rem) :: rest) = None.
Proof. intros S. cbn [operands_of]. rewrite (option_not_sep c rem S). reflexivity. Qed.

Lemma operands_of_plain f rest : is_option_arg f = false -> operands_of (f :: rest) = Some (f :: rest).
Proof.
  intros O. cbn [operands_of]. rewrite O.
  destruct (str_eqb f SEP) eqn:X; [|reflexivity]. apply str_eqb_eq in X. subst. discriminate O.
Qed.

(* a signal and -l/-v together: rejected whatever follows *)
Lemma kfrom_doomed t o : forall args st,
  ks_origin st = Some o -> Flagged st -> kcanon (kfrom t st args) = None.
Proof.
  intros args. induction args as [|f rest IH1 IH2] using list_ind2; intros st E F.
  - rewrite kfrom_nil. eapply kfinish_doomed; eauto.
  - destruct (is_option_arg f) eqn:O.
    + destruct (option_arg_cases f O) as [->|[S [c [rem ->]]]].
      * rewrite kfrom_sep. eapply kfinish_doomed; eauto.
      * rewrite kfrom_option_arg by assumption.
        pose proof (kchars_origin t (HYPHEN :: c :: rem) (skipn 1 (HYPHEN :: c :: rem)) o
                                  (skipn 1 (HYPHEN :: c :: rem)) st E) as K.
        destruct (kchars t _ _ st _) as [e|st'|st' c']; cbn [kcont].
        -- reflexivity.
        -- destruct K as [A B]. apply IH1; auto.
        -- destruct rest as [|a rest']; [reflexivity|].
           destruct (set_signal_with_origin st' o (parse_signal t a) a K) as [e ->]. reflexivity.
    + rewrite kfrom_plain by exact O. eapply kfinish_doomed; eauto.
Qed.

(* after the signal come the targets, nothing else *)
Lemma kfrom_after_signal t st o args :
  ks_origin st = Some o -> ks_list st = None -> ks_verbose st = None ->
  kcanon (kfrom t st args) = send (ks_sig st) (operands_of args).
Proof.
  intros E L V. destruct args as [|f rest].
  - rewrite kfrom_nil. unfold kfinish. rewrite L, V. reflexivity.
  - destruct (is_option_arg f) eqn:O.
    + destruct (option_arg_cases f O) as [->|[S [c [rem ->]]]].
      * rewrite kfrom_sep. unfold kfinish. rewrite L, V. destruct rest; reflexivity.
      * rewrite operands_of_option by exact S. cbn [send].
        rewrite kfrom_option_arg by assumption.
        pose proof (kchars_origin t (HYPHEN :: c :: rem) (skipn 1 (HYPHEN :: c :: rem)) o
                                  (skipn 1 (HYPHEN :: c :: rem)) st E) as K.
        destruct (kchars t _ _ st _) as [e|st'|st' c']; cbn [kcont].
        -- reflexivity.
        -- destruct K as [A B]. eapply kfrom_doomed; [exact A|]. apply B. right. discriminate.
        -- destruct rest as [|a rest']; [reflexivity|].
           destruct (set_signal_with_origin st' o (parse_signal t a) a K) as [e ->]. reflexivity.
    + rewrite kfrom_plain, operands_of_plain by exact O. unfold kfinish. rewrite L, V. reflexivity.
Qed.

Definition is_some {A} (o : option A) : bool := match o with Some _ => true | None => false end.

Lemma kchars_lv t arg opts : forall cs st,
  forallb is_lv cs = true ->
  exists st', kchars t arg opts st cs = KSDone st' /\ ks_origin st' = ks_origin st /\ ks_sig st' = ks_sig st
              /\ (Flagged st \/ cs <> [] -> Flagged st')
              /\ is_some (ks_verbose st') = (is_some (ks_verbose st) || existsb (N.eqb CH_v) cs).
Proof.
  induction cs as [|c rem IH]; intros st A; cbn [kchars].
  - exists st. split; [reflexivity|]. split; [reflexivity|]. split; [reflexivity|]. split.
    + intros [F|F]; [exact F | congruence].
    + cbn. rewrite orb_false_r. reflexivity.
  - cbn [forallb] in A. apply andb_true_iff in A. destruct A as [A1 A2]. unfold is_lv in A1.
    assert (NS : N.eqb c CH_s || N.eqb c CH_n = false).
    { apply orb_true_iff in A1. destruct A1 as [X|X]; apply N.eqb_eq in X; subst; reflexivity. }
    rewrite NS. destruct (N.eqb_spec c CH_l) as [->|NL].
    + destruct (IH (mkK (ks_sig st) (ks_origin st) (Some arg) (ks_verbose st)) A2) as [st' [K [O [Sg [F V]]]]].
      exists st'. split; [exact K|]. split; [exact O|]. split; [exact Sg|]. split.
      * intros _. apply F. left. left. cbn. discriminate.
      * rewrite V. cbn. reflexivity.
    + assert (c = CH_v).
      { apply orb_true_iff in A1. destruct A1 as [X|X]; [discriminate X | apply N.eqb_eq in X; exact X]. }
      subst c. cbn [N.eqb]. rewrite N.eqb_refl.
      destruct (IH (mkK (ks_sig st) (ks_origin st) (ks_list st) (Some arg)) A2) as [st' [K [O [Sg [F V]]]]].
      exists st'. split; [exact K|]. split; [exact O|]. split; [exact Sg|]. split.
      * intros _. apply F. left. right. cbn. discriminate.
      * rewrite V. cbn. rewrite orb_true_r. reflexivity.
Qed.

Lemma kchars_nonlv t arg opts : forall cs st,
  forallb is_lv cs = false -> ks_origin st = None -> Flagged st ->
  match kchars t arg opts st cs with
  | KSErr _ => True
  | KSNeed st' _ => ks_origin st' = None /\ Flagged st'
  | KSDone st' => ks_origin st' <> None /\ Flagged st'
  end.
Proof.
  induction cs as [|c rem IH]; intros st A E F; [discriminate|]. cbn [kchars].
  destruct (N.eqb c CH_s || N.eqb c CH_n) eqn:SN.
  - destruct rem; [auto|]. unfold set_signal. rewrite E.
    destruct (orelse _ _); cbn; [|exact I]. split; [discriminate | exact F].
  - cbn [forallb] in A. destruct (N.eqb_spec c CH_l) as [->|NL].
    + cbn in A. apply IH; [exact A | exact E | left; cbn; discriminate].
    + destruct (N.eqb_spec c CH_v) as [->|NV].
      * cbn in A. apply IH; [exact A | exact E | right; cbn; discriminate].
      * unfold set_signal. rewrite E. destruct (parse_signal t opts); cbn; [|exact I].
        split; [discriminate | exact F].
Qed.

Lemma kcont_flagged_nonlv t f rest cs st :
  forallb is_lv cs = false -> ks_origin st = None -> Flagged st ->
  kcanon (kcont t f rest (kchars t f (skipn 1 f) st cs)) = None.
Proof.
  intros A E F. pose proof (kchars_nonlv t f (skipn 1 f) cs st A E F) as K.
  destruct (kchars t f (skipn 1 f) st cs) as [e|st'|st' c]; cbn [kcont].
  - reflexivity.
  - destruct K as [O Fl]. destruct (ks_origin st') as [o|] eqn:Eo; [|congruence].
    eapply kfrom_doomed; eauto.
  - destruct K as [O Fl]. destruct rest as [|a rest']; [reflexivity|].
    unfold set_signal. rewrite O. destruct (parse_signal t a); [|reflexivity].
    eapply kfrom_doomed; [reflexivity | exact Fl].
Qed.

Lemma existsb_v_field c rem :
  existsb (N.eqb CH_v) (HYPHEN :: c :: rem) = existsb (N.eqb CH_v) (c :: rem).
Proof. reflexivity. Qed.

(* -l / -v given, no signal: clusters of l and v, then the operands *)
Lemma kfrom_print t : forall args st,
  ks_origin st = None -> Flagged st ->
  kcanon (kfrom t st args) = print_mode (is_some (ks_verbose st)) args.
Proof.
  induction args as [|f rest IH]; intros st E F.
  - rewrite kfrom_nil. unfold kfinish, list_case. rewrite E.
    destruct (ks_verbose st) eqn:V1, (ks_list st) eqn:L1; try reflexivity. destruct F; congruence.
  - assert (Fin : forall ops, kcanon (kfinish st ops) = Some (CPrint (is_some (ks_verbose st)) ops)).
    { intros ops. unfold kfinish, list_case. rewrite E.
      destruct (ks_verbose st) eqn:V1, (ks_list st) eqn:L1; try reflexivity. destruct F; congruence. }
    cbn [print_mode]. destruct (lv_cluster f) eqn:LV.
    + destruct f as [|c0 [|c rem]]; try discriminate. cbn [lv_cluster] in LV.
      apply andb_true_iff in LV. destruct LV as [H A]. apply N.eqb_eq in H. subst c0.
      assert (S : str_eqb (skipn 1 (HYPHEN :: c :: rem)) [HYPHEN] = false).
      { apply str_eqb_neq. intros X. inversion X; subst. discriminate A. }
      rewrite kfrom_option_arg by (auto; reflexivity). cbn [skipn].
      destruct (kchars_lv t (HYPHEN :: c :: rem) (c :: rem) (c :: rem) st A) as [st' [K [O [Sg [Fl V]]]]].
      rewrite K. cbn [kcont]. rewrite IH; [|congruence | apply Fl; right; discriminate].
      rewrite V, existsb_v_field. reflexivity.
    + destruct (is_option_arg f) eqn:O.
      * destruct (option_arg_cases f O) as [->|[S [c [rem ->]]]].
        -- rewrite kfrom_sep, Fin. reflexivity.
        -- rewrite operands_of_option by exact S.
           rewrite kfrom_option_arg by assumption.
           apply kcont_flagged_nonlv; auto; cbn [lv_cluster] in LV; rewrite N.eqb_refl in LV; exact LV.
      * rewrite kfrom_plain, Fin, operands_of_plain by exact O. reflexivity.
Qed.
