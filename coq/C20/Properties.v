(* C20 — the property theorems, each derived from the results of the Proofs
   files; the driver compares the statements with [Check] and prints the
   assumptions on every run.

   Reading guide.  [parse] is the model of `parse_arguments`
   (yash-builtin/src/common/syntax.rs); [canon] forgets how an option was
   spelled (location, byte offset, short/long) and keeps (option index,
   option-argument) and the operands, [None] for a rejection.  [Spells specs
   m os ops args] is the grammar of the syntax guidelines: `args` is a way
   of writing the invocation (os, ops).  [Respell] is the equivalence generated
   by the rewrite rules [Rewrite] (split a group, detach an option-argument,
   `=`/next field, abbreviate a long name, short/long name, insert `--`)
   applied behind complete option fields.  [Malformed specs m args d]: after
   complete option fields comes a field with defect d (unknown, ambiguous,
   missing argument, unexpected argument, disabled by the portable mode). *)
From Yv Require Import Common.Base C20.Model C20.Spec C20.Tables C20.Getopts C20.Kill C20.SetBuiltin C20.Typeset C20.Proofs.

Theorem parse_iff_spells : forall specs m args os ops,
  canon (parse specs m args) = Some (os, ops) <-> Spells specs m os ops args.
Proof.
  intros specs m args os ops. split; [|apply parse_sound].
  destruct (parse specs m args) as [os0 ops0|e] eqn:E; cbn; [|discriminate].
  intros H. inversion H; subst. apply parse_complete. exact E.
Qed.

Theorem spellings_agree : forall specs m os ops a b,
  Spells specs m os ops a -> Spells specs m os ops b ->
  canon (parse specs m a) = canon (parse specs m b).
Proof.
  intros specs m os ops a b A B. apply parse_iff_spells in A, B. congruence.
Qed.

Theorem spells_functional : forall specs m os ops os' ops' args,
  Spells specs m os ops args -> Spells specs m os' ops' args -> os = os' /\ ops = ops'.
Proof.
  intros specs m os ops os' ops' args A B. apply parse_iff_spells in A, B.
  rewrite A in B. inversion B. auto.
Qed.

Theorem rewriting_behind_options : forall specs m pre os l r,
  OptPrefix specs m pre os ->
  canon (parse specs m l) = canon (parse specs m r) ->
  canon (parse specs m (pre ++ l)) = canon (parse specs m (pre ++ r)).
Proof.
  intros specs m pre os l r OP E. destruct (optprefix_parse _ _ _ _ OP) as [os1 [_ H]].
  rewrite !H, !canon_prepend, E. reflexivity.
Qed.

Theorem equivalent_spellings_same_result : forall specs m a b,
  Respell specs m a b -> canon (parse specs m a) = canon (parse specs m b).
Proof.
  intros specs m a b. induction 1 as [pre cos l r OP RW| | |]; [|reflexivity|congruence|congruence].
  eapply rewriting_behind_options; [exact OP | apply rewrite_same; exact RW].
Qed.

(* one theorem per constructor of [Rewrite], each at the head of the vector;
   [rewriting_behind_options] moves it behind complete option fields *)
Theorem grouped_short_options : forall specs m c i s c' cs rest,
  FirstShort specs c i s -> sp_arg s = false -> ShortAllowed m s ->
  c <> HYPHEN -> c' <> HYPHEN ->
  canon (parse specs m ((HYPHEN :: c :: c' :: cs) :: rest)) =
  canon (parse specs m ([HYPHEN; c] :: (HYPHEN :: c' :: cs) :: rest)).
Proof. intros. apply rewrite_same. eapply RW_group; eauto. Qed.

Theorem attached_option_argument : forall specs m c i s a rest,
  FirstShort specs c i s -> sp_arg s = true -> m_same m = true ->
  c <> HYPHEN -> a <> [] ->
  canon (parse specs m ((HYPHEN :: c :: a) :: rest)) =
  canon (parse specs m ([HYPHEN; c] :: a :: rest)).
Proof. intros. apply rewrite_same. eapply RW_attach; eauto. Qed.

Theorem long_option_equal_sign : forall specs m name i s a rest,
  Resolves specs name i s -> sp_arg s = true -> name <> [] -> ~ In EQUAL name ->
  canon (parse specs m ((HYPHEN :: HYPHEN :: name ++ EQUAL :: a) :: rest)) =
  canon (parse specs m ((HYPHEN :: HYPHEN :: name) :: a :: rest)).
Proof. intros. apply rewrite_same. eapply RW_equal; eauto. Qed.

Theorem long_option_abbreviation : forall specs m p q i s rest,
  Resolves specs p i s -> Resolves specs q i s ->
  p <> [] -> q <> [] -> ~ In EQUAL p -> ~ In EQUAL q ->
  canon (parse specs m ((HYPHEN :: HYPHEN :: p) :: rest)) =
  canon (parse specs m ((HYPHEN :: HYPHEN :: q) :: rest)).
Proof. intros. apply rewrite_same. eapply RW_abbrev; eauto. Qed.

Theorem long_option_abbreviation_equal : forall specs m p q i s a rest,
  Resolves specs p i s -> Resolves specs q i s -> ~ In EQUAL p -> ~ In EQUAL q ->
  canon (parse specs m ((HYPHEN :: HYPHEN :: p ++ EQUAL :: a) :: rest)) =
  canon (parse specs m ((HYPHEN :: HYPHEN :: q ++ EQUAL :: a) :: rest)).
Proof. intros. apply rewrite_same. eapply RW_abbrev_equal; eauto. Qed.

Theorem short_and_long_name : forall specs m c name i s rest,
  FirstShort specs c i s -> Resolves specs name i s -> LongAllowed m s ->
  c <> HYPHEN -> name <> [] -> ~ In EQUAL name ->
  canon (parse specs m ([HYPHEN; c] :: rest)) =
  canon (parse specs m ((HYPHEN :: HYPHEN :: name) :: rest)).
Proof. intros. apply rewrite_same. eapply RW_short_long; eauto. Qed.

Theorem double_dash_optional : forall specs m ops,
  PlainStart ops -> canon (parse specs m ops) = canon (parse specs m (SEP :: ops)).
Proof. intros. apply rewrite_same. apply RW_sep. assumption. Qed.

Theorem double_dash_ends_options : forall specs m pre os ops,
  OptPrefix specs m pre os -> canon (parse specs m (pre ++ SEP :: ops)) = Some (os, ops).
Proof.
  intros specs m pre os ops OP. destruct (optprefix_parse _ _ _ _ OP) as [os1 [C H]].
  rewrite H, parse_sep, canon_prepend. cbn. rewrite app_nil_r, C. reflexivity.
Qed.

Theorem malformed_rejected : forall specs m args d,
  Malformed specs m args d -> exists e, parse specs m args = Err e /\ class_of e = d.
Proof.
  intros specs m args d [pre [os [f [rest [-> [OP BF]]]]]].
  destruct (optprefix_parse _ _ _ _ OP) as [os1 [_ E]]. rewrite E.
  destruct (badfield_parse _ _ _ _ _ BF) as [e [-> C]]. exists e. split; [reflexivity | exact C].
Qed.

Theorem rejected_only_malformed : forall specs m args e,
  parse specs m args = Err e -> Malformed specs m args (class_of e).
Proof. exact parse_err_malformed. Qed.

Theorem spelling_or_malformed : forall specs m args,
  (exists os ops, Spells specs m os ops args) \/ (exists d, Malformed specs m args d).
Proof.
  intros specs m args. destruct (parse specs m args) as [os ops|e] eqn:E.
  - left. exists (map canon_occ os), ops. apply parse_complete. exact E.
  - right. exists (class_of e). apply parse_err_malformed. exact E.
Qed.

Theorem spelling_not_malformed : forall specs m os ops args d,
  Spells specs m os ops args -> ~ Malformed specs m args d.
Proof.
  intros specs m os ops args d A B. apply parse_iff_spells in A. apply malformed_rejected in B.
  destruct B as [e [E _]]. rewrite E in A. discriminate.
Qed.

Theorem oracle_sound : forall specs m args,
  oracle_parse specs m args (parse specs m args) = None.
Proof.
  intros specs m args. unfold oracle_parse. destruct (parse specs m args) as [os ops|e] eqn:E.
  - rewrite (spells_b_complete specs m (map canon_occ os) ops args); [reflexivity|].
    apply parse_complete. exact E.
  - destruct (parse_err_rejects _ _ _ _ E) as [f [rest [S [EF J]]]].
    unfold rejects_b. rewrite S, EF, str_eqb_refl, J. reflexivity.
Qed.

Theorem oracle_accepts_only_readings : forall specs m args os ops,
  oracle_parse specs m args (Ok os ops) = None ->
  canon (parse specs m args) = Some (map canon_occ os, ops).
Proof.
  intros specs m args os ops. unfold oracle_parse.
  destruct (spells_b specs m (map canon_occ os) ops args) eqn:S; [|discriminate].
  intros _. apply parse_iff_spells, spells_b_sound. exact S.
Qed.

Theorem oracle_accepts_only_malformed : forall specs m args e,
  rejects_b specs m args e = true -> Malformed specs m args (class_of e).
Proof.
  intros specs m args e. unfold rejects_b.
  destruct (skip_options specs m args) as [|f rest] eqn:S; [discriminate|].
  rewrite andb_true_iff. intros [_ J].
  destruct (skip_options_prefix _ _ _ _ _ S) as [pre [cos [-> OP]]].
  exists pre, cos, f, rest. split; [reflexivity|]. split; [exact OP|].
  apply justified_badfield. exact J.
Qed.

(* so verdict 1 of [run_parse] (the oracle accepts what the implementation
   returned, the model returned something else) can only be a difference in
   what [canon] forgets: location, byte offset, short/long, or which error of
   a rejection *)
Theorem oracle_exact : forall specs m args r,
  oracle_parse specs m args r = None -> canon r = canon (parse specs m args).
Proof.
  intros specs m args [os ops|e] H.
  - symmetry. apply oracle_accepts_only_readings. exact H.
  - unfold oracle_parse in H. destruct (rejects_b specs m args e) eqn:R; [|discriminate].
    apply oracle_accepts_only_malformed, malformed_rejected in R. destruct R as [e' [-> _]]. reflexivity.
Qed.

Theorem spells_b_decides : forall specs m os ops args,
  spells_b specs m os ops args = true <-> Spells specs m os ops args.
Proof. split; [apply spells_b_sound | apply spells_b_complete]. Qed.

(* [builtin_tables] (Gen/Gen_BuiltinSpecs.v) is written by
   translator/c20_builtin_specs.py from the `&[OptionSpec]` constants under
   yash-builtin/src; [table_ok] is decided on it by computation *)
Theorem unambiguous_table_reachable : forall t i s,
  table_ok t = true -> nth_error t i = Some s ->
  (forall c, sp_short s = Some c -> FirstShort t c i s /\ c <> HYPHEN)
  /\ (forall l, sp_long s = Some l -> Resolves t l i s /\ l <> [] /\ ~ In EQUAL l)
  /\ (sp_short s <> None \/ sp_long s <> None).
Proof.
  intros t i s OK N. pose proof (entries_ok_from_nth t t 0 i s OK N) as E. cbn in E.
  unfold entry_ok in E. apply andb_true_iff in E. destruct E as [E E3].
  apply andb_true_iff in E. destruct E as [E1 E2]. split; [|split].
  - intros c Sh. rewrite Sh in E1. apply andb_true_iff in E1. destruct E1 as [F H].
    apply first_short_b_at in F. rewrite (spec_at_nth _ _ _ N) in F. split; [exact F|].
    apply negb_true_iff, N.eqb_neq in H. exact H.
  - intros l Lg. rewrite Lg in E2. apply andb_true_iff in E2. destruct E2 as [E2 NE].
    apply andb_true_iff in E2. destruct E2 as [R NQ].
    apply resolves_b_at in R. rewrite (spec_at_nth _ _ _ N) in R. split; [exact R|split].
    + destruct l; [discriminate NE | discriminate].
    + intros I. apply negb_true_iff in NQ.
      assert (X : existsb (N.eqb EQUAL) l = true); [|congruence].
      apply existsb_exists. exists EQUAL. split; [exact I | apply N.eqb_refl].
  - destruct (sp_short s) as [c|]; [left; discriminate|].
    destruct (sp_long s) as [l|]; [right; discriminate | discriminate E3].
Qed.

Theorem gen_specs_unambiguous :
  forallb (fun p => table_ok (snd p)) builtin_tables = true.
Proof. vm_compute. reflexivity. Qed.

Theorem gen_specs_every_option_reachable : forall name t i s,
  In (name, t) builtin_tables -> nth_error t i = Some s ->
  (forall c, sp_short s = Some c -> FirstShort t c i s /\ c <> HYPHEN)
  /\ (forall l, sp_long s = Some l -> Resolves t l i s /\ l <> [] /\ ~ In EQUAL l)
  /\ (sp_short s <> None \/ sp_long s <> None).
Proof.
  intros name t i s I. apply unambiguous_table_reachable.
  pose proof gen_specs_unambiguous as H. rewrite forallb_forall in H. exact (H (name, t) I).
Qed.

(* getopts: [getopts_run] is a `while getopts RAW name` loop that re-enters
   the model of getopts/model.rs `next` with the $OPTIND indices; it never runs
   out of fuel and delivers the structural reading [gdirect] of the arguments *)
Theorem getopts_loop_is_structural_reading : forall raw args,
  getopts_run raw args = Some (gobserved (gdirect raw (starts_with_colon raw) 1 args)).
Proof. exact getopts_run_direct. Qed.

Theorem getopts_loop_terminates : forall raw args, getopts_run raw args <> None.
Proof. intros raw args. rewrite getopts_run_direct. discriminate. Qed.

(* -xy... = -x -y... for a letter x that takes no argument, known or UNKNOWN:
   same ($name, $OPTARG) sequence, operands and stderr-emptiness *)
Theorem getopts_grouped_options : forall raw c cs rest,
  judge raw c <> GTakesArg -> c <> HYPHEN -> cs <> [] -> cs <> [HYPHEN] ->
  gvisible (getopts_run raw ((HYPHEN :: c :: cs) :: rest)) =
  gvisible (getopts_run raw ([HYPHEN; c] :: (HYPHEN :: cs) :: rest)).
Proof. intros. rewrite !gvisible_run. f_equal. apply gdirect_group_split; assumption. Qed.

Theorem getopts_attached_argument : forall raw c a rest,
  judge raw c = GTakesArg -> c <> HYPHEN -> a <> [] ->
  gvisible (getopts_run raw ((HYPHEN :: c :: a) :: rest)) =
  gvisible (getopts_run raw ([HYPHEN; c] :: a :: rest)).
Proof. intros. rewrite !gvisible_run. f_equal. apply gdirect_attached; assumption. Qed.

(* every spelling of an abstract invocation (option string + the letters used
   as unknown options) makes the loop report the expected ($name, $OPTARG)
   sequence, leave the operands and write to stderr exactly when an unknown
   letter occurs in verbose mode.  [AllUnknown] is what the generator
   guarantees; the proof does not use it: a letter listed as unknown that the
   option string knows is designated by the option string's entry, which comes
   first ([first_short_judge]) *)
Theorem getopts_spelling_gives_expected_events : forall raw unknown os ops args,
  AllUnknown raw unknown ->
  Spells (gtable raw unknown) gmode os ops args ->
  gvisible (getopts_run raw args) =
  Some (map (expected_event raw unknown) os, ops, starts_with_colon raw || forallb (known_b raw) os).
Proof.
  intros raw unknown os ops args AU Sp. rewrite gvisible_run, (gdirect_spells _ _ _ _ _ Sp). reflexivity.
Qed.

Theorem getopts_rules_behind_options : forall raw unknown pre os l r,
  AllUnknown raw unknown -> OptPrefix (gtable raw unknown) gmode pre os ->
  gvisible (getopts_run raw l) = gvisible (getopts_run raw r) ->
  gvisible (getopts_run raw (pre ++ l)) = gvisible (getopts_run raw (pre ++ r)).
Proof.
  intros raw unknown pre os l r AU OP E. rewrite !gvisible_run in *. inversion E as [E'].
  rewrite !(gdirect_optprefix _ _ _ _ OP), E'. reflexivity.
Qed.

(* kill's own parser ([kparse], model of kill/syntax.rs with `portable` off):
   outside the class of the open finding F42 (a first argument -SIGNAL whose
   lower-case name starts with l or v) every vector is read as the documented
   grammar [kref] reads it, and rejected exactly when the grammar has no
   reading *)
Theorem kill_reads_documented_grammar : forall t term args,
  known_lv t args = false -> kcanon (kparse t term args) = kref t term args.
Proof.
  intros t term args NK. unfold kparse. set (st0 := mkK term None None None).
  destruct args as [|f rest]; [reflexivity|]. cbn [kref].
  destruct (is_option_arg f) eqn:O; cbn [negb orb].
  2:{ rewrite kfrom_plain, operands_of_plain by exact O. reflexivity. }
  destruct (option_arg_cases f O) as [->|[S [c [rem ->]]]].
  { rewrite kfrom_sep. cbn. destruct rest; reflexivity. }
  rewrite (option_not_sep c rem S), kfrom_option_arg by assumption. cbn [skipn].
  destruct (lv_cluster (HYPHEN :: c :: rem)) eqn:LV.
  - (* -l, -v, ... *)
    cbn [lv_cluster] in LV. rewrite N.eqb_refl in LV. cbn [andb] in LV.
    destruct (kchars_lv t (HYPHEN :: c :: rem) (c :: rem) (c :: rem) st0 LV) as [st' [K [Or [Sg [Fl V]]]]].
    rewrite K. cbn [kcont]. rewrite kfrom_print; [|rewrite Or; reflexivity | apply Fl; right; discriminate].
    rewrite V. cbn [print_mode]. cbn [lv_cluster]. rewrite N.eqb_refl. cbn [andb]. rewrite LV.
    rewrite existsb_v_field. reflexivity.
  - cbn [lv_cluster] in LV. rewrite N.eqb_refl in LV. cbn [andb] in LV.
    cbn [kchars]. unfold sig_of_field. rewrite N.eqb_refl, sn_field. cbn [negb].
    destruct (N.eqb c CH_s || N.eqb c CH_n) eqn:SN; cbn [andb].
    + (* -s / -n *)
      destruct rem as [|r0 rem'].
      * cbn [kcont]. destruct rest as [|a rest']; [reflexivity|].
        unfold set_signal. cbn [ks_origin st0]. destruct (parse_signal t a) as [sg|]; [|reflexivity].
        rewrite (kfrom_after_signal t _ a rest') by reflexivity. reflexivity.
      * unfold set_signal. cbn [ks_origin st0].
        destruct (orelse (parse_signal t (r0 :: rem')) (parse_signal t (c :: r0 :: rem'))) as [sg|]; cbn [of_set kcont].
        -- rewrite (kfrom_after_signal t _ (HYPHEN :: c :: r0 :: rem') rest) by reflexivity. reflexivity.
        -- reflexivity.
    + destruct (is_lv c) eqn:LC.
      * (* the letter is l or v but the cluster is not made of them: outside
           the known class the cluster is no signal, and the vector is rejected *)
        assert (PN : parse_signal t (c :: rem) = None).
        { cbn [known_lv] in NK. rewrite N.eqb_refl, LC, LV in NK. cbn in NK.
          destruct (parse_signal t (c :: rem)); [discriminate | reflexivity]. }
        rewrite PN.
        assert (A : forallb is_lv rem = false).
        { cbn [forallb] in LV. rewrite LC in LV. exact LV. }
        unfold is_lv in LC. apply orb_true_iff in LC. destruct LC as [LC|LC]; apply N.eqb_eq in LC; subst c.
        -- cbn [N.eqb]. rewrite N.eqb_refl.
           apply (kcont_flagged_nonlv t (HYPHEN :: CH_l :: rem) rest rem _ A); [reflexivity | left; cbn; discriminate].
        -- assert (NL : N.eqb CH_v CH_l = false) by reflexivity. rewrite NL, N.eqb_refl.
           apply (kcont_flagged_nonlv t (HYPHEN :: CH_v :: rem) rest rem _ A); [reflexivity | right; cbn; discriminate].
      * unfold is_lv in LC. apply orb_false_iff in LC. destruct LC as [A B]. rewrite A, B.
        unfold set_signal. cbn [ks_origin st0].
        destruct (parse_signal t (c :: rem)) as [sg|]; cbn [kcont].
        -- rewrite (kfrom_after_signal t _ (HYPHEN :: c :: rem) rest) by reflexivity. reflexivity.
        -- reflexivity.
Qed.

Theorem kill_equivalent_spellings_same_result : forall t term a b,
  known_lv t a = false -> known_lv t b = false -> kref t term a = kref t term b ->
  kcanon (kparse t term a) = kcanon (kparse t term b).
Proof. intros t term a b A B E. rewrite !kill_reads_documented_grammar by assumption. exact E. Qed.

(* F42: the full statement (without the hypothesis) is false of the model *)
Theorem kill_lv_cluster_refuted :
  exists t term args c, known_lv t args = true /\ kref t term args = Some c
                        /\ kcanon (kparse t term args) = None.
Proof.
  exists [([86; 84; 65; 76; 82; 77]%N, 26%Z)], 15%Z,
         [[45; 118; 116; 97; 108; 114; 109]%N; [49]%N], (CSend 26 [[49]%N]).
  vm_compute. auto.
Qed.

(* `--foo`, `-x`: looks like an option, is neither an option nor a signal:
   rejected, no command results (so no signal is sent) *)
Theorem kill_malformed_option_rejected : forall t term c rem rest,
  is_lv c = false -> N.eqb c CH_s || N.eqb c CH_n = false ->
  c :: rem <> [HYPHEN] -> parse_signal t (c :: rem) = None ->
  kparse t term ((HYPHEN :: c :: rem) :: rest) = KErr (KUnknownOption (HYPHEN :: c :: rem)).
Proof.
  intros t term c rem rest LV SN NS PN. unfold kparse.
  assert (S : str_eqb (skipn 1 (HYPHEN :: c :: rem)) [HYPHEN] = false) by (apply str_eqb_neq; exact NS).
  rewrite kfrom_option_arg by (auto; reflexivity). cbn [skipn kchars]. rewrite SN.
  unfold is_lv in LV. apply orb_false_iff in LV. destruct LV as [A B]. rewrite A, B.
  unfold set_signal. rewrite PN. reflexivity.
Qed.

(* -s SIGNAL = -sSIGNAL (documented grammar [kref]) *)
Theorem kill_attached_signal_argument : forall t term c a rest,
  N.eqb c CH_s || N.eqb c CH_n = true -> a <> [] -> parse_signal t a <> None ->
  kref t term ([HYPHEN; c] :: a :: rest) = kref t term ((HYPHEN :: c :: a) :: rest).
Proof.
  intros t term c a rest SN NE PS. destruct a as [|a0 a']; [congruence|].
  assert (C : c = CH_s \/ c = CH_n).
  { apply orb_true_iff in SN. destruct SN as [X|X]; apply N.eqb_eq in X; auto. }
  destruct (parse_signal t (a0 :: a')) as [sg|] eqn:P; [|congruence].
  destruct C as [->| ->]; cbn [kref is_option_arg]; rewrite ?N.eqb_refl; cbn [negb orb];
    cbn; rewrite ?andb_false_r; cbn; unfold sig_of_field; cbn; rewrite P; reflexivity.
Qed.

(* set's own parser ([sloop], model of set/syntax.rs with `portable` off):
   -o NAME = -oNAME = --NAME (and +o NAME = +oNAME = ++NAME) for a name that
   denotes an option `set` can modify *)
Theorem set_named_option_spellings : forall (sht : short_table) (lt : long_table) (negate : bool)
    (name opt : str) (st : bool) (rest : list str),
  lookup_long name lt = Some (LOk opt st true) -> name <> [] ->
  let o : occurrence := (opt, if negate then negb st else st) in
  sloop sht lt ([sign_char negate; CH_o] :: name :: rest) = sprepend [o] (sloop sht lt rest)
  /\ sloop sht lt ((sign_char negate :: CH_o :: name) :: rest) = sprepend [o] (sloop sht lt rest)
  /\ sloop sht lt ((sign_char negate :: sign_char negate :: name) :: rest) = sprepend [o] (sloop sht lt rest).
Proof.
  intros sht lt negate name opt st rest L NE. destruct name as [|n0 name']; [congruence|]. cbv zeta.
  destruct negate; cbn [sign_char sloop short_sign long_sign skipn schars long_name];
    cbn; unfold long_name; rewrite L; cbn; auto.
Qed.

(* typeset's own long-option rule ([tmatch], typeset/syntax.rs `try_parse_long`)
   and the generic parser's ([common_match]) differ only when the name is the
   full name of an entry and also a prefix of another entry's name: typeset
   calls it ambiguous *)
Theorem typeset_long_rule_vs_generic : forall specs name,
  tmatch specs name = common_match specs name
  \/ (exists j, common_match specs name = TFound j /\ In j (indices (long_is name) specs)
                /\ tmatch specs name = TAmbiguous).
Proof.
  intros specs name. rewrite common_match_indices.
  destruct (indices (long_is name) specs) as [|j l] eqn:EX; [left; reflexivity|].
  assert (Ij : In j (indices (long_is name) specs)) by (rewrite EX; left; reflexivity).
  assert (Pj := long_is_has_prefix _ _ _ Ij).
  unfold tmatch. destruct (indices (long_has_prefix name) specs) as [|a [|b r]] eqn:EP.
  - destruct Pj.
  - destruct Pj as [->|[]]. left. reflexivity.
  - right. exists j. split; [reflexivity|]. split; [left; reflexivity | reflexivity].
Qed.

Theorem typeset_long_rule_prefix_free : forall specs name,
  prefix_free specs = true -> tmatch specs name = common_match specs name.
Proof.
  intros specs name PF.
  destruct (typeset_long_rule_vs_generic specs name) as [E|[j [C [Ij T]]]]; [exact E|]. exfalso.
  apply indices_spec in Ij. destruct Ij as [s [N L]]. apply long_is_spec in L.
  unfold prefix_free in PF. rewrite forallb_forall in PF.
  specialize (PF s (nth_error_In _ _ N)). rewrite L in PF. apply Nat.leb_le in PF.
  unfold tmatch in T. destruct (indices (long_has_prefix name) specs) as [|a [|b r]]; try discriminate.
  cbn in PF. lia.
Qed.

Theorem typeset_long_rule_refuted :
  exists specs name, common_match specs name = TFound 0 /\ tmatch specs name = TAmbiguous.
Proof.
  exists [mkSpec None (Some [112; 114]%N) false false; mkSpec None (Some [112; 114; 120]%N) false false],
         [112; 114]%N.
  vm_compute. auto.
Qed.

Print Assumptions parse_iff_spells.
Print Assumptions spellings_agree.
Print Assumptions spells_functional.
Print Assumptions equivalent_spellings_same_result.
Print Assumptions grouped_short_options.
Print Assumptions attached_option_argument.
Print Assumptions long_option_equal_sign.
Print Assumptions long_option_abbreviation.
Print Assumptions long_option_abbreviation_equal.
Print Assumptions short_and_long_name.
Print Assumptions double_dash_optional.
Print Assumptions double_dash_ends_options.
Print Assumptions rewriting_behind_options.
Print Assumptions malformed_rejected.
Print Assumptions rejected_only_malformed.
Print Assumptions spelling_or_malformed.
Print Assumptions spelling_not_malformed.
Print Assumptions oracle_sound.
Print Assumptions oracle_accepts_only_readings.
Print Assumptions spells_b_decides.
Print Assumptions oracle_accepts_only_malformed.
Print Assumptions oracle_exact.
Print Assumptions unambiguous_table_reachable.
Print Assumptions gen_specs_unambiguous.
Print Assumptions gen_specs_every_option_reachable.
Print Assumptions getopts_loop_is_structural_reading.
Print Assumptions getopts_loop_terminates.
Print Assumptions getopts_grouped_options.
Print Assumptions getopts_attached_argument.
Print Assumptions getopts_spelling_gives_expected_events.
Print Assumptions getopts_rules_behind_options.
Print Assumptions kill_reads_documented_grammar.
Print Assumptions kill_equivalent_spellings_same_result.
Print Assumptions kill_lv_cluster_refuted.
Print Assumptions kill_malformed_option_rejected.
Print Assumptions kill_attached_signal_argument.
Print Assumptions set_named_option_spellings.
Print Assumptions typeset_long_rule_vs_generic.
Print Assumptions typeset_long_rule_prefix_free.
Print Assumptions typeset_long_rule_refuted.
