(* C08 — the child's side: PipeSet::move_to_stdin_stdout and the command
   substitution's subshell_body never fail on a table the parent hands over,
   and leave exactly the rewired stdin/stdout on top of the original table;
   which stage of a pipeline is handed which pipe ends ([stages_shape]). *)
From Yv Require Import Common.Base C08.Model C08.Proofs C08.Fds C08.FdProofs.

Local Arguments set_key : simpl never.
Local Arguments remove_key : simpl never.
Local Arguments lookup : simpl never.
Local Arguments min_unused : simpl never.

(* The table a child must see: descriptor 0 is the previous reader (if any),
   descriptor 1 the next writer (if any), everything else the ORIGINAL table
   of the parent — in particular no other pipe end. *)
Definition child_view (t0 t : fdt) (ps : pset) (fd : N) : option (N * bool) :=
  if N.eqb fd 0 then match rp ps with Some p => lookup p t | None => lookup 0 t0 end
  else if N.eqb fd 1 then match nx ps with Some (_, w) => lookup w t | None => lookup 1 t0 end
  else lookup fd t0.

Lemma below_mono lim a b : (a <= b)%N -> below lim b = true -> below lim a = true.
Proof.
  unfold below. destruct lim as [l|]; [|auto]. intros H1 H2.
  apply N.ltb_lt in H2. apply N.ltb_lt. lia.
Qed.

Lemma below_two lim a b : a <> b -> below lim a = true -> below lim b = true -> below lim 1 = true.
Proof.
  unfold below. destruct lim as [l|]; [|auto]. intros H0 H1 H2.
  apply N.ltb_lt in H1, H2. apply N.ltb_lt. lia.
Qed.

Lemma cdup2_moves lim t fd to e :
  lookup fd t = Some (e, false) -> fd <> to -> below lim to = true ->
  cdup2 lim fd to t = Some (set_key to (e, false) t).
Proof. intros Hl Hne Hb. unfold cdup2. rewrite Hl, (eqb_ne fd to Hne), Hb. reflexivity. Qed.

(* The stdin part, against a reference table [T] that the child's table agrees
   with except at the previous reader: afterwards it agrees with [T] except at 0,
   which carries the previous reader's entry. *)
Lemma move_stdin_spec lim T t rd :
  (forall x, rd <> Some x -> lookup x t = lookup x T) ->
  (forall p, rd = Some p ->
     lookup p T = None /\ (exists e, lookup p t = Some (e, false)) /\ below lim p = true) ->
  exists t', move_stdin lim t rd = COk t' /\
    forall x, lookup x t' =
      if N.eqb x 0 then match rd with Some p => lookup p t | None => lookup 0 T end
      else lookup x T.
Proof.
  intros Hoff Hrd. destruct rd as [p|]; cbn [move_stdin].
  - destruct (Hrd p eq_refl) as (HpT & [e He] & Hb). rewrite He.
    destruct (N.eqb_spec p 0) as [->|Hp0].
    + exists t. split; [reflexivity|]. intros x.
      destruct (N.eqb_spec x 0) as [->|Hx]; [exact He | apply Hoff; congruence].
    + rewrite (cdup2_moves lim t p 0 e He Hp0 (below_mono lim 0 p (N.le_0_l _) Hb)).
      eexists. split; [reflexivity|]. intros x. rewrite lookup_remove_if, lookup_set_if.
      destruct (N.eqb_spec x p) as [->|Hx]; [rewrite (eqb_ne p 0 Hp0); symmetry; exact HpT|].
      destruct (N.eqb x 0); [reflexivity | apply Hoff; congruence].
  - exists t. split; [reflexivity|]. intros x. rewrite Hoff by discriminate.
    destruct (N.eqb_spec x 0) as [->|]; reflexivity.
Qed.

Lemma opt_is_false rd x : rd <> Some x -> opt_is rd x = false.
Proof. destruct rd as [p|]; [|reflexivity]. intros H. apply eqb_ne. congruence. Qed.

Lemma in_optl rd x : In x (optl rd) -> rd = Some x.
Proof. destruct rd as [p|]; [intros [->|[]]; reflexivity | intros []]. Qed.

(* move_to_stdin_stdout on the parent's table at the fork.  [Holds] is what
   rules out both ways of going wrong: [NoDup] refutes the three assert_ne!
   (CPanic), and held descriptors being open and below the limit makes every
   dup2/dup succeed (CErr). *)
Lemma move_to_stdin_stdout_spec t0 lim st ps :
  Holds t0 lim st (ps_fds ps) ->
  exists t', move_to_stdin_stdout lim (tab st) ps = COk t' /\
             forall x, lookup x t' = child_view t0 (tab st) ps x.
Proof.
  intros H. unfold child_view, move_to_stdin_stdout. destruct ps as [rd [[r w]|]]; cbn [rp nx].
  - (* close the reader of the next pipe first: from then on the child holds the
       previous reader and the writer *)
    pose proof (holds_close t0 lim st r (optl rd) [w] H) as [HI Hnd1 Hall1].
    pose proof HI as (Ha & Hb & _). destruct H as [_ Hnd Hall].
    cbn [sclose tab] in Ha, Hall1. set (t := tab st) in *.
    apply NoDup_remove_2 in Hnd.
    assert (Hrw : r <> w) by (intros ->; exact (Hnd (in_elt _ _ _))).
    assert (Hr : rd <> Some r) by (intros ->; apply Hnd; left; reflexivity).
    assert (Hw : rd <> Some w)
      by (intros ->; apply NoDup_remove_2 in Hnd1; apply Hnd1; left; reflexivity).
    destruct (Hall r (in_elt _ _ _)) as (_ & Hbr).
    destruct (Hall1 w (in_elt _ _ _)) as ([ew Hwt] & Hbw).
    assert (Ht : forall x, x <> r -> lookup x (remove_key r t) = lookup x t)
      by (intros x; apply lookup_remove_other).
    rewrite (eqb_ne r w Hrw), (opt_is_false rd r Hr), (opt_is_false rd w Hw), <- (Ht w) by congruence.
    rewrite Hwt. cbn [orb]. set (t1 := remove_key r t) in *.
    assert (Hoff : forall x, x <> w -> rd <> Some x -> lookup x t1 = lookup x t0).
    { intros x Hxw Hx. apply Ha. intros Hi.
      apply in_app_or in Hi as [Hi|[E|[]]]; [apply in_optl in Hi|]; congruence. }
    assert (Hw0 : lookup w t0 = None) by apply Hb, in_elt.
    (* once the writer sits on 1, the table is to agree with [set_key 1 (ew, false) t0] *)
    destruct (N.eqb_spec w 1) as [Hw1|Hw1].
    + (* the writer already is stdout *)
      destruct (move_stdin_spec lim (set_key 1 (ew, false) t0) t1 rd) as (t' & Hm & Hv).
      { intros x Hx. rewrite lookup_set_if.
        destruct (N.eqb_spec x 1) as [->|Hx1]; [rewrite <- Hw1; exact Hwt|].
        apply Hoff; congruence. }
      { intros p ->. destruct (Hall1 p (or_introl eq_refl)) as (He & Hbp).
        rewrite lookup_set_other by congruence.
        split; [apply Hb; left; reflexivity | split; assumption]. }
      exists t'. split; [exact Hm|]. intros x. rewrite Hv, !lookup_set_if.
      destruct (N.eqb x 0); [|reflexivity]. destruct rd as [p|]; [apply Ht; congruence | reflexivity].
    + pose proof (below_two lim r w Hrw Hbr Hbw) as Hb1.
      destruct (opt_is rd 1) eqn:E1.
      * (* the previous reader sits on stdout: a copy at the first free descriptor
           [d] takes its place; [d] is within the limit because [r], just closed, is *)
        destruct rd as [p|]; [|discriminate]. apply N.eqb_eq in E1. subst p.
        destruct (Hall1 1%N (or_introl eq_refl)) as ([ep Hpt] & _).
        rewrite <- (Ht 1%N) by congruence. fold t1.
        unfold cdup. rewrite Hpt.
        set (d := min_unused 0 t1) in *.
        pose proof (proj1 (min_unused_ok 0 t1)) as Hd. fold d in Hd.
        assert (Hdr : below lim d = true).
        { apply (below_mono lim d r); [|exact Hbr]. apply free_ge_first_free, lookup_remove_same. }
        rewrite Hdr.
        assert (Hdw : w <> d) by congruence. assert (Hd1 : d <> 1%N) by congruence.
        rewrite (cdup2_moves lim _ w 1 ew) by (rewrite ?lookup_set_other; assumption).
        set (t3 := remove_key w _).
        assert (Hd3 : lookup d t3 = Some (ep, false)).
        { unfold t3. rewrite lookup_remove_other, lookup_set_other by congruence. apply lookup_set_same. }
        destruct (move_stdin_spec lim (set_key 1 (ew, false) t0) t3 (Some d)) as (t' & Hm & Hv).
        { intros x Hx. unfold t3. rewrite lookup_remove_if, !lookup_set_if.
          destruct (N.eqb_spec x w) as [->|Hxw]; [rewrite (eqb_ne w 1 Hw1); symmetry; exact Hw0|].
          destruct (N.eqb_spec x 1) as [|Hx1]; [reflexivity|].
          rewrite (eqb_ne x d) by congruence. apply Hoff; congruence. }
        { intros p [= <-]. rewrite lookup_set_other by exact Hd1.
          split; [exact (inv_free_fresh _ _ _ _ HI Hd) | split; [exists ep; exact Hd3 | exact Hdr]]. }
        exists t'. split; [exact Hm|]. intros x. rewrite Hv, Hd3, !lookup_set_if. reflexivity.
      * rewrite (cdup2_moves lim t1 w 1 ew Hwt Hw1 Hb1). set (t3 := remove_key w _).
        assert (Hp : forall p, rd = Some p -> lookup p t3 = lookup p t1 /\ p <> r).
        { intros p ->. cbn in E1. apply N.eqb_neq in E1. split; [|congruence].
          unfold t3. rewrite lookup_remove_other, lookup_set_other; congruence. }
        destruct (move_stdin_spec lim (set_key 1 (ew, false) t0) t3 rd) as (t' & Hm & Hv).
        { intros x Hx. unfold t3. rewrite lookup_remove_if, !lookup_set_if.
          destruct (N.eqb_spec x w) as [->|Hxw]; [rewrite (eqb_ne w 1 Hw1); symmetry; exact Hw0|].
          destruct (N.eqb_spec x 1) as [|Hx1]; [reflexivity | apply Hoff; assumption]. }
        { intros p E. rewrite (proj1 (Hp p E)). subst rd. cbn in E1. apply N.eqb_neq in E1.
          destruct (Hall1 p (or_introl eq_refl)) as (He & Hbp). rewrite lookup_set_other by exact E1.
          split; [apply Hb; left; reflexivity | split; assumption]. }
        exists t'. split; [exact Hm|]. intros x. rewrite Hv, !lookup_set_if.
        destruct (N.eqb x 0); [|reflexivity]. destruct rd as [p|]; [|reflexivity].
        destruct (Hp p eq_refl) as (-> & Hpr). apply Ht. exact Hpr.
  - (* no next pipe: only the stdin part *)
    destruct H as [(Ha & Hb & _) _ Hall].
    unfold ps_fds in *. cbn [rp nx] in *. rewrite app_nil_r in *.
    destruct (move_stdin_spec lim t0 (tab st) rd) as (t' & Hm & Hv).
    { intros x Hx. apply Ha. intros Hi. apply in_optl in Hi. congruence. }
    { intros p ->. split; [apply Hb; left; reflexivity | apply Hall; left; reflexivity]. }
    exists t'. split; [exact Hm|]. intros x. rewrite Hv.
    destruct (N.eqb x 0); [reflexivity|]. destruct (N.eqb_spec x 1) as [->|]; reflexivity.
Qed.

(* [r <> w]: move_to_stdin_stdout asserts it, subshell_body does not *)
Lemma cmdsubst_child_is_first_stage lim t r w :
  r <> w -> cmdsubst_child lim t (mkPs None (Some (r, w))) =
            move_to_stdin_stdout lim t (mkPs None (Some (r, w))).
Proof.
  intros Hrw. unfold cmdsubst_child, move_to_stdin_stdout. cbn [nx rp opt_is].
  rewrite (eqb_ne r w Hrw). cbn [orb move_stdin].
  destruct (N.eqb w 1); [reflexivity|].
  destruct (cdup2 lim w 1 (remove_key r t)); reflexivity.
Qed.

Lemma childpre_ok t0 lim c :
  ChildPre t0 lim c ->
  exists t', move_to_stdin_stdout lim (fst c) (snd c) = COk t' /\
             forall fd, lookup fd t' = child_view t0 (fst c) (snd c) fd.
Proof. intros (st & <- & H). apply move_to_stdin_stdout_spec. exact H. Qed.

Lemma childpre_cmdsubst_ok t0 lim c r w :
  ChildPre t0 lim c -> snd c = mkPs None (Some (r, w)) ->
  exists t', cmdsubst_child lim (fst c) (snd c) = COk t' /\
             forall fd, lookup fd t' = child_view t0 (fst c) (snd c) fd.
Proof.
  intros Hpre E. rewrite E, cmdsubst_child_is_first_stage, <- E; [apply childpre_ok, Hpre|].
  destruct Hpre as (st & _ & [_ Hnd _]). rewrite E in Hnd.
  apply NoDup_cons_iff in Hnd as [Hr _]. intros ->. apply Hr. left. reflexivity.
Qed.

(* [o0] separates old from new: the descriptions of [t0] are numbered below it,
   [sys_pipe] numbers those of the construct from it upwards.  So a description
   at or above [o0] is a pipe end, and the child holds one on 0 and 1 only. *)
Lemma child_view_no_other_end t0 o0 t ps t' :
  (forall fd o c, lookup fd t0 = Some (o, c) -> (o < o0)%N) ->
  (forall fd, lookup fd t' = child_view t0 t ps fd) ->
  forall fd o c, lookup fd t' = Some (o, c) -> (o0 <= o)%N -> fd = 0%N \/ fd = 1%N.
Proof.
  intros Hold Hview fd o c Hl Hge. rewrite Hview in Hl. unfold child_view in Hl.
  destruct (N.eqb_spec fd 0) as [|H0]; [auto|].
  destruct (N.eqb_spec fd 1) as [|H1]; [auto|].
  specialize (Hold _ _ _ Hl). lia.
Qed.

Definition is_some {A} (o : option A) : bool := match o with Some _ => true | None => false end.

(* [new] are the children of the last [n] stages of a pipeline: child i of them
   (from 0, as [nth_error] counts) has a previous reader iff i > 0 or the first
   of them has one, and a next pipe iff it is not the last, i + 1 < n *)
Definition shape (has_prev : bool) (n : nat) (new : list (fdt * pset)) : Prop :=
  (length new <= n)%nat /\
  forall i c, nth_error new i = Some c ->
    is_some (rp (snd c)) = (if Nat.eqb i 0 then has_prev else true) /\
    is_some (nx (snd c)) = negb (Nat.eqb (S i) n).

Lemma shape_nil hp n : shape hp n [].
Proof. split; [apply Nat.le_0_l | intros [|i] c; discriminate]. Qed.

Lemma shift_shape lim pf hn st ps st' ps' :
  shift lim pf hn st ps = (true, st', ps') ->
  is_some (rp ps') = is_some (nx ps) /\ is_some (nx ps') = hn.
Proof.
  rewrite shift_unfold. intros Hs.
  assert (Hk : is_some (kept_reader ps) = is_some (nx ps))
    by (unfold kept_reader; destruct (nx ps) as [[r w]|]; reflexivity).
  destruct hn; [destruct (sys_pipe lim pf (after_close st ps)) as [[p|] st3]|];
    inversion Hs; subst; split; [exact Hk | reflexivity | exact Hk | reflexivity].
Qed.

Lemma stages_shape lim : forall n faults st ps acc acc' e st',
  stages lim faults n st ps acc = (acc', e, st') ->
  exists new, acc' = acc ++ new /\ shape (is_some (nx ps)) n new /\
              (e = Completed -> length new = n).
Proof.
  (* where no child is started [acc] comes back as it is: after the last stage,
     and when a run is abandoned *)
  assert (Hnone : forall (acc : list (fdt * pset)) hp n e, (e = Completed -> 0%nat = n) ->
            exists new, acc = acc ++ new /\ shape hp n new /\ (e = Completed -> length new = n)).
  { intros acc hp n e Hn. exists []. rewrite app_nil_r.
    split; [reflexivity|]. split; [apply shape_nil | exact Hn]. }
  induction n as [|m IH]; intros faults st ps acc acc' e st' Hs; cbn [stages] in Hs.
  - destruct (shift lim NoFault false st ps) as [[ok st1] ps1]. injection Hs as <- <- <-.
    apply Hnone. reflexivity.
  - destruct (shift lim (fst (hd (NoFault, false) faults))
                    match m with O => false | S _ => true end st ps) as [[[|] st1] ps1] eqn:Hsh;
      [|injection Hs as <- <- <-; apply Hnone; discriminate].
    destruct (snd (hd (NoFault, false) faults));
      [injection Hs as <- <- <-; apply Hnone; discriminate|].
    apply shift_shape in Hsh as (Hr & Hn). apply IH in Hs as (new & -> & (Hle & Hnth) & Hlen).
    exists ((tab st1, ps1) :: new). rewrite <- app_assoc. split; [reflexivity|]. split; [split|].
    + cbn [length]. lia.
    + intros [|i] c Hc; cbn [nth_error] in Hc.
      * injection Hc as <-. split; [exact Hr|]. cbn [snd]. rewrite Hn. destruct m; reflexivity.
      * destruct (Hnth i c Hc) as (Ha & Hb). split; [|exact Hb]. rewrite Ha.
        destruct i; [|reflexivity]. rewrite Hn. destruct m; [|reflexivity].
        (* no stage is left, so there is no such child *)
        destruct new; [discriminate Hc | cbn in Hle; lia].
    + intros He. cbn [length]. f_equal. auto.
Qed.

(* The theorems are not vacuous: runs that complete, that are abandoned at a
   pipe() or at a fork, and one that reaches the dup branch of the child. *)

Definition std_table : fdt := [(0, (1, false)); (1, (2, false)); (2, (3, false))]%N.

Example pipeline_three_runs :
  let '(acc, e, st) := pipeline None [] 3 std_table 10 in
  length acc = 3%nat /\ e = Completed /\ tlog st <> [].
Proof. vm_compute. repeat split; discriminate. Qed.

(* the second pipe cannot be opened (limit 5: the writer does not fit) *)
Example pipeline_second_pipe_fails :
  let '(acc, e, st) := pipeline (Some 5%N) [] 3 std_table 10 in
  length acc = 1%nat /\ e = PipeFailed.
Proof. vm_compute. auto. Qed.

Example pipeline_second_fork_fails :
  let '(acc, e, st) := pipeline None [(NoFault, false); (NoFault, true)] 3 std_table 10 in
  length acc = 1%nat /\ e = ForkFailed.
Proof. vm_compute. auto. Qed.

(* stdout closed in the parent: the previous reader lands on descriptor 1 and
   is moved away by the child (the dup branch of move_to_stdin_stdout) *)
Example dup_branch_reached :
  let t0 := [(0, (1, false)); (2, (3, false))]%N in
  let '(acc, _, _) := pipeline None [] 3 t0 10 in
  match nth_error acc 1 with
  | Some (t, ps) => rp ps = Some 1%N /\ exists t', move_to_stdin_stdout None t ps = COk t'
  | None => False
  end.
Proof. vm_compute. split; [reflexivity | eexists; reflexivity]. Qed.
