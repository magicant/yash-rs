(* C08 — what [lookup] sees after [update], [remove_key], [set_key], an append
   and a [fork]; the entry rules of [enter_trap]; the snapshot comparison is
   reflexive. *)
From Yv Require Import Common.Base C08.Model C08.Spec.

Lemma eqb_ne a b : a <> b -> N.eqb a b = false.
Proof. intros H. apply N.eqb_neq. exact H. Qed.

Lemma lookup_update_other {A} (k k' : N) (f : A -> A) (l : list (N * A)) :
  k <> k' -> lookup k (update k' f l) = lookup k l.
Proof.
  intros Hne. induction l as [|[q v] l IH]; cbn; [reflexivity|].
  destruct (N.eqb q k') eqn:E1; cbn.
  - apply N.eqb_eq in E1. subst q. rewrite (eqb_ne k' k) by congruence. reflexivity.
  - destruct (N.eqb q k); [reflexivity | exact IH].
Qed.

Lemma lookup_update_same {A} (k : N) (f : A -> A) (l : list (N * A)) :
  lookup k (update k f l) = option_map f (lookup k l).
Proof.
  induction l as [|[q v] l IH]; cbn; [reflexivity|].
  destruct (N.eqb q k) eqn:E; cbn; rewrite E; [reflexivity | exact IH].
Qed.

Lemma lookup_remove_if {A} (k k' : N) (l : list (N * A)) :
  lookup k (remove_key k' l) = if N.eqb k k' then None else lookup k l.
Proof.
  induction l as [|[q v] l IH]; cbn [remove_key lookup]; [destruct (N.eqb k k'); reflexivity|].
  destruct (N.eqb_spec q k') as [->|Hq]; cbn [lookup]; rewrite IH.
  - destruct (N.eqb_spec k k') as [->|Hk]; [reflexivity|].
    rewrite (eqb_ne k' k) by congruence. reflexivity.
  - destruct (N.eqb_spec q k) as [->|Hqk]; [|reflexivity].
    rewrite (eqb_ne k k' Hq). reflexivity.
Qed.

Lemma lookup_remove_same {A} (k : N) (l : list (N * A)) : lookup k (remove_key k l) = None.
Proof. rewrite lookup_remove_if, N.eqb_refl. reflexivity. Qed.

Lemma lookup_remove_other {A} (k k' : N) (l : list (N * A)) :
  k <> k' -> lookup k (remove_key k' l) = lookup k l.
Proof. intros H. rewrite lookup_remove_if, (eqb_ne k k' H). reflexivity. Qed.

Lemma lookup_set_if {A} (k k' : N) (v : A) (l : list (N * A)) :
  lookup k (set_key k' v l) = if N.eqb k k' then Some v else lookup k l.
Proof.
  unfold set_key. cbn [lookup]. rewrite lookup_remove_if, (N.eqb_sym k' k).
  destruct (N.eqb k k'); reflexivity.
Qed.

Lemma lookup_set_same {A} (k : N) (v : A) (l : list (N * A)) : lookup k (set_key k v l) = Some v.
Proof. rewrite lookup_set_if, N.eqb_refl. reflexivity. Qed.

Lemma lookup_set_other {A} (k k' : N) (v : A) (l : list (N * A)) :
  k <> k' -> lookup k (set_key k' v l) = lookup k l.
Proof. intros H. rewrite lookup_set_if, (eqb_ne k k' H). reflexivity. Qed.

Lemma lookup_app {A} (k : N) (l1 l2 : list (N * A)) :
  lookup k (l1 ++ l2) = match lookup k l1 with Some v => Some v | None => lookup k l2 end.
Proof.
  induction l1 as [|[q v] l1 IH]; cbn [app lookup]; [reflexivity|].
  destruct (N.eqb q k); [reflexivity | exact IH].
Qed.

Lemma fork_other parent child s q :
  q <> child -> lookup q (fork parent child s) = lookup q s.
Proof.
  intros Hne. unfold fork. destruct (lookup parent s) as [pr|]; [|reflexivity].
  rewrite lookup_app. destruct (lookup q s) as [v|]; [reflexivity|]. cbn [lookup].
  rewrite (eqb_ne child q) by congruence. reflexivity.
Qed.

Lemma enter_trap_never_command k t : t_action (enter_trap k t) <> ACommand.
Proof.
  unfold enter_trap.
  destruct (match k with KAsync => _ | _ => false end); cbn; [discriminate|].
  destruct (t_action t) eqn:E; cbn; congruence.
Qed.

Lemma entered_no_command k ts : Forall (fun t => t_action t <> ACommand) (map (enter_trap k) ts).
Proof. induction ts; cbn; constructor; auto. apply enter_trap_never_command. Qed.

(* the one entry rule that Properties.v does not restate; [k <> KAsync] because
   an asynchronous list turns a default INT/QUIT into ignore *)
Lemma enter_trap_default_stays k t :
  k <> KAsync -> t_action t = ADefault -> enter_trap k t = t.
Proof.
  intros Hk H. unfold enter_trap. destruct k; try congruence; rewrite H; reflexivity.
Qed.

Lemma enter_trap_idem k t : enter_trap k (enter_trap k t) = enter_trap k t.
Proof.
  unfold enter_trap.
  destruct (match k with KAsync => str_eqb (t_cond t) sigint || str_eqb (t_cond t) sigquit | _ => false end) eqn:E.
  - cbn [t_cond t_action]. rewrite E. reflexivity.
  - destruct (t_action t) eqn:Ea; cbn [t_cond t_action t_cmd t_disp]; rewrite ?E, ?Ea; reflexivity.
Qed.

Lemma trap_eqb_refl t : trap_eqb t t = true.
Proof.
  unfold trap_eqb. rewrite !(proj2 (str_eqb_eq _ _) eq_refl), N.eqb_refl.
  destruct (t_action t); reflexivity.
Qed.

Lemma fd_eqb_refl e : fd_eqb e e = true.
Proof. unfold fd_eqb. rewrite !N.eqb_refl, Bool.eqb_reflx. reflexivity. Qed.

Lemma list_eqb_refl {A} (eqb : A -> A -> bool) :
  (forall x, eqb x x = true) -> forall l, list_eqb eqb l l = true.
Proof. intros H l; induction l as [|x l IH]; cbn; [reflexivity | rewrite H, IH; reflexivity]. Qed.

Lemma snap_eqb_refl s : snap_eqb s s = true.
Proof.
  unfold snap_eqb, snap_diff.
  rewrite !(list_eqb_refl str_eqb) by (intros; apply str_eqb_eq; reflexivity).
  rewrite (proj2 (str_eqb_eq _ _) eq_refl), N.eqb_refl.
  rewrite (list_eqb_refl trap_eqb) by apply trap_eqb_refl.
  rewrite (list_eqb_refl fd_eqb) by apply fd_eqb_refl. reflexivity.
Qed.

(* [entry_ok] filters the observed table with [user_fds] as well; on the model's
   own [enter_view] that is a second application *)
Lemma user_fds_idem k l : user_fds k (user_fds k l) = user_fds k l.
Proof.
  unfold user_fds. induction l as [|e l IH]; cbn; [reflexivity|].
  destruct ((N.ltb (fst e) 10 || negb (snd (snd e))) && negb (rewired k (fst e))) eqn:E; cbn;
    [rewrite E, IH|]; auto.
Qed.
