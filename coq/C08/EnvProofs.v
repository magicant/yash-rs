(* C08 — the pieces of the Env-level entry view (what [disown_all] does to the
   jobs, what the mutators leave alone) and one step of the process tree below
   the root. *)
From Yv Require Import Common.Base C08.Model C08.EnvModel.

Lemma run_muts_keeps e ms :
  e_jobs (run_muts e ms) = e_jobs e /\ e_last_async (run_muts e ms) = e_last_async e /\
  e_stack (run_muts e ms) = e_stack e.
Proof.
  revert e. induction ms as [|m ms IH]; intros e; cbn; [auto|].
  destruct (IH (apply_mut e m)) as (A & B & C). unfold run_muts in *. rewrite A, B, C.
  destruct m; cbn; auto.
Qed.

Lemma map_disown_owned js : Forall (fun j => j_owned j = false) (map disown js).
Proof. induction js; cbn; constructor; auto. Qed.

Lemma map_disown_pids js : map j_pid (map disown js) = map j_pid js.
Proof. induction js as [|j js IH]; cbn; [reflexivity|]. rewrite IH. reflexivity. Qed.

Lemma step_below_root t ev : ev_path ev <> [] -> root (step t ev) = root t.
Proof.
  intros H. destruct ev as [path m|path k jc]; cbn in *;
    (destruct path as [|i rest]; [congruence|]); destruct t as [e cs]; reflexivity.
Qed.

Example two_process_example :
  let p := mkEnv (mkSnap [] [] [] [] [] [] 18 [mkTrap sigint ACommand [120]%N 2] [])
                 [mkJob 7 true] 7 [] 0 in
  let w := fold_left step [EMut [0%nat] (MUmask 63); EMut [0%nat] (MCd [47]%N)]
                     (step (PNode p []) (ESpawn [] KParen false)) in
  root w = p /\
  match w with
  | PNode _ [PNode c _] => s_umask (e_snap c) = 63%N /\ e_jobs c = [mkJob 7 false]
  | _ => False
  end.
Proof. vm_compute. auto. Qed.
