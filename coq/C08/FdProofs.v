(* C08 — the parent's side of the descriptor discipline (Fds.v): while a
   construct runs the parent holds a list of descriptors, all free in the
   original table; open, close and pipe() keep that true, and a construct that
   ends holding nothing has given the table back. *)
From Yv Require Import Common.Base C08.Model C08.Proofs C08.Fds.

Lemma length_remove_le {A} (k : N) (l : list (N * A)) : (length (remove_key k l) <= length l)%nat.
Proof.
  induction l as [|[q v] l IH]; cbn; [lia|]. destruct (N.eqb q k); cbn; lia.
Qed.

Lemma length_remove_lt (k : N) (t : fdt) :
  has k t = true -> (length (remove_key k t) < length t)%nat.
Proof.
  unfold has. induction t as [|[q v] t IH]; cbn; [discriminate|].
  destruct (N.eqb q k) eqn:E; intros H.
  - pose proof (length_remove_le k t). lia.
  - cbn. specialize (IH H). lia.
Qed.

(* one induction on the fuel: the lower bound is what shows that the descriptor
   removed in a round is not the one found later *)
Lemma min_unused_go_spec fuel : forall from t, (length t <= fuel)%nat ->
  lookup (min_unused_go fuel from t) t = None /\ (from <= min_unused_go fuel from t)%N /\
  forall j, (from <= j)%N -> (j < min_unused_go fuel from t)%N -> has j t = true.
Proof.
  induction fuel as [|f IH]; intros from t Hlen; cbn [min_unused_go].
  - destruct t; [|cbn in Hlen; lia]. split; [reflexivity|]. split; [lia | intros j H1 H2; lia].
  - destruct (has from t) eqn:Hh.
    + pose proof (length_remove_lt from t Hh) as Hlt.
      destruct (IH (N.succ from) (remove_key from t)) as (Hf & Hge & Hl); [lia|].
      rewrite lookup_remove_other in Hf by lia. split; [exact Hf|]. split; [lia|].
      intros j H1 H2. destruct (N.eq_dec j from) as [->|Hne]; [exact Hh|].
      specialize (Hl j). unfold has in *. rewrite lookup_remove_other in Hl by exact Hne.
      apply Hl; lia.
    + split; [|split; [lia | intros j H1 H2; lia]].
      unfold has in Hh. destruct (lookup from t); [discriminate | reflexivity].
Qed.

(* the fuel [length t] that [min_unused] passes is enough: the [O] branch of
   [min_unused_go] is reached on an empty table only *)
Lemma min_unused_ok from t :
  lookup (min_unused from t) t = None /\ (from <= min_unused from t)%N /\
  (forall j, (from <= j)%N -> (j < min_unused from t)%N -> has j t = true).
Proof. apply min_unused_go_spec. lia. Qed.

Lemma free_ge_first_free t fd : lookup fd t = None -> (min_unused 0 t <= fd)%N.
Proof.
  intros Hf. destruct (N.lt_ge_cases fd (min_unused 0 t)) as [Hlt|Hge]; [|exact Hge].
  pose proof (proj2 (proj2 (min_unused_ok 0 t)) fd (N.le_0_l _) Hlt) as Hh.
  unfold has in Hh. rewrite Hf in Hh. discriminate.
Qed.

Local Arguments set_key : simpl never.
Local Arguments remove_key : simpl never.
Local Arguments lookup : simpl never.
Local Arguments min_unused : simpl never.

(* [live]: the descriptors the construct currently holds.  Outside [live] the
   table is the original one; the live descriptors are free in the original
   table; so is every descriptor a system call has touched so far. *)
Definition Inv (t0 : fdt) (st : pst) (live : list N) : Prop :=
  (forall fd, ~ In fd live -> lookup fd (tab st) = lookup fd t0) /\
  (forall fd, In fd live -> lookup fd t0 = None) /\
  Forall (fun fd => lookup fd t0 = None) (tlog st).

Lemma inv_init t0 o0 : Inv t0 (mkPst t0 o0 []) [].
Proof. repeat split; cbn; auto. intros fd []. Qed.

Lemma inv_free_fresh t0 st live fd :
  Inv t0 st live -> lookup fd (tab st) = None -> lookup fd t0 = None.
Proof.
  intros (Ha & Hb & _) Hf. destruct (in_dec N.eq_dec fd live) as [Hi|Hn].
  - apply Hb. exact Hi.
  - rewrite <- Ha by exact Hn. exact Hf.
Qed.

Lemma inv_restored t0 st :
  Inv t0 st [] ->
  (forall fd, lookup fd (tab st) = lookup fd t0) /\
  Forall (fun fd => lookup fd t0 = None /\ (min_unused 0 t0 <= fd)%N) (tlog st).
Proof.
  intros (Ha & _ & Hc). split.
  - intros fd. apply Ha. intros [].
  - eapply Forall_impl; [|exact Hc]. cbn beta. intros fd Hf. split; [exact Hf|].
    apply free_ge_first_free. exact Hf.
Qed.

(* The construct holds the descriptors [fds].  What is added to [Inv] is what
   the child needs to rewire them.  The order of [fds] carries no meaning; new
   descriptors are appended so that the list reads like [ps_fds]. *)
Record Holds (t0 : fdt) (lim : option N) (st : pst) (fds : list N) : Prop := {
  held_inv : Inv t0 st fds;
  held_distinct : NoDup fds;
  held_open_below : forall fd, In fd fds ->
    (exists o, lookup fd (tab st) = Some (o, false)) /\ below lim fd = true }.

Lemma holds_init t0 lim o0 : Holds t0 lim (mkPst t0 o0 []) [].
Proof. split; [apply inv_init | constructor | intros fd []]. Qed.

(* open(2)/pipe(2)/dup(2) landing on a free descriptor; the new description's
   identity and the counter do not matter *)
Lemma holds_open t0 lim st fds fd o n :
  Holds t0 lim st fds -> lookup fd (tab st) = None -> below lim fd = true ->
  Holds t0 lim (mkPst (set_key fd (o, false) (tab st)) n (fd :: tlog st)) (fds ++ [fd]).
Proof.
  intros [HI Hnd Hall] Hf Hlim.
  assert (Hnew : ~ In fd fds).
  { intros Hi. destruct (Hall fd Hi) as ([o' Ho] & _). congruence. }
  pose proof (inv_free_fresh _ _ _ _ HI Hf) as H0. destruct HI as (Ha & Hb & Hc).
  assert (Hin : forall x, In x (fds ++ [fd]) <-> In x fds \/ x = fd).
  { intros x. rewrite in_app_iff. cbn [In]. intuition congruence. }
  split; [split; [|split]| |]; cbn [tab tlog].
  - intros x Hx. rewrite Hin in Hx. rewrite lookup_set_other by tauto. apply Ha. tauto.
  - intros x Hx. apply Hin in Hx as [Hx| ->]; [apply Hb; exact Hx | exact H0].
  - constructor; assumption.
  - apply (NoDup_Add (Add_app fd fds [])). rewrite app_nil_r. split; assumption.
  - intros x Hx. apply Hin in Hx as [Hx| ->].
    + destruct (Hall x Hx) as ([o' Ho] & Hbx). split; [exists o'|exact Hbx].
      rewrite lookup_set_other; [exact Ho | intros ->; exact (Hnew Hx)].
    + split; [exists o; apply lookup_set_same | exact Hlim].
Qed.

(* close(2) of a held descriptor, wherever it stands in the list *)
Lemma holds_close t0 lim st fd l1 l2 :
  Holds t0 lim st (l1 ++ fd :: l2) -> Holds t0 lim (sclose fd st) (l1 ++ l2).
Proof.
  intros [(Ha & Hb & Hc) Hnd Hall].
  apply NoDup_remove in Hnd as [Hnd Hnew].
  assert (H0 : lookup fd t0 = None) by apply Hb, in_elt.
  assert (Hsub : forall x, In x (l1 ++ l2) -> In x (l1 ++ fd :: l2))
    by (intros x; rewrite !in_app_iff; cbn [In]; tauto).
  split; [split; [|split]| |]; cbn [sclose tab tlog].
  - intros x Hx. destruct (N.eq_dec x fd) as [->|Hne].
    + rewrite lookup_remove_same. symmetry. exact H0.
    + rewrite lookup_remove_other by exact Hne. apply Ha. intros Hi.
      apply in_elt_inv in Hi as [E|Hi]; [congruence | exact (Hx Hi)].
  - intros x Hx. apply Hb, Hsub, Hx.
  - constructor; assumption.
  - exact Hnd.
  - intros x Hx. destruct (Hall x (Hsub x Hx)) as ([o Ho] & Hbx).
    split; [exists o|exact Hbx].
    rewrite lookup_remove_other; [exact Ho | intros ->; exact (Hnew Hx)].
Qed.

(* [ps_fds ps] unfolds to [optl (rp ps) ++ _]: [holds_oclose] is applied to it
   up to conversion *)
Definition optl (o : option N) : list N := match o with Some x => [x] | None => [] end.

Lemma holds_oclose t0 lim st o fds :
  Holds t0 lim st (optl o ++ fds) -> Holds t0 lim (oclose o st) fds.
Proof. destruct o as [fd|]; [apply (holds_close _ _ _ fd [])|]; trivial. Qed.

(* pipe() is open, open — or open, close when the writer cannot be had: on
   success the two ends are held in addition, on failure nothing has changed *)
Lemma holds_pipe t0 lim pf st fds res st' :
  Holds t0 lim st fds -> sys_pipe lim pf st = (res, st') ->
  match res with
  | Some (r, w) => Holds t0 lim st' (fds ++ [r; w])
  | None => Holds t0 lim st' fds
  end.
Proof.
  intros H Hp. unfold sys_pipe in Hp.
  set (r := min_unused 0 (tab st)) in *.
  destruct (below lim r) eqn:Hbr;
    [|destruct pf; injection Hp as <- <-; exact H].
  pose proof (holds_open _ _ _ _ r (nofd st) (nofd st) H (proj1 (min_unused_ok 0 _)) Hbr) as H1.
  pose proof (holds_close _ _ _ r fds [] H1) as Hback. rewrite app_nil_r in Hback.
  set (t1 := set_key r (nofd st, false) (tab st)) in *.
  set (w := min_unused 0 t1) in *.
  destruct pf; cbn [negb is_fail_writer] in Hp;
    [| injection Hp as <- <-; exact H | rewrite orb_true_r in Hp; injection Hp as <- <-; exact Hback].
  rewrite orb_false_r in Hp.
  destruct (below lim w) eqn:Hbw; injection Hp as <- <-; [|exact Hback].
  rewrite (app_assoc fds [r] [w] : fds ++ [r; w] = _).
  exact (holds_open _ _ _ _ w _ _ H1 (proj1 (min_unused_ok 0 t1)) Hbw).
Qed.

(* [shift] first closes the previous reader and the writer of the current pipe,
   keeping its reader, then opens the next pipe if there is a next stage *)
Definition after_close (st : pst) (ps : pset) : pst :=
  let st1 := oclose (rp ps) st in
  match nx ps with Some (_, w) => sclose w st1 | None => st1 end.

Definition kept_reader (ps : pset) : option N :=
  match nx ps with Some (r, _) => Some r | None => None end.

Lemma shift_unfold lim pf hn st ps :
  shift lim pf hn st ps =
  if hn then
    match sys_pipe lim pf (after_close st ps) with
    | (Some p, st3) => (true, st3, mkPs (kept_reader ps) (Some p))
    | (None, st3) => (false, oclose (kept_reader ps) st3, mkPs None None)
    end
  else (true, after_close st ps, mkPs (kept_reader ps) None).
Proof. unfold shift, after_close, kept_reader. destruct (nx ps) as [[r w]|]; reflexivity. Qed.

Lemma holds_after_close t0 lim st ps :
  Holds t0 lim st (ps_fds ps) -> Holds t0 lim (after_close st ps) (optl (kept_reader ps)).
Proof.
  intros H. apply (holds_oclose _ _ _ (rp ps)) in H. unfold after_close, kept_reader.
  destruct (nx ps) as [[r w]|]; [exact (holds_close _ _ _ w [r] [] H) | exact H].
Qed.

Lemma holds_shift t0 lim pf hn st ps ok st' ps' :
  Holds t0 lim st (ps_fds ps) -> shift lim pf hn st ps = (ok, st', ps') ->
  Holds t0 lim st' (ps_fds ps') /\ (ok = false -> ps_fds ps' = []) /\
  (hn = false -> nx ps' = None).
Proof.
  intros H Hs. rewrite shift_unfold in Hs. apply holds_after_close in H.
  destruct hn.
  - destruct (sys_pipe lim pf (after_close st ps)) as [[[r w]|] st3] eqn:Hp;
      apply (holds_pipe _ _ _ _ _ _ _ H) in Hp; injection Hs as <- <- <-.
    + split; [exact Hp | split; discriminate].
    + split; [|split; [reflexivity | discriminate]].
      apply (holds_oclose _ _ _ (kept_reader ps)). rewrite app_nil_r. exact Hp.
  - injection Hs as <- <- <-. split; [|split; [discriminate | reflexivity]].
    unfold ps_fds. cbn [rp nx]. rewrite app_nil_r. exact H.
Qed.

Lemma holds_close_all t0 lim st ps :
  Holds t0 lim st (ps_fds ps) -> Holds t0 lim (close_all st ps) [].
Proof.
  intros H. apply (holds_oclose _ _ _ (rp ps)) in H. unfold close_all.
  destruct (nx ps) as [[r w]|]; [|exact H].
  exact (holds_close _ _ _ w [] [] (holds_close _ _ _ r [] [w] H)).
Qed.

(* what holds of every child the parent started: at the fork the parent held
   exactly the descriptors of the PipeSet handed to the child *)
Definition ChildPre (t0 : fdt) (lim : option N) (c : fdt * pset) : Prop :=
  exists st, tab st = fst c /\ Holds t0 lim st (ps_fds (snd c)).

(* [n = 0 -> nx ps = None]: the last stage was started without a next pipe
   ([holds_shift], third part), so the closing [shift] keeps no reader and the
   parent ends holding nothing *)
Lemma stages_holds t0 lim : forall n faults st ps acc acc' e st',
  Holds t0 lim st (ps_fds ps) -> (n = 0%nat -> nx ps = None) ->
  Forall (ChildPre t0 lim) acc ->
  stages lim faults n st ps acc = (acc', e, st') ->
  Holds t0 lim st' [] /\ Forall (ChildPre t0 lim) acc'.
Proof.
  induction n as [|m IH]; intros faults st ps acc acc' e st' H Hn0 Hacc Hs; cbn [stages] in Hs.
  - rewrite shift_unfold in Hs. injection Hs as <- <- <-. split; [|exact Hacc].
    apply holds_after_close in H. unfold kept_reader in H. rewrite (Hn0 eq_refl) in H. exact H.
  - destruct (shift lim (fst (hd (NoFault, false) faults))
                    match m with O => false | S _ => true end st ps) as [[ok st1] ps1] eqn:Hsh.
    destruct (holds_shift _ _ _ _ _ _ _ _ _ H Hsh) as (H1 & Hfail & Hlast).
    destruct ok.
    + destruct (snd (hd (NoFault, false) faults)).
      * injection Hs as <- <- <-. split; [|exact Hacc]. apply holds_close_all. exact H1.
      * eapply IH; [exact H1| | |exact Hs].
        -- intros ->. exact (Hlast eq_refl).
        -- apply Forall_app. split; [exact Hacc|]. constructor; [|constructor].
           exists st1. split; [reflexivity | exact H1].
    + injection Hs as <- <- <-. split; [|exact Hacc].
      rewrite (Hfail eq_refl) in H1. exact H1.
Qed.

Lemma pipeline_holds lim faults n t0 o0 acc e st :
  pipeline lim faults n t0 o0 = (acc, e, st) -> Inv t0 st [] /\ Forall (ChildPre t0 lim) acc.
Proof.
  intros Hp.
  destruct (stages_holds t0 lim n faults _ (mkPs None None) [] acc e st
              (holds_init t0 lim o0) (fun _ => eq_refl) (Forall_nil _) Hp) as (H & Hacc).
  split; [exact (held_inv _ _ _ _ H) | exact Hacc].
Qed.

Lemma cmdsubst_holds lim pf ff t0 o0 acc e st :
  cmdsubst lim pf ff t0 o0 = (acc, e, st) ->
  Inv t0 st [] /\
  Forall (fun c => ChildPre t0 lim c /\ exists r w, snd c = mkPs None (Some (r, w))) acc.
Proof.
  intros Hc. unfold cmdsubst in Hc.
  destruct (sys_pipe lim pf (mkPst t0 o0 [])) as [[[r w]|] st1] eqn:Hp;
    apply (holds_pipe _ _ _ _ _ _ _ (holds_init t0 lim o0)) in Hp; cbn [app] in Hp.
  - destruct ff; injection Hc as <- <- <-.
    + split; [|constructor].
      exact (held_inv _ _ _ _ (holds_close _ _ _ w [] [] (holds_close _ _ _ r [] [w] Hp))).
    + split; [exact (held_inv _ _ _ _ (holds_close _ _ _ r [] [] (holds_close _ _ _ w [r] [] Hp)))|].
      constructor; [|constructor]. split; [|exists r, w; reflexivity].
      exists st1. split; [reflexivity | exact Hp].
  - injection Hc as <- <- <-. split; [exact (held_inv _ _ _ _ Hp) | constructor].
Qed.
