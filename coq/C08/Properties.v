(* C08 — "nothing done in a subshell leaks into the parent; the subshell starts
   from a copy of the parent, traps reset".  Three groups carry content about
   yash-rs: the kernel records (fork copies, a call touches the caller's record
   only), the trap rules of TrapSet::enter_subshell, and the parent's descriptor
   discipline around pipelines and command substitutions under every fault
   schedule.  The remaining ones ([entry_copies_state],
   [subshell_entry_copies_everything_else], [process_tree_frame],
   [two_process_parent_untouched]) hold by the shape of a functional model, in
   which two environments share nothing: a leak through an Rc/RefCell shared
   between the parent's and the child's Env cannot be expressed here, and that
   half of the property rests on the snapshot oracles [no_leak] / [entry_ok]
   evaluated on the real shell (Run.v). *)
From Yv Require Import Common.Base C08.Model C08.Spec C08.Proofs C08.Fds C08.FdProofs C08.FdChild C08.EnvModel C08.EnvProofs.

(* [lookup p] is the whole record: descriptors, working directory, umask,
   dispositions, mask, limits.  [syscall] has no call aimed at another process
   (kill, wait and exit are not modelled), so no exception for signal delivery
   is needed. *)
Theorem syscall_frame : forall (p : N) (calls : list (N * syscall)) (s : sys),
  Forall (fun pc => fst pc <> p) calls ->
  lookup p (fold_left do_call calls s) = lookup p s.
Proof.
  intros p calls. induction calls as [|[q c] calls IH]; intros s H; cbn; [reflexivity|].
  inversion H as [|x l Hq Hrest]; subst. cbn in Hq.
  rewrite IH by exact Hrest. unfold do_call; cbn.
  apply lookup_update_other. congruence.
Qed.

(* Process::fork_from.  [lookup child s = None]: [fork] appends, so a record
   already filed under [child] would shadow the new one. *)
Theorem fork_child_is_copy : forall parent child s pr,
  lookup parent s = Some pr -> lookup child s = None ->
  lookup child (fork parent child s) = Some pr /\ lookup parent (fork parent child s) = Some pr.
Proof.
  intros parent child s pr Hp Hc. unfold fork. rewrite Hp. split.
  - rewrite lookup_app, Hc. cbn. rewrite N.eqb_refl. reflexivity.
  - rewrite lookup_app, Hp. reflexivity.
Qed.

(* the two above combined: the callers are the child or any process but the parent *)
Theorem subshell_kernel_isolation : forall parent child s pr calls,
  lookup parent s = Some pr -> lookup child s = None -> parent <> child ->
  Forall (fun pc => fst pc <> parent) calls ->
  lookup parent (fold_left do_call calls (fork parent child s)) = Some pr.
Proof.
  intros parent child s pr calls Hp Hc Hne Hcalls. rewrite syscall_frame by exact Hcalls.
  rewrite fork_other by exact Hne. exact Hp.
Qed.

(* TrapSet::enter_subshell, one trap at a time.  The first two rules hold for
   every kind; the third excludes [KAsync], where INT and QUIT become ignored
   whatever they were.  The fourth rule, default stays default, is
   [Proofs.enter_trap_default_stays]. *)
Theorem entry_no_command_traps : forall k t, t_action (enter_trap k t) <> ACommand.
Proof. exact enter_trap_never_command. Qed.

Theorem entry_ignored_stays_ignored : forall k t,
  t_action t = AIgnore -> t_action (enter_trap k t) = AIgnore.
Proof.
  intros k t H. unfold enter_trap.
  destruct (match k with KAsync => _ | _ => false end); cbn; [reflexivity|].
  rewrite H. reflexivity.
Qed.

Theorem entry_command_reset_to_default : forall k t,
  k <> KAsync -> t_action t = ACommand ->
  t_action (enter_trap k t) = ADefault /\ t_disp (enter_trap k t) = 0%N.
Proof.
  intros k t Hk H. unfold enter_trap. destruct k; try congruence; rewrite H; split; reflexivity.
Qed.

Theorem entry_copies_state : forall k p,
  s_vars (enter_view k p) = s_vars p /\ s_pos (enter_view k p) = s_pos p /\
  s_funs (enter_view k p) = s_funs p /\ s_aliases (enter_view k p) = s_aliases p /\
  s_opts (enter_view k p) = s_opts p /\ s_cwd (enter_view k p) = s_cwd p /\
  s_umask (enter_view k p) = s_umask p.
Proof. repeat split. Qed.

(* The run-time oracles of Spec.v are not stricter than the model: they cannot
   fire (verdicts 30..38, 10..18) on a shell that does exactly what the model
   does.  Nothing is claimed about what else they accept. *)
Theorem oracle_accepts_model_entry : forall k p, entry_ok k p (enter_view k p) = true.
Proof.
  intros k p. unfold entry_ok.
  cbn [s_vars s_pos s_funs s_aliases s_opts s_cwd s_umask s_traps s_fds enter_view].
  rewrite user_fds_idem. apply snap_eqb_refl.
Qed.

Theorem oracle_accepts_unchanged_parent : forall s, no_leak s s = true.
Proof. exact snap_eqb_refl. Qed.

(* process.rs min_unused_fd, modelled with fuel = number of open descriptors: this is the
   statement that the fuel is never exhausted (the result is the least free descriptor >= from) *)
Theorem min_unused_spec : forall (from : N) (t : fdt), lookup (min_unused from t) t = None /\ (from <= min_unused from t)%N /\ (forall j, (from <= j)%N -> (j < min_unused from t)%N -> has j t = true).
Proof. exact min_unused_ok. Qed.

(* execute_multi_command_pipeline, parent side.  [e] is unconstrained: the runs abandoned at a
   failing pipe() or fork are included, which is where a pipe end would stay open.  [faults] may
   be shorter than [n]; the missing stages run without fault. *)
Theorem pipeline_parent_table_restored : forall (lim : option N) (faults : list (pfault * bool)) (n : nat) (t0 : fdt) (o0 : N) acc e st, pipeline lim faults n t0 o0 = (acc, e, st) -> forall fd, lookup fd (tab st) = lookup fd t0.
Proof. intros lim faults n t0 o0 acc e st H. exact (proj1 (inv_restored _ _ (proj1 (pipeline_holds _ _ _ _ _ _ _ _ H)))). Qed.

(* [tlog] has every descriptor a system call of the pipeline opened or closed in the parent:
   the user's descriptors are never touched, not even closed and reopened *)
Theorem pipeline_touches_only_free_descriptors : forall (lim : option N) (faults : list (pfault * bool)) (n : nat) (t0 : fdt) (o0 : N) acc e st, pipeline lim faults n t0 o0 = (acc, e, st) -> Forall (fun fd => lookup fd t0 = None /\ (min_unused 0 t0 <= fd)%N) (tlog st).
Proof. intros lim faults n t0 o0 acc e st H. exact (proj2 (inv_restored _ _ (proj1 (pipeline_holds _ _ _ _ _ _ _ _ H)))). Qed.

(* [acc] pairs, for every child started, its initial table (= the parent's table at the fork,
   fork_from) with the PipeSet it was given.  move_to_stdin_stdout neither fails (CErr) nor hits
   an assert_ne! (CPanic), and what it leaves is [child_view]: the table from BEFORE the pipeline
   with the previous reader on 0 and the next writer on 1. *)
Theorem pipeline_child_entry_table : forall (lim : option N) (faults : list (pfault * bool)) (n : nat) (t0 : fdt) (o0 : N) acc e st, pipeline lim faults n t0 o0 = (acc, e, st) -> Forall (fun c => exists t', move_to_stdin_stdout lim (fst c) (snd c) = COk t' /\ forall fd, lookup fd t' = child_view t0 (fst c) (snd c) fd) acc.
Proof.
  intros lim faults n t0 o0 acc e st H.
  eapply Forall_impl; [apply childpre_ok | exact (proj2 (pipeline_holds _ _ _ _ _ _ _ _ H))].
Qed.

(* The hypothesis on [o0] says that it separates the descriptions of [t0] from those the
   pipeline creates ([sys_pipe] numbers them from [o0]).  Then no descriptor but 0 and 1 of a
   child refers to a pipe: no other pipe end stays open, every reader sees EOF.  That 0 and 1 are
   the ends of the RIGHT pipes is not stated. *)
Theorem pipeline_child_no_other_pipe_end : forall (lim : option N) (faults : list (pfault * bool)) (n : nat) (t0 : fdt) (o0 : N) acc e st, (forall fd o c, lookup fd t0 = Some (o, c) -> (o < o0)%N) -> pipeline lim faults n t0 o0 = (acc, e, st) -> Forall (fun ch => forall t', move_to_stdin_stdout lim (fst ch) (snd ch) = COk t' -> forall fd o c, lookup fd t' = Some (o, c) -> (o0 <= o)%N -> fd = 0%N \/ fd = 1%N) acc.
Proof.
  intros lim faults n t0 o0 acc e st Hold H.
  eapply Forall_impl; [|exact (pipeline_child_entry_table _ _ _ _ _ _ _ _ H)].
  intros ch (t1 & Hm & Hview) t' Hm'. rewrite Hm in Hm'. injection Hm' as <-.
  exact (child_view_no_other_end _ _ _ _ _ Hold Hview).
Qed.

(* read together with [child_view]: the first stage keeps the parent's stdin, the last one the
   parent's stdout, every other 0/1 comes from the PipeSet *)
Theorem pipeline_stage_rewiring : forall (lim : option N) (faults : list (pfault * bool)) (n : nat) (t0 : fdt) (o0 : N) acc e st, pipeline lim faults n t0 o0 = (acc, e, st) -> (forall i c, nth_error acc i = Some c -> is_some (rp (snd c)) = negb (Nat.eqb i 0) /\ is_some (nx (snd c)) = negb (Nat.eqb (S i) n)) /\ (e = Completed -> length acc = n).
Proof.
  intros lim faults n t0 o0 acc e st H. apply stages_shape in H as (new & -> & (_ & Hnth) & Hlen).
  split; [|exact Hlen].
  intros i c Hn. destruct (Hnth i c Hn) as (Ha & Hb). split; [|exact Hb].
  rewrite Ha. destruct i; reflexivity.
Qed.

(* command_subst.rs expand_common / subshell_body: the three pipeline statements for the one
   pipe and one child of a command substitution ([acc] has at most one entry) *)
Theorem cmdsubst_descriptor_discipline : forall (lim : option N) (pf : pfault) (ff : bool) (t0 : fdt) (o0 : N) acc e st, cmdsubst lim pf ff t0 o0 = (acc, e, st) -> (forall fd, lookup fd (tab st) = lookup fd t0) /\ Forall (fun fd => lookup fd t0 = None /\ (min_unused 0 t0 <= fd)%N) (tlog st) /\ Forall (fun c => exists t', cmdsubst_child lim (fst c) (snd c) = COk t' /\ forall fd, lookup fd t' = child_view t0 (fst c) (snd c) fd) acc.
Proof.
  intros lim pf ff t0 o0 acc e st H. destruct (cmdsubst_holds _ _ _ _ _ _ _ _ H) as (HI & Hacc).
  destruct (inv_restored _ _ HI) as (A & B). split; [exact A|]. split; [exact B|].
  eapply Forall_impl; [|exact Hacc]. intros c (Hpre & r & w & E). exact (childpre_cmdsubst_ok _ _ _ _ _ Hpre E).
Qed.

(* Config::start's child prologue runs on every entry, also when the process that forks is itself
   a subshell: whatever the outer subshell set in between ([ms] may set command traps again), the
   inner one starts without command traps and owned jobs *)
Theorem nested_subshell_entry_resets_again : forall (p : env) (k1 : kind) (jc1 : bool) (ms : list mutator) (k2 : kind) (jc2 : bool), let inner := enter_subshell (run_muts (enter_subshell p k1 jc1) ms) k2 jc2 in Forall (fun t => t_action t <> ACommand) (s_traps (e_snap inner)) /\ Forall (fun j => j_owned j = false) (e_jobs inner) /\ map j_pid (e_jobs inner) = map j_pid (e_jobs p) /\ e_last_async inner = e_last_async p /\ e_stack inner = e_stack p ++ [FSubshell; FSubshell].
Proof.
  intros p k1 jc1 ms k2 jc2. cbn zeta.
  destruct (run_muts_keeps (enter_subshell p k1 jc1) ms) as (A & B & C).
  unfold enter_subshell at 1 3 5 7 9. cbn [e_snap e_jobs e_last_async e_stack s_traps].
  split; [apply entered_no_command|]. split; [apply map_disown_owned|].
  rewrite A, B, C. cbn [enter_subshell e_jobs e_last_async e_stack].
  split; [rewrite !map_disown_pids; reflexivity|]. split; [reflexivity|].
  rewrite <- app_assoc. reflexivity.
Qed.

Theorem subshell_entry_traps_idempotent : forall (e : env) (k : kind) (jc : bool), s_traps (e_snap (enter_subshell (enter_subshell e k jc) k jc)) = s_traps (e_snap (enter_subshell e k jc)).
Proof.
  intros e k jc. cbn [enter_subshell e_snap s_traps]. rewrite map_map. apply map_ext, enter_trap_idem.
Qed.

(* Unlike [enter_view], [enter_subshell] copies the descriptors whole (what each kind rewires is
   Fds.v's matter) and picks the trap rule through [trap_kind]. *)
Theorem subshell_entry_copies_everything_else : forall (e : env) (k : kind) (jc : bool), let c := enter_subshell e k jc in s_vars (e_snap c) = s_vars (e_snap e) /\ s_pos (e_snap c) = s_pos (e_snap e) /\ s_funs (e_snap c) = s_funs (e_snap e) /\ s_aliases (e_snap c) = s_aliases (e_snap e) /\ s_opts (e_snap c) = s_opts (e_snap e) /\ s_cwd (e_snap c) = s_cwd (e_snap e) /\ s_umask (e_snap c) = s_umask (e_snap e) /\ s_fds (e_snap c) = s_fds (e_snap e) /\ e_last_async c = e_last_async e /\ e_exit c = e_exit e /\ map j_pid (e_jobs c) = map j_pid (e_jobs e) /\ s_traps (e_snap c) = map (enter_trap (trap_kind k jc)) (s_traps (e_snap e)).
Proof. cbn. repeat split. apply map_disown_pids. Qed.

(* What isolation means for a tree of shells, any depth, any interleaving.  True because [step]
   rebuilds only the node at the path: it says nothing about state the real Env shares by Rc. *)
Theorem process_tree_frame : forall (evs : list event) (t : ptree), Forall (fun ev => ev_path ev <> []) evs -> root (fold_left step evs t) = root t.
Proof.
  induction evs as [|ev evs IH]; intros t H; cbn; [reflexivity|].
  inversion H as [|? ? H1 H2]; subst. rewrite IH by exact H2. apply step_below_root. exact H1.
Qed.

(* the two-process instance, with non-vacuity: the child did run all the mutators *)
Theorem two_process_parent_untouched : forall (p : env) (k : kind) (jc : bool) (ms : list mutator), root (fold_left step (map (EMut [0%nat]) ms) (step (PNode p []) (ESpawn [] k jc))) = p /\ fold_left step (map (EMut [0%nat]) ms) (step (PNode p []) (ESpawn [] k jc)) = PNode p [PNode (run_muts (enter_subshell p k jc) ms) []].
Proof.
  intros p k jc ms.
  assert (Hrun : fold_left step (map (EMut [0%nat]) ms) (step (PNode p []) (ESpawn [] k jc)) =
                 PNode p [PNode (run_muts (enter_subshell p k jc) ms) []]).
  { cbn [step at_path app]. generalize (enter_subshell p k jc) as c.
    induction ms as [|m ms IH]; intros c; cbn; [reflexivity|]. apply IH. }
  split; [rewrite Hrun; reflexivity | exact Hrun].
Qed.

(* as [oracle_accepts_model_entry], for the observations outside the snapshot (verdicts 50..52) *)
Theorem oracle_accepts_model_entry_jobs_frames : forall (e : env) (k : kind) (jc : bool), xentry_jobs_ok (xview_of e) (xview_of (enter_subshell e k jc)) = true /\ xentry_last_ok (xview_of e) (xview_of (enter_subshell e k jc)) = true /\ xentry_stack_ok (xview_of e) (xview_of (enter_subshell e k jc)) = true.
Proof.
  intros e k jc. unfold xentry_jobs_ok, xentry_last_ok, xentry_stack_ok, xview_of.
  cbn [fst snd enter_subshell e_jobs e_last_async e_stack]. repeat split.
  - apply andb_true_iff. split.
    + rewrite !map_map. cbn. apply list_eqb_refl, N.eqb_refl.
    + rewrite map_map. apply forallb_forall. intros x Hin. apply in_map_iff in Hin.
      destruct Hin as (j & <- & _). reflexivity.
  - apply N.eqb_refl.
  - rewrite map_app. cbn. apply list_eqb_refl, N.eqb_refl.
Qed.
