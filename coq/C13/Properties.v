(* C13 — property theorems only.  Each follows in a few lines from the lemmas
   of the Proofs files; the driver pins the statements with [Check] and prints
   the assumptions. *)
From Yv Require Import Common.Base C13.Model C13.Spec C13.Run C13.Proofs C13.ProofsRun C13.ProofsLedger C13.ProofsFds.

Theorem protocol_invariant :
  forall p ls s, run (init p) ls = Some s -> Inv s.
Proof. intros p ls s. apply run_inv, inv_init. Qed.

(* while the parent is about to enter select or sits in it, a change of a
   child that wait would report (an exit, a stop, a continuation) is never
   unnoticed: SIGCHLD is pending or caught, so select returns *)
Theorem no_lost_sigchld :
  forall p ls s m t c, run (init p) ls = Some s -> at_ s = PWait m t c ->
    (m = SEnter \/ m = SBlocked) -> has_news (kn s) t ->
    pending (kn s) = true \/ 0 < caught (kn s).
Proof. intros p ls s m t c Hr. apply no_lost_sigchld_inv, (protocol_invariant _ _ _ Hr). Qed.

(* wait_for_subshell_to_finish never gets ECHILD (the `expect` cannot fail) *)
Theorem never_panics :
  forall p ls s, run (init p) ls = Some s -> at_ s <> PPanic.
Proof. intros p ls s. apply run_no_panic; [apply inv_init | cbn; discriminate]. Qed.

(* no deadlock: if the shell has not exited and no process can take a step,
   some child is stopped (and nothing is left to continue it).  The
   disjunction does not say that a state with a stopped child is stuck
   (Proofs.ex_stop_midway) *)
Theorem progress :
  forall p ls s, run (init p) ls = Some s -> final s = false ->
    (exists l, step s l <> None) \/ some_stopped (kn s).
Proof.
  intros p ls s Hr Hf. apply progress_inv.
  - exact (protocol_invariant _ _ _ Hr).
  - unfold final in Hf. destruct (at_ s); discriminate.
  - exact (never_panics _ _ _ Hr).
Qed.

(* run_bound p (Model.v, a sum over the commands) is ProofsKern.measure at
   [init p], and every step of every process decreases the measure *)
Theorem terminates_under_every_schedule :
  forall p ls s, run (init p) ls = Some s -> length ls <= run_bound p.
Proof.
  intros p ls s H. pose proof (run_measure _ _ _ H) as Hm. rewrite measure_init in Hm. lia.
Qed.

(* wait reports the exit of a child at most once, and exactly once for a
   child in state Reaped *)
Theorem reaped_exactly_once :
  forall p ls s c, run (init p) ls = Some s -> In c (kids (kn s)) ->
    reaps c = match cs c with Reaped => 1 | _ => 0 end.
Proof. intros p ls s c Hr. apply reaped_once_inv, (protocol_invariant _ _ _ Hr). Qed.

(* when the shell exits, a child that is not reaped is an asynchronous job the
   script never waited for *)
Theorem no_zombie_at_exit :
  forall p ls s i c, run (init p) ls = Some s -> final s = true ->
    nth_error (kids (kn s)) i = Some c -> cs c <> Reaped -> In i (map fst (jobs s)).
Proof. intros p ls s i c Hr. apply no_zombie_inv, (protocol_invariant _ _ _ Hr). Qed.

Theorem all_reaped_after_wait :
  forall p ls s c, run (init (p ++ [CWait None])) ls = Some s -> final s = true ->
    In c (kids (kn s)) -> cs c = Reaped /\ reaps c = 1.
Proof.
  intros p ls s c Hr Hf. apply all_reaped_inv; [exact (protocol_invariant _ _ _ Hr) | exact Hf |].
  destruct (final_is_reference _ _ _ Hr Hf) as [_ [_ [_ Hj]]].
  rewrite ref_wait_all_jobs in Hj. exact (map_eq_nil _ _ Hj).
Qed.

(* $? and $! at every probe and at the exit, and the children left in the job
   list, are those of the sequential reading of the script (pipeline = last
   member, rightmost failure under pipefail, 127 for a process that is not a
   known job), for every schedule *)
Theorem status_fidelity :
  forall p ls s, run (init p) ls = Some s -> final s = true ->
    trace s = r_trace (ref_run p) /\ status s = r_status (ref_run p) /\
    lastbg s = r_lastbg (ref_run p) /\ map fst (jobs s) = map fst (r_jobs (ref_run p)).
Proof. exact final_is_reference. Qed.

Theorem schedule_independent_result :
  forall p ls1 ls2 s1 s2,
    run (init p) ls1 = Some s1 -> final s1 = true ->
    run (init p) ls2 = Some s2 -> final s2 = true ->
    trace s1 = trace s2 /\ status s1 = status s2 /\ lastbg s1 = lastbg s2.
Proof.
  intros p ls1 ls2 s1 s2 H1 F1 H2 F2.
  destruct (status_fidelity _ _ _ H1 F1) as [A1 [B1 [C1 _]]].
  destruct (status_fidelity _ _ _ H2 F2) as [A2 [B2 [C2 _]]].
  repeat split; congruence.
Qed.

(* what a deterministic scheduler of the correspondence check returns is the
   reference result, and on scripts without SIGSTOP every one of them does
   return (with SIGSTOP one may end at a child that stays stopped, and
   Run.run_script then leaves it out of the comparison) *)
Theorem model_schedulers_sound :
  forall p kind x, model_result p kind = Some x -> x = (r_trace (ref_run p), r_status (ref_run p)).
Proof. exact model_result_sound. Qed.

Theorem model_schedulers_give_reference :
  forall p kind, prog_quiet p = true ->
    model_result p kind = Some (r_trace (ref_run p), r_status (ref_run p)).
Proof. exact model_result_is_reference. Qed.

(* whenever the implementation shows the reference observations, the script
   check accepts them *)
Theorem script_oracle_is_sound :
  forall p o, so_panic o = false -> so_stuck o = false ->
    so_trace o = r_trace (ref_run p) -> so_status o = Z.of_N (r_status (ref_run p)) ->
    forallb (may_remain p) (so_left o) = true -> run_script p o = 0%N.
Proof. exact script_oracle_sound. Qed.

(* the kernel part of the model satisfies the ledger specification for every
   history of fork / exit / kill / wait / sigmask / sigaction / caught_signals:
   the ledger half of the stream-K check (Run.run_kern) never rejects what the
   model answers.  The premise kops_ok is not used: model_khist ends the
   history at the first operation outside the domain; with it the history is
   that of the whole of [ops] *)
Theorem kernel_refines_ledger :
  forall ops, kops_ok kern0 ops = true -> ledger_run ledger0 (model_khist kern0 ops) = None.
Proof. intros ops _. apply kernel_refines_ledger_gen, lsim_init. Qed.

(* fork at any point of the parent's life: on every line of descent of a
   process tree (any sequence of 'prepare to wait' and 'fork, follow the
   child'), a process that prepares to wait and enters select is woken by the
   SIGCHLD of its child: SIGCHLD is caught and is not in the mask given to
   select (clone_for_fork copies select_mask) *)
Theorem blocked_waiter_is_woken_after_any_forks :
  forall es, sig_wakes (sig_ensure (sig_run cf_real es)) = true.
Proof.
  intros es.
  pose proof (sig_inv_step _ EEnsure (sig_inv_run es)) as H. cbn [sig_step] in H.
  pose proof (ensure_catches (sig_run cf_real es)) as C.
  destruct (H C) as [_ M]. unfold sig_wakes. rewrite C, M. reflexivity.
Qed.

(* the statement depends on clone_for_fork: with a child state whose select
   mask is reset, a subshell forked after an earlier wait is never woken ... *)
Theorem select_mask_reset_refuted :
  exists es, sig_wakes (sig_ensure (sig_run cf_reset es)) = false.
Proof. exists [EEnsure; EFork]. reflexivity. Qed.

(* ... while subshells forked before the first wait are unaffected (why the
   streams need 'an earlier child that was waited for' as a dimension) *)
Theorem select_mask_reset_first_fork_unaffected :
  forall n, sig_wakes (sig_ensure (sig_run cf_reset (repeat EFork n))) = true.
Proof.
  intros n. destruct (reset_forks_only n sig0 eq_refl eq_refl) as [C B].
  unfold sig_run. destruct (fold_left _ _ sig0) as [b c m]; cbn in *; subst; reflexivity.
Qed.

(* PipeSet on an arbitrary initial table.  Full statement (NOT proved):
     forall t0 k, 1 <= k -> wired_ok true t0 k = true
   proved: for every table in which each of the descriptors 0..5 is open or
   closed and nothing above is open, and 1..6 members (by evaluation). *)
Theorem pipeline_wiring_partial :
  forall l k, In l (layouts 6) -> In k (seq 1 6) -> wired_ok true (tbl_of l) k = true.
Proof.
  (* the sweep is stated on the two [forallb] themselves: behind a definition,
     Qed would compare its folded and unfolded forms by evaluating both *)
  assert (H : forallb (fun l => forallb (fun k => wired_ok true (tbl_of l) k) (seq 1 6)) (layouts 6) = true)
    by (vm_compute; reflexivity).
  intros l k Hl Hk. rewrite forallb_forall in H. specialize (H l Hl).
  rewrite forallb_forall in H. exact (H k Hk).
Qed.

Example pipeline_wiring_nonvacuous :
  existsb (list_eqb Bool.eqb [true; false; true; true; false; true]) (layouts 6) = true /\
  fst (pipeline_tables true (tbl_of [true; false; true]) 3) =
    [Some [Some (Orig 0); Some (PW 0); Some (Orig 2); None];
     Some [Some (PR 0); Some (PW 1); Some (Orig 2); None; None];
     Some [Some (PR 1); None; Some (Orig 2); None; None]].
Proof. vm_compute. split; reflexivity. Qed.

(* without the step that moves the previous pipe's read end away from
   descriptor 1, the middle member of `a | b | c` started with descriptor 1
   closed is wired wrongly; two-member pipelines never show it *)
Theorem pipeline_unfixed_refuted :
  wired_ok false (tbl_of [true; false; true]) 3 = false.
Proof. vm_compute. reflexivity. Qed.

Theorem pipeline_unfixed_two_members_unaffected :
  forall l, In l (layouts 6) -> wired_ok false (tbl_of l) 2 = true.
Proof. intros l Hl. rewrite wired_two_any. apply pipeline_wiring_partial; [assumption | apply in_seq; lia]. Qed.

(* whenever the implementation shows the expected status and data and the
   members' open descriptors are those of the model, the stream-P check accepts *)
Theorem pipefd_oracle_is_sound :
  forall lay k st fds, In lay (layouts 6) -> In k (seq 2 5) -> length fds = k ->
    fds_agree (fst (pipeline_tables true (tbl_of lay) k)) fds = true ->
    run_pipefd lay k st [expected_data k] fds [Z.of_N st] false false 0 = 0%N.
Proof.
  intros lay k st fds Hl Hk Hf Ha. apply in_seq in Hk.
  assert (W : wired_ok true (tbl_of lay) k = true)
    by (apply pipeline_wiring_partial; [assumption | apply in_seq; lia]).
  unfold run_pipefd. cbn [orb].
  rewrite (proj2 (list_eqb_spec _ Z.eqb_eq _ _) eq_refl), (proj2 (list_eqb_spec _ str_eqb_eq _ _) eq_refl).
  rewrite (layouts_length 6 lay Hl), Hf, (Nat.eqb_refl k), W.
  rewrite (proj2 (Nat.leb_le 2 k)), (proj2 (Nat.leb_le k 6)) by lia.
  cbn [negb Nat.eqb andb Nat.leb].
  destruct (pipeline_tables true (tbl_of lay) k) as [ms tf]. cbn [fst] in Ha.
  rewrite Ha. reflexivity.
Qed.

Print Assumptions pipefd_oracle_is_sound.
Print Assumptions blocked_waiter_is_woken_after_any_forks.
Print Assumptions select_mask_reset_refuted.
Print Assumptions select_mask_reset_first_fork_unaffected.
Print Assumptions pipeline_wiring_partial.
Print Assumptions pipeline_unfixed_refuted.
Print Assumptions pipeline_unfixed_two_members_unaffected.
Print Assumptions protocol_invariant.
Print Assumptions model_schedulers_give_reference.
Print Assumptions model_schedulers_sound.
Print Assumptions script_oracle_is_sound.
Print Assumptions kernel_refines_ledger.
Print Assumptions no_lost_sigchld.
Print Assumptions progress.
Print Assumptions never_panics.
Print Assumptions terminates_under_every_schedule.
Print Assumptions reaped_exactly_once.
Print Assumptions no_zombie_at_exit.
Print Assumptions all_reaped_after_wait.
Print Assumptions status_fidelity.
Print Assumptions schedule_independent_result.
