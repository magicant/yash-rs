(* C13 — status fidelity and schedule independence: the "eventual result" of a
   state (what the sequential reading of the rest of the script gives) is the
   same before and after every step of every process. *)
From Yv Require Import Common.Base C13.Model C13.ProofsKern C13.ProofsInv C13.ProofsMain.
From Coq Require Import Arith.

(* all that the result of a script needs of the kernel: the exit statuses the
   children were created with *)
Definition code_at (k : kern) (i : nat) : N := nth i (codes k) 0%N.

Definition abs_jobs (k : kern) (jb : list (nat * option N)) : list (nat * N) :=
  map (fun j => (fst j, code_at k (fst j))) jb.

Definition abs (s : state) : rstate :=
  mkR (length (kids (kn s))) (abs_jobs (kn s) (jobs s)) (status s) (lastbg s) (trace s).

Definition fold_status (k : kern) (pids : list nat) (final : N) (pf : bool) : N :=
  fold_left (fun f p => pipe_status f (code_at k p) pf) pids final.

(* the logical state once the command in progress has completed *)
Definition complete (s : state) : rstate :=
  let r := abs s in
  match at_ s with
  | PFork todo pids pf =>
      mkR (r_n r + length todo) (r_jobs r)
          (pipe_result todo (fold_status (kn s) pids 0%N pf) pf) (r_lastbg r) (r_trace r)
  | PWait _ (TPid p) (KPipe more final pf _) =>
      mkR (r_n r) (r_jobs r) (fold_status (kn s) (p :: more) final pf) (r_lastbg r) (r_trace r)
  | PWait _ _ (KBuiltin t0) | PBuiltin t0 => ref_cmd r (CWait t0)
  | _ => r
  end.

Definition result (s : state) : rstate := fold_left ref_cmd (prog s) (complete s).

Lemma result_init p : result (init p) = ref_run p.
Proof. reflexivity. Qed.

Lemma abs_jobs_fst k jb : abs_jobs k jb = map (fun i => (i, code_at k i)) (map fst jb).
Proof. unfold abs_jobs. rewrite map_map. reflexivity. Qed.

(* [complete] reads the kernel through the exit statuses, and the job list
   through the children it names *)
Lemma complete_ext k k' pr pr' a st lb jb jb' tr :
  codes k' = codes k -> map fst jb' = map fst jb ->
  complete (mkState k' pr' a st lb jb' tr) = complete (mkState k pr a st lb jb tr).
Proof.
  intros H Hj.
  assert (Hl : length (kids k') = length (kids k))
    by (rewrite <- (map_length code), <- (map_length code (kids k)); exact (f_equal (@length N) H)).
  unfold complete, abs; cbn [kn at_ jobs status lastbg trace].
  rewrite !abs_jobs_fst, Hj. unfold fold_status, code_at. rewrite Hl, H. reflexivity.
Qed.

Lemma code_at_nth k i c : nth_error (kids k) i = Some c -> code_at k i = code c.
Proof.
  intros Hn. apply nth_error_nth. unfold codes. rewrite nth_error_map, Hn. reflexivity.
Qed.

Lemma codes_fork k w x : codes (fst (k_fork k w x)) = codes k ++ [x].
Proof. unfold codes. rewrite kids_fork, map_app. reflexivity. Qed.

Lemma code_at_fork_old k w x j :
  j < length (kids k) -> code_at (fst (k_fork k w x)) j = code_at k j.
Proof.
  intros H. unfold code_at. rewrite codes_fork. apply app_nth1. unfold codes. rewrite map_length. exact H.
Qed.

Lemma code_at_fork_new k w x : code_at (fst (k_fork k w x)) (length (kids k)) = x.
Proof.
  unfold code_at. rewrite codes_fork, app_nth2; unfold codes; rewrite map_length; [|apply le_n].
  rewrite Nat.sub_diag. reflexivity.
Qed.

Lemma abs_jobs_ext k1 k2 jb :
  (forall j, In j (map fst jb) -> code_at k1 j = code_at k2 j) ->
  abs_jobs k1 jb = abs_jobs k2 jb.
Proof.
  intros H. rewrite !abs_jobs_fst. apply map_ext_in. intros j Hj. f_equal. exact (H j Hj).
Qed.

Lemma fold_status_ext k1 k2 pids : forall f pf,
  (forall j, In j pids -> code_at k1 j = code_at k2 j) ->
  fold_status k1 pids f pf = fold_status k2 pids f pf.
Proof.
  unfold fold_status. induction pids as [|p t IH]; intros f pf H; cbn [fold_left]; [reflexivity|].
  rewrite (H p (or_introl eq_refl)). apply IH. intros j Hj. apply H. right; assumption.
Qed.

Lemma fold_status_app k pids x f pf :
  fold_status k (pids ++ [x]) f pf = pipe_status (fold_status k pids f pf) (code_at k x) pf.
Proof. unfold fold_status. rewrite fold_left_app. reflexivity. Qed.

Lemma rjob_find_abs k jb i :
  rjob_find (abs_jobs k jb) i =
  match job_find jb i with Some _ => Some (code_at k i) | None => None end.
Proof.
  unfold abs_jobs. induction jb as [|[y r] t IH]; cbn; [reflexivity|].
  destruct (Nat.eqb_spec y i) as [->|Hne]; [reflexivity | assumption].
Qed.

Lemma rjob_remove_abs k jb i :
  rjob_remove (abs_jobs k jb) i = abs_jobs k (job_remove jb i).
Proof.
  unfold abs_jobs. induction jb as [|[y r] t IH]; cbn; [reflexivity|].
  destruct (y =? i); cbn; [reflexivity | rewrite IH; reflexivity].
Qed.

Lemma pipe_result_nil f pf : pipe_result [] f pf = f.
Proof. reflexivity. Qed.

Lemma abs_fork k w x jb : Forall (job_ok k) jb ->
  length (kids (fst (k_fork k w x))) = S (length (kids k)) /\
  abs_jobs (fst (k_fork k w x)) jb = abs_jobs k jb.
Proof.
  intros Hjobs. rewrite kids_fork, app_length, Nat.add_1_r. split; [reflexivity|].
  apply abs_jobs_ext. intros j Hj. apply code_at_fork_old. eapply jobs_lt; eauto.
Qed.

Lemma parent_step_result s s' :
  Inv s -> parent_step s = Some s' -> result s' = result s.
Proof.
  intros HI Hs. destruct s as [k pr a st lb jb tr].
  pose proof HI as [_ Hsh _ _ _ Hmem _ Hjobs _ _]. cbn [kn at_ jobs] in *.
  unfold parent_step in Hs; cbn [kn prog at_ status lastbg jobs trace] in Hs.
  unfold set_at, finish in Hs; cbn [kn prog at_ status lastbg jobs trace] in Hs.
  unfold result.
  destruct a as [|todo pids pf|m t c|t0| | |].
  - (* PIdle *)
    destruct pr as [|[w x|l pf|t|] r]; apply Some_inj in Hs; subst s';
      cbn [prog fold_left set_at at_]; try reflexivity.
    f_equal. unfold complete, abs; cbn [at_ kn jobs status lastbg trace ref_cmd r_n r_jobs r_status r_lastbg r_trace k_fork].
    change (set_kids k (kids k ++ [mkChild (Running w) x 0 false])) with (fst (k_fork k w x)).
    destruct (abs_fork k w x jb Hjobs) as [-> Hj].
    unfold abs_jobs at 1. rewrite map_app. fold (abs_jobs (fst (k_fork k w x)) jb). rewrite Hj.
    cbn [map fst]. rewrite code_at_fork_new. reflexivity.
  - (* PFork *)
    destruct todo as [|[w x] todo].
    + destruct pids as [|p more]; apply Some_inj in Hs; subst s'; cbn [prog set_at finish at_]; f_equal;
        unfold complete, abs; cbn [at_ kn jobs status lastbg trace r_n r_jobs r_status r_lastbg r_trace length];
        rewrite Nat.add_0_r; reflexivity.
    + apply Some_inj in Hs; subst s'. cbn [prog set_at at_]. f_equal.
      unfold complete, abs; cbn [at_ kn jobs status lastbg trace r_n r_jobs r_status r_lastbg r_trace k_fork length].
      change (set_kids k (kids k ++ [mkChild (Running w) x 0 false])) with (fst (k_fork k w x)).
      destruct (abs_fork k w x jb Hjobs) as [-> ->]. cbn [members] in Hmem.
      rewrite fold_status_app, code_at_fork_new.
      cbn [pipe_result]. f_equal; [lia|].
      f_equal. f_equal. apply fold_status_ext. intros j Hj. apply code_at_fork_old.
      destruct (Hmem j Hj) as [Hu _]. apply unreaped_at_lt. assumption.
  - (* PWait *)
    destruct m.
    + destruct (negb (blocked k)); [|destruct (negb (catching k))]; apply Some_inj in Hs; subst s'; reflexivity.
    + pose proof (poll_not_echild _ _ _ _ _ _ _ _ HI) as Hne. pose proof (kwait_kept k t) as Hk.
      destruct (kwait k t) as [[i x|i|i| |] k'] eqn:Ew; cbn [fst snd] in Hne, Hk; [| | | |contradiction].
      2,3: (* a stop or a continuation: the waiter starts over *)
        apply kept_codes in Hk;
        destruct c as [more fin pf ra|t0]; destruct t as [tp|]; try contradiction;
        apply Some_inj in Hs; subst s'; cbn [prog]; f_equal;
        exact (complete_ext k k' pr pr _ st lb jb jb tr Hk eq_refl).
      * (* the exit of child i is reported: its status is the one it was created with *)
        destruct (kwait_spec _ _ _ _ Ew) as [ch [Hn [Hz [-> [-> Ht]]]]].
        pose proof (codes_upd k i ch (reap ch) Hn eq_refl) as Hk'.
        rewrite <- (code_at_nth k i ch Hn) in Hs.
        destruct c as [[|p' more'] fin pf ra|t0]; destruct t as [p|]; try contradiction;
          cbn [targets] in Ht; subst; apply Some_inj in Hs; subst s'; cbn [prog]; f_equal;
          try destruct ra;
          rewrite (complete_ext k _ pr pr _ _ lb jb _ tr Hk' (job_update_fst jb _ _)); reflexivity.
      * apply Some_inj in Hs; subst s'; reflexivity.
    + pose proof (kids_unblock k) as Hku.
      destruct (k_unblock k) as [l1 a1 b1 c1 d1]. cbn [kids] in Hku. subst l1.
      destruct (0 <? caught (mkKern (kids k) a1 b1 c1 d1)); apply Some_inj in Hs; subst s'; reflexivity.
    + destruct (0 <? caught k); [|discriminate]. apply Some_inj in Hs; subst s'; reflexivity.
  - (* PBuiltin *)
    destruct t0 as [i|].
    + destruct (job_find jb i) as [[x|]|] eqn:Ef; apply Some_inj in Hs; subst s';
        cbn [prog set_at finish at_]; f_equal;
        unfold complete, abs; cbn [at_ kn jobs status lastbg trace ref_cmd r_n r_jobs r_status r_lastbg r_trace];
        rewrite ?rjob_find_abs, ?Ef; try reflexivity.
      apply job_find_in in Ef.
      pose proof (proj1 (Forall_forall _ _) Hjobs _ Ef) as [d [Hd [Hc Hx]]]. cbn [fst snd] in *.
      rewrite rjob_remove_abs, (code_at_nth k i d Hd). subst x. reflexivity.
    + destruct (job_unfinished jb) as [|y rest_] eqn:Eu; apply Some_inj in Hs; subst s';
        cbn [prog at_]; f_equal; reflexivity.
  - (* PReap *)
    pose proof (kwait_kept k TAny) as Hk.
    destruct (kwait k TAny) as [[i x|i|i| |] k'] eqn:Ew; cbn [fst snd] in Hk;
      apply Some_inj in Hs; subst s'; try reflexivity; cbn [prog set_at]; f_equal.
    2,3: exact (complete_ext k k' pr pr _ st lb jb jb tr (kept_codes _ _ Hk) eq_refl).
    destruct (kwait_spec _ _ _ _ Ew) as [ch [Hn [Hz [-> [-> _]]]]].
    exact (complete_ext k _ pr pr _ _ lb jb _ tr (codes_upd k i ch (reap ch) Hn eq_refl) (job_update_fst jb _ _)).
  - discriminate.
  - discriminate.
Qed.

Lemma child_step_result s i k' :
  child_step (kn s) i = Some k' -> result (set_at s k' (at_ s)) = result s.
Proof.
  destruct s as [k pr a st lb jb tr]. intros Hst. unfold result, set_at; cbn [kn prog at_] in *. f_equal.
  apply complete_ext; [apply kept_codes, (child_step_kept _ _ _ Hst) | reflexivity].
Qed.

Lemma step_result s l s' : Inv s -> step s l = Some s' -> result s' = result s.
Proof.
  intros HI Hs. destruct (step_cases _ _ _ Hs) as [Hp|[i [k' [E ->]]]].
  - exact (parent_step_result _ _ HI Hp).
  - exact (child_step_result s i k' E).
Qed.

Lemma run_result ls s s' : Inv s -> run s ls = Some s' -> result s' = result s.
Proof.
  intros HI Hr.
  refine (proj2 (run_preserves (fun x => Inv x /\ result x = result s) _ ls s s' (conj HI eq_refl) Hr)).
  intros s0 l s1 [H1 H2] Hs.
  split; [exact (step_inv _ _ _ H1 Hs) | rewrite <- H2; exact (step_result _ _ _ H1 Hs)].
Qed.

Lemma final_is_reference p ls s :
  run (init p) ls = Some s -> final s = true ->
  trace s = r_trace (ref_run p) /\ status s = r_status (ref_run p) /\
  lastbg s = r_lastbg (ref_run p) /\ map fst (jobs s) = map fst (r_jobs (ref_run p)).
Proof.
  intros Hr Hf.
  pose proof (run_result _ _ _ (inv_init p) Hr) as Hres. rewrite result_init in Hres.
  unfold final in Hf. destruct (at_ s) eqn:Ea; try discriminate.
  assert (Hp : prog s = []).
  { eapply exit_prog_nil; [|exact Hr|exact Ea]. cbn. discriminate. }
  unfold result in Hres. rewrite Hp in Hres. cbn [fold_left] in Hres.
  unfold complete in Hres. rewrite Ea in Hres. rewrite <- Hres.
  unfold abs; cbn [r_trace r_status r_lastbg r_jobs]. repeat split.
  unfold abs_jobs. rewrite map_map. cbn [fst]. reflexivity.
Qed.

Lemma ref_wait_all_jobs p : r_jobs (ref_run (p ++ [CWait None])) = [].
Proof. unfold ref_run. rewrite fold_left_app. reflexivity. Qed.

Lemma ref_probe_jobs r : r_jobs (ref_cmd r CProbe) = r_jobs r.
Proof. reflexivity. Qed.
