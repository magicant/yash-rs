(* C13 — the deterministic schedulers of Run.v.  What one returns is the end of
   a run, hence the reference result (sim_sound, final_is_reference).  For a
   script without SIGSTOP it does return (sim_complete): no child is ever
   stopped, so progress gives an enabled label, every order contains all
   labels, and the fuel run_bound p + 1 exceeds the measure.  So the script
   oracle (stream S) accepts every observation that equals the reference. *)
From Yv Require Import Common.Base C13.Model C13.Spec C13.Run C13.ProofsKern C13.ProofsInv
  C13.ProofsMain C13.ProofsRef.
From Coq Require Import Arith.

Lemma first_enabled_some s ls s' :
  first_enabled s ls = Some s' -> exists l, In l ls /\ step s l = Some s'.
Proof.
  induction ls as [|l r IH]; cbn; [discriminate|].
  destruct (step s l) as [s1|] eqn:E.
  - intros H. apply Some_inj in H. subst. exists l. auto.
  - intros H. destruct (IH H) as [l' [Hin Hs]]. exists l'. auto.
Qed.

Lemma first_enabled_none s ls :
  first_enabled s ls = None -> forall l, In l ls -> step s l = None.
Proof.
  induction ls as [|l r IH]; cbn; [intros _ l []|].
  destruct (step s l) as [s1|] eqn:E; [discriminate|].
  intros H l' [<-|Hin]; auto.
Qed.

Lemma in_rotate {A} n : forall (l : list A) x, In x (rotate n l) <-> In x l.
Proof.
  induction n as [|n IH]; intros l x; [destruct l; reflexivity|].
  destruct l as [|y t]; [reflexivity|]. cbn [rotate]. rewrite IH.
  rewrite in_app_iff. cbn. tauto.
Qed.

Lemma in_order kind tick s l : In l (all_labels s) -> In l (order kind tick s).
Proof.
  unfold order. intros H.
  destruct kind as [|[|[|k]]].
  - assumption.
  - apply in_rev. rewrite rev_involutive. assumption.
  - unfold all_labels in *. cbn [tl]. rewrite in_app_iff. cbn. destruct H as [<-|H]; auto.
  - apply in_rotate. assumption.
Qed.

Lemma enabled_in_all_labels s l : step s l <> None -> In l (all_labels s).
Proof.
  unfold all_labels. destruct l as [|i]; [left; reflexivity|].
  intros H. right. apply in_map. apply in_seq. split; [lia|]. cbn.
  cbn [step] in H. unfold child_step in H.
  destruct (nth_error (kids (kn s)) i) as [c|] eqn:E; [|contradiction].
  eapply nth_error_Some_lt'; eauto.
Qed.

Lemma sim_sound fuel : forall kind tick s s',
  sim fuel kind tick s = Some s' -> exists ls, run s ls = Some s' /\ final s' = true.
Proof.
  induction fuel as [|fuel IH]; intros kind tick s s' H; [discriminate|].
  cbn [sim] in H. destruct (final s) eqn:Hf.
  - apply Some_inj in H. subst. exists []. auto.
  - destruct (first_enabled s (order kind tick s)) as [s1|] eqn:Ef; [|discriminate].
    destruct (first_enabled_some _ _ _ Ef) as [l1 [_ Hs1]].
    destruct (IH _ _ _ _ H) as [ls [H1 H2]].
    exists (l1 :: ls). split; [|assumption]. cbn [run]. rewrite Hs1. assumption.
Qed.

Lemma model_result_sound p kind x :
  model_result p kind = Some x -> x = (r_trace (ref_run p), r_status (ref_run p)).
Proof.
  unfold model_result. destruct (sim (S (run_bound p)) kind 0 (init p)) as [s'|] eqn:E; [|discriminate].
  intros H. apply Some_inj in H. subst x.
  destruct (sim_sound _ _ _ _ _ E) as [ls [H1 H2]].
  destruct (final_is_reference p ls s' H1 H2) as [A [B _]]. rewrite A, B. reflexivity.
Qed.

(* the states a script without SIGSTOP reaches: no child is stopped, and no
   SIGSTOP is left in a child, in the pipeline being started or in the rest of
   the script *)
Definition child_quiet (c : child) : bool :=
  match cs c with Running p => script_quiet p | Stopped _ => false | _ => true end.

Definition pc_quiet (a : pc) : bool :=
  match a with PFork todo _ _ => forallb (fun x => script_quiet (fst x)) todo | _ => true end.

Definition state_quiet (s : state) : Prop :=
  forallb child_quiet (kids (kn s)) = true /\ prog_quiet (prog s) = true /\ pc_quiet (at_ s) = true.

Lemma forallb_nth {A} (f : A -> bool) (l : list A) i c :
  forallb f l = true -> nth_error l i = Some c -> f c = true.
Proof. intros H Hn. rewrite forallb_forall in H. apply H. eapply nth_error_In; eauto. Qed.

Lemma quiet_signal k sg t :
  forallb child_quiet (kids k) = true -> sg = SCont ->
  forallb child_quiet (kids (k_signal k sg t)) = true.
Proof.
  intros Hq ->. unfold k_signal. destruct (nth_error (kids k) t) as [c|] eqn:Hn; [|assumption].
  destruct (cs c) eqn:Hc; try assumption.
  pose proof (forallb_nth _ _ _ _ Hq Hn) as H. unfold child_quiet in H. rewrite Hc in H. discriminate.
Qed.

Lemma quiet_child_step k i k' :
  forallb child_quiet (kids k) = true -> child_step k i = Some k' ->
  forallb child_quiet (kids k') = true.
Proof.
  intros Hq. unfold child_step. destruct (nth_error (kids k) i) as [c|] eqn:Hn; [|discriminate].
  pose proof (forallb_nth _ _ _ _ Hq Hn) as Hc0. unfold child_quiet in Hc0.
  destruct (cs c) as [[|[|sg t] r]| | |] eqn:Hc; try discriminate; intros H; apply Some_inj in H; subst k'.
  - rewrite kids_raise. unfold set_kids; cbn [kids]. apply forallb_upd; auto.
  - unfold set_kids; cbn [kids]. apply forallb_upd; auto;
      unfold child_quiet; cbn [cs]; cbn [script_quiet forallb] in Hc0; apply andb_true_iff in Hc0; tauto.
  - cbn [script_quiet forallb] in Hc0. apply andb_true_iff in Hc0. destruct Hc0 as [Ha Hr].
    apply quiet_signal.
    + unfold set_kids; cbn [kids]. apply forallb_upd; auto.
    + destruct sg; [discriminate | reflexivity].
Qed.

Lemma quiet_kwait k t r k' :
  forallb child_quiet (kids k) = true -> kwait k t = (r, k') ->
  forallb child_quiet (kids k') = true.
Proof.
  intros Hq Hw.
  destruct r as [i x|i|i| |].
  2,3: (* a stop or a continuation is marked as seen: the script of the child stays *)
    destruct (kwait_spec _ _ _ _ Hw) as [c [Hn [_ [_ [-> _]]]]];
    unfold set_kids; cbn [kids]; apply forallb_upd; auto;
    exact (forallb_nth _ _ _ _ Hq Hn).
  - destruct (kwait_spec _ _ _ _ Hw) as [c [Hn [_ [_ [-> _]]]]].
    unfold set_kids; cbn [kids]. apply forallb_upd; auto.
  - destruct (kwait_spec _ _ _ _ Hw) as [-> _]. assumption.
  - destruct (kwait_spec _ _ _ _ Hw) as [-> _]. assumption.
Qed.

Lemma quiet_fork k p st :
  forallb child_quiet (kids k) = true -> script_quiet p = true ->
  forallb child_quiet (kids (fst (k_fork k p st))) = true.
Proof.
  intros Hq Hp. cbn [k_fork fst set_kids kids]. rewrite forallb_app, Hq. cbn. rewrite Hp. reflexivity.
Qed.

Lemma quiet_parent_step s s' :
  state_quiet s -> parent_step s = Some s' -> state_quiet s'.
Proof.
  intros [Hk [Hp Ha]] Hs. destruct s as [k pr a st lb jb tr]. cbn [kn prog at_] in *.
  unfold parent_step in Hs; cbn [kn prog at_ status lastbg jobs trace] in Hs.
  unfold set_at, finish in Hs; cbn [kn prog at_ status lastbg jobs trace] in Hs.
  unfold state_quiet.
  destruct a as [|todo pids pf|m t c|t0| | |].
  - destruct pr as [|[w x|l pf|t|] r]; apply Some_inj in Hs; subst s'; cbn [kn prog at_];
      cbn [prog_quiet forallb cmd_quiet] in Hp; try (apply andb_true_iff in Hp; destruct Hp as [Hp1 Hp2]);
      repeat split; auto.
    apply (quiet_fork k w x); assumption.
  - destruct todo as [|[w x] todo].
    + destruct pids; apply Some_inj in Hs; subst s'; cbn [kn prog at_]; repeat split; auto.
    + apply Some_inj in Hs; subst s'; cbn [kn prog at_].
      cbn [pc_quiet forallb fst] in Ha. apply andb_true_iff in Ha. destruct Ha as [Ha1 Ha2].
      repeat split; auto. apply (quiet_fork k w x); assumption.
  - destruct m.
    + destruct (negb (blocked k)); [|destruct (negb (catching k))]; apply Some_inj in Hs; subst s';
        cbn [kn prog at_ k_block k_catch kids]; repeat split; auto.
    + destruct (kwait k t) as [[i x|i|i| |] k'] eqn:Ew; pose proof (quiet_kwait _ _ _ _ Hk Ew) as Hk'.
      * destruct c as [[|p more] fin pf ra|t0]; apply Some_inj in Hs; subst s'; cbn [kn prog at_];
          repeat split; auto. destruct ra; reflexivity.
      * destruct c; apply Some_inj in Hs; subst s'; cbn [kn prog at_]; repeat split; auto.
      * destruct c; apply Some_inj in Hs; subst s'; cbn [kn prog at_]; repeat split; auto.
      * apply Some_inj in Hs; subst s'; cbn [kn prog at_]; repeat split; auto.
      * destruct c; apply Some_inj in Hs; subst s'; cbn [kn prog at_]; repeat split; auto.
    + destruct (0 <? caught (k_unblock k)); apply Some_inj in Hs; subst s';
        cbn [kn prog at_ k_take_caught k_block kids]; rewrite kids_unblock; repeat split; auto.
    + destruct (0 <? caught k); [|discriminate]. apply Some_inj in Hs; subst s';
        cbn [kn prog at_ k_take_caught k_block kids]; repeat split; auto.
  - destruct t0 as [i|]; [destruct (job_find jb i) as [[x|]|] | destruct (job_unfinished jb)];
      apply Some_inj in Hs; subst s'; cbn [kn prog at_]; repeat split; auto.
  - destruct (kwait k TAny) as [[i x|i|i| |] k'] eqn:Ew; pose proof (quiet_kwait _ _ _ _ Hk Ew) as Hk';
      apply Some_inj in Hs; subst s'; cbn [kn prog at_]; repeat split; auto.
  - discriminate.
  - discriminate.
Qed.

Lemma quiet_step s l s' : state_quiet s -> step s l = Some s' -> state_quiet s'.
Proof.
  intros Hq Hs. destruct (step_cases _ _ _ Hs) as [Hp|[i [k' [E ->]]]].
  - exact (quiet_parent_step _ _ Hq Hp).
  - destruct Hq as [Hk [Hp Ha]]. repeat split; [|assumption..].
    exact (quiet_child_step _ _ _ Hk E).
Qed.

Lemma quiet_no_stopped s : state_quiet s -> ~ some_stopped (kn s).
Proof.
  intros [Hk _] [i [c [p [Hn Hc]]]].
  pose proof (forallb_nth _ _ _ _ Hk Hn) as H. unfold child_quiet in H. rewrite Hc in H. discriminate.
Qed.

Lemma sim_complete fuel : forall kind tick s,
  Inv s -> state_quiet s -> at_ s <> PPanic -> measure s < fuel ->
  exists s', sim fuel kind tick s = Some s'.
Proof.
  induction fuel as [|fuel IH]; intros kind tick s HI Hq Hp Hm; [lia|].
  cbn [sim]. destruct (final s) eqn:Hf.
  - eauto.
  - assert (He : at_ s <> PExit) by (unfold final in Hf; destruct (at_ s); congruence).
    destruct (progress_inv s HI He Hp) as [[l Hl]|Hst]; [|exfalso; exact (quiet_no_stopped s Hq Hst)].
    destruct (first_enabled s (order kind tick s)) as [s1|] eqn:Ef.
    + destruct (first_enabled_some _ _ _ Ef) as [l1 [_ Hs1]].
      pose proof (step_inv _ _ _ HI Hs1) as HI1.
      pose proof (step_measure _ _ _ Hs1) as Hm1.
      pose proof (quiet_step _ _ _ Hq Hs1) as Hq1.
      pose proof (step_no_panic _ _ _ HI Hp Hs1) as Hp1.
      apply IH; auto. lia.
    + exfalso. apply Hl. eapply first_enabled_none; [exact Ef|].
      apply in_order. apply enabled_in_all_labels. assumption.
Qed.

Lemma model_result_is_reference p kind :
  prog_quiet p = true ->
  model_result p kind = Some (r_trace (ref_run p), r_status (ref_run p)).
Proof.
  intros Hq.
  destruct (sim_complete (S (run_bound p)) kind 0 (init p) (inv_init p)) as [s' H1].
  - unfold state_quiet, init; cbn. auto.
  - cbn. discriminate.
  - rewrite measure_init. lia.
  - destruct (model_result p kind) as [x|] eqn:E.
    + rewrite (model_result_sound p kind x E). reflexivity.
    + unfold model_result in E. rewrite H1 in E. discriminate.
Qed.

Lemma trace_eqb_refl t : trace_eqb t t = true.
Proof.
  unfold trace_eqb. apply list_eqb_spec; [|reflexivity].
  intros [a b] [c d]. unfold pair_eqb. cbn [fst snd]. rewrite andb_true_iff, N.eqb_eq.
  rewrite (option_eqb_spec Nat.eqb Nat.eqb_eq). split; [intros [-> ->]; reflexivity|].
  intros H; inversion H; auto.
Qed.

(* every scheduler of the model passes the comparison with the reference that
   the script check makes: it gives the reference, or the script is not quiet *)
Lemma schedulers_agree p kind :
  match model_result p kind with
  | Some (t, st) => trace_eqb t (r_trace (ref_run p)) && Z.eqb (Z.of_N st) (Z.of_N (r_status (ref_run p)))
  | None => negb (prog_quiet p)
  end = true.
Proof.
  destruct (model_result p kind) as [[t st]|] eqn:E.
  - pose proof (model_result_sound p kind _ E) as H. inversion H; subst.
    rewrite trace_eqb_refl, Z.eqb_refl. reflexivity.
  - destruct (prog_quiet p) eqn:Eq; [|reflexivity].
    rewrite (model_result_is_reference p kind Eq) in E. discriminate.
Qed.

Lemma script_oracle_sound p o :
  so_panic o = false -> so_stuck o = false ->
  so_trace o = r_trace (ref_run p) -> so_status o = Z.of_N (r_status (ref_run p)) ->
  forallb (may_remain p) (so_left o) = true ->
  run_script p o = 0%N.
Proof.
  intros Hp Hs Ht Hst Hl. unfold run_script. rewrite Hp, Hs. cbn [orb].
  rewrite Ht, trace_eqb_refl, Hst, Z.eqb_refl, Hl. cbn [negb].
  rewrite !schedulers_agree. reflexivity.
Qed.
