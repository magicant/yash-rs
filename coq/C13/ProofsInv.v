(* C13 — the invariant of the protocol and its preservation.  A step changes
   the children and the job list in one of four ways, each with its frame
   lemma: it keeps both (frame_kept: every step of a child, most of the
   parent's), forks (frame_fork), has the exit of a child reported
   (frame_reap), or drops finished jobs (frame_drop_jobs).  The frame lemmas
   come first; child_step_inv and the lemmas parent_*_inv, one per program
   counter, only choose among them. *)
From Yv Require Import Common.Base C13.Model C13.ProofsKern.
From Coq Require Import Arith.

Definition unreaped_at (k : kern) (i : nat) : Prop :=
  exists c, nth_error (kids k) i = Some c /\ cs c <> Reaped.

(* the members of the pipeline the parent is starting or waiting for *)
Definition members (a : pc) : list nat :=
  match a with
  | PFork _ pids _ => pids
  | PWait _ (TPid p) (KPipe more _ _ _) => p :: more
  | _ => []
  end.

Definition pc_shape_ok (a : pc) : Prop :=
  match a with
  | PWait _ TAny (KPipe _ _ _ _) => False
  | PWait _ (TPid _) (KBuiltin _) => False
  | _ => True
  end.

(* SIGCHLD is blocked and caught from the first poll on, and unblocked only
   inside select *)
Definition sig_ok (k : kern) (a : pc) : Prop :=
  match a with
  | PWait SBlocked _ _ => blocked k = false /\ catching k = true /\ pending k = false
  | PWait SPoll _ _ | PWait SEnter _ _ => blocked k = true /\ catching k = true /\ caught k = 0
  | _ => caught k = 0 /\ (catching k = true -> blocked k = true)
         /\ (pending k = true -> blocked k = true)
  end.

(* no lost SIGCHLD: once wait has said "none yet", either it would still say
   so, or a SIGCHLD is pending / has been caught *)
Definition news_ok (k : kern) (a : pc) : Prop :=
  match a with
  | PWait SEnter t _ => pending k = true \/ fst (kwait k t) = WNone
  | PWait SBlocked t _ => 0 < caught k \/ fst (kwait k t) = WNone
  | _ => True
  end.

Definition job_ok (k : kern) (j : nat * option N) : Prop :=
  exists c, nth_error (kids k) (fst j) = Some c /\
            match snd j with
            | Some st => cs c = Reaped /\ st = code c
            | None => cs c <> Reaped
            end.

Definition reaps_ok (c : child) : Prop :=
  reaps c = match cs c with Reaped => 1 | _ => 0 end.

(* The bookkeeping half: every child that is not reaped is a job or a member of
   the pipeline in progress (i_rest), never both (i_mem), and a job is marked
   finished exactly when its child is reaped (i_jobs).  i_mem and i_builtin are
   what keeps ECHILD away from the wait loop (poll_not_echild); i_rest at
   PExit is no_zombie_at_exit. *)
Record Inv (s : state) : Prop := mkInv {
  i_reaps : Forall reaps_ok (kids (kn s));
  i_shape : pc_shape_ok (at_ s);
  i_sig : sig_ok (kn s) (at_ s);
  i_news : news_ok (kn s) (at_ s);
  i_mem_nodup : NoDup (members (at_ s));
  i_mem : forall i, In i (members (at_ s)) ->
                    unreaped_at (kn s) i /\ ~ In i (map fst (jobs s));
  i_jobs_nodup : NoDup (map fst (jobs s));
  i_jobs : Forall (job_ok (kn s)) (jobs s);
  i_builtin : match at_ s with
              | PWait _ _ (KBuiltin _) => exists i, In (i, None) (jobs s)
              | _ => True
              end;
  i_rest : forall i, unreaped_at (kn s) i ->
                     In i (map fst (jobs s)) \/ In i (members (at_ s)) }.

Lemma inv_init p : Inv (init p).
Proof.
  constructor; unfold init; cbn [kn at_ jobs kern0 kids members map];
    [ constructor | exact I | cbn; auto | exact I | constructor | intros j []
    | constructor | constructor | exact I | ].
  intros j [c [Hn _]]. destruct j; discriminate.
Qed.

(* what the invariant says about the children survives every change that
   keeps them *)

Lemma unreaped_at_kept k k' j : kept k k' -> unreaped_at k j -> unreaped_at k' j.
Proof.
  intros H [c [Hn Hc]]. destruct (kept_nth _ _ _ _ H Hn) as [c' [Hn' [_ [_ Hr]]]].
  exists c'. tauto.
Qed.

Lemma job_ok_kept k k' j : kept k k' -> job_ok k j -> job_ok k' j.
Proof.
  intros H [c [Hn Hj]]. destruct (kept_nth _ _ _ _ H Hn) as [c' [Hn' [Hcode [_ Hr]]]].
  exists c'. rewrite Hcode. destruct (snd j); tauto.
Qed.

Lemma reaps_ok_kept k k' : kept k k' -> Forall reaps_ok (kids k) -> Forall reaps_ok (kids k').
Proof.
  intros H Hf. apply Forall_forall. intros c' Hin. destruct (In_nth_error _ _ Hin) as [i Hi].
  destruct (kept_nth _ _ _ _ (kept_sym _ _ H) Hi) as [c [Hn [_ [Hreaps [H1 H2]]]]].
  pose proof (proj1 (Forall_forall _ _) Hf c (nth_error_In _ _ Hn)) as Hc.
  unfold reaps_ok in *. rewrite <- Hreaps, Hc.
  destruct (cs c), (cs c'); try reflexivity;
    solve [discriminate (H1 eq_refl) | discriminate (H2 eq_refl)].
Qed.

(* [sig_ok] looks at the signal fields only *)
Lemma sig_ok_kids k l a : sig_ok (set_kids k l) a <-> sig_ok k a.
Proof. exact (iff_refl _). Qed.

Lemma sig_ok_reap k i c a :
  sig_ok k a -> sig_ok (set_kids k (upd (kids k) i c)) a.
Proof. apply sig_ok_kids. Qed.

(* the field i_builtin, as a premise of the frame lemmas *)
Definition builtin_ok (a : pc) (jb : list (nat * option N)) : Prop :=
  match a with
  | PWait _ _ (KBuiltin _) => exists i, In (i, None) jb
  | _ => True
  end.

(* the frame of every step that keeps the children and the job list *)
Lemma frame_kept k k' pr pr' a a' st st' lb lb' jb tr tr' :
  Inv (mkState k pr a st lb jb tr) -> kept k k' ->
  pc_shape_ok a' -> sig_ok k' a' -> news_ok k' a' -> members a' = members a -> builtin_ok a' jb ->
  Inv (mkState k' pr' a' st' lb' jb tr').
Proof.
  intros [Hre Hsh Hsig Hnews Hnd Hmem Hjnd Hjobs Hb Hrest] Hk Hsh' Hsig' Hnews' Hm Hb'.
  cbn [kn at_ jobs] in *.
  constructor; cbn [kn at_ jobs]; rewrite ?Hm; auto.
  - eapply reaps_ok_kept; eauto.
  - intros j Hj. destruct (Hmem j Hj) as [H1 H2]. split; [eapply unreaped_at_kept; eauto | assumption].
  - eapply Forall_impl; [|exact Hjobs]. intros j. apply job_ok_kept. assumption.
  - intros j Hj. apply Hrest. eapply unreaped_at_kept; [apply kept_sym|]; eauto.
Qed.

Lemma frame_same_kids k k' pr pr' a a' st st' lb lb' jb tr tr' :
  Inv (mkState k pr a st lb jb tr) ->
  kids k' = kids k -> pc_shape_ok a' -> sig_ok k' a' -> news_ok k' a' ->
  members a' = members a -> builtin_ok a' jb ->
  Inv (mkState k' pr' a' st' lb' jb tr').
Proof. intros HI Hk. apply (frame_kept _ _ _ _ _ _ _ _ _ _ _ _ _ HI (kept_kids _ _ Hk)). Qed.

Lemma unreaped_at_fork k w st j :
  unreaped_at (fst (k_fork k w st)) j <-> unreaped_at k j \/ j = length (kids k).
Proof.
  unfold unreaped_at. rewrite kids_fork.
  destruct (Nat.lt_ge_cases j (length (kids k))) as [Hlt|Hge].
  - rewrite nth_error_app1 by assumption. split; [auto | intros [H|H]; [auto|lia]].
  - rewrite nth_error_app2 by assumption. split.
    + intros [c [Hn _]]. right.
      destruct (j - length (kids k)) as [|n] eqn:E; [lia|]. destruct n; discriminate.
    + intros [[c [Hn _]]|Hj].
      * apply nth_error_Some_lt' in Hn. lia.
      * subst j. rewrite Nat.sub_diag. eexists; split; [reflexivity|discriminate].
Qed.

Lemma job_ok_fork k w st j : job_ok k j -> job_ok (fst (k_fork k w st)) j.
Proof.
  intros [c [Hn Hj]]. exists c. split; [|assumption].
  rewrite kids_fork, nth_error_app1; [assumption|]. eapply nth_error_Some_lt'; eauto.
Qed.

Lemma unreaped_at_lt k j : unreaped_at k j -> j < length (kids k).
Proof. intros [c [Hn _]]. eapply nth_error_Some_lt'; eauto. Qed.

Lemma jobs_lt k jb j : Forall (job_ok k) jb -> In j (map fst jb) -> j < length (kids k).
Proof.
  intros Hf Hin. apply in_map_iff in Hin. destruct Hin as [[x r] [<- Hin]].
  pose proof (proj1 (Forall_forall _ _) Hf _ Hin) as [c [Hn _]]. cbn in *.
  eapply nth_error_Some_lt'; eauto.
Qed.

Lemma NoDup_snoc {A} (l : list A) x : NoDup l -> ~ In x l -> NoDup (l ++ [x]).
Proof.
  intros Hn Hx. induction l as [|y t IH]; cbn; [constructor; [tauto|constructor]|].
  inversion Hn; subst. constructor.
  - rewrite in_app_iff. cbn. intros [H|[H|[]]]; [contradiction|]. subst. apply Hx. left; reflexivity.
  - apply IH; [assumption|]. intros H. apply Hx. right; assumption.
Qed.

(* a new child: it becomes a job (an asynchronous command) or a member of the
   pipeline that is being started *)
Lemma frame_fork k pr pr' a a' st st' lb lb' jb jb' tr tr' w x :
  Inv (mkState k pr a st lb jb tr) ->
  pc_shape_ok a' -> sig_ok k a' -> news_ok (fst (k_fork k w x)) a' -> builtin_ok a' jb' ->
  (members a' = members a /\ jb' = jb ++ [(length (kids k), None)]) \/
  (members a' = members a ++ [length (kids k)] /\ jb' = jb) ->
  Inv (mkState (fst (k_fork k w x)) pr' a' st' lb' jb' tr').
Proof.
  intros [Hre Hsh Hsig Hnews Hnd Hmem Hjnd Hjobs Hb Hrest] Hsh' Hsig' Hnews' Hb' Hcase.
  cbn [kn at_ jobs] in *.
  assert (Hfj : ~ In (length (kids k)) (map fst jb))
    by (intros Hin; pose proof (jobs_lt _ _ _ Hjobs Hin); lia).
  assert (Hfm : ~ In (length (kids k)) (members a))
    by (intros Hin; destruct (Hmem _ Hin) as [Hu _]; apply unreaped_at_lt in Hu; lia).
  assert (Hjobs' : Forall (job_ok (fst (k_fork k w x))) jb)
    by (eapply Forall_impl; [|exact Hjobs]; intros j; apply job_ok_fork).
  assert (Hnew : job_ok (fst (k_fork k w x)) (length (kids k), None)).
  { eexists. cbn [fst snd]. rewrite kids_fork, nth_error_app2, Nat.sub_diag by lia.
    split; [reflexivity|discriminate]. }
  constructor; cbn [kn at_ jobs]; auto.
  - rewrite kids_fork. apply Forall_app. split; [assumption|]. constructor; [reflexivity|constructor].
  - destruct Hcase as [[-> _]|[-> _]]; [assumption | apply NoDup_snoc; assumption].
  - intros j Hj. destruct Hcase as [[Hm ->]|[Hm ->]]; rewrite Hm in Hj.
    + destruct (Hmem j Hj) as [H1 H2]. split; [apply unreaped_at_fork; left; assumption|].
      rewrite map_app, in_app_iff. cbn. intros [H|[<-|[]]]; [exact (H2 H) | exact (Hfm Hj)].
    + apply in_app_iff in Hj. destruct Hj as [Hj|[<-|[]]].
      * destruct (Hmem j Hj). split; [apply unreaped_at_fork; left; assumption | assumption].
      * split; [apply unreaped_at_fork; right; reflexivity | assumption].
  - destruct Hcase as [[_ ->]|[_ ->]]; [|assumption]. rewrite map_app. apply NoDup_snoc; assumption.
  - destruct Hcase as [[_ ->]|[_ ->]]; [|assumption].
    apply Forall_app. split; [assumption|]. constructor; [assumption|constructor].
  - intros j Hj. apply unreaped_at_fork in Hj. destruct Hj as [Hj| ->].
    + destruct (Hrest j Hj) as [H|H]; destruct Hcase as [[-> ->]|[-> ->]];
        rewrite ?map_app, ?in_app_iff; auto.
    + destruct Hcase as [[_ ->]|[-> _]]; [left; rewrite map_app | right];
        rewrite in_app_iff; right; left; reflexivity.
Qed.

Lemma unreaped_at_reap k i c j :
  nth_error (kids k) i = Some c ->
  (unreaped_at (set_kids k (upd (kids k) i (reap c))) j <-> unreaped_at k j /\ j <> i).
Proof.
  intros Hn. unfold unreaped_at, set_kids; cbn [kids].
  rewrite (nth_error_upd _ i j _ c Hn).
  destruct (Nat.eqb_spec i j) as [->|Hne].
  - split; [|intros [_ H]; congruence].
    intros [d [Hd Hc]]. apply Some_inj in Hd. subst d. cbn in Hc. congruence.
  - split; [intros H; split; [assumption|congruence] | intros [H _]; assumption].
Qed.

Lemma job_update_fst j i st : map fst (job_update j i st) = map fst j.
Proof.
  induction j as [|[x r] t IH]; cbn; [reflexivity|].
  destruct (x =? i); cbn; [reflexivity | rewrite IH; reflexivity].
Qed.

Lemma job_update_in j i st x r :
  NoDup (map fst j) ->
  In (x, r) (job_update j i st) -> (x <> i /\ In (x, r) j) \/ (x = i /\ r = Some st).
Proof.
  induction j as [|[y q] t IH]; cbn [job_update map fst]; intros Hnd; [intros []|].
  inversion Hnd as [|? ? Hni Hnd']; subst.
  destruct (Nat.eqb_spec y i) as [->|Hne]; cbn [In].
  - intros [H|H]; [inversion H; subst; right; auto|].
    left. split; [|right; assumption].
    intros ->. apply Hni. apply in_map_iff. exists (i, r). auto.
  - intros [H|H]; [inversion H; subst; left; split; [assumption | left; reflexivity]|].
    destruct (IH Hnd' H) as [[H1 H2]|H']; [left; split; [assumption | right; assumption] | right; assumption].
Qed.

Lemma job_update_none_in j i st x :
  In (x, None) j -> x <> i -> In (x, None) (job_update j i st).
Proof.
  induction j as [|[y q] t IH]; cbn; [tauto|].
  intros [H|H] Hne.
  - inversion H; subst. destruct (Nat.eqb_spec x i); [contradiction|]. left; reflexivity.
  - destruct (y =? i); [right; assumption | right; apply IH; assumption].
Qed.

Lemma job_ok_reap k i c jl :
  nth_error (kids k) i = Some c ->
  NoDup (map fst jl) ->
  Forall (job_ok k) jl ->
  Forall (job_ok (set_kids k (upd (kids k) i (reap c)))) (job_update jl i (code c)).
Proof.
  intros Hn Hnd Hf. apply Forall_forall. intros [x r] Hin.
  destruct (job_update_in _ _ _ _ _ Hnd Hin) as [[Hne Hin']|[-> ->]].
  - pose proof (proj1 (Forall_forall _ _) Hf _ Hin') as [d [Hd Hq]]. cbn [fst snd] in *.
    exists d. split; [|assumption]. unfold set_kids; cbn [kids fst].
    rewrite (nth_error_upd _ i x _ c Hn), (proj2 (Nat.eqb_neq i x)); [assumption | congruence].
  - exists (reap c). unfold set_kids; cbn [kids fst snd].
    rewrite (nth_error_upd _ i i _ c Hn), Nat.eqb_refl. cbn. auto.
Qed.

Lemma reaps_ok_reap k i c :
  nth_error (kids k) i = Some c -> cs c = Zombie ->
  Forall reaps_ok (kids k) -> Forall reaps_ok (upd (kids k) i (reap c)).
Proof.
  intros Hn Hz Hf. apply Forall_upd; [assumption|].
  pose proof (proj1 (Forall_forall _ _) Hf c (nth_error_In _ _ Hn)) as Hc.
  unfold reaps_ok in *. rewrite Hz in Hc. cbn. rewrite Hc. reflexivity.
Qed.

(* the state after wait has reported the exit of child i: it is the member the
   parent waited for, or the parent is not inside a pipeline *)
Lemma frame_reap k pr pr' a a' st st' lb jb tr i c :
  Inv (mkState k pr a st lb jb tr) ->
  nth_error (kids k) i = Some c -> cs c = Zombie ->
  pc_shape_ok a' -> sig_ok k a' -> news_ok (set_kids k (upd (kids k) i (reap c))) a' ->
  members a = i :: members a' \/ (members a = [] /\ members a' = []) ->
  builtin_ok a' (job_update jb i (code c)) ->
  Inv (mkState (set_kids k (upd (kids k) i (reap c))) pr' a' st' lb (job_update jb i (code c)) tr).
Proof.
  intros [Hre Hsh Hsig Hnews Hnd Hmem Hjnd Hjobs Hb Hrest] Hn Hz Hsh' Hsig' Hnews' Hm Hb'.
  cbn [kn at_ jobs] in *.
  assert (Hnd' : NoDup (members a') /\ ~ In i (members a')).
  { destruct Hm as [Hm|[_ ->]]; [|split; [constructor | intros []]].
    rewrite Hm in Hnd. inversion Hnd; auto. }
  assert (Hsub : forall j, In j (members a') -> In j (members a))
    by (intros j Hj; destruct Hm as [->|[_ Hm]]; [right; assumption | rewrite Hm in Hj; destruct Hj]).
  destruct Hnd' as [Hnd' Hni].
  constructor; cbn [kn at_ jobs]; rewrite ?job_update_fst; auto.
  - unfold set_kids; cbn [kids]. apply reaps_ok_reap; assumption.
  - intros j Hj. destruct (Hmem j (Hsub j Hj)) as [H1 H2]. split; [|assumption].
    apply (unreaped_at_reap k i c j Hn). split; [assumption|]. intros ->. contradiction.
  - apply job_ok_reap; assumption.
  - intros j Hj. apply (unreaped_at_reap k i c j Hn) in Hj. destruct Hj as [Hj Hne].
    destruct (Hrest j Hj) as [H|H]; [left; assumption | right].
    destruct Hm as [Hm|[Hm _]]; rewrite Hm in H; [destruct H; [congruence | assumption] | destruct H].
Qed.

Lemma NoDup_drop_mid {A} (l1 d l2 : list A) : NoDup (l1 ++ d ++ l2) -> NoDup (l1 ++ l2).
Proof. induction d as [|x d IH]; [auto|]. intros H. apply IH. exact (NoDup_remove_1 l1 (d ++ l2) x H). Qed.

(* the wait built-in takes a segment of finished jobs out of the list: their
   children are reaped, so no child that is not reaped loses its entry *)
Lemma frame_drop_jobs k pr pr' a a' st st' lb l1 d l2 tr :
  Inv (mkState k pr a st lb (l1 ++ d ++ l2) tr) -> members a = [] -> members a' = [] ->
  pc_shape_ok a' -> sig_ok k a' -> news_ok k a' -> builtin_ok a' (l1 ++ l2) ->
  (forall j, In j d -> exists y, snd j = Some y) ->
  Inv (mkState k pr' a' st' lb (l1 ++ l2) tr).
Proof.
  intros [Hre Hsh Hsig Hnews Hnd Hmem Hjnd Hjobs Hb Hrest] Hm Hm' Hsh' Hsig' Hnews' Hb' Hfin.
  cbn [kn at_ jobs] in *. rewrite Hm in Hrest. rewrite !map_app in Hjnd, Hrest.
  apply Forall_app in Hjobs. destruct Hjobs as [Hj1 Hj2].
  apply Forall_app in Hj2. destruct Hj2 as [Hjd Hj2].
  constructor; cbn [kn at_ jobs]; rewrite ?Hm', ?map_app; auto.
  - constructor.
  - intros j [].
  - exact (NoDup_drop_mid _ _ _ Hjnd).
  - apply Forall_app; auto.
  - intros j Hj. left. destruct (Hrest j Hj) as [H|[]].
    rewrite !in_app_iff in H. rewrite in_app_iff. destruct H as [H|[H|H]]; auto. exfalso.
    apply in_map_iff in H. destruct H as [[x r] [<- Hin]].
    destruct (Hfin _ Hin) as [y Hy]. cbn [snd] in Hy. subst r.
    pose proof (proj1 (Forall_forall _ _) Hjd _ Hin) as [c [Hc [Hr _]]]. destruct Hj as [c' [Hc' Hr']].
    cbn [fst] in *. rewrite Hc in Hc'. apply Some_inj in Hc'. subst c'. contradiction.
Qed.

Lemma job_find_split j i r :
  job_find j i = Some r -> exists l1 l2, j = l1 ++ (i, r) :: l2 /\ job_remove j i = l1 ++ l2.
Proof.
  induction j as [|[x q] t IH]; cbn; [discriminate|].
  destruct (Nat.eqb_spec x i) as [->|Hne]; intros H.
  - apply Some_inj in H. subst q. exists [], t. auto.
  - destruct (IH H) as [l1 [l2 [-> ->]]]. exists ((x, q) :: l1), l2. auto.
Qed.

Lemma job_find_in j i r : job_find j i = Some r -> In (i, r) j.
Proof. intros H. destruct (job_find_split _ _ _ H) as [l1 [l2 [-> _]]]. apply in_elt. Qed.

Lemma job_find_none j i : job_find j i = None -> ~ In i (map fst j).
Proof.
  induction j as [|[x q] t IH]; cbn; [tauto|].
  destruct (Nat.eqb_spec x i) as [->|Hne]; [discriminate|].
  intros H [H'|H']; [congruence | exact (IH H H')].
Qed.

Lemma job_remove_gone j i : NoDup (map fst j) -> ~ In i (map fst (job_remove j i)).
Proof.
  induction j as [|[y q] t IH]; cbn; [tauto|]. intros H. inversion H; subst.
  destruct (Nat.eqb_spec y i) as [->|Hne]; [assumption|].
  cbn. intros [H'|H']; [contradiction | exact (IH H3 H')].
Qed.

Lemma job_unfinished_split j :
  exists d, j = d ++ job_unfinished j /\ forall x, In x d -> exists y, snd x = Some y.
Proof.
  induction j as [|[y [q|]] t IH]; cbn [job_unfinished]; [exists []; split; [reflexivity | intros x []] | |
    exists []; split; [reflexivity | intros x []]].
  destruct IH as [d [Hd Hf]]. exists ((y, Some q) :: d). split; [cbn; f_equal; exact Hd|].
  intros x [<-|Hx]; [cbn; eauto | auto].
Qed.

Lemma job_unfinished_head j y q t : job_unfinished j = (y, q) :: t -> q = None.
Proof.
  induction j as [|[z [r|]] u IH]; cbn; [discriminate|auto|].
  intros H; inversion H; reflexivity.
Qed.

Lemma state_eta (s : state) :
  s = mkState (kn s) (prog s) (at_ s) (status s) (lastbg s) (jobs s) (trace s).
Proof. destruct s; reflexivity. Qed.

(* a SIGCHLD is raised: it becomes pending or is caught *)
Lemma raise_pc_ok k l a :
  sig_ok k a -> sig_ok (raise_chld (set_kids k l)) a /\ news_ok (raise_chld (set_kids k l)) a.
Proof.
  unfold raise_chld, deliver, set_kids; cbn [blocked catching pending caught kids].
  destruct a as [| |[] t c0| | | |]; cbn [sig_ok news_ok]; intros [H1 [H2 H3]].
  (* inside the wait loop the mask is known *)
  4,5: rewrite H1; cbn [blocked catching pending caught]; auto.
  4: rewrite H1, H2; cbn [blocked catching pending caught]; auto using Nat.lt_0_succ.
  (* elsewhere: a caught SIGCHLD is blocked *)
  all: revert H1 H2 H3; destruct (blocked k), (catching k); cbn [blocked catching pending caught];
    intros H1 H2 H3; auto; discriminate (H2 eq_refl).
Qed.

Lemma replace_pc_ok k a i c c' :
  nth_error (kids k) i = Some c -> is_alive c' = true ->
  has_news_c c' = has_news_c c -> sig_ok k a -> news_ok k a ->
  sig_ok (set_kids k (upd (kids k) i c')) a /\ news_ok (set_kids k (upd (kids k) i c')) a.
Proof.
  intros Hn Ha' Hnews Hsig Hnw. split; [apply sig_ok_kids; assumption|].
  destruct a as [| |[] t c0| | | |]; try exact I; cbn [news_ok] in *;
    (destruct Hnw as [Hp|Hw]; [left; exact Hp | right; apply (kwait_none_replace k t i c); assumption]).
Qed.

Lemma signal_pc_ok k sg t a :
  sig_ok k a -> news_ok k a -> sig_ok (k_signal k sg t) a /\ news_ok (k_signal k sg t) a.
Proof.
  intros Hs Hw. unfold k_signal. destruct (nth_error (kids k) t) as [c|]; [|auto].
  destruct sg, (cs c); auto; apply raise_pc_ok; assumption.
Qed.

Lemma child_step_pc_ok k i k' a :
  sig_ok k a -> news_ok k a -> child_step k i = Some k' -> sig_ok k' a /\ news_ok k' a.
Proof.
  intros Hs Hw. unfold child_step. destruct (nth_error (kids k) i) as [c|] eqn:Hn; [|discriminate].
  destruct (cs c) as [p| | |] eqn:Hc; try discriminate.
  assert (Hadv : forall r,
            sig_ok (set_kids k (upd (kids k) i (mkChild (Running r) (code c) (reaps c) (chg c)))) a /\
            news_ok (set_kids k (upd (kids k) i (mkChild (Running r) (code c) (reaps c) (chg c)))) a).
  { intros r. apply (replace_pc_ok k a i c); auto;
      unfold is_alive, has_news_c; cbn [cs chg]; rewrite Hc; reflexivity. }
  destruct p as [|[|s t] r]; intros H; apply Some_inj in H; subst k'.
  - apply raise_pc_ok. assumption.
  - apply Hadv.
  - destruct (Hadv r). apply signal_pc_ok; assumption.
Qed.

Lemma child_step_inv s i k' :
  Inv s -> child_step (kn s) i = Some k' -> Inv (set_at s k' (at_ s)).
Proof.
  intros HI Hst.
  destruct (child_step_pc_ok _ _ _ (at_ s) (i_sig _ HI) (i_news _ HI) Hst) as [Hsig Hnews].
  pose proof (i_shape _ HI) as Hsh. pose proof (i_builtin _ HI) as Hb.
  rewrite (state_eta s) in HI. unfold set_at.
  exact (frame_kept _ _ _ _ _ _ _ _ _ _ _ _ _ HI (child_step_kept _ _ _ Hst) Hsh Hsig Hnews eq_refl Hb).
Qed.

Lemma parent_idle_inv k pr st lb jb tr s' :
  Inv (mkState k pr PIdle st lb jb tr) ->
  parent_step (mkState k pr PIdle st lb jb tr) = Some s' -> Inv s'.
Proof.
  intros HI Hs. unfold parent_step in Hs; cbn [kn prog at_ status lastbg jobs trace] in Hs.
  pose proof (i_sig _ HI) as Hsig. cbn [kn at_] in Hsig.
  destruct pr as [|[w x|l pf|t|] r]; apply Some_inj in Hs; subst s'; unfold set_at;
    cbn [kn prog at_ status lastbg jobs trace];
    try (eapply frame_same_kids; eauto; cbn; auto; fail).
  apply (frame_fork _ _ _ _ _ _ _ _ _ _ _ _ _ w x HI); cbn; auto.
Qed.

Lemma parent_fork_inv k pr todo pids pf st lb jb tr s' :
  Inv (mkState k pr (PFork todo pids pf) st lb jb tr) ->
  parent_step (mkState k pr (PFork todo pids pf) st lb jb tr) = Some s' -> Inv s'.
Proof.
  intros HI Hs. unfold parent_step in Hs; cbn [kn prog at_ status lastbg jobs trace] in Hs.
  pose proof (i_sig _ HI) as Hsig. cbn [kn at_] in Hsig.
  destruct todo as [|[w x] todo]; [destruct pids as [|p more]|]; apply Some_inj in Hs; subst s';
    unfold set_at, finish; cbn [kn prog at_ status lastbg jobs trace];
    try (eapply frame_same_kids; eauto; cbn; auto; fail).
  apply (frame_fork _ _ _ _ _ _ _ _ _ _ _ _ _ w x HI); cbn; auto.
Qed.

Lemma parent_inst_inv k pr t c st lb jb tr s' :
  Inv (mkState k pr (PWait SInst t c) st lb jb tr) ->
  parent_step (mkState k pr (PWait SInst t c) st lb jb tr) = Some s' -> Inv s'.
Proof.
  intros HI Hs. unfold parent_step in Hs; cbn [kn prog at_ status lastbg jobs trace] in Hs.
  pose proof HI as [Hre Hsh Hsig Hnews Hnd Hmem Hjnd Hjobs Hb Hrest]. cbn [kn at_ jobs sig_ok] in *.
  destruct Hsig as [H1 [H2 H3]].
  destruct (blocked k) eqn:Eb; cbn [negb] in Hs; [destruct (catching k) eqn:Ec; cbn [negb] in Hs|];
    apply Some_inj in Hs; subst s'; unfold set_at; cbn [kn prog at_ status lastbg jobs trace];
    eapply frame_same_kids; eauto; cbn [sig_ok news_ok k_block k_catch blocked catching pending caught];
    auto.
Qed.

(* wait_for_subshell_to_finish and the wait built-in never get ECHILD: the
   child waited for, or a job that has not finished, is not reaped *)
Lemma poll_not_echild k pr t c st lb jb tr :
  Inv (mkState k pr (PWait SPoll t c) st lb jb tr) -> fst (kwait k t) <> WEchild.
Proof.
  intros HI He. pose proof HI as [_ Hsh _ _ _ Hmem _ Hjobs Hb _]. cbn [kn at_ jobs] in *.
  destruct (kwait k t) as [r k'] eqn:Ew. cbn [fst] in He. subst r.
  apply kwait_spec in Ew. destruct Ew as [_ Ew].
  destruct c as [more fin pf ra|t0].
  - destruct t as [p|]; [|contradiction].
    destruct (Hmem p (or_introl eq_refl)) as [[d [Hd Hc]] _].
    destruct Ew as [Ew|[d' [Hd' Hc']]]; [congruence|].
    rewrite Hd in Hd'. apply Some_inj in Hd'. subst d'. contradiction.
  - destruct t as [p|]; [contradiction|].
    destruct Hb as [i Hi].
    pose proof (proj1 (Forall_forall _ _) Hjobs _ Hi) as [d [Hd Hc]]. cbn [fst snd] in *.
    apply Hc. apply Ew. eapply nth_error_In; eauto.
Qed.

Lemma parent_poll_inv k pr t c st lb jb tr s' :
  Inv (mkState k pr (PWait SPoll t c) st lb jb tr) ->
  parent_step (mkState k pr (PWait SPoll t c) st lb jb tr) = Some s' -> Inv s'.
Proof.
  intros HI Hs. pose proof (poll_not_echild _ _ _ _ _ _ _ _ HI) as Hne.
  pose proof (kwait_kept k t) as Hk.
  unfold parent_step in Hs; cbn [kn prog at_ status lastbg jobs trace] in Hs.
  pose proof HI as [_ Hsh [Hbl [Hca Hcg]] _ Hnd _ _ _ Hb _]. cbn [kn at_ jobs] in *.
  destruct (kwait k t) as [[i x|i|i| |] k'] eqn:Ew; cbn [fst snd] in Hne, Hk; [| | | |contradiction].
  2,3: (* a stop or a continuation: the waiter starts over *)
    destruct c as [more fin pf ra|t0]; destruct t as [tp|]; try contradiction;
    apply Some_inj in Hs; subst s'; unfold set_at; cbn [kn prog at_ status lastbg jobs trace];
    apply (frame_kept _ _ _ _ _ _ _ _ _ _ _ _ _ HI Hk); try rewrite (kwait_set_kids _ _ _ _ Ew); cbn;
    rewrite ?Hbl, ?Hcg; auto.
  - (* wait reported the exit of child i: for a pipeline it is the member waited
       for, which leaves the members; the next program counter is outside the
       wait loop or at its first stage *)
    destruct (kwait_spec _ _ _ _ Ew) as [ch [Hn [Hz [-> [-> Ht]]]]].
    destruct c as [[|p' more'] fin pf [|]|t0]; destruct t as [p|]; try contradiction;
      cbn [targets] in Ht; subst; apply Some_inj in Hs; subst s';
      refine (frame_reap _ _ _ _ _ _ _ _ _ _ _ _ HI Hn Hz _ _ _ _ _);
      cbn [sig_ok news_ok pc_shape_ok builtin_ok members]; rewrite ?Hbl, ?Hcg; auto.
  - (* none yet *)
    apply Some_inj in Hs; subst s'. unfold set_at; cbn [kn prog at_ status lastbg jobs trace].
    eapply frame_same_kids; eauto; cbn [sig_ok news_ok]; auto.
    right. rewrite Ew. reflexivity.
Qed.

Lemma parent_enter_inv k pr t c st lb jb tr s' :
  Inv (mkState k pr (PWait SEnter t c) st lb jb tr) ->
  parent_step (mkState k pr (PWait SEnter t c) st lb jb tr) = Some s' -> Inv s'.
Proof.
  intros HI Hs. unfold parent_step in Hs; cbn [kn prog at_ status lastbg jobs trace] in Hs.
  pose proof HI as [Hre Hsh Hsig Hnews Hnd Hmem Hjnd Hjobs Hb Hrest]. cbn [kn at_ jobs sig_ok news_ok] in *.
  destruct Hsig as [Hbl [Hca Hcg]].
  unfold k_unblock, deliver in Hs. cbn [catching kids blocked pending caught] in Hs.
  rewrite Hca, Hcg in Hs.
  destruct (pending k) eqn:Ep; cbn [caught] in Hs.
  - change (0 <? 1) with true in Hs. apply Some_inj in Hs; subst s'.
    unfold set_at; cbn [kn prog at_ status lastbg jobs trace].
    eapply frame_same_kids; eauto; cbn; auto.
  - change (0 <? 0) with false in Hs. apply Some_inj in Hs; subst s'.
    unfold set_at; cbn [kn prog at_ status lastbg jobs trace].
    eapply frame_same_kids; eauto; cbn [sig_ok news_ok blocked catching pending caught]; auto.
    destruct Hnews as [Hp|Hw]; [discriminate|]. right.
    apply kwait_none_iff. apply kwait_none_iff in Hw. exact Hw.
Qed.

Lemma parent_blocked_inv k pr t c st lb jb tr s' :
  Inv (mkState k pr (PWait SBlocked t c) st lb jb tr) ->
  parent_step (mkState k pr (PWait SBlocked t c) st lb jb tr) = Some s' -> Inv s'.
Proof.
  intros HI Hs. unfold parent_step in Hs; cbn [kn prog at_ status lastbg jobs trace] in Hs.
  pose proof HI as [Hre Hsh Hsig Hnews Hnd Hmem Hjnd Hjobs Hb Hrest]. cbn [kn at_ jobs sig_ok news_ok] in *.
  destruct Hsig as [Hbl [Hca Hp]].
  destruct (0 <? caught k); [|discriminate].
  apply Some_inj in Hs; subst s'. unfold set_at; cbn [kn prog at_ status lastbg jobs trace].
  eapply frame_same_kids; eauto; cbn; auto.
Qed.

Lemma parent_builtin_inv k pr t0 st lb jb tr s' :
  Inv (mkState k pr (PBuiltin t0) st lb jb tr) ->
  parent_step (mkState k pr (PBuiltin t0) st lb jb tr) = Some s' -> Inv s'.
Proof.
  intros HI Hs. unfold parent_step in Hs; cbn [kn prog at_ status lastbg jobs trace] in Hs.
  pose proof (i_sig _ HI) as Hsig. cbn [kn at_] in Hsig.
  destruct t0 as [i|].
  - destruct (job_find jb i) as [[x|]|] eqn:Ef; apply Some_inj in Hs; subst s';
      unfold set_at, finish; cbn [kn prog at_ status lastbg jobs trace].
    + (* finished: the job is removed *)
      destruct (job_find_split _ _ _ Ef) as [l1 [l2 [-> ->]]].
      apply (frame_drop_jobs _ _ _ _ _ _ _ _ l1 [(i, Some x)] l2 _ HI); cbn; auto.
      intros j [<-|[]]. cbn. eauto.
    + (* still running: wait for any child *)
      eapply frame_same_kids; eauto; cbn [sig_ok news_ok members builtin_ok pc_shape_ok]; auto.
      exists i. apply job_find_in. assumption.
    + eapply frame_same_kids; eauto; cbn; auto.
  - (* the finished jobs at the head of the list go; if one is left, wait for any child *)
    destruct (job_unfinished_split jb) as [d [E Hd]]. rewrite E in HI.
    destruct (job_unfinished jb) as [|[y q] rest_] eqn:Eu; apply Some_inj in Hs; subst s';
      cbn [kn prog at_ status lastbg jobs trace];
      apply (frame_drop_jobs _ _ _ _ _ _ _ _ [] d _ _ HI); cbn [app members sig_ok news_ok pc_shape_ok builtin_ok]; auto.
    exists y. rewrite (job_unfinished_head _ _ _ _ Eu). left; reflexivity.
Qed.

Lemma parent_reap_inv k pr st lb jb tr s' :
  Inv (mkState k pr PReap st lb jb tr) ->
  parent_step (mkState k pr PReap st lb jb tr) = Some s' -> Inv s'.
Proof.
  intros HI Hs. pose proof (kwait_kept k TAny) as Hk.
  unfold parent_step in Hs; cbn [kn prog at_ status lastbg jobs trace] in Hs.
  pose proof (i_sig _ HI) as Hsig. cbn [kn at_] in Hsig.
  destruct (kwait k TAny) as [[i x|i|i| |] k'] eqn:Ew; cbn [fst snd] in Hk;
    apply Some_inj in Hs; subst s'; unfold set_at; cbn [kn prog at_ status lastbg jobs trace].
  4,5: (* nothing to report: on to the next command *)
    eapply frame_same_kids; eauto; cbn; auto.
  2,3: (* a stop or a continuation *)
    apply (frame_kept _ _ _ _ _ _ _ _ _ _ _ _ _ HI Hk); try rewrite (kwait_set_kids _ _ _ _ Ew); cbn; auto.
  destruct (kwait_spec _ _ _ _ Ew) as [ch [Hn [Hz [-> [-> _]]]]].
  refine (frame_reap _ _ _ _ _ _ _ _ _ _ _ _ HI Hn Hz _ _ _ _ _); cbn; auto.
Qed.

Lemma parent_step_inv s s' : Inv s -> parent_step s = Some s' -> Inv s'.
Proof.
  destruct s as [k pr a st lb jb tr]. intros HI Hs.
  destruct a as [|todo pids pf|m t c|t0| | |].
  - eapply parent_idle_inv; eauto.
  - eapply parent_fork_inv; eauto.
  - destruct m.
    + eapply parent_inst_inv; eauto.
    + eapply parent_poll_inv; eauto.
    + eapply parent_enter_inv; eauto.
    + eapply parent_blocked_inv; eauto.
  - eapply parent_builtin_inv; eauto.
  - eapply parent_reap_inv; eauto.
  - discriminate.
  - discriminate.
Qed.

Lemma step_inv s l s' : Inv s -> step s l = Some s' -> Inv s'.
Proof.
  intros HI Hs. destruct (step_cases _ _ _ Hs) as [Hp|[i [k' [E ->]]]].
  - exact (parent_step_inv _ _ HI Hp).
  - exact (child_step_inv _ _ _ HI E).
Qed.

Lemma run_inv ls s s' : Inv s -> run s ls = Some s' -> Inv s'.
Proof. apply (run_preserves Inv step_inv). Qed.
