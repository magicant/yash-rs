(* C13 — consequences of the invariant: no lost SIGCHLD, progress, no panic,
   every child reaped exactly once. *)
From Yv Require Import Common.Base C13.Model C13.ProofsKern C13.ProofsInv.
From Coq Require Import Arith.

(* wait would report a child (an exit, a stop or a continuation) *)
Definition has_news (k : kern) (t : target) : Prop :=
  fst (kwait k t) <> WNone /\ fst (kwait k t) <> WEchild.

Lemma no_lost_sigchld_inv s m t c :
  Inv s -> at_ s = PWait m t c -> (m = SEnter \/ m = SBlocked) ->
  has_news (kn s) t -> pending (kn s) = true \/ 0 < caught (kn s).
Proof.
  intros HI Ha Hm [Hn _]. pose proof (i_news _ HI) as Hnews. rewrite Ha in Hnews.
  destruct Hm as [-> | ->]; cbn [news_ok] in Hnews; destruct Hnews as [H|H]; auto; congruence.
Qed.

(* where the final program counters come from: the shell exits at the end of
   the script only, and panics only when wait_for_subshell_to_finish gets ECHILD *)
Lemma parent_step_final s s' :
  parent_step s = Some s' ->
  (at_ s' = PExit -> prog s' = []) /\
  (at_ s' = PPanic -> exists t c, at_ s = PWait SPoll t c /\ fst (kwait (kn s) t) = WEchild).
Proof.
  destruct s as [k pr a st lb jb tr]. unfold parent_step; cbn [kn prog at_ status lastbg jobs trace].
  intros Hs. destruct a as [|todo pids pf|m t c|t0| | |]; try discriminate.
  - destruct pr as [|[w x|l pf|t|] r]; apply Some_inj in Hs; subst s'; cbn;
      split; intros E; try discriminate E. reflexivity.
  - destruct todo as [|[w x] todo]; [destruct pids|]; apply Some_inj in Hs; subst s'; cbn; split; discriminate.
  - destruct m.
    + destruct (negb (blocked k)); [|destruct (negb (catching k))]; apply Some_inj in Hs; subst s'; cbn;
        split; discriminate.
    + destruct (kwait k t) as [[i x|i|i| |] k'] eqn:Ew; destruct c as [[|p more] fin pf [|]|t0];
        apply Some_inj in Hs; subst s'; cbn [at_ prog set_at finish];
        split; intros E; try discriminate E;
        exists t; eexists; rewrite Ew; split; reflexivity.
    + destruct (0 <? caught (k_unblock k)); apply Some_inj in Hs; subst s'; cbn; split; discriminate.
    + destruct (0 <? caught k); [|discriminate]. apply Some_inj in Hs; subst s'; cbn; split; discriminate.
  - destruct t0 as [i|]; [destruct (job_find jb i) as [[x|]|] | destruct (job_unfinished jb)];
      apply Some_inj in Hs; subst s'; cbn; split; discriminate.
  - destruct (kwait k TAny) as [[i x|i|i| |] k']; apply Some_inj in Hs; subst s'; cbn; split; discriminate.
Qed.

Lemma exit_prog_nil ls s s' :
  (at_ s = PExit -> prog s = []) -> run s ls = Some s' -> at_ s' = PExit -> prog s' = [].
Proof.
  apply (run_preserves (fun x => at_ x = PExit -> prog x = [])). clear.
  intros s l s' H0 Hs. destruct (step_cases _ _ _ Hs) as [Hp|[i [k' [_ ->]]]];
    [exact (proj1 (parent_step_final _ _ Hp)) | exact H0].
Qed.

Lemma parent_step_no_panic s s' :
  Inv s -> parent_step s = Some s' -> at_ s' <> PPanic.
Proof.
  intros HI Hs E. destruct (proj2 (parent_step_final _ _ Hs) E) as [t [c [Ha He]]].
  destruct s as [k pr a st lb jb tr]. cbn [at_ kn] in *. subst a.
  exact (poll_not_echild _ _ _ _ _ _ _ _ HI He).
Qed.

Lemma step_no_panic s l s' :
  Inv s -> at_ s <> PPanic -> step s l = Some s' -> at_ s' <> PPanic.
Proof.
  intros HI Hp Hs. destruct (step_cases _ _ _ Hs) as [H|[i [k' [_ ->]]]];
    [exact (parent_step_no_panic _ _ HI H) | exact Hp].
Qed.

Lemma run_no_panic ls s s' :
  Inv s -> at_ s <> PPanic -> run s ls = Some s' -> at_ s' <> PPanic.
Proof.
  intros HI Hp Hr.
  refine (proj2 (run_preserves (fun x => Inv x /\ at_ x <> PPanic) _ ls s s' (conj HI Hp) Hr)).
  intros s0 l s1 [H1 H2] Hs. split; [exact (step_inv _ _ _ H1 Hs) | exact (step_no_panic _ _ _ H1 H2 Hs)].
Qed.

Lemma running_child_steps k i c p :
  nth_error (kids k) i = Some c -> cs c = Running p -> child_step k i <> None.
Proof. intros Hn Hc. unfold child_step. rewrite Hn, Hc. destruct p as [|[|s t] r]; discriminate. Qed.

Definition some_stopped (k : kern) : Prop :=
  exists i c p, nth_error (kids k) i = Some c /\ cs c = Stopped p.

Lemma parent_blocks s :
  parent_step s = None ->
  at_ s = PExit \/ at_ s = PPanic \/ exists t c, at_ s = PWait SBlocked t c /\ caught (kn s) = 0.
Proof.
  destruct s as [k pr a st lb jb tr]. unfold parent_step; cbn [kn prog at_ status lastbg jobs trace].
  destruct a as [|todo pids pf|m t c|t0| | |]; auto.
  - destruct pr as [|[w x|l pf|t|] r]; discriminate.
  - destruct todo as [|[w x] todo]; [destruct pids|]; discriminate.
  - destruct m.
    + destruct (negb (blocked k)); [|destruct (negb (catching k))]; discriminate.
    + destruct (kwait k t) as [[i x|i|i| |] k'];
        [destruct c as [[|p more] fin pf ra|t0] | destruct c | destruct c | | destruct c]; discriminate.
    + destruct (0 <? caught (k_unblock k)); discriminate.
    + destruct (Nat.ltb_spec 0 (caught k)); [discriminate|].
      intros _. right; right. exists t, c. split; [reflexivity | lia].
  - destruct t0 as [i|]; [destruct (job_find jb i) as [[x|]|] | destruct (job_unfinished jb)]; discriminate.
  - destruct (kwait k TAny) as [[i x|i|i| |] k']; discriminate.
Qed.

(* Read as "if no process can take a step, some child is stopped": then no
   process is left to send it a SIGCONT.  The second alternative taken alone
   says only that some child is stopped, which also holds in states that are
   not stuck (Proofs.ex_stop_midway). *)
Lemma progress_inv s :
  Inv s -> at_ s <> PExit -> at_ s <> PPanic ->
  (exists l, step s l <> None) \/ some_stopped (kn s).
Proof.
  intros HI He Hp.
  destruct (parent_step s) eqn:E; [left; exists LP; cbn [step]; rewrite E; discriminate|].
  destruct (parent_blocks s E) as [H|[H|[t [c [Ha Hc]]]]]; [contradiction..|].
  (* inside select with nothing caught: wait would still say "none yet", so some
     child is alive; it can run, or it is stopped *)
  pose proof (i_news _ HI) as Hnews. rewrite Ha in Hnews. cbn [news_ok] in Hnews.
  destruct Hnews as [H|Ew]; [lia|]. apply kwait_none_iff in Ew.
  assert (Hlive : exists j d, nth_error (kids (kn s)) j = Some d /\ is_alive d = true).
  { destruct t as [j|]; [destruct Ew as [d [Hd [Hal _]]]; eauto|].
    destruct Ew as [_ Hr]. apply existsb_exists in Hr. destruct Hr as [d [Hin Hal]].
    destruct (In_nth_error _ _ Hin) as [j Hd]. eauto. }
  destruct Hlive as [j [d [Hd Hal]]]. unfold is_alive in Hal.
  destruct (cs d) as [p|p| |] eqn:Hcs; try discriminate.
  - left. exists (LC j). cbn [step]. pose proof (running_child_steps _ j d p Hd Hcs).
    destruct (child_step (kn s) j); [discriminate | contradiction].
  - right. exists j, d, p. auto.
Qed.

Lemma reaped_once_inv s c : Inv s -> In c (kids (kn s)) -> reaps_ok c.
Proof. intros HI. apply Forall_forall, (i_reaps _ HI). Qed.

Lemma no_zombie_inv s i c :
  Inv s -> final s = true ->
  nth_error (kids (kn s)) i = Some c -> cs c <> Reaped -> In i (map fst (jobs s)).
Proof.
  intros HI Hf Hn Hc. unfold final in Hf. destruct (at_ s) eqn:Ea; try discriminate.
  destruct (i_rest _ HI i) as [H|H]; [exists c; auto | assumption |].
  rewrite Ea in H. destruct H.
Qed.

Lemma all_reaped_inv s c :
  Inv s -> final s = true -> jobs s = [] -> In c (kids (kn s)) -> cs c = Reaped /\ reaps c = 1.
Proof.
  intros HI Hf Hj Hin. destruct (In_nth_error _ _ Hin) as [i Hi].
  pose proof (reaped_once_inv s c HI Hin) as Hr. unfold reaps_ok in Hr.
  destruct (cs c) eqn:Ec; [| | |auto]; exfalso;
    (assert (Hz : In i (map fst (jobs s)))
       by (apply (no_zombie_inv s i c HI Hf Hi); rewrite Ec; discriminate));
    rewrite Hj in Hz; exact Hz.
Qed.
