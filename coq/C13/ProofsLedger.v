(* C13 — the kernel part of the model satisfies the ledger specification of
   Spec.v for every history of operations (= the ledger half of the stream-K
   check, Run.run_kern, never rejects what the model answers), by a simulation
   relation LSim between the kernel and the ledger. *)
From Yv Require Import Common.Base C13.Model C13.Spec C13.Run C13.ProofsKern.
From Coq Require Import Arith.

Fixpoint model_khist (k : kern) (ops : list kop) : list (kop * kobs * bool) :=
  match ops with
  | [] => []
  | o :: r =>
      match kstep k o with
      | Some (b, k') => (o, b, pending k') :: model_khist k' r
      | None => []
      end
  end.

Fixpoint kops_ok (k : kern) (ops : list kop) : bool :=
  match ops with
  | [] => true
  | o :: r => match kstep k o with Some (_, k') => kops_ok k' r | None => false end
  end.

(* The ledger is read through membership only.  What it records about index i
   (exited, reported, halted, fresh) is what the state of child i says. *)
Definition lflags (g : ledger) (i : nat) : bool * bool * bool * bool :=
  (mem i (exited g), mem i (reported g), mem i (halted g), mem i (fresh g)).

Definition cflags (c : child) : bool * bool * bool * bool :=
  (negb (is_alive c), is_reaped c, is_stopped c, is_alive c && chg c).

Definition sig_agree (k : kern) (g : ledger) : Prop :=
  l_catching g = catching k /\ l_blocked g = blocked k /\
  owed_pending g = pending k /\ owed_caught g = caught k.

Record LSim (k : kern) (g : ledger) : Prop := mkLSim {
  ls_born : born g = map code (kids k);
  ls_flags : forall i, lflags g i = match nth_error (kids k) i with
                                    | Some c => cflags c
                                    | None => (false, false, false, false)
                                    end;
  ls_sig : sig_agree k g }.

Lemma lsim_init : LSim kern0 ledger0.
Proof. constructor; [reflexivity | intros [|i]; reflexivity | repeat split]. Qed.

Lemma mem_cons i j l : mem i (j :: l) = (i =? j) || mem i l.
Proof. reflexivity. Qed.

Lemma mem_drop i j l : mem i (drop j l) = mem i l && negb (i =? j).
Proof.
  unfold drop. induction l as [|x t IH]; [reflexivity|]. cbn [filter].
  destruct (Nat.eqb_spec x j) as [->|Hne]; cbn [negb].
  - rewrite IH. rewrite mem_cons. destruct (Nat.eqb_spec i j); cbn; [rewrite andb_false_r; reflexivity | reflexivity].
  - rewrite !mem_cons, IH. destruct (Nat.eqb_spec i x) as [->|]; cbn [orb]; [|reflexivity].
    destruct (Nat.eqb_spec x j); [contradiction|]. reflexivity.
Qed.

Lemma mem_add i j l : mem i (add j l) = (i =? j) || mem i l.
Proof.
  unfold add. destruct (mem j l) eqn:E; [|reflexivity].
  destruct (Nat.eqb_spec i j) as [->|]; [rewrite E; reflexivity | reflexivity].
Qed.

Lemma existsb_seq_nth {A} (f : A -> bool) (g : nat -> bool) (l : list A) : forall n,
  (forall i c, nth_error l i = Some c -> g (n + i) = f c) ->
  existsb g (seq n (length l)) = existsb f l.
Proof.
  induction l as [|x t IH]; intros n H; cbn [length seq existsb]; [reflexivity|].
  rewrite <- (H 0 x eq_refl). rewrite Nat.add_0_r. f_equal.
  apply IH. intros i c Hi. rewrite <- (H (S i) c Hi). f_equal. lia.
Qed.

Lemma existsb_false {A} (f : A -> bool) (l : list A) :
  (forall x, In x l -> f x = false) -> existsb f l = false.
Proof.
  induction l as [|x t IH]; intros H; cbn [existsb]; [reflexivity|].
  rewrite (H x (or_introl eq_refl)). apply IH. intros y Hy. apply H. right. exact Hy.
Qed.

(* the ledger's own notions of a child's state, read through the relation *)

Section Read.
Variables (k : kern) (g : ledger).
Hypothesis HS : LSim k g.

Lemma lsim_len : length (born g) = length (kids k).
Proof. rewrite (ls_born _ _ HS). apply map_length. Qed.

Lemma lsim_born_at i : nth_error (born g) i = option_map code (nth_error (kids k) i).
Proof. rewrite (ls_born _ _ HS). apply nth_error_map. Qed.

Lemma lsim_at i c : nth_error (kids k) i = Some c ->
  mem i (exited g) = negb (is_alive c) /\ mem i (reported g) = is_reaped c /\
  mem i (halted g) = is_stopped c /\ mem i (fresh g) = is_alive c && chg c.
Proof.
  intros Hn. pose proof (ls_flags _ _ HS i) as H. rewrite Hn in H.
  injection H as H1 H2 H3 H4. auto.
Qed.

Lemma lsim_beyond i : nth_error (kids k) i = None -> mem i (exited g) = false.
Proof.
  intros Hn. pose proof (ls_flags _ _ HS i) as H. rewrite Hn in H.
  injection H as H1 _ _ _. exact H1.
Qed.

Lemma lsim_alive i :
  (i <? length (kids k)) && negb (mem i (exited g)) =
  match nth_error (kids k) i with Some c => is_alive c | None => false end.
Proof.
  destruct (nth_error (kids k) i) as [c|] eqn:Hn.
  - destruct (lsim_at i c Hn) as [-> _]. apply nth_error_Some_lt' in Hn.
    rewrite (proj2 (Nat.ltb_lt _ _) Hn). apply negb_involutive.
  - apply nth_error_None in Hn. rewrite (proj2 (Nat.ltb_ge _ _) Hn). reflexivity.
Qed.

Lemma lsim_unreported i c : nth_error (kids k) i = Some c ->
  mem i (exited g) && negb (mem i (reported g)) = is_zombie c.
Proof.
  intros Hn. destruct (lsim_at i c Hn) as [-> [-> _]].
  unfold is_alive, is_reaped, is_zombie. destruct (cs c); reflexivity.
Qed.

Lemma lsim_any_unreported :
  existsb (fun i => mem i (exited g) && negb (mem i (reported g))) (seq 0 (length (kids k)))
  = existsb is_zombie (kids k).
Proof. apply existsb_seq_nth. intros i c. apply lsim_unreported. Qed.

Lemma lsim_any_alive :
  existsb (fun i => (i <? length (kids k)) && negb (mem i (exited g))) (seq 0 (length (kids k)))
  = existsb is_alive (kids k).
Proof. apply existsb_seq_nth. intros i c Hn. cbn [Nat.add]. rewrite lsim_alive, Hn. reflexivity. Qed.

Lemma lsim_any_fresh :
  existsb (fun i => (i <? length (kids k)) && negb (mem i (exited g)) && mem i (fresh g))
          (seq 0 (length (kids k)))
  = existsb (fun c => is_alive c && chg c) (kids k).
Proof.
  apply existsb_seq_nth. intros i c Hn. cbn [Nat.add]. rewrite lsim_alive, Hn.
  destruct (lsim_at i c Hn) as [_ [_ [_ ->]]]. destruct (is_alive c); reflexivity.
Qed.

End Read.

(* the frame: one child changes its state, with or without a SIGCHLD *)

Definition only_at (i : nat) (l l' : list nat) : Prop := forall j, j <> i -> mem j l' = mem j l.

Lemma only_at_refl i l : only_at i l l.
Proof. intros j _. reflexivity. Qed.

Lemma only_at_cons i l : only_at i l (i :: l).
Proof. intros j Hj. rewrite mem_cons. apply Nat.eqb_neq in Hj. rewrite Hj. reflexivity. Qed.

Lemma only_at_add i l : only_at i l (add i l).
Proof. intros j Hj. rewrite mem_add. apply Nat.eqb_neq in Hj. rewrite Hj. reflexivity. Qed.

Lemma only_at_drop i l : only_at i l (drop i l).
Proof. intros j Hj. rewrite mem_drop. apply Nat.eqb_neq in Hj. rewrite Hj. apply andb_true_r. Qed.

Create HintDb ledger.
#[local] Hint Resolve only_at_refl only_at_cons only_at_add only_at_drop : ledger.

Lemma lsim_child k g k' g' i c c' :
  LSim k g -> nth_error (kids k) i = Some c -> code c' = code c ->
  kids k' = upd (kids k) i c' -> born g' = born g ->
  lflags g' i = cflags c' ->
  only_at i (exited g) (exited g') -> only_at i (reported g) (reported g') ->
  only_at i (halted g) (halted g') -> only_at i (fresh g) (fresh g') ->
  sig_agree k' g' -> LSim k' g'.
Proof.
  intros [Hb Hfl _] Hn Hcode Hk Hborn Hi He Hr Hh Hf Hsig. constructor; [|intros j|assumption].
  - rewrite Hborn, Hb, Hk. symmetry. exact (codes_upd k i c c' Hn Hcode).
  - rewrite Hk, (nth_error_upd _ i j _ c Hn).
    destruct (Nat.eqb_spec i j) as [<-|Hne]; [assumption|]. apply not_eq_sym in Hne.
    rewrite <- Hfl. unfold lflags. rewrite (He j Hne), (Hr j Hne), (Hh j Hne), (Hf j Hne). reflexivity.
Qed.

(* [owe] mirrors [raise_chld] *)
Lemma owe_sim k g l ex rp ha fr :
  sig_agree k g ->
  let g' := owe g ex rp ha fr in
  born g' = born g /\ exited g' = ex /\ reported g' = rp /\ halted g' = ha /\ fresh g' = fr /\
  sig_agree (raise_chld (set_kids k l)) g'.
Proof.
  intros [H1 [H2 [H3 H4]]]. unfold owe, raise_chld, deliver, set_kids, sig_agree;
    cbn [blocked catching pending caught kids].
  rewrite H1, H2. destruct (blocked k); [|destruct (catching k)]; cbn; auto 10.
Qed.

Lemma lsim_raise k g i c c' ex rp ha fr :
  LSim k g -> nth_error (kids k) i = Some c -> code c' = code c ->
  (mem i ex, mem i rp, mem i ha, mem i fr) = cflags c' ->
  only_at i (exited g) ex -> only_at i (reported g) rp ->
  only_at i (halted g) ha -> only_at i (fresh g) fr ->
  LSim (raise_chld (set_kids k (upd (kids k) i c'))) (owe g ex rp ha fr).
Proof.
  intros HS Hn Hcode Hi He Hr Hh Hf.
  destruct (owe_sim k g (upd (kids k) i c') ex rp ha fr (ls_sig _ _ HS))
    as [Hb [E1 [E2 [E3 [E4 Hsig]]]]].
  apply (lsim_child k g _ _ i c c' HS Hn Hcode); unfold lflags; rewrite ?E1, ?E2, ?E3, ?E4; auto.
  rewrite kids_raise. reflexivity.
Qed.

(* the ledger accepts what the model answers to [o], and stays related *)
Definition accepts (k : kern) (g : ledger) (o : kop) : Prop :=
  forall b k', kstep k o = Some (b, k') ->
  exists g', ledger_step g o b (pending k') = (None, g') /\ LSim k' g'.

(* clause 5 of the ledger (the pending flags agree) is part of the relation:
   an operation is accepted once its two results are related *)
Lemma lsim_accept k g :
  LSim k g ->
  exists g', (if Bool.eqb (pending k) (owed_pending g) then (@None N, g) else (Some 5%N, g)) = (None, g') /\
             LSim k g'.
Proof.
  intros HS. exists g. split; [|exact HS].
  destruct (ls_sig _ _ HS) as [_ [_ [-> _]]]. rewrite Bool.eqb_reflx. reflexivity.
Qed.

Lemma lsim_fork k g w st : LSim k g -> accepts k g (KFork w st).
Proof.
  intros HS b k' Hst. cbn [kstep k_fork] in Hst. injection Hst as <- <-.
  unfold ledger_step. rewrite (lsim_len _ _ HS), Nat.eqb_refl.
  destruct HS as [Hb Hfl [H1 [H2 [H3 H4]]]].
  apply lsim_accept.
  constructor; [cbn; rewrite map_app, Hb; reflexivity | | repeat split; assumption].
  intros i. unfold lflags; cbn [exited reported halted fresh set_kids kids]. fold (lflags g i).
  rewrite Hfl. destruct (Nat.lt_ge_cases i (length (kids k))) as [Hlt|Hge].
  - rewrite nth_error_app1 by assumption. reflexivity.
  - rewrite nth_error_app2 by assumption. rewrite (proj2 (nth_error_None _ _) Hge).
    destruct (i - length (kids k)) as [|[|n]]; reflexivity.
Qed.

Lemma lsim_exit k g i : LSim k g -> accepts k g (KExit i).
Proof.
  intros HS b k' Hst. cbn [kstep] in Hst. unfold k_exit in Hst.
  destruct (nth_error (kids k) i) as [c|] eqn:Hn; [|discriminate].
  destruct (cs c) eqn:Hc; try discriminate. injection Hst as <- <-.
  destruct (lsim_at _ _ HS i c Hn) as [_ [B [C _]]].
  unfold ledger_step. apply lsim_accept.
  apply (lsim_raise k g i c (mkChild Zombie (code c) (reaps c) false) _ _ _ _ HS Hn eq_refl);
    auto with ledger.
  rewrite mem_cons, mem_drop, Nat.eqb_refl, B, C, andb_false_r.
  unfold cflags, is_alive, is_reaped, is_stopped; cbn [cs chg]. rewrite Hc. reflexivity.
Qed.

Lemma lsim_signal k g sg i : LSim k g -> accepts k g (KSig sg i).
Proof.
  intros HS b k' Hst. cbn [kstep] in Hst. injection Hst as <- <-.
  pose proof (lsim_accept k g HS) as Hsame.
  unfold ledger_step, k_signal. rewrite (lsim_len _ _ HS), (lsim_alive _ _ HS).
  destruct (nth_error (kids k) i) as [c|] eqn:Hn; [|destruct sg; exact Hsame].
  destruct (lsim_at _ _ HS i c Hn) as [A [B [C _]]]. rewrite C.
  destruct sg; destruct (cs c) eqn:Hc; unfold is_alive, is_stopped; rewrite Hc; cbn [andb negb];
    try exact Hsame.
  - (* a running child is stopped *)
    apply lsim_accept.
    apply (lsim_raise k g i c (mkChild (Stopped p) (code c) (reaps c) true) _ _ _ _ HS Hn eq_refl);
      auto with ledger.
    rewrite mem_cons, mem_add, Nat.eqb_refl, A, B.
    unfold cflags, is_alive, is_reaped; cbn [cs chg]. rewrite Hc. reflexivity.
  - (* a stopped child is continued *)
    apply lsim_accept.
    apply (lsim_raise k g i c (mkChild (Running p) (code c) (reaps c) true) _ _ _ _ HS Hn eq_refl);
      auto with ledger.
    rewrite mem_drop, mem_add, Nat.eqb_refl, A, B, andb_false_r.
    unfold cflags, is_alive, is_reaped; cbn [cs chg]. rewrite Hc. reflexivity.
Qed.

Lemma lsim_reap k g i c :
  LSim k g -> nth_error (kids k) i = Some c -> cs c = Zombie ->
  LSim (set_kids k (upd (kids k) i (reap c)))
       (mkLedger (born g) (exited g) (i :: reported g) (halted g) (fresh g)
                 (l_catching g) (l_blocked g) (owed_pending g) (owed_caught g)).
Proof.
  intros HS Hn Hz. destruct (lsim_at _ _ HS i c Hn) as [A [_ [C D]]].
  apply (lsim_child k g _ _ i c (reap c) HS Hn); cbn [exited reported halted fresh];
    auto with ledger; [|apply HS].
  unfold lflags; cbn [exited reported halted fresh]. rewrite mem_cons, Nat.eqb_refl, A, C, D.
  unfold cflags, is_alive, is_reaped, is_stopped; cbn [reap cs chg]. rewrite Hz. reflexivity.
Qed.

Lemma lsim_seen k g i c :
  LSim k g -> nth_error (kids k) i = Some c ->
  LSim (set_kids k (upd (kids k) i (seen c)))
       (mkLedger (born g) (exited g) (reported g) (halted g) (drop i (fresh g))
                 (l_catching g) (l_blocked g) (owed_pending g) (owed_caught g)).
Proof.
  intros HS Hn. destruct (lsim_at _ _ HS i c Hn) as [A [B [C _]]].
  apply (lsim_child k g _ _ i c (seen c) HS Hn); cbn [exited reported halted fresh];
    auto with ledger; [|apply HS].
  unfold lflags; cbn [exited reported halted fresh]. rewrite mem_drop, Nat.eqb_refl, A, B, C.
  unfold cflags, is_alive, is_reaped, is_stopped; cbn [seen cs chg]. rewrite !andb_false_r. reflexivity.
Qed.

Lemma no_news c :
  has_news_c c = false -> is_alive c && chg c = false /\ is_zombie c = false.
Proof.
  unfold has_news_c, is_alive, is_zombie. destruct (cs c); intros H; rewrite ?H; auto; discriminate.
Qed.

Lemma ok_target t j :
  targets t j -> (match t with TPid i => i =? j | TAny => true end) = true.
Proof. destruct t; [intros ->; apply Nat.eqb_refl | reflexivity]. Qed.

Lemma lsim_wait k g t : LSim k g -> accepts k g (KWait t).
Proof.
  intros HS b k' Hst. cbn [kstep] in Hst. destruct (kwait k t) as [r k1] eqn:Ew. injection Hst as <- <-.
  unfold ledger_step. rewrite (lsim_len _ _ HS).
  destruct r as [j st|j|j| |].
  2,3: (* a stop or a continuation is reported: the ledger asks that the child is
          halted, or that it is not *)
    destruct (kwait_spec _ _ _ _ Ew) as [c [Hn [Ha [Hg [-> [Hs Ht]]]]]];
    destruct (lsim_at _ _ HS j c Hn) as [_ [_ [C D]]];
    rewrite (ok_target t j Ht), D, C, (lsim_alive _ _ HS), Hn, Ha, Hg, Hs;
    exact (lsim_accept _ _ (lsim_seen _ _ _ _ HS Hn)).
  - (* an exit is reported: the child was a zombie, and the status is the one it was born with *)
    destruct (kwait_spec _ _ _ _ Ew) as [c [Hn [Hz [-> [-> Ht]]]]].
    rewrite (ok_target t j Ht), (lsim_unreported _ _ HS j c Hn). unfold is_zombie at 1. rewrite Hz.
    rewrite (lsim_born_at _ _ HS), Hn. cbn [negb option_map option_eqb]. rewrite N.eqb_refl.
    exact (lsim_accept _ _ (lsim_reap _ _ _ _ HS Hn Hz)).
  - (* none yet *)
    destruct (kwait_spec _ _ _ _ Ew) as [-> Ht]. pose proof (lsim_accept k g HS) as Hacc.
    destruct t as [i|].
    + destruct Ht as [c [Hn [Ha Hnn]]]. destruct (lsim_at _ _ HS i c Hn) as [_ [_ [_ D]]].
      rewrite (lsim_alive _ _ HS), Hn, D, Ha.
      unfold has_news_c, is_alive in *. destruct (cs c); try discriminate; rewrite Hnn; exact Hacc.
    + destruct Ht as [Hz Hr].
      rewrite (lsim_any_unreported _ _ HS), (lsim_any_fresh _ _ HS), (lsim_any_alive _ _ HS), Hr.
      rewrite !existsb_false; [exact Hacc | |]; intros c Hc; apply (no_news c (Hz c Hc)).
  - (* ECHILD *)
    destruct (kwait_spec _ _ _ _ Ew) as [-> Ht]. pose proof (lsim_accept k g HS) as Hacc.
    destruct t as [i|].
    + rewrite (lsim_alive _ _ HS). destruct Ht as [Hn|[c [Hn Hc]]]; rewrite Hn.
      * rewrite (lsim_beyond _ _ HS i Hn). exact Hacc.
      * rewrite (lsim_unreported _ _ HS i c Hn). unfold is_alive, is_zombie. rewrite Hc. exact Hacc.
    + rewrite (lsim_any_unreported _ _ HS), (lsim_any_alive _ _ HS).
      rewrite !existsb_false; [exact Hacc | |];
        intros c Hc; unfold is_alive, is_zombie; rewrite (Ht c Hc); reflexivity.
Qed.

Lemma lsim_step k g o : LSim k g -> accepts k g o.
Proof.
  intros HS. destruct o as [w st|i|sg i|t| | |c|];
    [apply lsim_fork | apply lsim_exit | apply lsim_signal | apply lsim_wait | | | |]; try assumption;
    intros b k' Hst; injection Hst as <- <-; destruct HS as [Hb Hfl [Hca [Hbl [Hpe Hcg]]]];
    unfold ledger_step.
  (* block, unblock, sigaction, caught_signals: children and lists stay *)
  - apply lsim_accept. constructor; [| |repeat split]; assumption.
  - (* the pending signal is delivered: to the handler if one is installed *)
    apply lsim_accept. unfold k_unblock, deliver. cbn [catching kids blocked pending caught].
    rewrite Hpe, Hca, Hcg.
    destruct (pending k); [destruct (catching k)|]; (constructor; [| |repeat split]; assumption).
  - apply lsim_accept. constructor; [| |repeat split]; assumption.
  - rewrite Hcg, Nat.eqb_refl. apply lsim_accept. constructor; [| |repeat split]; assumption.
Qed.

(* [model_khist] ends the history at the first operation outside the domain *)
Lemma kernel_refines_ledger_gen ops : forall k g,
  LSim k g -> ledger_run g (model_khist k ops) = None.
Proof.
  induction ops as [|o r IH]; intros k g HS; [reflexivity|].
  cbn [model_khist].
  destruct (kstep k o) as [[b k']|] eqn:E; [|reflexivity].
  destruct (lsim_step k g o HS b k' E) as [g' [H1 H2]].
  cbn [ledger_run]. rewrite H1. apply IH; assumption.
Qed.
