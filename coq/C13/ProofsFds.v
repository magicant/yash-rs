(* C13 — Fds.v: the invariant of a line of descent under the real
   clone_for_fork, and why the unfixed PipeSet goes wrong only from three
   members on. *)
From Yv Require Import Common.Base C13.Fds.

(* invariant of every process on a line of descent under the real clone_for_fork *)
Definition sig_inv (s : sigst) : Prop :=
  sg_catch s = true -> sg_blocked s = true /\ sg_selmask s = Some false.

Lemma sig_inv0 : sig_inv sig0.
Proof. unfold sig_inv, sig0; cbn; discriminate. Qed.

Lemma sig_inv_step : forall s e, sig_inv s -> sig_inv (sig_step cf_real s e).
Proof.
  intros [b c m] [] H; unfold sig_inv, sig_step, sig_ensure, sig_fork, cf_real, sig_block in *; cbn in *.
  - destruct c; cbn; auto.
  - exact H.
Qed.

Lemma sig_inv_fold : forall es s, sig_inv s -> sig_inv (fold_left (sig_step cf_real) es s).
Proof. induction es as [|e es IH]; intros s H; cbn; auto using sig_inv_step. Qed.

Lemma sig_inv_run : forall es, sig_inv (sig_run cf_real es).
Proof. intros; apply sig_inv_fold, sig_inv0. Qed.

Lemma ensure_catches : forall s, sg_catch (sig_ensure s) = true.
Proof. intros [b [] m]; reflexivity. Qed.

(* a child forked before the first wait is not affected by what clone_for_fork
   does with the select mask *)
Lemma reset_forks_only : forall n s, sg_catch s = false -> sg_blocked s = false ->
  sg_catch (fold_left (sig_step cf_reset) (repeat EFork n) s) = false /\
  sg_blocked (fold_left (sig_step cf_reset) (repeat EFork n) s) = false.
Proof.
  induction n; intros s C B; cbn [repeat fold_left].
  - auto.
  - apply IHn; cbn; auto.
Qed.

(* the step that moves the previous reader away from descriptor 1 matters only
   with three or more members: it is taken only by a member that has both a
   previous and a next pipe *)
Lemma ps_move_fixed_irrelevant fixed t ps :
  ps_prev ps = None \/ ps_next ps = None -> ps_move fixed t ps = ps_move true t ps.
Proof.
  unfold ps_move. intros [-> | ->]; [|reflexivity].
  cbn [onat_eqb]. rewrite !andb_false_r. reflexivity.
Qed.

Lemma wired_two_any fixed t : wired_ok fixed t 2 = wired_ok true t 2.
Proof.
  unfold wired_ok, pipeline_tables.
  cbn [pipe_loop ps_shift t_pipe ps_prev ps_next Nat.eqb negb].
  rewrite 2 (ps_move_fixed_irrelevant fixed) by (cbn; auto). reflexivity.
Qed.

Lemma layouts_length n : forall l, In l (layouts n) -> length l = n.
Proof.
  induction n as [|n IH]; cbn [layouts]; intros l Hl.
  - destruct Hl as [<-|[]]. reflexivity.
  - apply in_flat_map in Hl.
    destruct Hl as [l0 [H0 [<-|[<-|[]]]]]; cbn [length]; f_equal; auto.
Qed.
