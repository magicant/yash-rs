(* C13 — the kernel part of the model: what wait answers, the changes that keep
   the children (everything except fork and the report of an exit), and the
   termination measure. *)
From Yv Require Import Common.Base C13.Model.
From Coq Require Import Arith.

Lemma Some_inj {A} (a b : A) : Some a = Some b -> a = b.
Proof. congruence. Qed.

Lemma upd_length {A} (l : list A) : forall i x, length (upd l i x) = length l.
Proof. induction l as [|y t IH]; intros [|i] x; cbn; auto. Qed.

Lemma nth_error_upd {A} (l : list A) : forall i j x c,
  nth_error l i = Some c ->
  nth_error (upd l i x) j = if i =? j then Some x else nth_error l j.
Proof.
  induction l as [|y t IH]; intros [|i] [|j] x c H; cbn in *; try discriminate; auto.
  eapply IH; eauto.
Qed.

Lemma Forall_upd {A} (P : A -> Prop) (l : list A) : forall i x,
  Forall P l -> P x -> Forall P (upd l i x).
Proof.
  induction l as [|y t IH]; intros [|i] x Hl Hx; cbn; auto; inversion Hl; subst; constructor; auto.
Qed.

Lemma in_upd {A} (l : list A) : forall i x d, In d (upd l i x) -> d = x \/ In d l.
Proof.
  induction l as [|y t IH]; intros [|i] x d H; cbn in H; auto.
  - destruct H as [->|H]; auto. right; right; assumption.
  - destruct H as [->|H]; [right; left; reflexivity|].
    destruct (IH _ _ _ H); auto. right; right; assumption.
Qed.

Lemma forallb_upd {A} (f : A -> bool) (l : list A) : forall i x,
  forallb f l = true -> f x = true -> forallb f (upd l i x) = true.
Proof.
  induction l as [|y t IH]; intros [|i] x Hl Hx; cbn in *; auto;
    apply andb_true_iff in Hl; destruct Hl as [H1 H2]; apply andb_true_iff; auto.
Qed.

Lemma nth_error_Some_lt' {A} (l : list A) i c : nth_error l i = Some c -> i < length l.
Proof. intros H. apply nth_error_Some. congruence. Qed.

Lemma find_from_spec {A} (f : A -> bool) (l : list A) : forall n i c,
  find_from f l n = Some (i, c) ->
  n <= i /\ nth_error l (i - n) = Some c /\ f c = true /\
  (forall j d, j < i - n -> nth_error l j = Some d -> f d = false).
Proof.
  induction l as [|x t IH]; intros n i c H; cbn in H; [discriminate|].
  destruct (f x) eqn:E.
  - inversion H; subst. rewrite Nat.sub_diag. repeat split; auto. intros j d Hj; lia.
  - apply IH in H. destruct H as [H1 [H2 [H3 H4]]].
    repeat split; auto; try lia.
    + replace (i - n) with (S (i - S n)) by lia. exact H2.
    + intros j d Hj Hd. destruct j as [|j]; cbn in Hd.
      * inversion Hd; subst; assumption.
      * eapply H4; [|exact Hd]. lia.
Qed.

Lemma find_from_none {A} (f : A -> bool) (l : list A) : forall n,
  find_from f l n = None -> forall c, In c l -> f c = false.
Proof.
  induction l as [|x t IH]; intros n H c Hc; [contradiction|].
  cbn in H. destruct (f x) eqn:E; [discriminate|].
  destruct Hc as [->|Hc]; [assumption|]. eapply IH; eauto.
Qed.

Lemma find_from_none_inv {A} (f : A -> bool) (l : list A) : forall n,
  (forall c, In c l -> f c = false) -> find_from f l n = None.
Proof.
  induction l as [|x t IH]; intros n H; [reflexivity|].
  cbn. rewrite (H x (or_introl eq_refl)). apply IH. intros c Hc. apply H. right; exact Hc.
Qed.

Definition count {A} (f : A -> bool) (l : list A) : nat := length (filter f l).

Lemma count_app {A} (f : A -> bool) l1 l2 : count f (l1 ++ l2) = count f l1 + count f l2.
Proof. unfold count. rewrite filter_app, app_length. reflexivity. Qed.

Definition b2n (b : bool) : nat := if b then 1 else 0.

Lemma count_upd {A} (f : A -> bool) (l : list A) : forall i c x,
  nth_error l i = Some c -> count f (upd l i x) + b2n (f c) = count f l + b2n (f x).
Proof.
  unfold count.
  induction l as [|y t IH]; intros [|i] c x H; cbn in H; try discriminate.
  - inversion H; subst. cbn [upd filter]. destruct (f c), (f x); cbn; lia.
  - cbn [upd filter]. specialize (IH i c x H). destruct (f y); cbn [length]; lia.
Qed.

Lemma sum_upd {A} (g : A -> nat) (l : list A) : forall i c x,
  nth_error l i = Some c ->
  list_sum (map g (upd l i x)) + g c = list_sum (map g l) + g x.
Proof.
  induction l as [|y t IH]; intros [|i] c x H; cbn in H; try discriminate.
  - inversion H; subst. unfold list_sum. cbn [upd map fold_right]. lia.
  - specialize (IH i c x H). unfold list_sum in *. cbn [upd map fold_right]. lia.
Qed.

Lemma count_exists {A} (f : A -> bool) (l : list A) : existsb f l = true -> 1 <= count f l.
Proof.
  unfold count. induction l as [|x t IH]; cbn; [discriminate|].
  destruct (f x); cbn; [lia|auto].
Qed.

Definition targets (t : target) (i : nat) : Prop :=
  match t with TPid j => j = i | TAny => True end.

Definition is_stopped (c : child) : bool := match cs c with Stopped _ => true | _ => false end.

(* when wait says "none yet": the child asked for, or some child, is alive and
   nothing is to be reported *)
Definition none_yet (l : list child) (t : target) : Prop :=
  match t with
  | TPid j => exists c, nth_error l j = Some c /\ is_alive c = true /\ has_news_c c = false
  | TAny => (forall c, In c l -> has_news_c c = false) /\ existsb is_alive l = true
  end.

(* what an answer of wait says about the kernel before and after: the report of
   a child with news (an exit: the zombie is reaped; a stop or a continuation:
   it is marked as seen, and which of the two says whether the child is
   stopped), or nothing to report *)
Definition answers (k : kern) (t : target) (r : wres) (k' : kern) : Prop :=
  match r with
  | WSome i st =>
      exists c, nth_error (kids k) i = Some c /\ cs c = Zombie /\ st = code c /\
                k' = set_kids k (upd (kids k) i (reap c)) /\ targets t i
  | WStop i | WCont i =>
      exists c, nth_error (kids k) i = Some c /\ is_alive c = true /\ chg c = true /\
                k' = set_kids k (upd (kids k) i (seen c)) /\
                is_stopped c = match r with WStop _ => true | _ => false end /\ targets t i
  | WNone => k' = k /\ none_yet (kids k) t
  | WEchild =>
      k' = k /\
      match t with
      | TPid j => nth_error (kids k) j = None \/ exists c, nth_error (kids k) j = Some c /\ cs c = Reaped
      | TAny => forall c, In c (kids k) -> cs c = Reaped
      end
  end.

Lemma report_answers k t i c r k' :
  nth_error (kids k) i = Some c -> has_news_c c = true -> targets t i ->
  report k i c = (r, k') -> answers k t r k'.
Proof.
  intros Hn Hnews Ht. unfold report. unfold has_news_c in Hnews.
  destruct (cs c) eqn:Hc; try discriminate; intros H; injection H as <- <-;
    exists c; unfold is_alive, is_stopped; rewrite Hc; repeat split; auto.
Qed.

Lemma quiet_dead_reaped c : has_news_c c = false -> is_alive c = false -> cs c = Reaped.
Proof. unfold has_news_c, is_alive. destruct (cs c); try discriminate; reflexivity. Qed.

Lemma kwait_spec k t r k' : kwait k t = (r, k') -> answers k t r k'.
Proof.
  unfold kwait. destruct t as [j|].
  - destruct (nth_error (kids k) j) as [c|] eqn:E; [|intros H; injection H as <- <-; cbn; auto].
    destruct (has_news_c c) eqn:En; [exact (report_answers k (TPid j) j c r k' E En eq_refl)|].
    destruct (is_alive c) eqn:Ea; intros H; injection H as <- <-; (split; [reflexivity|]).
    + exists c. auto.
    + right. exists c. split; [exact E|]. apply quiet_dead_reaped; assumption.
  - destruct (find_from has_news_c (kids k) 0) as [[j c]|] eqn:E.
    + apply find_from_spec in E. rewrite Nat.sub_0_r in E. destruct E as [_ [E1 [E2 _]]].
      exact (report_answers k TAny j c r k' E1 E2 I).
    + destruct (existsb is_alive (kids k)) eqn:Er; intros H; injection H as <- <-; (split; [reflexivity|]).
      * split; [exact (find_from_none _ _ _ E) | exact Er].
      * intros c Hc. apply quiet_dead_reaped; [exact (find_from_none _ _ _ E c Hc)|].
        destruct (is_alive c) eqn:Ha; [|reflexivity].
        rewrite <- Er. symmetry. apply existsb_exists. eauto.
Qed.

Lemma kwait_none_intro k t : none_yet (kids k) t -> kwait k t = (WNone, k).
Proof.
  unfold kwait. destruct t as [j|].
  - intros [c [Hn [Ha Hc]]]. rewrite Hn, Hc, Ha. reflexivity.
  - intros [Hz Hr]. rewrite (find_from_none_inv _ _ 0 Hz), Hr. reflexivity.
Qed.

(* so the answer "none yet" depends on the children only *)
Lemma kwait_none_iff k t : fst (kwait k t) = WNone <-> none_yet (kids k) t.
Proof.
  split; [|intros H; rewrite (kwait_none_intro _ _ H); reflexivity].
  destruct (kwait k t) as [r k'] eqn:E. cbn [fst]. intros ->. exact (proj2 (kwait_spec _ _ _ _ E)).
Qed.

Lemma existsb_upd_alive (l : list child) : forall i x,
  is_alive x = true ->
  existsb is_alive l = true -> existsb is_alive (upd l i x) = true.
Proof.
  induction l as [|y t IH]; intros [|i] x Hx He; cbn in *; try discriminate.
  - rewrite Hx. reflexivity.
  - destruct (is_alive y); [reflexivity|]. cbn in *. eapply IH; eauto.
Qed.

Lemma kwait_none_replace k t i c c' :
  nth_error (kids k) i = Some c -> is_alive c' = true ->
  has_news_c c' = has_news_c c ->
  fst (kwait k t) = WNone ->
  fst (kwait (set_kids k (upd (kids k) i c')) t) = WNone.
Proof.
  intros Hn Ha' Hnews. rewrite !kwait_none_iff. cbn [set_kids kids].
  destruct t as [j|]; cbn [none_yet].
  - intros [d [Hd [Hda Hdn]]].
    rewrite (nth_error_upd _ i j _ c Hn).
    destruct (Nat.eqb_spec i j) as [->|Hne]; [|eauto].
    rewrite Hn in Hd. apply Some_inj in Hd. subst d.
    exists c'. split; [reflexivity|]. split; [assumption|]. congruence.
  - intros [Hz Hr]. split.
    + intros d Hd. apply in_upd in Hd. destruct Hd as [->|Hd]; [|auto].
      rewrite Hnews. apply Hz. eapply nth_error_In; eauto.
    + eapply existsb_upd_alive; eauto.
Qed.

(* wait touches the children only *)
Lemma kwait_set_kids k t r k' : kwait k t = (r, k') -> k' = set_kids k (kids k').
Proof.
  intros H. apply kwait_spec in H. destruct r as [i st|i|i| |].
  1,2,3: destruct H as [c [_ [_ [_ [-> _]]]]]; reflexivity.
  all: destruct H as [-> _]; destruct k; reflexivity.
Qed.

Lemma kids_fork k w st :
  kids (fst (k_fork k w st)) = kids k ++ [mkChild (Running w) st 0 false].
Proof. reflexivity. Qed.

Lemma kids_raise k : kids (raise_chld k) = kids k.
Proof. unfold raise_chld, deliver. destruct (blocked k); [reflexivity|]. destruct (catching k); reflexivity. Qed.

(* Changes of the kernel that neither create nor reap a child: local work, a
   signal, an exit (the child becomes a zombie), a stop or continuation seen by
   wait, anything about SIGCHLD.  Child by child the exit status, the number of
   reports and being reaped or not stay. *)

Definition kept_child (c c' : child) : Prop :=
  code c' = code c /\ reaps c' = reaps c /\ (cs c' = Reaped <-> cs c = Reaped).

Definition kept (k k' : kern) : Prop :=
  forall i, match nth_error (kids k) i, nth_error (kids k') i with
            | Some c, Some c' => kept_child c c'
            | None, None => True
            | _, _ => False
            end.

Lemma kept_child_live c c' :
  code c' = code c -> reaps c' = reaps c -> cs c <> Reaped -> cs c' <> Reaped -> kept_child c c'.
Proof. unfold kept_child. tauto. Qed.

Lemma kept_kids k k' : kids k' = kids k -> kept k k'.
Proof.
  intros H i. rewrite H. destruct (nth_error (kids k) i); [|exact I].
  unfold kept_child. tauto.
Qed.

Lemma kept_trans k1 k2 k3 : kept k1 k2 -> kept k2 k3 -> kept k1 k3.
Proof.
  intros H1 H2 i. specialize (H1 i). specialize (H2 i).
  destruct (nth_error (kids k1) i), (nth_error (kids k2) i), (nth_error (kids k3) i); try tauto.
  destruct H1 as [A1 [B1 C1]], H2 as [A2 [B2 C2]]. unfold kept_child. rewrite A2, B2, C2. auto.
Qed.

Lemma kept_sym k k' : kept k k' -> kept k' k.
Proof.
  intros H i. specialize (H i).
  destruct (nth_error (kids k) i), (nth_error (kids k') i); try tauto.
  destruct H as [A [B C]]. unfold kept_child. rewrite A, B, C. tauto.
Qed.

Lemma kept_upd k i c c' :
  nth_error (kids k) i = Some c -> kept_child c c' -> kept k (set_kids k (upd (kids k) i c')).
Proof.
  intros Hn Hc j. cbn [set_kids kids]. rewrite (nth_error_upd _ i j _ c Hn).
  destruct (Nat.eqb_spec i j) as [<-|_]; [rewrite Hn; exact Hc|].
  destruct (nth_error (kids k) j); [|exact I]. unfold kept_child. tauto.
Qed.

Lemma kept_nth k k' i c :
  kept k k' -> nth_error (kids k) i = Some c ->
  exists c', nth_error (kids k') i = Some c' /\ kept_child c c'.
Proof.
  intros H Hn. specialize (H i). rewrite Hn in H.
  destruct (nth_error (kids k') i) as [c'|]; [eauto | contradiction].
Qed.

Definition codes (k : kern) : list N := map code (kids k).

Lemma codes_upd k i c c' :
  nth_error (kids k) i = Some c -> code c' = code c -> codes (set_kids k (upd (kids k) i c')) = codes k.
Proof.
  unfold codes, set_kids; cbn [kids]. generalize (kids k) i. clear k i.
  induction l as [|y t IH]; intros [|i] Hn Hc; cbn in *; try discriminate.
  - apply Some_inj in Hn. subst. rewrite Hc. reflexivity.
  - f_equal. apply IH; assumption.
Qed.

Lemma kept_codes k k' : kept k k' -> codes k' = codes k.
Proof.
  unfold kept, codes. generalize (kids k) (kids k'). clear k k'.
  induction l as [|c l IH]; intros [|c' l'] H; try reflexivity; try (destruct (H 0)).
  cbn [map]. f_equal; [apply (H 0) | apply IH; intros i; exact (H (S i))].
Qed.

Lemma kept_upd_live k i c c' :
  nth_error (kids k) i = Some c -> is_alive c = true ->
  code c' = code c -> reaps c' = reaps c -> cs c' <> Reaped ->
  kept k (set_kids k (upd (kids k) i c')).
Proof.
  intros Hn Ha H1 H2 H3. apply (kept_upd k i c c' Hn), kept_child_live; auto.
  unfold is_alive in Ha. destruct (cs c); discriminate.
Qed.

Lemma signal_kept k s t : kept k (k_signal k s t).
Proof.
  unfold k_signal. destruct (nth_error (kids k) t) as [c|] eqn:Hn; [|apply kept_kids; reflexivity].
  destruct s, (cs c) eqn:Hc; try (apply kept_kids; reflexivity);
    (eapply kept_trans; [|apply kept_kids, kids_raise]);
    apply (kept_upd_live k t c _ Hn); try reflexivity; try discriminate;
    unfold is_alive; rewrite Hc; reflexivity.
Qed.

Lemma child_step_kept k i k' : child_step k i = Some k' -> kept k k'.
Proof.
  unfold child_step. destruct (nth_error (kids k) i) as [c|] eqn:Hn; [|discriminate].
  destruct (cs c) as [p| | |] eqn:Hc; try discriminate.
  assert (Ha : is_alive c = true) by (unfold is_alive; rewrite Hc; reflexivity).
  destruct p as [|[|s t] r]; intros H; apply Some_inj in H; subst k'.
  - eapply kept_trans; [|apply kept_kids, kids_raise].
    apply (kept_upd_live k i c _ Hn Ha); [reflexivity | reflexivity | discriminate].
  - apply (kept_upd_live k i c _ Hn Ha); [reflexivity | reflexivity | discriminate].
  - eapply kept_trans; [|apply signal_kept].
    apply (kept_upd_live k i c _ Hn Ha); [reflexivity | reflexivity | discriminate].
Qed.

Lemma kwait_kept k t :
  match fst (kwait k t) with WSome _ _ => True | _ => kept k (snd (kwait k t)) end.
Proof.
  destruct (kwait k t) as [r k'] eqn:Hw. cbn [fst snd]. destruct r as [i st|i|i| |].
  2,3: (* a stop or a continuation is marked as seen: the child stays alive *)
    destruct (kwait_spec _ _ _ _ Hw) as [c [Hn [Ha [_ [-> _]]]]];
    apply (kept_upd_live k i c _ Hn Ha); [reflexivity | reflexivity |];
    unfold is_alive in Ha; cbn [seen cs]; destruct (cs c); discriminate.
  - exact I.
  - destruct (kwait_spec _ _ _ _ Hw) as [-> _]. apply kept_kids. reflexivity.
  - destruct (kwait_spec _ _ _ _ Hw) as [-> _]. apply kept_kids. reflexivity.
Qed.

Definition unreaped (c : child) : bool := negb (is_reaped c).
Definition fresh_alive (c : child) : bool := is_alive c && chg c.
Definition workload (c : child) : nat :=
  match cs c with Running p | Stopped p => S (script_cost p) | _ => 0 end.

(* what a child still costs: 16 steps for the report of its exit, 16 for the
   report of a stop or continuation not yet seen, 4 for the SIGCHLD of its
   exit, and its own steps.  The constants are generous: a report sends the
   parent back from SPoll (rank 3) to SInst (at most 6) or PBuiltin (9), and a
   SIGCHLD that is taken from SBlocked (1) or SEnter (2) to SPoll (3); the 24
   of Model.act_cost for a signal is its own step, at most 4 for the SIGCHLD
   and 16 for the change it marks as unreported *)
Definition child_load (c : child) : nat :=
  16 * b2n (unreaped c) + 16 * b2n (fresh_alive c) + 4 * b2n (is_alive c) + workload c.

(* SIGCHLDs the parent has still to take notice of *)
Definition sig_load (k : kern) : nat := b2n (pending k) + b2n (0 <? caught k).

Definition kmeasure (k : kern) : nat := list_sum (map child_load (kids k)) + 4 * sig_load k.

Definition stage_rank (k : kern) (m : wstage) : nat :=
  match m with
  | SInst => 4 + b2n (negb (blocked k)) + b2n (negb (catching k))
  | SPoll => 3
  | SEnter => 2
  | SBlocked => 1
  end.

Definition fork_rank (todo : list (list cact * N)) (pids : list nat) : nat :=
  list_sum (map spec_cost todo) + 8 * (length todo + length pids) + 12.

(* what is left to do after the wait loop: the other members of the pipeline *)
Definition cont_rank (c : cont) : nat :=
  match c with KPipe more _ _ _ => 8 * length more + 3 | KBuiltin _ => 0 end.

Definition pc_rank (k : kern) (a : pc) : nat :=
  match a with
  | PIdle => 1
  | PFork todo pids _ => fork_rank todo pids
  | PWait m _ c => stage_rank k m + cont_rank c
  | PBuiltin _ => 9
  | PReap => 2
  | PExit | PPanic => 0
  end.

(* Model.cmd_cost c is more than what fetching c adds to [pc_rank] and
   [kmeasure] (a fork adds 21 + script_cost to the latter), and Model.run_bound
   is the value at [init p] *)
Definition measure (s : state) : nat :=
  list_sum (map cmd_cost (prog s)) + pc_rank (kn s) (at_ s) + kmeasure (kn s).

Lemma measure_init p : measure (init p) = run_bound p.
Proof.
  unfold measure, run_bound, init, kmeasure, sig_load.
  cbn [kn prog at_ kern0 kids pending caught pc_rank map].
  change (0 <? 0) with false. unfold list_sum at 2. cbn [b2n fold_right]. lia.
Qed.

Lemma load_alive c : is_alive c = true -> child_load c = 20 + 16 * b2n (chg c) + workload c.
Proof.
  unfold child_load, unreaped, fresh_alive, is_alive, is_reaped.
  destruct (cs c); try discriminate; intros _; cbn [negb andb b2n]; lia.
Qed.

Lemma load_zombie c : cs c = Zombie -> child_load c = 16.
Proof. unfold child_load, unreaped, fresh_alive, is_alive, is_reaped, workload. intros ->. reflexivity. Qed.

Lemma load_reaped c : cs c = Reaped -> child_load c = 0.
Proof. unfold child_load, unreaped, fresh_alive, is_alive, is_reaped, workload. intros ->. reflexivity. Qed.

Lemma kmeasure_upd k i c c' :
  nth_error (kids k) i = Some c ->
  kmeasure (set_kids k (upd (kids k) i c')) + child_load c = kmeasure k + child_load c'.
Proof.
  intros Hn. pose proof (sum_upd child_load _ i c c' Hn).
  unfold kmeasure, sig_load, set_kids; cbn [kids pending caught]. lia.
Qed.

Lemma raise_measure k : kmeasure (raise_chld k) <= kmeasure k + 4.
Proof.
  unfold kmeasure. rewrite kids_raise.
  assert (sig_load (raise_chld k) <= sig_load k + 1); [|lia].
  unfold raise_chld, deliver, sig_load.
  destruct (blocked k); [|destruct (catching k)]; cbn [pending caught b2n]; try lia.
  change (0 <? S (caught k)) with true. destruct (0 <? caught k); cbn [b2n]; lia.
Qed.

Lemma kmeasure_fork k p st :
  kmeasure (set_kids k (kids k ++ [mkChild (Running p) st 0 false])) = kmeasure k + 21 + script_cost p.
Proof.
  unfold kmeasure, sig_load, set_kids; cbn [kids pending caught].
  rewrite map_app, list_sum_app. cbn. lia.
Qed.

Lemma kwait_measure k t :
  kmeasure (snd (kwait k t)) + match fst (kwait k t) with WNone | WEchild => 0 | _ => 16 end
  = kmeasure k.
Proof.
  destruct (kwait k t) as [r k'] eqn:Hw; cbn [fst snd]. apply kwait_spec in Hw.
  destruct r as [i st|i|i| |].
  2,3: destruct Hw as [c [Hn [Ha [Hg [-> _]]]]];
    pose proof (kmeasure_upd k i c (seen c) Hn) as H;
    rewrite (load_alive c Ha), (load_alive (seen c) Ha), Hg in H;
    change (workload (seen c)) with (workload c) in H; cbn [seen chg b2n] in H; lia.
  - destruct Hw as [c [Hn [Hz [_ [-> _]]]]].
    pose proof (kmeasure_upd k i c (reap c) Hn) as H.
    rewrite (load_zombie c Hz), (load_reaped (reap c) eq_refl) in H. lia.
  - destruct Hw as [-> _]. lia.
  - destruct Hw as [-> _]. lia.
Qed.

Lemma signal_measure k s t : kmeasure (k_signal k s t) <= kmeasure k + 20.
Proof.
  unfold k_signal. destruct (nth_error (kids k) t) as [c|] eqn:Hn; [|lia].
  assert (Hgo : forall c', is_alive c = true -> is_alive c' = true -> workload c' = workload c ->
            kmeasure (raise_chld (set_kids k (upd (kids k) t c'))) <= kmeasure k + 20).
  { intros c' Ha Ha' Hw. pose proof (raise_measure (set_kids k (upd (kids k) t c'))).
    pose proof (kmeasure_upd k t c c' Hn) as H1.
    rewrite (load_alive c Ha), (load_alive c' Ha'), Hw in H1.
    destruct (chg c), (chg c'); cbn [b2n] in H1; lia. }
  destruct s; destruct (cs c) eqn:Hc; try lia;
    apply Hgo; unfold is_alive, workload; cbn [cs]; rewrite ?Hc; reflexivity.
Qed.

Lemma child_step_measure k i k' :
  child_step k i = Some k' -> kmeasure k' < kmeasure k.
Proof.
  unfold child_step. destruct (nth_error (kids k) i) as [c|] eqn:Hn; [|discriminate].
  destruct (cs c) as [p| | |] eqn:Hc; try discriminate.
  assert (Ha : is_alive c = true) by (unfold is_alive; rewrite Hc; reflexivity).
  assert (Hw : workload c = S (script_cost p)) by (unfold workload; rewrite Hc; reflexivity).
  assert (Hadv : forall r, kmeasure (set_kids k (upd (kids k) i (mkChild (Running r) (code c) (reaps c) (chg c))))
                           + script_cost p = kmeasure k + script_cost r).
  { intros r. pose proof (kmeasure_upd k i c (mkChild (Running r) (code c) (reaps c) (chg c)) Hn) as H.
    rewrite (load_alive c Ha), (load_alive _ (eq_refl : is_alive (mkChild (Running r) _ _ _) = true)), Hw in H.
    cbn [chg workload cs] in H. lia. }
  destruct p as [|[|s t] r]; intros H; apply Some_inj in H; subst k'.
  - (* exit *)
    pose proof (raise_measure (set_kids k (upd (kids k) i (mkChild Zombie (code c) (reaps c) false)))).
    pose proof (kmeasure_upd k i c (mkChild Zombie (code c) (reaps c) false) Hn) as H1.
    rewrite (load_alive c Ha), (load_zombie (mkChild Zombie (code c) (reaps c) false) eq_refl), Hw in H1. lia.
  - (* local work *)
    specialize (Hadv r). change (script_cost (AWork :: r)) with (1 + script_cost r) in Hadv. lia.
  - (* a signal *)
    specialize (Hadv r). change (script_cost (AKill s t :: r)) with (24 + script_cost r) in Hadv.
    pose proof (signal_measure (set_kids k (upd (kids k) i (mkChild (Running r) (code c) (reaps c) (chg c)))) s t).
    lia.
Qed.

Lemma kids_unblock k : kids (k_unblock k) = kids k.
Proof. unfold k_unblock, deliver. destruct (pending k); [destruct (catching k)|]; reflexivity. Qed.

(* entering select: a pending SIGCHLD becomes a caught one, or is dropped *)
Lemma unblock_measure k : kmeasure (k_unblock k) <= kmeasure k.
Proof.
  unfold kmeasure. rewrite kids_unblock.
  assert (sig_load (k_unblock k) <= sig_load k); [|lia].
  unfold k_unblock, deliver, sig_load.
  destruct (pending k); [destruct (catching k)|]; cbn [pending caught catching b2n]; try lia.
  change (0 <? S (caught k)) with true. cbn [b2n]. lia.
Qed.

Lemma take_caught_measure k :
  0 < caught k -> kmeasure (k_take_caught (k_block k)) + 4 <= kmeasure k.
Proof.
  intros H. unfold kmeasure, sig_load; cbn [k_take_caught k_block kids pending caught].
  rewrite (proj2 (Nat.ltb_lt _ _) H). change (0 <? 0) with false. cbn [b2n]. lia.
Qed.

Lemma stage_rank_bound k m : stage_rank k m <= 6.
Proof. destruct m; cbn; try lia. destruct (blocked k), (catching k); cbn; lia. Qed.

(* the signal fields are what the ranks look at *)
Lemma stage_rank_kids k l m : stage_rank (set_kids k l) m = stage_rank k m.
Proof. reflexivity. Qed.

Lemma parent_step_measure s s' :
  parent_step s = Some s' -> measure s' < measure s.
Proof.
  destruct s as [k pr a st lb jb tr]. unfold parent_step, measure; cbn [kn prog at_ status lastbg jobs trace].
  pose proof (fun k' => stage_rank_bound k' SInst) as Hb; cbn [stage_rank] in Hb.
  destruct a as [|todo pids pf|m t c|t0| | |].
  - (* PIdle *)
    destruct pr as [|[w x|l pf|t|] r]; intros H; apply Some_inj in H; subst s';
      cbn [kn prog at_ set_at map cmd_cost pc_rank k_fork]; rewrite ?kmeasure_fork;
      unfold fork_rank, list_sum; cbn [map fold_right length]; lia.
  - (* PFork *)
    destruct todo as [|[w x] todo]; [destruct pids as [|p more]|]; intros H; apply Some_inj in H; subst s';
      cbn [kn prog at_ set_at finish pc_rank k_fork]; rewrite ?kmeasure_fork;
      unfold fork_rank, spec_cost, list_sum; cbn [map fold_right length fst stage_rank cont_rank];
      rewrite ?app_length; cbn [length]; try lia.
    specialize (Hb k). lia.
  - (* PWait *)
    destruct m.
    + (* SInst: block, then catch *)
      destruct (blocked k) eqn:Eb; cbn [negb]; [destruct (catching k) eqn:Ec; cbn [negb]|];
        intros H; apply Some_inj in H; subst s'; cbn [kn prog at_ set_at pc_rank];
        change (kmeasure (k_block k)) with (kmeasure k); change (kmeasure (k_catch k true)) with (kmeasure k);
        cbn [stage_rank k_block k_catch blocked catching]; rewrite ?Eb, ?Ec; cbn [negb b2n]; lia.
    + (* SPoll *)
      pose proof (kwait_measure k t) as Hw.
      destruct (kwait k t) as [[i x|i|i| |] k'] eqn:Ew; cbn [fst snd] in Hw; specialize (Hb k');
        [destruct c as [[|p more] fin pf [|]|t0] | destruct c | destruct c | | destruct c];
        intros H; apply Some_inj in H; subst s';
        cbn [kn prog at_ set_at finish pc_rank stage_rank cont_rank length]; lia.
    + (* SEnter *)
      pose proof (unblock_measure k) as Hu.
      destruct (Nat.ltb_spec 0 (caught (k_unblock k))) as [Hc|Hc];
        intros H; apply Some_inj in H; subst s'; cbn [kn prog at_ set_at pc_rank stage_rank].
      * pose proof (take_caught_measure _ Hc). lia.
      * lia.
    + (* SBlocked *)
      destruct (Nat.ltb_spec 0 (caught k)) as [Hc|Hc]; [|discriminate].
      intros H; apply Some_inj in H; subst s'; cbn [kn prog at_ set_at pc_rank stage_rank].
      pose proof (take_caught_measure k Hc). lia.
  - (* PBuiltin *)
    specialize (Hb k).
    destruct t0 as [i|]; [destruct (job_find jb i) as [[x|]|] | destruct (job_unfinished jb)];
      intros H; apply Some_inj in H; subst s'; cbn [kn prog at_ set_at finish pc_rank stage_rank cont_rank]; lia.
  - (* PReap *)
    pose proof (kwait_measure k TAny) as Hw.
    destruct (kwait k TAny) as [[i x|i|i| |] k'] eqn:Ew; cbn [fst snd] in Hw;
      intros H; apply Some_inj in H; subst s'; cbn [kn prog at_ set_at pc_rank]; lia.
  - discriminate.
  - discriminate.
Qed.

(* a child step leaves the signal mask and the disposition alone, hence
   [pc_rank] (which reads them at SInst) as it is: used in step_measure *)
Lemma raise_mask k : blocked (raise_chld k) = blocked k /\ catching (raise_chld k) = catching k.
Proof.
  unfold raise_chld, deliver. destruct (blocked k) eqn:Eb; [auto|].
  destruct (catching k) eqn:Ec; cbn [blocked catching]; auto.
Qed.

Lemma signal_mask k s t :
  blocked (k_signal k s t) = blocked k /\ catching (k_signal k s t) = catching k.
Proof.
  unfold k_signal. destruct (nth_error (kids k) t) as [c|]; [|auto].
  destruct s, (cs c); auto; apply (raise_mask (set_kids k _)).
Qed.

Lemma child_step_mask k i k' :
  child_step k i = Some k' -> blocked k' = blocked k /\ catching k' = catching k.
Proof.
  unfold child_step. destruct (nth_error (kids k) i) as [c|]; [|discriminate].
  destruct (cs c) as [[|[|s t] r]| | |]; try discriminate; intros H; apply Some_inj in H; subst k'.
  - apply (raise_mask (set_kids k _)).
  - auto.
  - apply (signal_mask (set_kids k _)).
Qed.

Lemma step_cases s l s' :
  step s l = Some s' ->
  parent_step s = Some s' \/ exists i k', child_step (kn s) i = Some k' /\ s' = set_at s k' (at_ s).
Proof.
  destruct l as [|i]; cbn [step]; [auto|].
  destruct (child_step (kn s) i) as [k'|] eqn:E; [|discriminate].
  intros H. apply Some_inj in H. subst s'. right. eauto.
Qed.

Lemma run_preserves (P : state -> Prop) :
  (forall s l s', P s -> step s l = Some s' -> P s') ->
  forall ls s s', P s -> run s ls = Some s' -> P s'.
Proof.
  intros Hstep. induction ls as [|l ls IH]; intros s s' HP Hr; cbn [run] in Hr.
  - apply Some_inj in Hr. subst. assumption.
  - destruct (step s l) as [s1|] eqn:E; [|discriminate]. exact (IH _ _ (Hstep _ _ _ HP E) Hr).
Qed.

Lemma step_measure s l s' : step s l = Some s' -> measure s' < measure s.
Proof.
  intros Hs. destruct (step_cases _ _ _ Hs) as [Hp|[i [k' [E ->]]]]; [exact (parent_step_measure _ _ Hp)|].
  pose proof (child_step_measure _ _ _ E).
  unfold measure, set_at; cbn [kn prog at_].
  assert (pc_rank k' (at_ s) = pc_rank (kn s) (at_ s)).
  { destruct (child_step_mask _ _ _ E) as [Hb Hc].
    destruct (at_ s) as [| | m t c0| | | |]; try reflexivity.
    destruct m; cbn [pc_rank stage_rank]; rewrite ?Hb, ?Hc; reflexivity. }
  lia.
Qed.

Lemma run_measure ls : forall s s', run s ls = Some s' -> length ls + measure s' <= measure s.
Proof.
  induction ls as [|l ls IH]; intros s s' H; cbn [run] in H.
  - apply Some_inj in H. subst. cbn. lia.
  - destruct (step s l) as [s1|] eqn:E; [|discriminate].
    pose proof (step_measure _ _ _ E). specialize (IH _ _ H). cbn [length]. lia.
Qed.
