(* C17 — the theorems listed in props/C17.json.  The driver checks their
   statements with [Check] and prints the assumptions on every run. *)
From Yv Require Import Common.Base C17.Model C17.Spec C17.PList C17.PLoop C17.PLex C17.PMeasure C17.PSim C17.Proofs C17.PChain C17.PPlain C17.Examples.
From Yv Require Import C17.GenTie Gen.Gen_Keywords.

(* for every table, self- and mutually recursive aliases included: [fuel_of] bounds the number of steps, i.e. of tokens taken and [Rec::AliasSubstituted] restarts of one parse *)
Theorem alias_terminates : forall (t : table) (line : str), model_run t line <> ROutOfFuel.
Proof. exact model_terminates. Qed.

(* [mu]: the sum of W^(N-|chain|) over the unread characters (PMeasure.v) *)
Theorem measure_decreases : forall (t : table) (s s' : mstate), chains_inv t s -> mstep t s = Cont s' -> chains_inv t s' /\ (mu t s' < mu t s)%nat.
Proof. exact mstep_decreases. Qed.

Theorem measure_initial : forall (t : table) (line : str), chains_inv t (m_init line) /\ (mu t (m_init line) < Pos.to_nat (fuel_of t line))%nat.
Proof. intros t line. split; [apply chains_inv_init|apply fuel_of_enough]. Qed.

(* through the simulation, which is lock-step: the specification takes as many steps as the model *)
Theorem spec_terminates : forall (t : table) (line : str), spec_run t line <> ROutOfFuel.
Proof. exact Proofs.spec_terminates. Qed.

(* [in_chain nm (head_chain suf)] is [Source::is_alias_for] on the location of the token's first character, the test of [Parser::substitute_alias] *)
Theorem substitution_guarded : forall t pre suf nm c a, applicable t pre suf (Some nm) c = Some a -> in_chain nm (head_chain suf) = false /\ lookup t nm = Some a.
Proof.
  intros t pre suf nm c a H. destruct (applicable_some _ _ _ _ _ _ H) as (nm' & [= <-] & H1 & H2 & _). auto.
Qed.

(* in the final buffer no character has an alias twice in its chain of origins, and all origins are defined aliases: nothing was substituted within its own replacement *)
Theorem not_within_own_expansion : forall (t : table) (line : str) (b : list bchar), model_run t line = RFin b -> chains_ok t (observe b) = true.
Proof. exact model_chains_bool. Qed.

Theorem nesting_depth_bounded : forall (t : table) (line : str) (b : list bchar) (x : bchar), model_run t line = RFin b -> In x b -> (length (b_chain x) <= length t)%nat.
Proof.
  intros t line b x H Hx. apply chain_ok_len.
  exact (proj1 (Forall_forall _ _) (model_chains_ok _ _ _ H) x Hx).
Qed.

(* Despite its name this says nothing of parsing: the lexer buffer the model ends with, characters and origins, is the hand-substituted text, and one side is [ROutside] iff the other is.  That the commands parsed from the two are the same is evaluated case by case (Run.v, codes 5, 7, 10), not proved. *)
Theorem parse_with_aliases_eq_parse_of_substituted : forall (t : table) (line : str), result_map observe (model_run t line) = spec_run t line.
Proof. exact model_refines_spec. Qed.

Theorem eligible_iff : forall t s lit cmd a, eligible t s lit cmd = Some a <-> exists nm, lit = Some nm /\ ~ In nm (names (s_stack s)) /\ lookup t nm = Some a /\ (cmd = true \/ a_global a = true \/ s_flag s = true).
Proof. exact Proofs.eligible_iff. Qed.

Theorem global_alias_any_position : forall t s nm a cmd, lookup t nm = Some a -> a_global a = true -> ~ In nm (names (s_stack s)) -> eligible t s (Some nm) cmd = Some a.
Proof. intros t s nm a cmd H1 H2 H3. apply eligible_iff. exists nm. repeat split; auto. Qed.

Theorem in_progress_not_eligible : forall t s nm cmd, In nm (names (s_stack s)) -> eligible t s (Some nm) cmd = None.
Proof. intros t s nm cmd H. unfold eligible. apply mem_str_In in H. rewrite H. reflexivity. Qed.

Theorem flag_raised_at_end_of_value : forall f st s lc c, s_stack s = f :: st -> f_rest f = [c] -> f_blank f = true -> s_flag (read1 lc s) = true.
Proof.
  intros f st s lc c Hs Hr Hb. unfold read1. rewrite Hs, Hr. cbn [pop_done f_rest f_blank]. rewrite Hb, orb_true_r.
  destruct (pop_done st true) as [st2 fl2] eqn:E. exact (pop_done_true _ _ _ E).
Qed.

(* also when [c] is the last character of a value, whether or not that value ends in a blank: [pop_done] never lowers the flag *)
Theorem flag_survives_blank : forall s lc c, s_flag s = true -> keeps_flag lc c = true -> (match s_stack s with f :: _ => exists r, f_rest f = c :: r | [] => exists r, s_base s = c :: r end) -> s_flag (read1 lc s) = true.
Proof.
  intros s lc c Hf Hk Hc. unfold read1. destruct (s_stack s) as [|f st].
  - destruct Hc as [r ->]. cbn [s_flag]. rewrite Hk. exact Hf.
  - destruct Hc as [r ->]. rewrite Hk, Hf.
    destruct (pop_done (mkF (f_name f) r (f_blank f) :: st) true) as [st2 fl2] eqn:E. exact (pop_done_true _ _ _ E).
Qed.

Theorem flag_makes_eligible : forall t s nm a, s_flag s = true -> lookup t nm = Some a -> ~ In nm (names (s_stack s)) -> eligible t s (Some nm) false = Some a.
Proof. intros t s nm a H1 H2 H3. apply eligible_iff. exists nm. repeat split; auto. Qed.

(* [chain_line ws] names the aliases [fst] one after the other, [link_ok] gives each the value `[snd]<blank>` with [snd] a plain word that is no alias (PChain.v): the blank-ending rule carries through any number of aliases, only the first of which is in command position *)
Theorem blank_continuation_chain : forall (t : table) (ws : list (str * str)), Forall (link_ok t) ws -> exists b, spec_run t (chain_line ws) = RFin b /\ text_of b = chain_out ws.
Proof.
  intros t ws Hok. destruct (from_init t ws Hok) as (n & b & Hn & Hb). exists b. split; [|exact Hb].
  exact (run_of_iter _ _ _ _ _ Hn (spec_terminates t _)).
Qed.

Theorem blank_continuation_chain_model : forall (t : table) (ws : list (str * str)), Forall (link_ok t) ws -> exists mb, model_run t (chain_line ws) = RFin mb /\ map b_ch mb = chain_out ws.
Proof.
  intros t ws Hok. destruct (blank_continuation_chain t ws Hok) as (b & Hs & Hb).
  pose proof (model_refines_spec t (chain_line ws)) as E. rewrite Hs in E.
  destruct (model_run t (chain_line ws)) as [mb| |]; cbn in E; try discriminate.
  exists mb. split; [reflexivity|]. inversion E; subst. rewrite <- Hb. unfold text_of, observe. rewrite map_map. reflexivity.
Qed.

(* the test [let Token(_) = token.id] of [Parser::substitute_alias], as a property of [decide] *)
Theorem only_words_are_candidates : forall ps k a g c n, decide ps k a g = ATry c n -> k = TWord \/ exists kw, k = TKey kw.
Proof.
  intros ps k a g c n H. pose proof (decide_try_word _ _ _ _ _ _ H) as Hw.
  destruct k; try discriminate; eauto.
Qed.

Theorem reserved_word_first_not_candidate : forall kw a g c n, decide PCmd (TKey kw) a g <> ATry c n.
Proof. intros kw a g c n. destruct kw; discriminate. Qed.

(* [PSimple true _ _]: only assignments and redirections so far, the next word is still the command name *)
Theorem command_word_is_candidate : forall a g, (exists n, decide PCmd TWord a g = ATry true n) /\ (forall fn arr, exists n, decide (PSimple true fn arr) TWord a g = ATry true n) /\ (forall fn arr, exists n, decide (PSimple false fn arr) TWord a g = ATry false n).
Proof. repeat split; intros; eexists; reflexivity. Qed.

(* what lets Run.v take [tokens [] (text_of sbuf)] for a reading of the substituted text itself; the statement speaks of the text read, not of the tokens *)
Theorem plain_run_identity : forall (text : str) (b : list (N * chain)), spec_run [] text = RFin b -> text_of b = text.
Proof.
  intros text b. apply (run_fin_sat (sstep []) (plain_inv text) (fun b => text_of b = text)); [apply sstep_plain|split; reflexivity].
Qed.

(* an instance of [plain_run_identity]; the first hypothesis is not used *)
Theorem substituted_text_is_stable : forall (t : table) (line : str) (b b' : list (N * chain)), spec_run t line = RFin b -> spec_run [] (text_of b) = RFin b' -> text_of b' = text_of b.
Proof. intros t line b b' _ H. exact (plain_run_identity _ _ H). Qed.

(* the three conjuncts are the tests of codes 3, 2 and 4 of [run_case] (Run.v), on the model's output in place of the implementation's buffer *)
Theorem oracle_accepts_model : forall t line mb sb, model_run t line = RFin mb -> spec_run t line = RFin sb -> chains_ok t (observe mb) = true /\ str_eqb (text_of (observe mb)) (text_of sb) = true /\ obs_eqb (observe mb) sb = true.
Proof.
  intros t line mb sb Hm Hs. pose proof (model_refines_spec t line) as E. rewrite Hm, Hs in E. cbn in E. inversion E; subst.
  split; [eapply model_chains_bool; eauto|]. split; [apply str_eqb_eq; reflexivity|apply obs_eqb_refl].
Qed.

(* this and the next two: what the simulation uses of [lex] ([lex_spec], PLex.v), stated by positions in the input *)
Theorem word_followed_by_delimiter : forall l lx, lex l = inl lx -> is_word_kind (lx_kind lx) = true -> match nth_error l (length (lx_gap lx) + length (lx_tok lx)) with Some d => is_delim d = true | None => True end.
Proof.
  intros l lx E Hk. destruct (lex_spec _ _ E) as (_ & _ & Hw & _). destruct (Hw Hk) as [_ H].
  rewrite <- nth_error_skipn, <- (Nat.add_0_r (length (lx_tok lx))), <- nth_error_skipn.
  destruct (skipn _ (skipn _ l)); exact H.
Qed.

Theorem word_starts_with_nondelimiter : forall l lx, lex l = inl lx -> is_word_kind (lx_kind lx) = true -> exists c, nth_error l (length (lx_gap lx)) = Some c /\ is_delim c = false.
Proof.
  intros l lx E Hk. destruct (lex_spec _ _ E) as (_ & _ & Hw & _). destruct (Hw Hk) as [(c & r & Hl & Hc) _].
  exists c. split; [|exact Hc].
  rewrite <- (Nat.add_0_r (length (lx_gap lx))), <- nth_error_skipn, Hl. reflexivity.
Qed.

Theorem literal_word_has_no_blank : forall l lx nm, lex l = inl lx -> lx_lit lx = Some nm -> forall i c, (i < length (lx_tok lx))%nat -> nth_error l (length (lx_gap lx) + i) = Some c -> is_blank c = false.
Proof.
  intros l lx nm E Hl i c Hi Hc. destruct (lex_spec _ _ E) as (_ & _ & _ & Hnb).
  rewrite <- nth_error_skipn, <- (nth_error_firstn _ _ _ Hi) in Hc.
  refine (proj1 (Forall_forall _ _) (Hnb _) c (nth_error_In _ _ Hc)). congruence.
Qed.

(* [gen_keyword_*] (Gen/Gen_Keywords.v) are generated from
   yash-syntax/src/parser/lex/keyword.rs by translator/keywords.py on every run:
   a change of the reserved words in the source breaks the first of these. *)
Theorem keyword_table_is_source_table :
  map (fun p => (fst p, keyword_index (snd p))) keyword_table = gen_keyword_from_str.
Proof. exact GenTie.keyword_table_is_source_table. Qed.
Theorem keyword_of_is_source_lookup : forall s,
  option_map keyword_index (keyword_of s) = assoc_gen gen_keyword_from_str s.
Proof. exact GenTie.keyword_of_is_source_lookup. Qed.
Theorem keyword_index_injective : forall a b, keyword_index a = keyword_index b -> a = b.
Proof.
  intros a b H. pose proof (keyword_index_nth a) as E. rewrite H, keyword_index_nth in E.
  congruence.
Qed.
Theorem keyword_index_covers : forall n, (n < gen_keyword_count)%N -> exists k, keyword_index k = n.
Proof.
  intros n Hn.
  assert (H : existsb (fun k => N.eqb (keyword_index k) n) keywords = true).
  { unfold gen_keyword_count in Hn.
    assert (Hc : In n (map N.of_nat (seq 0 21))).
    { apply in_map_iff. exists (N.to_nat n). split; [apply N2Nat.id|]. apply in_seq. lia. }
    cbn in Hc. repeat (destruct Hc as [<-|Hc]; [reflexivity|]). destruct Hc. }
  apply existsb_exists in H. destruct H as [k [_ Hk]]. exists k. apply N.eqb_eq. exact Hk.
Qed.

Print Assumptions alias_terminates.
Print Assumptions measure_decreases.
Print Assumptions measure_initial.
Print Assumptions spec_terminates.
Print Assumptions substitution_guarded.
Print Assumptions not_within_own_expansion.
Print Assumptions nesting_depth_bounded.
Print Assumptions parse_with_aliases_eq_parse_of_substituted.
Print Assumptions eligible_iff.
Print Assumptions global_alias_any_position.
Print Assumptions in_progress_not_eligible.
Print Assumptions flag_raised_at_end_of_value.
Print Assumptions flag_survives_blank.
Print Assumptions flag_makes_eligible.
Print Assumptions blank_continuation_chain.
Print Assumptions blank_continuation_chain_model.
Print Assumptions only_words_are_candidates.
Print Assumptions reserved_word_first_not_candidate.
Print Assumptions command_word_is_candidate.
Print Assumptions plain_run_identity.
Print Assumptions substituted_text_is_stable.
Print Assumptions oracle_accepts_model.
Print Assumptions word_followed_by_delimiter.
Print Assumptions word_starts_with_nondelimiter.
Print Assumptions literal_word_has_no_blank.
Print Assumptions keyword_table_is_source_table.
Print Assumptions keyword_of_is_source_lookup.
Print Assumptions keyword_index_injective.
Print Assumptions keyword_index_covers.
