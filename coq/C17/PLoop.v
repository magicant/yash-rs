(* C17 — generic facts about the fuel-driven loop of Model.v.  [loop] with its
   binary fuel [p] is [iter] with the unary fuel [Pos.to_nat p] ([loop_iter]);
   everything else is proved about [iter]. *)
From Yv Require Import Common.Base C17.Model.
From Coq Require Import Lia PeanoNat.

Section LoopFacts.
  Context {A R : Type} (step : A -> outcome A R).

  Fixpoint iter (n : nat) (s : A) : outcome A R :=
    match n with
    | O => Cont s
    | S n' => match step s with Cont s' => iter n' s' | o => o end
    end.

  Definition bind (o : outcome A R) (k : A -> outcome A R) : outcome A R :=
    match o with Cont s => k s | o' => o' end.

  Lemma iter_add n m s : iter (n + m) s = bind (iter n s) (iter m).
  Proof.
    revert s; induction n as [|n IH]; intros s; cbn; [reflexivity|].
    destruct (step s); cbn; auto.
  Qed.

  Lemma iter_1 s : iter 1 s = step s.
  Proof. cbn. destruct (step s); reflexivity. Qed.

  Lemma loop_iter p s : loop step p s = iter (Pos.to_nat p) s.
  Proof.
    revert s; induction p as [p IH|p IH|]; intros s; cbn [loop].
    - rewrite Pos2Nat.inj_xI.
      replace (S (2 * Pos.to_nat p)) with (1 + (Pos.to_nat p + Pos.to_nat p))%nat by lia.
      rewrite iter_add, iter_1. destruct (step s) as [s1| |]; cbn [bind]; auto.
      rewrite iter_add, <- IH. destruct (loop step p s1); cbn [bind]; auto.
    - rewrite Pos2Nat.inj_xO.
      replace (2 * Pos.to_nat p)%nat with (Pos.to_nat p + Pos.to_nat p)%nat by lia.
      rewrite iter_add, <- IH. destruct (loop step p s); cbn [bind]; auto.
    - rewrite iter_1. reflexivity.
  Qed.

  Definition outcome_sat (P : A -> Prop) (Q : R -> Prop) (o : outcome A R) : Prop :=
    match o with Cont s => P s | Fin r => Q r | Outside => True end.

  Lemma iter_sat (P : A -> Prop) (Q : R -> Prop) n s :
    (forall a, P a -> outcome_sat P Q (step a)) -> P s -> outcome_sat P Q (iter n s).
  Proof.
    intros Hs. revert s; induction n as [|n IH]; intros s HP; cbn [iter]; [exact HP|].
    specialize (Hs s HP). destruct (step s); auto.
  Qed.

  Lemma run_fin_sat (P : A -> Prop) (Q : R -> Prop) p s r :
    (forall a, P a -> outcome_sat P Q (step a)) -> P s -> run step p s = RFin r -> Q r.
  Proof.
    intros Hs HP. unfold run. rewrite loop_iter. pose proof (iter_sat P Q (Pos.to_nat p) s Hs HP) as K.
    destruct (iter (Pos.to_nat p) s); try discriminate. intros [= <-]. exact K.
  Qed.

  (* turns a run whose steps were counted by hand (PChain.v) into a statement
     about [run], whose fuel is not that count *)
  Lemma run_of_iter n p s r : iter n s = Fin r -> run step p s <> ROutOfFuel -> run step p s = RFin r.
  Proof.
    unfold run. rewrite loop_iter. set (m := Pos.to_nat p). intros Hn Hp.
    destruct (Nat.le_ge_cases m n) as [Hle|Hge].
    - replace n with (m + (n - m))%nat in Hn by lia. rewrite iter_add in Hn.
      destruct (iter m s) as [s'| |]; cbn [bind] in Hn; [destruct Hp; reflexivity|congruence|discriminate].
    - replace m with (n + (m - n))%nat by lia. rewrite iter_add, Hn. reflexivity.
  Qed.

  Variable Inv : A -> Prop.
  Variable mu : A -> nat.
  Hypothesis step_dec : forall s s', Inv s -> step s = Cont s' -> Inv s' /\ (mu s' < mu s)%nat.

  Lemma iter_bound n s s' : Inv s -> iter n s = Cont s' -> Inv s' /\ (mu s' + n <= mu s)%nat.
  Proof.
    revert s; induction n as [|n IH]; intros s HI; cbn.
    - intros E; inversion E; subst; split; auto; lia.
    - destruct (step s) as [s1| |] eqn:Es; try discriminate.
      destruct (step_dec _ _ HI Es) as [HI1 Hlt].
      intros E. destruct (IH _ HI1 E) as [HI' Hle]. split; auto; lia.
  Qed.

  Lemma run_enough_fuel p s : Inv s -> (mu s < Pos.to_nat p)%nat -> run step p s <> ROutOfFuel.
  Proof.
    intros HI Hlt. unfold run. rewrite loop_iter.
    destruct (iter (Pos.to_nat p) s) as [s'| |] eqn:E; try discriminate.
    destruct (iter_bound _ _ _ HI E) as [_ Hle]. lia.
  Qed.

  Lemma iter_inv (P : A -> Prop) n s s' :
    (forall a b, P a -> step a = Cont b -> P b) -> P s -> iter n s = Cont s' -> P s'.
  Proof.
    intros Hs HP E. pose proof (iter_sat P (fun _ => True) n s) as K. rewrite E in K. apply K; [|exact HP].
    intros a Ha. specialize (Hs a). destruct (step a); cbn; auto.
  Qed.
End LoopFacts.

(* The simulation is lock-step: one step of A against one step of B.  Both runs
   use up the same fuel, so [ROutOfFuel] on one side is [ROutOfFuel] on the other. *)
Section Simulation.
  Context {A B RA RB : Type} (stepA : A -> outcome A RA) (stepB : B -> outcome B RB).
  Variable Rel : A -> B -> Prop.
  Variable RelR : RA -> RB -> Prop.

  Definition rel_outcome (x : outcome A RA) (y : outcome B RB) : Prop :=
    match x, y with
    | Cont a, Cont b => Rel a b
    | Fin r, Fin r' => RelR r r'
    | Outside, Outside => True
    | _, _ => False
    end.

  Hypothesis sim : forall a b, Rel a b -> rel_outcome (stepA a) (stepB b).

  Lemma iter_sim n a b : Rel a b -> rel_outcome (iter stepA n a) (iter stepB n b).
  Proof.
    revert a b; induction n as [|n IH]; intros a b HR; cbn; auto.
    specialize (sim _ _ HR). destruct (stepA a), (stepB b); cbn in *; auto; contradiction.
  Qed.

  Lemma loop_sim p a b : Rel a b -> rel_outcome (loop stepA p a) (loop stepB p b).
  Proof. intros. rewrite !loop_iter. apply iter_sim; auto. Qed.
End Simulation.
