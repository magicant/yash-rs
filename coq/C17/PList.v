(* C17 — list lemmas missing from the standard library of Coq 8.16. *)
From Coq Require Import List PeanoNat.
Import ListNotations.

(* induction for functions that recurse on the tail and on the tail's tail *)
Lemma list_pair_ind {A} (P : list A -> Prop) :
  P [] -> (forall a, P [a]) -> (forall a b l, P l -> P (b :: l) -> P (a :: b :: l)) ->
  forall l, P l.
Proof.
  intros H0 H1 H2 l. enough (H : P l /\ forall a, P (a :: l)) by apply H.
  induction l as [|b l [IH1 IH2]]; split; auto.
Qed.

Lemma skipn_app_exact {A} (l1 l2 : list A) : skipn (length l1) (l1 ++ l2) = l2.
Proof. induction l1; cbn; auto. Qed.

Lemma firstn_app_exact {A} (l1 l2 : list A) : firstn (length l1) (l1 ++ l2) = l1.
Proof. induction l1; cbn; congruence. Qed.

Lemma NoDup_app_r {A} (l1 l2 : list A) : NoDup (l1 ++ l2) -> NoDup l2.
Proof. induction l1; cbn; auto. intros H; inversion H; auto. Qed.

Lemma nth_error_skipn {A} (n : nat) (l : list A) (i : nat) :
  nth_error (skipn n l) i = nth_error l (n + i).
Proof.
  revert l; induction n as [|n IH]; intros l; [reflexivity|].
  destruct l as [|a l]; [destruct i; reflexivity|]. cbn. apply IH.
Qed.

Lemma nth_error_firstn {A} (n : nat) (l : list A) (i : nat) :
  i < n -> nth_error (firstn n l) i = nth_error l i.
Proof.
  revert l i; induction n as [|n IH]; intros l i Hi; [inversion Hi|].
  destruct l as [|a l]; [destruct i; reflexivity|].
  destruct i; [reflexivity|]. cbn. apply IH, Nat.succ_lt_mono, Hi.
Qed.
