(* C17 — non-vacuity: concrete states that satisfy the hypotheses of the
   implication-shaped theorems of Properties.v. *)
From Yv Require Import Common.Base C17.Model C17.Spec C17.PLex C17.PMeasure.
Local Open Scope N_scope.

(* alias a='b x ' ; alias b='a y'   (mutually recursive),  text: a a<newline> *)
Definition ex_t : table := [mkAlias [97] [98; 32; 120; 32] false; mkAlias [98] [97; 32; 121] false].
Definition ex_line : str := [97; 32; 97; 10].

(* measure_decreases: the first step is a substitution and continues *)
Example ex_step_continues : exists s', mstep ex_t (m_init ex_line) = Cont s' /\ chains_inv ex_t (m_init ex_line).
Proof. eexists. split; [vm_compute; reflexivity|apply chains_inv_init]. Qed.

Example ex_measure : (mu ex_t (m_init ex_line) = 4 * 5 ^ 2)%nat.
Proof. reflexivity. Qed.

(* substitution_guarded / eligible_iff: an applicable substitution exists *)
Example ex_applicable :
  applicable ex_t [] (tag [] ex_line) (Some [97]) true = Some (mkAlias [97] [98; 32; 120; 32] false).
Proof. reflexivity. Qed.

(* not_within_own_expansion, nesting_depth_bounded, oracle_accepts_model: the run ends,
   the inner `a` (origin chain b, a) is left alone: `a y x  a y x <newline>`,
   each `a y` two substitutions deep, each ` x ` one *)
Example ex_run :
  match model_run ex_t ex_line, spec_run ex_t ex_line with
  | RFin mb, RFin sb =>
      map b_ch mb = [97; 32; 121; 32; 120; 32; 32; 97; 32; 121; 32; 120; 32; 10]
      /\ map (fun x => length (b_chain x)) mb = [2; 2; 2; 1; 1; 1; 0; 2; 2; 2; 1; 1; 1; 0]%nat
      /\ observe mb = sb
  | _, _ => False
  end.
Proof. vm_compute. repeat split. Qed.

(* in_progress_not_eligible, flag lemmas: a state in the middle of a value that ends in a blank *)
Definition ex_state : sstate :=
  mkS [] [mkF [97] [32] true] [32; 98; 10] false (PSimple false true false).

Example ex_in_progress : In [97] (names (s_stack ex_state)).
Proof. left; reflexivity. Qed.

Example ex_flag_raised : s_flag (read1 false ex_state) = true.
Proof. reflexivity. Qed.

Example ex_flag_survives : s_flag (read1 false (read1 false ex_state)) = true.
Proof. reflexivity. Qed.

(* flag_makes_eligible: the argument `b` after the blank-ending value ([ex_t] has
   no global alias; global_alias_any_position has no example here) *)
Example ex_arg_eligible :
  eligible ex_t (read [false; false] ex_state) (Some [98]) false = Some (mkAlias [98] [97; 32; 121] false).
Proof. reflexivity. Qed.

(* the lexer facts: `ab cd` *)
Example ex_lex : exists lx, lex [97; 98; 32; 99; 100] = inl lx /\ is_word_kind (lx_kind lx) = true /\ lx_lit lx = Some [97; 98].
Proof. eexists. split; [vm_compute; reflexivity|split; reflexivity]. Qed.
