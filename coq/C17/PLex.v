(* C17 — the lexer as the substitution proofs see it.  Every function of the
   lexer removes a prefix of its input and returns one mark per character
   removed ([eats]); [lex_spec] says where the gap, the token and the rest lie
   in the input and what a word token looks like. *)
From Yv Require Import Common.Base C17.Model C17.PList.
Local Open Scope N_scope.

Definition is_word_kind (k : tkind) : bool :=
  match k with TWord | TKey _ => true | _ => false end.

(* on input [l] the marks [m] were returned for the prefix [p], and [r] is left *)
Definition eats (m : list bool) (l p r : list N) : Prop := l = p ++ r /\ length p = length m.

Lemma eats_nil l : eats [] l [] l.
Proof. split; reflexivity. Qed.

Lemma eats_app m1 m2 l p1 l1 p2 r :
  eats m1 l p1 l1 -> eats m2 l1 p2 r -> eats (m1 ++ m2) l (p1 ++ p2) r.
Proof. intros [-> H1] [-> H2]. split; [apply app_assoc|]. rewrite !app_length. congruence. Qed.

Lemma eats_cons b c m l p r : eats m l p r -> eats (b :: m) (c :: l) (c :: p) r.
Proof. apply (eats_app [b] m (c :: l) [c] l). split; reflexivity. Qed.

Lemma eats_inv m l p r : eats m l p r ->
  skipn (length m) l = r /\ firstn (length m) l = p /\ (length m + length r = length l)%nat.
Proof. intros [-> <-]. rewrite skipn_app_exact, firstn_app_exact, app_length. auto. Qed.

Definition nonblank (c : N) : Prop := is_blank c = false.

Lemma not_delim_nonblank c : is_delim c = false -> nonblank c.
Proof. unfold is_delim, nonblank. destruct (is_op_char c); cbn; [discriminate|auto]. Qed.

Lemma skip_lc_eats l : forall m r, skip_lc l = (m, r) -> exists p, eats m l p r.
Proof.
  induction l as [|c|c d l IH _] using list_pair_ind; intros m r; cbn [skip_lc].
  1, 2: intros [= <- <-]; eexists; apply eats_nil.
  destruct (is_lc c d); [|intros [= <- <-]; eexists; apply eats_nil].
  destruct (skip_lc l) as [m' r']. intros [= <- <-]. destruct (IH _ _ eq_refl) as [p H].
  exists (c :: d :: p). apply eats_cons, eats_cons, H.
Qed.

(* [m] marks what is skipped in front of a token: a prefix of [l]; the rest [r] does not start with a blank *)
Definition skips (m : list bool) (l r : list N) : Prop :=
  (exists p, eats m l p r) /\ match r with c :: _ => nonblank c | [] => True end.

Lemma skips_nil l : match l with c :: _ => nonblank c | [] => True end -> skips [] l l.
Proof. intros H. split; [eexists; apply eats_nil|exact H]. Qed.

Lemma skips_cons b c m l r : skips m l r -> skips (b :: m) (c :: l) r.
Proof. intros [[p H] Hh]. split; [exists (c :: p); apply eats_cons, H|exact Hh]. Qed.

Lemma skips_app m1 m2 l l1 r : skips m1 l l1 -> skips m2 l1 r -> skips (m1 ++ m2) l r.
Proof. intros [[p1 H1] _] [[p2 H2] Hh]. split; [exists (p1 ++ p2); exact (eats_app _ _ _ _ _ _ _ H1 H2)|exact Hh]. Qed.

Lemma skip_blanks_spec l : forall m r, skip_blanks l = (m, r) -> skips m l r.
Proof.
  induction l as [|c|c d l IH1 IH2] using list_pair_ind; intros m r.
  - intros [= <- <-]. apply skips_nil. exact I.
  - cbn [skip_blanks]. destruct (is_blank c) eqn:Eb; intros [= <- <-].
    + apply skips_cons, skips_nil. exact I.
    + apply skips_nil, Eb.
  - (* one step of [skip_blanks], keeping its call on [d :: l] *)
    remember (d :: l) as l' eqn:El. cbn [skip_blanks]. destruct l' as [|d' l'']; [discriminate|].
    injection El as -> ->. destruct (is_lc c d).
    + destruct (skip_blanks l) as [m' r']. intros [= <- <-]. apply skips_cons, skips_cons, IH1. reflexivity.
    + destruct (is_blank c) eqn:Eb; [|intros [= <- <-]; apply skips_nil, Eb].
      destruct (skip_blanks (d :: l)) as [m' r']. intros [= <- <-]. apply skips_cons, IH2. reflexivity.
Qed.

(* a comment ends in front of a newline, which is not a blank *)
Lemma skip_comment_spec l : forall m r, skip_comment l = (m, r) -> skips m l r.
Proof.
  induction l as [|c l IH]; intros m r; cbn [skip_comment].
  - intros [= <- <-]. apply skips_nil. exact I.
  - destruct (c =? 10) eqn:Ec.
    + apply N.eqb_eq in Ec. subst c. intros [= <- <-]. apply skips_nil. reflexivity.
    + destruct (skip_comment l) as [m' r']. intros [= <- <-]. apply skips_cons, IH. reflexivity.
Qed.

Lemma skip_gap_spec l m r : skip_gap l = (m, r) -> skips m l r.
Proof.
  unfold skip_gap. destruct (skip_blanks l) as [gm l1] eqn:Eg. pose proof (skip_blanks_spec _ _ _ Eg) as H1.
  destruct l1 as [|c l1]; [intros [= <- <-]; exact H1|].
  destruct (c =? 35); [|intros [= <- <-]; exact H1].
  destruct (skip_comment (c :: l1)) as [cm l2] eqn:Ec. intros [= <- <-].
  exact (skips_app _ _ _ _ _ H1 (skip_comment_spec _ _ _ Ec)).
Qed.

Lemma sq_body_eats l n r : sq_body l = Some (n, r) -> exists p, eats (falses n) l p r.
Proof.
  revert n r; induction l as [|c l IH]; intros n r; cbn [sq_body]; [discriminate|].
  destruct (c =? 39).
  - intros [= <- <-]. exists [c]. split; reflexivity.
  - destruct (sq_body l) as [[n' r']|]; [|discriminate]. intros [= <- <-].
    destruct (IH _ _ eq_refl) as [p H]. exists (c :: p). apply eats_cons, H.
Qed.

Lemma dq_body_eats fuel : forall l m r, dq_body fuel l = inl (m, r) -> exists p, eats m l p r.
Proof.
  induction fuel as [|fuel IH]; intros l m r; cbn [dq_body]; [discriminate|].
  (* the marks [m0] for the prefix [p0], then the rest of the quotation *)
  assert (K : forall m0 p0 l0, eats m0 l p0 l0 ->
              match dq_body fuel l0 with inl (m1, r') => inl (m0 ++ m1, r') | inr e => inr e end = inl (m, r) ->
              exists p, eats m l p r).
  { intros m0 p0 l0 H0 E. destruct (dq_body fuel l0) as [[m1 r']|] eqn:E1; [|discriminate].
    injection E as <- <-. destruct (IH _ _ _ E1) as [p1 H1]. exists (p0 ++ p1). exact (eats_app _ _ _ _ _ _ _ H0 H1). }
  destruct l as [|c l]; [discriminate|].
  destruct (c =? 92).
  - destruct l as [|d l]; [apply (K _ [c]); split; reflexivity|].
    destruct (d =? 10); [apply (K _ [c; d]); split; reflexivity|].
    destruct (dq_escapable d); [apply (K _ [c; d])|apply (K _ [c])]; split; reflexivity.
  - destruct (c =? 34); [intros [= <- <-]; exists [c]; split; reflexivity|].
    destruct ((c =? 36) || (c =? 96)); [discriminate|]. apply (K _ [c]); split; reflexivity.
Qed.

(* the word is literal so far: [Word::to_string_if_literal] would still succeed *)
Definition literal (w : winfo) : Prop := w_lit w <> None.

Lemma literal_w_literal c w : literal (w_literal c w) -> literal w.
Proof. unfold literal, w_literal; cbn. destruct (w_lit w); congruence. Qed.

Lemma word_body_spec fuel : forall l w m r w',
  word_body fuel l w = inl (m, r, w') ->
  exists p, eats m l p r
  /\ match r with d :: _ => is_delim d = true | [] => True end
  /\ (literal w' -> literal w /\ Forall nonblank p).
Proof.
  induction fuel as [|fuel IH]; intros l w m r w'; cbn [word_body]; [discriminate|].
  (* the marks [m0] for the prefix [p0], which leaves the word information [w0], then the rest of the word *)
  assert (K : forall m0 p0 l0 w0, eats m0 l p0 l0 -> (literal w0 -> literal w /\ Forall nonblank p0) ->
              match word_body fuel l0 w0 with inl (m1, r', w2) => inl (m0 ++ m1, r', w2) | inr e => inr e end = inl (m, r, w') ->
              exists p, eats m l p r
              /\ match r with d :: _ => is_delim d = true | [] => True end
              /\ (literal w' -> literal w /\ Forall nonblank p)).
  { intros m0 p0 l0 w0 H0 L0 E.
    destruct (word_body fuel l0 w0) as [[[m1 r'] w2]|] eqn:E1; [|discriminate].
    injection E as <- <- <-. destruct (IH _ _ _ _ _ E1) as (p1 & H1 & Hd & L1).
    exists (p0 ++ p1). split; [exact (eats_app _ _ _ _ _ _ _ H0 H1)|]. split; [exact Hd|].
    intros Hw'. destruct (L1 Hw') as [Hw0 F1]. destruct (L0 Hw0) as [Hw F0]. split; [exact Hw|].
    apply Forall_app; auto. }
  (* a quoted unit: the word is not literal any more *)
  assert (Q : forall p, literal (w_quoted w) -> literal w /\ Forall nonblank p).
  { intros p H. destruct (H eq_refl). }
  assert (L : forall c, nonblank c -> literal (w_literal c w) -> literal w /\ Forall nonblank [c]).
  { intros c Hc H. split; [exact (literal_w_literal _ _ H)|repeat constructor; exact Hc]. }
  destruct l as [|c l].
  { intros [= <- <- <-]. exists []. split; [apply eats_nil|auto]. }
  destruct (c =? 92) eqn:E92.
  - apply N.eqb_eq in E92. subst c. destruct l as [|d l].
    { apply (K _ [92]); [split; reflexivity|apply L; reflexivity]. }
    destruct (d =? 10) eqn:E10.
    + apply N.eqb_eq in E10. subst d. apply (K _ [92; 10]); [split; reflexivity|].
      intros H. split; [exact H|repeat constructor].
    + apply (K _ [92; d]); [split; reflexivity|apply Q].
  - destruct (c =? 39).
    { destruct (sq_body l) as [[n r']|] eqn:Esq; [|discriminate].
      destruct (sq_body_eats _ _ _ Esq) as [p H].
      apply (K _ (c :: p)); [apply eats_cons, H|apply Q]. }
    destruct (c =? 34).
    { destruct (dq_body (S (length l)) l) as [[md r']|] eqn:Edq; [|discriminate].
      destruct (dq_body_eats _ _ _ _ Edq) as [p H].
      apply (K _ (c :: p)); [apply eats_cons, H|apply Q]. }
    destruct ((c =? 36) || (c =? 96)); [discriminate|].
    destruct (is_delim c) eqn:Ed.
    + intros [= <- <- <-]. exists []. split; [apply eats_nil|auto].
    + apply (K _ [c]); [split; reflexivity|apply L, not_delim_nonblank, Ed].
Qed.

Lemma op_tail_eats fuel : forall o l o' m r, op_tail fuel o l = (o', m, r) -> exists p, eats m l p r.
Proof.
  induction fuel as [|fuel IH]; intros o l o' m r; cbn [op_tail].
  { intros [= _ <- <-]. eexists; apply eats_nil. }
  destruct (op_has_next o); [|intros [= _ <- <-]; eexists; apply eats_nil].
  destruct (skip_lc l) as [m1 l1] eqn:E1. destruct (skip_lc_eats _ _ _ E1) as [p1 H1].
  destruct l1 as [|c l1]; [intros [= _ <- <-]; eauto|].
  destruct (ext_op o c) as [o1|]; [|intros [= _ <- <-]; eauto].
  destruct (op_tail fuel o1 l1) as [[o2 m2] r2] eqn:E2. intros [= _ <- <-].
  destruct (IH _ _ _ _ _ E2) as [p2 H2]. exists (p1 ++ c :: p2).
  exact (eats_app _ _ _ _ _ _ _ H1 (eats_cons _ _ _ _ _ _ H2)).
Qed.

Lemma first_op_none c : first_op c = None <-> is_op_char c = false.
Proof.
  unfold first_op, is_op_char.
  destruct (c =? 10); [easy|]. destruct (c =? 38); [easy|]. destruct (c =? 40); [easy|].
  destruct (c =? 41); [easy|]. destruct (c =? 59); [easy|]. destruct (c =? 60); [easy|].
  destruct (c =? 62); [easy|]. destruct (c =? 124); easy.
Qed.

(* All that termination and the simulation know of a successful [lex]:
   PMeasure.v uses the first two conjuncts (a step that continues consumes a
   character), PSim.v the last two (removing a replaced word keeps the invariant
   of the stack). *)
Theorem lex_spec l lx : lex l = inl lx ->
  let l1 := skipn (length (lx_gap lx)) l in
  let n := length (lx_tok lx) in
  (length (lx_gap lx) + n <= length l)%nat
  /\ (lx_kind lx <> TEof -> (1 <= n)%nat)
  /\ (is_word_kind (lx_kind lx) = true ->
      (exists c r, l1 = c :: r /\ is_delim c = false)
      /\ match skipn n l1 with d :: _ => is_delim d = true | [] => True end)
  /\ (lx_lit lx <> None -> Forall nonblank (firstn n l1)).
Proof.
  unfold lex. destruct (skip_gap l) as [gm l1] eqn:Eg.
  destruct (skip_gap_spec _ _ _ Eg) as [[g Hg] Hh]. destruct (eats_inv _ _ _ _ Hg) as (Hs & _ & Hlen).
  destruct l1 as [|c r].
  { intros [= <-]. cbn. rewrite Hs. repeat split; try easy. lia. }
  destruct (c =? 126); [discriminate|].
  destruct (first_op c) as [o|] eqn:Ef.
  - destruct (op_tail 3 o r) as [[o' m] rr] eqn:Eo. destruct (op_tail_eats _ _ _ _ _ _ Eo) as [p Hp].
    apply eats_inv in Hp. intros [= <-]. cbn in *. repeat split; try easy; lia.
  - destruct (word_body (S (length (c :: r))) (c :: r) w0) as [[[m rest] w]|] eqn:Ew; [|discriminate].
    destruct (word_body_spec _ _ _ _ _ _ Ew) as (p & Hp & Hd & Hlit).
    destruct (eats_inv _ _ _ _ Hp) as (Hs2 & Hf2 & Hlen2).
    match goal with |- context [if ?b then _ else _] => destruct b end; [discriminate|].
    intros [= <-]. cbn [lx_gap lx_tok lx_kind lx_lit]. rewrite Hs, Hs2, Hf2.
    assert (Hc : is_delim c = false).
    { unfold is_delim. rewrite (proj1 (first_op_none c) Ef). exact Hh. }
    (* the word ends in front of a delimiter, so not in front of [c] *)
    assert (Hn : (1 <= length m)%nat).
    { destruct m; [|cbn; lia]. cbn in Hs2. subst rest. congruence. }
    repeat split; eauto; try lia.
    intros H. apply Hlit. intros E. rewrite E in H. exact (H eq_refl).
Qed.
