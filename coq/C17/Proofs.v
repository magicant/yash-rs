(* C17 — consequences of the simulation and of the chain invariant: termination
   carried over to the specification, the invariant in the boolean form of the
   oracle ([chains_ok], Spec.v), eligibility spelled out. *)
From Yv Require Import Common.Base C17.Model C17.Spec C17.PMeasure C17.PSim.
Local Open Scope N_scope.

Lemma spec_terminates t line : spec_run t line <> ROutOfFuel.
Proof.
  rewrite <- model_refines_spec. pose proof (model_terminates t line).
  destruct (model_run t line); cbn; congruence.
Qed.

Lemma lookup_in_names t n : In n (tnames t) -> exists a, lookup t n = Some a.
Proof.
  induction t as [|b t IH]; cbn; [contradiction|].
  destruct (str_eqb (a_name b) n) eqn:E; [eauto|].
  intros [H|H]; [|auto]. apply str_eqb_eq in H. congruence.
Qed.

Lemma nodup_str_true l : NoDup l -> nodup_str l = true.
Proof.
  induction 1 as [|x l Hx Hl IH]; [reflexivity|]. cbn. rewrite IH, andb_true_r.
  apply negb_true_iff. apply mem_str_false. exact Hx.
Qed.

Lemma chain_ok_bool t c : chain_ok t c ->
  nodup_str c && forallb (fun n => match lookup t n with Some _ => true | None => false end) c = true.
Proof.
  intros [H1 H2]. rewrite (nodup_str_true _ H1). cbn. apply forallb_forall. intros n Hn.
  destruct (lookup_in_names t n (H2 _ Hn)) as [a ->]. reflexivity.
Qed.

Lemma model_chains_bool t line b : model_run t line = RFin b -> chains_ok t (observe b) = true.
Proof.
  intros H. pose proof (proj1 (Forall_forall _ _) (model_chains_ok _ _ _ H)) as HF. unfold chains_ok, observe.
  apply forallb_forall. intros x Hx. apply in_map_iff in Hx. destruct Hx as (y & <- & Hy). cbn [snd].
  apply chain_ok_bool, HF, Hy.
Qed.

Lemma spec_chains_bool t line b : spec_run t line = RFin b -> chains_ok t b = true.
Proof.
  rewrite <- model_refines_spec. destruct (model_run t line) as [mb| |] eqn:E; cbn; try discriminate.
  intros H; inversion H; subst. eapply model_chains_bool; eauto.
Qed.

Lemma eligible_iff t s lit cmd a :
  eligible t s lit cmd = Some a <->
  exists nm, lit = Some nm /\ ~ In nm (names (s_stack s)) /\ lookup t nm = Some a
             /\ (cmd = true \/ a_global a = true \/ s_flag s = true).
Proof.
  unfold eligible. split.
  - destruct lit as [nm|]; [|discriminate].
    destruct (mem_str nm (names (s_stack s))) eqn:Em; [discriminate|].
    destruct (lookup t nm) as [a'|] eqn:El; [|discriminate].
    destruct (cmd || a_global a' || s_flag s) eqn:Ee; [|discriminate].
    intros E; inversion E; subst. exists nm. repeat split; auto.
    + apply mem_str_false; auto.
    + apply orb_true_iff in Ee. destruct Ee as [Ee|Ee]; [apply orb_true_iff in Ee; tauto|auto].
  - intros (nm & -> & Hn & Hl & Hc). apply mem_str_false in Hn. rewrite Hn, Hl.
    replace (cmd || a_global a || s_flag s) with true; [reflexivity|].
    symmetry. destruct Hc as [Hc|[Hc|Hc]]; rewrite Hc; rewrite ?orb_true_r; reflexivity.
Qed.

(* a character that is no blank lowers the flag, unless it completes a blank-ending value *)
Lemma flag_lowered_by_word_char s c :
  keeps_flag false c = false -> s_stack s = [] -> s_base s <> [] -> hd 0 (s_base s) = c ->
  s_flag (read1 false s) = false.
Proof.
  intros Hk Hs Hb Hc. unfold read1. rewrite Hs. destruct (s_base s) as [|c' r]; [contradiction|].
  cbn in Hc. subst c'. cbn [s_flag]. rewrite Hk. reflexivity.
Qed.

Lemma obs_eqb_refl b : obs_eqb b b = true.
Proof.
  unfold obs_eqb. apply list_eqb_spec; [|reflexivity].
  intros [c1 h1] [c2 h2]. cbn [fst snd]. rewrite andb_true_iff, N.eqb_eq.
  unfold chain_eqb. rewrite (list_eqb_spec str_eqb str_eqb_eq). split; [intros [-> ->]; reflexivity|intros E; inversion E; auto].
Qed.
