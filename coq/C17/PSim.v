(* C17 — the model (lexer buffer with origin chains, in-place splice, backward
   scan for a blank-ending alias) computes exactly what the specification
   (stack of pending texts, forward flag) computes: a step-by-step simulation. *)
From Yv Require Import Common.Base C17.Model C17.Spec C17.PList C17.PLoop C17.PLex C17.PMeasure.
From Coq Require Import Lia PeanoNat.
Local Open Scope N_scope.

Fixpoint flat_b (st : list frame) (base : list N) : list bchar :=
  match st with
  | [] => tag [] base
  | f :: st' => tag (names st) (f_rest f) ++ flat_b st' base
  end.

Lemma map_ch_tag ch v : map b_ch (tag ch v) = v.
Proof. unfold tag. rewrite map_map. cbn. apply map_id. Qed.

Lemma flat_b_chars st base : map b_ch (flat_b st base) = flat st base.
Proof.
  unfold flat. induction st as [|f st IH]; cbn [flat_b map concat].
  - rewrite map_ch_tag. reflexivity.
  - rewrite map_app, map_ch_tag, IH, app_assoc. reflexivity.
Qed.

Lemma observe_tag ch v : observe (tag ch v) = map (fun c => (c, ch)) v.
Proof. unfold observe, tag. rewrite map_map. reflexivity. Qed.

Lemma flat_b_obs st base : observe (flat_b st base) = flat_obs st base.
Proof.
  induction st as [|f st IH]; cbn [flat_b flat_obs].
  - apply observe_tag.
  - unfold observe in *. rewrite map_app. fold (observe (tag (names (f :: st)) (f_rest f))).
    rewrite observe_tag, IH. reflexivity.
Qed.

Lemma flat_cons f st base : flat (f :: st) base = f_rest f ++ flat st base.
Proof. unfold flat. cbn. rewrite app_assoc. reflexivity. Qed.

Lemma tag_cons ch c v : tag ch (c :: v) = mkB c false ch :: tag ch v.
Proof. reflexivity. Qed.

Lemma tag_length ch v : length (tag ch v) = length v.
Proof. unfold tag. apply map_length. Qed.

Lemma skipn_tag n ch v : skipn n (tag ch v) = tag ch (skipn n v).
Proof. unfold tag. apply skipn_map. Qed.

Lemma flat_b_length st base : length (flat_b st base) = length (flat st base).
Proof. rewrite <- flat_b_chars, map_length. reflexivity. Qed.

Lemma names_app a b : names (a ++ b) = names a ++ names b.
Proof. apply map_app. Qed.

Definition hd_delim (l : list N) : Prop :=
  match l with [] => True | d :: _ => is_delim d = true end.

Lemma hd_delim_app_l l1 l2 : hd_delim (l1 ++ l2) -> l1 <> [] -> hd_delim l1.
Proof. destruct l1; [intros _ H; contradiction|cbn; auto]. Qed.

(* a frame holds what is left of the value of its alias *)
Definition frame_ok (t : table) (f : frame) : Prop :=
  exists a p, lookup t (f_name f) = Some a /\ f_blank f = ends_blank (a_value a) /\ a_value a = p ++ f_rest f.

Definition top_ok (st : list frame) : Prop :=
  match st with [] => True | f :: _ => f_rest f <> [] end.

Definition all_delim (st : list frame) (base : list N) : Prop :=
  Forall (fun f => hd_delim (f_rest f)) st /\ hd_delim base.

(* what lies below the value being read was suspended right behind a replaced word:
   it starts with a delimiter, or nothing is left of it *)
Definition delim_below (st : list frame) (base : list N) : Prop :=
  match st with [] => True | _ :: st' => all_delim st' base end.

(* a value that was used up by removing a replaced word from it does not end in a blank *)
Definition dead_ok (st : list frame) : Prop :=
  Forall (fun f => f_rest f = [] -> f_blank f = false) st.

(* what the invariant says of the stack alone; it survives dropping frames from the top *)
Record stack_ok (t : table) (st : list frame) (base : list N) : Prop := mkStackOk {
  k_nodup : NoDup (names st);
  k_frames : Forall (frame_ok t) st;
  k_delim : delim_below st base;
  k_dead : dead_ok (tl st)
}.

(* if the alias of the last character read is not in progress any more, a word cannot continue *)
Definition last_ok (pre : list bchar) (st : list frame) (base : list N) : Prop :=
  match pre with
  | x :: _ =>
      match b_chain x with
      | b :: _ => ~ In b (names st) -> hd_delim (flat st base)
      | [] => True
      end
  | [] => True
  end.

(* The two points: a character's chain of origins is the list of aliases in
   progress when the specification reads it, and the forward flag is what the
   backward scan would answer at the index.  The [r_aux_] fields are what it
   takes to carry the two through [pop_done] and [drop_input]. *)
Record Rel (t : table) (m : mstate) (s : sstate) : Prop := mkRel {
  r_out : observe (m_pre m) = s_out s;
  r_chain_is_stack : m_suf m = flat_b (s_stack s) (s_base s);
  r_ps : m_ps m = s_ps s;
  r_flag_is_scan : s_flag s = after_blank_alias t (m_pre m) (head_chain (m_suf m));
  r_aux_top : top_ok (s_stack s);
  r_aux_stack : stack_ok t (s_stack s) (s_base s);
  r_aux_last : last_ok (m_pre m) (s_stack s) (s_base s)
}.

Lemma all_delim_below st base : all_delim st base -> delim_below st base.
Proof.
  destruct st as [|f st]; [intros _; exact I|]. intros [H1 H2]. split; auto. exact (Forall_inv_tail H1).
Qed.

Lemma all_delim_hd st base : all_delim st base -> hd_delim (flat st base).
Proof.
  intros [H1 H2]. induction st as [|f st IH].
  - exact H2.
  - inversion H1; subst. rewrite flat_cons. destruct (f_rest f); cbn; auto.
Qed.

Lemma all_delim_app_r pp st base : all_delim (pp ++ st) base -> all_delim st base.
Proof. intros [H1 H2]. split; [exact (proj2 (proj1 (Forall_app _ _ _) H1))|exact H2]. Qed.

Lemma dead_ok_top st : top_ok st -> dead_ok (tl st) -> dead_ok st.
Proof.
  destruct st as [|f st]; [constructor|]. cbn [top_ok tl]. intros H1 H2. constructor; auto.
  intros H; contradiction.
Qed.

Lemma stack_ok_nil t base : stack_ok t [] base.
Proof. repeat constructor. Qed.

Lemma stack_ok_app_r t pp st base : stack_ok t (pp ++ st) base -> stack_ok t st base.
Proof.
  destruct pp as [|f pp]; [auto|]. intros [Hn Hf Hd Hdd]. cbn [app tl delim_below] in *.
  apply Forall_app in Hdd. constructor.
  - rewrite app_comm_cons, names_app in Hn. exact (NoDup_app_r _ _ Hn).
  - rewrite app_comm_cons in Hf. apply Forall_app in Hf. apply Hf.
  - exact (all_delim_below _ _ (all_delim_app_r _ _ _ Hd)).
  - destruct st; [constructor|]. exact (Forall_inv_tail (proj2 Hdd)).
Qed.

Lemma ends_blank_last p c : ends_blank (p ++ [c]) = is_blank c.
Proof. unfold ends_blank. rewrite rev_app_distr. reflexivity. Qed.

Lemma frame_ok_blank t f : frame_ok t f -> f_blank f = alias_ends_blank t (f_name f).
Proof. intros (a & p & Hl & Hb & _). unfold alias_ends_blank. rewrite Hl. exact Hb. Qed.

Lemma frame_ok_skipn t f n : frame_ok t f -> frame_ok t (mkF (f_name f) (skipn n (f_rest f)) (f_blank f)).
Proof.
  intros (a & p & H1 & H2 & H3). exists a, (p ++ firstn n (f_rest f)). cbn [f_name f_blank f_rest].
  rewrite <- app_assoc, firstn_skipn. auto.
Qed.

Lemma pop_done_spec st : forall fl st2 fl2, pop_done st fl = (st2, fl2) ->
  exists popped, st = popped ++ st2 /\ Forall (fun f => f_rest f = []) popped /\ top_ok st2
                 /\ fl2 = fl || existsb f_blank popped.
Proof.
  induction st as [|f st IH]; intros fl st2 fl2; cbn [pop_done].
  - intros E; inversion E; subst. exists []. cbn. rewrite orb_false_r. auto.
  - destruct (f_rest f) as [|c r] eqn:Er.
    + intros E. destruct (IH _ _ _ E) as (pp & -> & Hp & Ht & ->).
      exists (f :: pp). cbn. repeat split; auto. rewrite orb_assoc. reflexivity.
    + intros E; inversion E; subst. exists []. cbn. rewrite orb_false_r, Er. repeat split; auto. discriminate.
Qed.

Lemma pop_done_true st st2 fl2 : pop_done st true = (st2, fl2) -> fl2 = true.
Proof. intros E. destruct (pop_done_spec _ _ _ _ E) as (pp & _ & _ & _ & H). exact H. Qed.

Lemma flat_b_popped popped st base :
  Forall (fun f => f_rest f = []) popped -> flat_b (popped ++ st) base = flat_b st base.
Proof.
  induction popped as [|f pp IH]; intros H; [reflexivity|].
  inversion H; subst. cbn [app flat_b]. rewrite H2. cbn. apply IH; auto.
Qed.

Lemma existsb_dead popped : dead_ok popped -> Forall (fun f => f_rest f = []) popped -> existsb f_blank popped = false.
Proof.
  induction popped as [|f pp IH]; intros Hd He; [reflexivity|].
  inversion Hd; subst. inversion He; subst. cbn. rewrite (H1 H3). apply IH; auto.
Qed.

(* the alias of a frame that the replaced word used up does not end in a blank *)
Lemma used_up_not_blank t pp b :
  Forall (frame_ok t) pp -> dead_ok pp -> Forall (fun f => f_rest f = []) pp -> In b (names pp) ->
  alias_ends_blank t b = false.
Proof.
  intros Hf Hd He Hin. apply in_map_iff in Hin. destruct Hin as (g & <- & Hg).
  unfold dead_ok in Hd. rewrite Forall_forall in Hf, Hd, He.
  rewrite <- (frame_ok_blank t g (Hf g Hg)). exact (Hd g Hg (He g Hg)).
Qed.

Lemma head_chain_flat_b st base : top_ok st ->
  head_chain (flat_b st base) =
  match st with
  | _ :: _ => Some (names st)
  | [] => match base with _ :: _ => Some [] | [] => None end
  end.
Proof.
  destruct st as [|f st]; cbn [top_ok flat_b].
  - intros _. destruct base; reflexivity.
  - intros H. destruct (f_rest f); [contradiction|]. reflexivity.
Qed.

(* the guard of the model (is the name among the origins of the next character?)
   is the guard of the specification (is the alias in progress?) *)
Lemma in_chain_head n st base :
  top_ok st -> in_chain n (head_chain (flat_b st base)) = mem_str n (names st).
Proof.
  intros Ht. rewrite head_chain_flat_b by exact Ht. destruct st; [destruct base|]; reflexivity.
Qed.

Definition mark1 (mk : bool) (x : bchar) : bchar := mkB (b_ch x) (b_lc x || mk) (b_chain x).

Lemma aba_cons t c mk ch pre next :
  after_blank_alias t (mkB c mk ch :: pre) next =
  if negb (mk || is_blank c) then false
  else match ch with
       | a :: _ => if alias_ends_blank t a && negb (in_chain a next) then true
                   else after_blank_alias t pre (Some ch)
       | [] => after_blank_alias t pre (Some [])
       end.
Proof. reflexivity. Qed.

Lemma read1_rel t pre x suf ps s mk :
  Rel t (mkM pre (x :: suf) ps) s ->
  Rel t (mkM (mark1 mk x :: pre) suf ps) (read1 mk s).
Proof.
  intros [Ho Hs Hp Hf Ht Hk Hl]. cbn [m_pre m_suf m_ps] in *.
  unfold read1. destruct (s_stack s) as [|f st'] eqn:Est.
  - (* the original line *)
    cbn [flat_b] in Hs. destruct (s_base s) as [|c r] eqn:Eb; [discriminate|].
    rewrite tag_cons in Hs. injection Hs as -> ->.
    constructor; cbn [m_pre m_suf m_ps s_out s_stack s_base s_flag s_ps flat_b]; auto using stack_ok_nil.
    + rewrite <- Ho. reflexivity.
    + unfold mark1; cbn [b_ch b_lc b_chain orb]. rewrite aba_cons. unfold keeps_flag.
      destruct (mk || is_blank c); cbn [negb]; [|reflexivity].
      rewrite Hf. reflexivity.
  - (* the value of an alias *)
    cbn [top_ok] in Ht. destruct (f_rest f) as [|c r] eqn:Er; [contradiction|].
    cbn [flat_b] in Hs. rewrite Er, tag_cons in Hs. cbn [app] in Hs. injection Hs as -> ->.
    unfold mark1; cbn [b_ch b_lc b_chain orb].
    set (f' := mkF (f_name f) r (f_blank f)).
    pose proof (Forall_inv (k_frames _ _ _ Hk)) as Hf0.
    assert (Hk' : stack_ok t (f' :: st') (s_base s)).
    { destruct Hk as [Hn Hfr Hd Hdd]. constructor; auto. constructor; [|exact (Forall_inv_tail Hfr)].
      pose proof (frame_ok_skipn t f 1 Hf0) as H. rewrite Er in H. exact H. }
    destruct (pop_done (f' :: st') (if keeps_flag mk c then s_flag s else false)) as [st2 fl2] eqn:Epop.
    destruct (pop_done_spec _ _ _ _ Epop) as (pp & Hsplit & Hpp & Htop2 & Hfl2).
    rewrite Hsplit in Hk'. pose proof (stack_ok_app_r _ _ _ _ Hk') as Hk2.
    cbn [head_chain b_chain] in Hf.
    assert (Hsuf : tag (f_name f :: names st') r ++ flat_b st' (s_base s) = flat_b st2 (s_base s)).
    { rewrite <- (flat_b_popped pp st2 _ Hpp), <- Hsplit. reflexivity. }
    destruct pp as [|f0 pp']; cbn [app] in Hsplit.
    + (* more of the value is left *)
      subst st2. cbn [existsb] in Hfl2. rewrite orb_false_r in Hfl2.
      assert (Hm : mem_str (f_name f) (names (f' :: st')) = true) by (apply mem_str_In; left; reflexivity).
      constructor; cbn [m_pre m_suf m_ps s_out s_stack s_base s_flag s_ps]; auto.
      * rewrite <- Ho. reflexivity.
      * rewrite Hfl2, aba_cons, Hsuf, in_chain_head, Hm, andb_false_r, <- Hf by exact Htop2. unfold keeps_flag.
        destruct (mk || is_blank c); reflexivity.
      * cbn [last_ok b_chain]. intros Hni. destruct Hni. left; reflexivity.
    + (* the value has been read completely; with it go the values below it that a replaced word had used up *)
      injection Hsplit as <- ->. pose proof (Forall_inv Hpp) as Hr. cbn in Hr. subst r.
      assert (Hdead_pp : existsb f_blank pp' = false).
      { apply existsb_dead; [|exact (Forall_inv_tail Hpp)]. exact (proj1 (proj1 (Forall_app _ _ _) (k_dead _ _ _ Hk))). }
      assert (Hnot2 : ~ In (f_name f) (names st2)).
      { intros Hin. apply (proj1 (proj1 (NoDup_cons_iff _ _) (k_nodup _ _ _ Hk))).
        fold (names (pp' ++ st2)). rewrite names_app. apply in_or_app; auto. }
      constructor; cbn [m_pre m_suf m_ps s_out s_stack s_base s_flag s_ps]; auto.
      * rewrite <- Ho. reflexivity.
      * rewrite Hfl2, aba_cons, Hsuf, in_chain_head, (proj2 (mem_str_false _ _) Hnot2), andb_true_r, <- Hf by exact Htop2.
        cbn [existsb f_blank f']. rewrite Hdead_pp, orb_false_r, <- (frame_ok_blank _ _ Hf0). unfold keeps_flag.
        (* the character just read is the last of the value *)
        destruct Hf0 as (a & p & H1 & H2 & H3). rewrite Er in H3.
        assert (Hbc : f_blank f = is_blank c) by (rewrite H2, H3; apply ends_blank_last).
        destruct (mk || is_blank c) eqn:Ek; cbn [negb].
        -- destruct (f_blank f); [apply orb_true_r|apply orb_false_r].
        -- apply orb_false_iff in Ek. destruct Ek as [_ Ek]. rewrite Hbc, Ek. reflexivity.
      * cbn [last_ok b_chain]. intros _. exact (all_delim_hd _ _ (all_delim_app_r _ _ _ (k_delim _ _ _ Hk))).
Qed.

(* [shift] stops when the buffer is empty, [read] goes on through the marks:
   there it changes nothing *)
Lemma read1_end t pre ps s mk : Rel t (mkM pre [] ps) s -> read1 mk s = s.
Proof.
  intros H. pose proof (r_chain_is_stack _ _ _ H) as Hs. pose proof (r_aux_top _ _ _ H) as Ht. cbn [m_suf] in Hs.
  unfold read1. destruct (s_stack s) as [|f st].
  - destruct (s_base s); [reflexivity|discriminate].
  - cbn [top_ok] in Ht. cbn [flat_b] in Hs. destruct (f_rest f); [contradiction|discriminate].
Qed.

Lemma shift_rel t marks : forall pre suf ps s pre1 suf1,
  shift marks pre suf = (pre1, suf1) -> Rel t (mkM pre suf ps) s -> Rel t (mkM pre1 suf1 ps) (read marks s).
Proof.
  induction marks as [|m marks IH]; intros pre suf ps s pre1 suf1; cbn [shift read]; [intros [= <- <-]; auto|].
  destruct suf as [|x suf].
  - intros [= <- <-] H. rewrite (read1_end _ _ _ _ m H). apply (IH pre []); [destruct marks; reflexivity|exact H].
  - intros E H. exact (IH _ _ _ _ _ _ E (read1_rel _ _ _ _ _ _ m H)).
Qed.

Lemma set_ps_rel t pre suf ps ps' s :
  Rel t (mkM pre suf ps) s -> Rel t (mkM pre suf ps') (set_ps ps' s).
Proof. intros []. constructor; auto. Qed.

Lemma read_ps marks : forall s, s_ps (read marks s) = s_ps s.
Proof.
  induction marks as [|m marks IH]; intros s; [reflexivity|]. cbn [read]. rewrite IH.
  unfold read1. destruct (s_stack s) as [|f st].
  - destruct (s_base s); reflexivity.
  - destruct (f_rest f); [reflexivity|].
    destruct (pop_done _ _). reflexivity.
Qed.

(* a value of which only characters that are no blanks are left does not end
   in a blank, unless nothing was left of it before *)
Lemma frame_nonblank t f :
  frame_ok t f -> (f_rest f = [] -> f_blank f = false) -> Forall nonblank (f_rest f) -> f_blank f = false.
Proof.
  intros (a & p & H1 & H2 & H3) Hd Hall.
  destruct (f_rest f) as [|c0 r0] eqn:Er; [auto|].
  destruct (exists_last (l := c0 :: r0) ltac:(discriminate)) as (q & c & Hq).
  rewrite H2, H3, Hq, app_assoc, ends_blank_last.
  rewrite Hq in Hall. exact (Forall_inv (proj2 (proj1 (Forall_app _ _ _) Hall))).
Qed.

(* The word consists of the first [n] unread characters, none of them a blank,
   and a delimiter follows it.  Without the word the stack is as good as
   before, except that its top frame may have become empty. *)
Lemma drop_input_ok t : forall st n base st2 base2,
  drop_input n st base = (st2, base2) ->
  Forall (frame_ok t) st -> delim_below st base -> dead_ok st ->
  hd_delim (skipn n (flat st base)) -> Forall nonblank (firstn n (flat st base)) ->
  names st2 = names st /\ flat_b st2 base2 = skipn n (flat_b st base)
  /\ Forall (frame_ok t) st2 /\ all_delim st2 base2 /\ dead_ok st2.
Proof.
  induction st as [|f st IH]; intros n base st2 base2; cbn [drop_input].
  { intros [= <- <-] _ _ _ Hh _. cbn [flat_b]. rewrite skipn_tag. repeat split; auto; constructor. }
  intros E Hf Hb Hd Hh Hall. rewrite flat_cons in Hh, Hall. rewrite skipn_app in Hh. rewrite firstn_app in Hall.
  apply Forall_app in Hall. destruct Hall as [Hall1 Hall2].
  destruct Hb as [Hb1 Hb2]. cbn [flat_b]. rewrite skipn_app, tag_length, skipn_tag.
  (* what is left of the top frame *)
  assert (Hf' : frame_ok t (mkF (f_name f) (skipn n (f_rest f)) (f_blank f))) by exact (frame_ok_skipn _ _ _ (Forall_inv Hf)).
  assert (Hd' : skipn n (f_rest f) = [] -> f_blank f = false).
  { intros Hs. apply (frame_nonblank t f (Forall_inv Hf) (Forall_inv Hd)).
    rewrite <- (firstn_skipn n (f_rest f)), Hs, app_nil_r. exact Hall1. }
  destruct (Nat.leb n (length (f_rest f))) eqn:En.
  - (* the word ends inside the top frame *)
    apply Nat.leb_le in En. injection E as <- <-.
    replace (n - length (f_rest f))%nat with 0%nat in * by lia.
    repeat split; auto.
    + constructor; [exact Hf'|exact (Forall_inv_tail Hf)].
    + constructor; [|exact Hb1]. cbn [f_rest]. destruct (skipn n (f_rest f)) eqn:Es; [exact I|exact Hh].
    + constructor; [exact Hd'|exact (Forall_inv_tail Hd)].
  - (* the top frame is used up *)
    apply Nat.leb_gt in En. rewrite skipn_all2 in * by lia.
    destruct (drop_input (n - length (f_rest f)) st base) as [st3 base3] eqn:E3. injection E as <- <-.
    destruct (IH _ _ _ _ E3 (Forall_inv_tail Hf) (all_delim_below _ _ (conj Hb1 Hb2)) (Forall_inv_tail Hd) Hh Hall2)
      as (I1 & I2 & I3 & [I4 I5] & I6).
    cbn [names map f_name flat_b f_rest tag app]. fold (names st3). rewrite I1.
    repeat split; auto.
    + constructor; [exact I|exact I4].
    + constructor; [exact Hd'|exact I6].
Qed.

Lemma aba_next_change t pre n1 n2 :
  (forall x rest b c', pre = x :: rest -> b_chain x = b :: c' -> alias_ends_blank t b = true ->
                       in_chain b n1 = in_chain b n2) ->
  after_blank_alias t pre n1 = after_blank_alias t pre n2.
Proof.
  intros H. destruct pre as [|x rest]; [reflexivity|]. cbn [after_blank_alias].
  destruct (negb (b_lc x || is_blank (b_ch x))); [reflexivity|].
  destruct (b_chain x) as [|b c'] eqn:Ec; [reflexivity|].
  destruct (alias_ends_blank t b) eqn:Eb; [|reflexivity].
  rewrite (H x rest b c' eq_refl Ec Eb). reflexivity.
Qed.

Lemma subst_rel t pre suf ps s n nm a st2 base2 st3 fl3 :
  Rel t (mkM pre suf ps) s ->
  (exists c r, flat (s_stack s) (s_base s) = c :: r /\ is_delim c = false) ->
  hd_delim (skipn n (flat (s_stack s) (s_base s))) ->
  Forall nonblank (firstn n (flat (s_stack s) (s_base s))) ->
  lookup t nm = Some a -> ~ In nm (names (s_stack s)) ->
  drop_input n (s_stack s) (s_base s) = (st2, base2) ->
  pop_done (mkF (a_name a) (a_value a) (ends_blank (a_value a)) :: st2) (s_flag s) = (st3, fl3) ->
  Rel t (mkM pre (tag (a_name a :: match head_chain suf with Some c => c | None => [] end) (a_value a)
                  ++ skipn n suf) ps)
        (mkS (s_out s) st3 base2 fl3 (s_ps s)).
Proof.
  intros [Ho Hs Hp Hf Ht Hk Hl] (c0 & r0 & Hflat & Hc0) HF1 HF3 Hlk Hnotin Edrop Epop.
  cbn [m_pre m_suf m_ps] in *.
  destruct (lookup_some _ _ _ Hlk) as [Hat Hnm].
  set (C := names (s_stack s)) in *.
  (* the chain of the word's first character *)
  assert (Hhc : head_chain suf = Some C).
  { rewrite Hs, head_chain_flat_b by auto. subst C. destruct (s_stack s) as [|f st]; [|reflexivity].
    unfold flat in Hflat. cbn in Hflat. rewrite Hflat. reflexivity. }
  (* the alias of the last character read is still in progress *)
  assert (Hlast : forall x rest b c', pre = x :: rest -> b_chain x = b :: c' -> In b C).
  { intros x rest b c' -> Hb. cbn [last_ok] in Hl. rewrite Hb in Hl.
    destruct (in_dec (list_eq_dec N.eq_dec) b C) as [Hi|Hni]; [exact Hi|].
    specialize (Hl Hni). rewrite Hflat in Hl. cbn in Hl. congruence. }
  destruct (drop_input_ok t _ _ _ _ _ Edrop (k_frames _ _ _ Hk) (k_delim _ _ _ Hk)
              (dead_ok_top _ Ht (k_dead _ _ _ Hk)) HF1 HF3) as (Hnames2 & Hflat2 & Hfr2 & Hdel2 & Hdead2).
  set (newf := mkF (a_name a) (a_value a) (ends_blank (a_value a))) in *.
  destruct (pop_done_spec _ _ _ _ Epop) as (pp & Hsplit & Hpp & Htop3 & Hfl3).
  assert (Hnames : names (newf :: st2) = a_name a :: C).
  { cbn [names map f_name newf]. fold (names st2). rewrite Hnames2. reflexivity. }
  assert (Hk2 : stack_ok t (newf :: st2) base2).
  { constructor; [rewrite Hnames, Hnm; constructor; [exact Hnotin|exact (k_nodup _ _ _ Hk)]| |exact Hdel2|exact Hdead2].
    constructor; [exists a, []; cbn [f_name f_blank f_rest newf app]; rewrite Hnm; auto|exact Hfr2]. }
  (* an empty value does not end in a blank *)
  assert (Hdead : dead_ok (newf :: st2)) by (constructor; [cbn; intros ->; reflexivity|exact Hdead2]).
  pose proof (k_frames _ _ _ Hk2) as Hfr.
  assert (Hflat3 : flat_b st3 base2 = tag (a_name a :: C) (a_value a) ++ skipn n suf).
  { rewrite <- (flat_b_popped pp st3 base2 Hpp), <- Hsplit. cbn [flat_b newf f_rest]. rewrite Hnames, Hflat2, Hs. reflexivity. }
  rewrite Hsplit in Hk2, Hdead, Hfr, Hnames. apply Forall_app in Hdead. apply Forall_app in Hfr.
  assert (Hfl3' : fl3 = s_flag s).
  { rewrite Hfl3, (existsb_dead pp (proj1 Hdead) Hpp). apply orb_false_r. }
  constructor; cbn [m_pre m_suf m_ps s_out s_stack s_base s_flag s_ps]; auto.
  - rewrite Hhc. symmetry. exact Hflat3.
  - rewrite Hhc, <- Hflat3, Hfl3', Hf, Hhc.
    apply aba_next_change. intros x rest b c' Hpre Hb Hbl.
    pose proof (Hlast _ _ _ _ Hpre Hb) as HbC.
    cbn [in_chain]. rewrite in_chain_head, (proj2 (mem_str_In b C) HbC) by exact Htop3.
    symmetry. apply mem_str_In.
    (* [b] is in progress and its value ends in a blank, so its frame is not among those popped *)
    assert (Hin : In b (names (pp ++ st3))) by (rewrite Hnames; right; exact HbC).
    rewrite names_app in Hin. apply in_app_or in Hin. destruct Hin as [Hin|Hin]; [|exact Hin].
    rewrite (used_up_not_blank t pp b (proj1 Hfr) (proj1 Hdead) Hpp Hin) in Hbl. discriminate.
  - exact (stack_ok_app_r _ _ _ _ Hk2).
  - unfold last_ok. destruct pre as [|x rest]; [exact I|]. destruct (b_chain x) as [|b c'] eqn:Hb; [exact I|].
    intros Hni. pose proof (Hlast _ _ _ _ eq_refl Hb) as HbC.
    (* the frame of [b] was popped, so [st3] lay below the replaced word *)
    destruct pp as [|g pp'].
    + destruct Hni. cbn [app] in Hnames. rewrite Hnames. right; exact HbC.
    + cbn [app] in Hsplit. injection Hsplit as _ Hst2. rewrite Hst2 in Hdel2.
      exact (all_delim_hd _ _ (all_delim_app_r _ _ _ Hdel2)).
Qed.

Lemma decide_try_word ps k a g c n : decide ps k a g = ATry c n -> is_word_kind k = true.
Proof.
  destruct k as [|kw| |o|]; try reflexivity; intros H; exfalso.
  - destruct ps; cbn in H; try discriminate.
  - (* an operator; two rows of [decide] look at more than the token: `(` in a simple command, `;` behind `for x` *)
    destruct ps as [|we fn arr|we| | | | | | |fl| | | | | | | | |]; destruct o; try discriminate H; cbn in H.
    + destruct (arr && g), fn; discriminate H.
    + destruct fl; discriminate H.
  - destruct ps; cbn in H; discriminate.
Qed.

Lemma fin_obs pre suf s t ps :
  Rel t (mkM pre suf ps) s ->
  observe (rev pre ++ suf) = rev (s_out s) ++ flat_obs (s_stack s) (s_base s).
Proof.
  intros H. pose proof (r_out _ _ _ H) as Ho. pose proof (r_chain_is_stack _ _ _ H) as Hs. cbn [m_pre m_suf] in Ho, Hs.
  unfold observe in *. rewrite map_app, map_rev, Ho. f_equal.
  rewrite Hs. apply flat_b_obs.
Qed.

Lemma applicable_eligible t pre suf ps s lit cmd :
  Rel t (mkM pre suf ps) s -> applicable t pre suf lit cmd = eligible t s lit cmd.
Proof.
  intros H. unfold applicable, eligible. destruct lit as [nm|]; [|reflexivity].
  rewrite (r_flag_is_scan _ _ _ H). cbn [m_suf m_pre]. rewrite (r_chain_is_stack _ _ _ H) at 1. cbn [m_suf].
  rewrite in_chain_head by exact (r_aux_top _ _ _ H). reflexivity.
Qed.

Definition same_obs (b : list bchar) (o : list (N * chain)) : Prop := observe b = o.

Lemma step_sim t m s :
  Rel t m s -> rel_outcome (Rel t) same_obs (mstep t m) (sstep t s).
Proof.
  destruct m as [pre suf ps]. intros H.
  pose proof (r_chain_is_stack _ _ _ H) as Hs. pose proof (r_ps _ _ _ H) as Hp. cbn [m_suf m_ps] in Hs, Hp.
  unfold mstep, sstep. cbn [m_pre m_suf m_ps].
  assert (Hl : map b_ch suf = flat (s_stack s) (s_base s)) by (rewrite Hs; apply flat_b_chars).
  rewrite Hl. destruct (lex (flat (s_stack s) (s_base s))) as [lx|[]] eqn:El.
  2:{ cbn. unfold same_obs. eapply fin_obs; eauto. }
  2:{ exact I. }
  destruct (shift (lx_gap lx) pre suf) as [pre1 suf1] eqn:Esh.
  pose proof (shift_rel t _ _ _ ps s _ _ Esh H) as H1.
  set (s1 := read (lx_gap lx) s) in *.
  rewrite <- Hp.
  destruct (decide_lx ps lx) as [cmd ps'|ps'| |] eqn:Ed.
  - rewrite <- (applicable_eligible t pre1 suf1 ps s1 (lx_lit lx) cmd H1).
    destruct (applicable t pre1 suf1 (lx_lit lx) cmd) as [a|] eqn:Ea.
    + (* substitution: [lex_spec] says of the unread input of [s1] what [subst_rel] asks for *)
      destruct (applicable_some _ _ _ _ _ _ Ea) as (nm & Hlit & Hin & Hlk & _).
      destruct (lex_spec _ _ El) as (_ & _ & Hw & Hnb).
      assert (Hflat1 : skipn (length (lx_gap lx)) (flat (s_stack s) (s_base s)) = flat (s_stack s1) (s_base s1)).
      { rewrite <- Hl, skipn_map, <- (shift_suf _ _ _ _ _ Esh), <- flat_b_chars, <- (r_chain_is_stack _ _ _ H1). reflexivity. }
      rewrite Hflat1 in Hw, Hnb.
      destruct (Hw (decide_try_word _ _ _ _ _ _ Ed)) as [HF2 HF1].
      assert (Hnotin : ~ In nm (names (s_stack s1))).
      { apply mem_str_false. rewrite <- (in_chain_head nm _ (s_base s1) (r_aux_top _ _ _ H1)), <- (r_chain_is_stack _ _ _ H1). exact Hin. }
      destruct (drop_input (length (lx_tok lx)) (s_stack s1) (s_base s1)) as [st2 base2] eqn:Edrop.
      destruct (pop_done (mkF (a_name a) (a_value a) (ends_blank (a_value a)) :: st2) (s_flag s1)) as [st3 fl3] eqn:Epop.
      pose proof (subst_rel t pre1 suf1 ps s1 _ nm a _ _ _ _ H1 HF2 HF1 (Hnb ltac:(congruence)) Hlk Hnotin Edrop Epop) as HR.
      rewrite <- (r_ps _ _ _ H1) in HR. exact HR.
    + (* the word stays *)
      destruct (shift (lx_tok lx) pre1 suf1) as [pre2 suf2] eqn:Etok.
      exact (set_ps_rel t _ _ ps _ _ (shift_rel t _ _ _ ps s1 _ _ Etok H1)).
  - destruct (shift (lx_tok lx) pre1 suf1) as [pre2 suf2] eqn:Etok.
    exact (set_ps_rel t _ _ ps _ _ (shift_rel t _ _ _ ps s1 _ _ Etok H1)).
  - cbn [rel_outcome]. unfold same_obs. eapply fin_obs; eauto.
  - exact I.
Qed.

Lemma rel_init t line : Rel t (m_init line) (s_init line).
Proof. constructor; cbn; auto using stack_ok_nil. Qed.

Definition result_map {A B} (f : A -> B) (r : result A) : result B :=
  match r with RFin x => RFin (f x) | ROutside => ROutside | ROutOfFuel => ROutOfFuel end.

Theorem model_refines_spec t line :
  result_map observe (model_run t line) = spec_run t line.
Proof.
  unfold model_run, spec_run, run.
  pose proof (loop_sim (mstep t) (sstep t) (Rel t) same_obs (step_sim t) (fuel_of t line)
                       (m_init line) (s_init line) (rel_init t line)) as H.
  destruct (loop (mstep t) (fuel_of t line) (m_init line)), (loop (sstep t) (fuel_of t line) (s_init line));
    cbn in *; try contradiction; auto.
  unfold same_obs in H. rewrite H. reflexivity.
Qed.
