(* C17 — termination of the model by an explicit measure, and the invariant
   "every chain of origins is duplicate free and names defined aliases".

   Weight of a character whose chain of origins is [c]:  W ^ (N - |c|)  with
   W = 1 + the length of the longest alias value and N = the number of aliases.
   The measure is the sum of the weights of the characters at and behind the
   lexer's index.  Consuming a token removes at least one character; a
   substitution removes a character of weight W^(N-|c|) and adds at most W-1
   characters of weight W^(N-|c|-1). *)
From Yv Require Import Common.Base C17.Model C17.PLoop C17.PLex.
From Coq Require Import Lia PeanoNat.

Lemma mem_str_In s l : mem_str s l = true <-> In s l.
Proof.
  unfold mem_str. rewrite existsb_exists. split.
  - intros (x & Hx & He). apply str_eqb_eq in He. subst; auto.
  - intros H. exists s. split; auto. apply str_eqb_eq; reflexivity.
Qed.

Lemma mem_str_false s l : mem_str s l = false <-> ~ In s l.
Proof. rewrite <- mem_str_In. destruct (mem_str s l); split; congruence. Qed.

Definition tnames (t : table) : list str := map a_name t.

Lemma lookup_some t n a : lookup t n = Some a -> In a t /\ a_name a = n.
Proof.
  induction t as [|b t IH]; cbn; [discriminate|].
  destruct (str_eqb (a_name b) n) eqn:E.
  - intros H; inversion H; subst. apply str_eqb_eq in E. auto.
  - intros H. destruct (IH H); auto.
Qed.

Lemma value_len_le t a : In a t -> (length (a_value a) <= max_value_len t)%nat.
Proof.
  induction t as [|b t IH]; [contradiction|].
  unfold max_value_len; cbn [fold_right]; fold (max_value_len t).
  intros [->|H]; [apply Nat.le_max_l|].
  specialize (IH H). eapply Nat.le_trans; [exact IH|apply Nat.le_max_r].
Qed.

Definition chain_ok (t : table) (c : chain) : Prop := NoDup c /\ incl c (tnames t).

Lemma chain_ok_nil t : chain_ok t [].
Proof. split; [constructor|intros x []]. Qed.

Lemma chain_ok_len t c : chain_ok t c -> (length c <= length t)%nat.
Proof.
  intros [H1 H2]. rewrite <- (map_length a_name t). apply NoDup_incl_length; auto.
Qed.

Lemma chain_ok_cons t a c : In a t -> ~ In (a_name a) c -> chain_ok t c -> chain_ok t (a_name a :: c).
Proof.
  intros Ha Hn [H1 H2]. split; [constructor; auto|].
  intros x [<-|Hx]; [apply in_map; auto|auto].
Qed.

Definition W (t : table) : nat := S (max_value_len t).
Definition wt (t : table) (c : chain) : nat := W t ^ (length t - length c).
Definition wsum (t : table) (l : list bchar) : nat := list_sum (map (fun x => wt t (b_chain x)) l).

Lemma pow_pos b e : (1 <= b -> 1 <= b ^ e)%nat.
Proof. intros H. induction e; cbn; nia. Qed.

Lemma wt_pos t c : (1 <= wt t c)%nat.
Proof. apply pow_pos. unfold W; lia. Qed.

Lemma wsum_app t l1 l2 : wsum t (l1 ++ l2) = (wsum t l1 + wsum t l2)%nat.
Proof. unfold wsum. rewrite map_app, list_sum_app. reflexivity. Qed.

Lemma wsum_cons t x l : wsum t (x :: l) = (wt t (b_chain x) + wsum t l)%nat.
Proof. reflexivity. Qed.

Lemma wsum_tag t ch v : wsum t (tag ch v) = (length v * wt t ch)%nat.
Proof.
  induction v as [|c v IH]; [reflexivity|].
  change (tag ch (c :: v)) with (mkB c false ch :: tag ch v).
  rewrite wsum_cons, IH. reflexivity.
Qed.

Lemma wsum_skipn_le t n l : (wsum t (skipn n l) <= wsum t l)%nat.
Proof.
  rewrite <- (firstn_skipn n l) at 2. rewrite wsum_app. lia.
Qed.

Lemma wsum_skipn_lt t n l : (1 <= n)%nat -> l <> [] -> (wsum t (skipn n l) < wsum t l)%nat.
Proof.
  intros Hn Hl. destruct l as [|x l]; [contradiction|]. destruct n; [lia|].
  cbn [skipn]. pose proof (wsum_skipn_le t n l). rewrite wsum_cons.
  pose proof (wt_pos t (b_chain x)). lia.
Qed.

(* (W-1) * W^(k-1) < W^k with k = N - |c| > 0 *)
Lemma subst_weight t a c :
  In a t -> (length c < length t)%nat ->
  (length (a_value a) * wt t (a_name a :: c) < wt t c)%nat.
Proof.
  intros Ha Hl. pose proof (value_len_le _ _ Ha) as Hv.
  unfold wt. cbn [length].
  replace (length t - length c)%nat with (S (length t - S (length c))) by lia.
  cbn [Nat.pow]. pose proof (pow_pos (W t) (length t - S (length c)) ltac:(unfold W; lia)).
  unfold W in *. nia.
Qed.

Definition all_chain_ok (t : table) : list bchar -> Prop := Forall (fun x => chain_ok t (b_chain x)).

Lemma all_chain_ok_tag t ch v : chain_ok t ch -> all_chain_ok t (tag ch v).
Proof. intros H. apply Forall_forall. intros x Hx. apply in_map_iff in Hx. destruct Hx as (c & <- & _). exact H. Qed.

Lemma all_chain_ok_skipn t n l : all_chain_ok t l -> all_chain_ok t (skipn n l).
Proof. intros H. rewrite <- (firstn_skipn n l) in H. exact (proj2 (proj1 (Forall_app _ _ _) H)). Qed.

Lemma all_chain_ok_buffer t pre suf : all_chain_ok t pre -> all_chain_ok t suf -> all_chain_ok t (rev pre ++ suf).
Proof. intros Hp Hs. apply Forall_app. split; [apply Forall_rev|]; assumption. Qed.

Lemma shift_suf marks : forall pre suf pre1 suf1,
  shift marks pre suf = (pre1, suf1) -> suf1 = skipn (length marks) suf.
Proof.
  induction marks as [|m marks IH]; intros pre suf pre1 suf1; cbn [shift]; [intros [= _ <-]; reflexivity|].
  destruct suf as [|x suf]; [intros [= _ <-]; reflexivity|]. apply IH.
Qed.

Lemma shift_all_chain_ok t marks : forall pre suf pre1 suf1,
  shift marks pre suf = (pre1, suf1) -> all_chain_ok t pre -> all_chain_ok t suf -> all_chain_ok t pre1 /\ all_chain_ok t suf1.
Proof.
  induction marks as [|m marks IH]; intros pre suf pre1 suf1; cbn [shift]; [intros [= <- <-]; auto|].
  destruct suf as [|x suf]; [intros [= <- <-]; auto|].
  intros E Hp Hs. apply (IH _ _ _ _ E); [constructor; [exact (Forall_inv Hs)|exact Hp]|exact (Forall_inv_tail Hs)].
Qed.

Lemma shift_lt t marks pre suf pre1 suf1 :
  shift marks pre suf = (pre1, suf1) -> (1 <= length marks)%nat -> suf <> [] -> (wsum t suf1 < wsum t suf)%nat.
Proof.
  intros E Hn Hne. rewrite (shift_suf _ _ _ _ _ E). apply wsum_skipn_lt; assumption.
Qed.

Lemma splice_all_chain_ok_lt t a x suf n :
  In a t -> ~ In (a_name a) (b_chain x) -> all_chain_ok t (x :: suf) -> (1 <= n)%nat ->
  all_chain_ok t (tag (a_name a :: b_chain x) (a_value a) ++ skipn n (x :: suf))
  /\ (wsum t (tag (a_name a :: b_chain x) (a_value a) ++ skipn n (x :: suf)) < wsum t (x :: suf))%nat.
Proof.
  intros Ha Hni Hg Hn.
  assert (Hnew : chain_ok t (a_name a :: b_chain x)) by (apply chain_ok_cons; auto; exact (Forall_inv Hg)).
  split; [apply Forall_app; split; [apply all_chain_ok_tag, Hnew|apply all_chain_ok_skipn, Hg]|].
  (* with [a] on top the chain is still duplicate free, hence not longer than the table *)
  rewrite wsum_app, wsum_tag, wsum_cons. pose proof (subst_weight _ _ _ Ha (chain_ok_len _ _ Hnew)).
  destruct n; [lia|]. cbn [skipn]. pose proof (wsum_skipn_le t n suf). lia.
Qed.

Lemma decide_eof ps a g : decide ps TEof a g = AStop.
Proof. destruct ps; reflexivity. Qed.

Lemma decide_lx_cont_not_eof ps lx :
  (forall c n, decide_lx ps lx <> ATry c n) \/ lx_kind lx <> TEof ->
  (forall n, decide_lx ps lx <> ATake n) \/ lx_kind lx <> TEof -> True.
Proof. auto. Qed.

Lemma decide_lx_eof ps lx : lx_kind lx = TEof -> decide_lx ps lx = AStop.
Proof. unfold decide_lx. intros ->. apply decide_eof. Qed.

Definition chains_inv (t : table) (s : mstate) : Prop :=
  Forall (fun x => chain_ok t (b_chain x)) (m_pre s) /\
  Forall (fun x => chain_ok t (b_chain x)) (m_suf s).

Definition mu (t : table) (s : mstate) : nat := wsum t (m_suf s).

Lemma applicable_some t pre suf lit cmd a :
  applicable t pre suf lit cmd = Some a ->
  exists nm, lit = Some nm /\ in_chain nm (head_chain suf) = false /\ lookup t nm = Some a
             /\ (cmd || a_global a || after_blank_alias t pre (head_chain suf) = true).
Proof.
  unfold applicable. destruct lit as [nm|]; [|discriminate].
  destruct (in_chain nm (head_chain suf)) eqn:Ec; [discriminate|].
  destruct (lookup t nm) as [a'|] eqn:El; [|discriminate].
  destruct (cmd || a_global a' || after_blank_alias t pre (head_chain suf)) eqn:Ee; [|discriminate].
  intros E; inversion E; subst. exists nm; auto.
Qed.

(* One statement for both uses: its [Cont] part gives termination
   ([mstep_decreases]), its [Fin] part [model_chains_ok]. *)
Lemma mstep_inv t s :
  chains_inv t s ->
  outcome_sat (fun s' => chains_inv t s' /\ (mu t s' < mu t s)%nat) (all_chain_ok t) (mstep t s).
Proof.
  intros [Hpre Hsuf]. unfold mstep.
  destruct (lex (map b_ch (m_suf s))) as [lx|[]] eqn:El; [|exact (all_chain_ok_buffer _ _ _ Hpre Hsuf)|exact I].
  destruct (shift (lx_gap lx) (m_pre s) (m_suf s)) as [pre1 suf1] eqn:Es1.
  destruct (shift_all_chain_ok t _ _ _ _ _ Es1 Hpre Hsuf) as [Hpre1 Hsuf1].
  pose proof (shift_suf _ _ _ _ _ Es1) as Hs1.
  assert (Hle1 : (wsum t suf1 <= wsum t (m_suf s))%nat) by (rewrite Hs1; apply wsum_skipn_le).
  (* a step that continues has a token in front of it *)
  assert (Hk : decide_lx (m_ps s) lx <> AStop -> (1 <= length (lx_tok lx))%nat /\ suf1 <> []).
  { intros Hd. assert (Hk : lx_kind lx <> TEof) by (intros H; apply Hd, decide_lx_eof, H).
    destruct (lex_spec _ _ El) as (Hlen & Hn & _). rewrite map_length in Hlen. specialize (Hn Hk).
    split; [exact Hn|]. intros E. apply (f_equal (@length bchar)) in E.
    rewrite Hs1, skipn_length in E. cbn in E. lia. }
  (* consuming the token: [ATake], and [ATry] when no alias is applicable *)
  assert (Take : forall ps', (1 <= length (lx_tok lx))%nat -> suf1 <> [] ->
    outcome_sat (fun s' => chains_inv t s' /\ (mu t s' < mu t s)%nat) (all_chain_ok t)
      (let '(pre2, suf2) := shift (lx_tok lx) pre1 suf1 in Cont (mkM pre2 suf2 ps'))).
  { intros ps' Hn Hne. destruct (shift (lx_tok lx) pre1 suf1) as [pre2 suf2] eqn:Es2.
    split; [exact (shift_all_chain_ok _ _ _ _ _ _ Es2 Hpre1 Hsuf1)|].
    pose proof (shift_lt t _ _ _ _ _ Es2 Hn Hne). unfold mu; cbn [m_suf]. lia. }
  destruct (decide_lx (m_ps s) lx) as [cmd ps'|ps'| |] eqn:Ed.
  - destruct Hk as [Hn Hne]; [discriminate|].
    destruct (applicable t pre1 suf1 (lx_lit lx) cmd) as [a|] eqn:Ea; [|apply Take; assumption].
    destruct (applicable_some _ _ _ _ _ _ Ea) as (nm & _ & Hin & Hlk & _).
    destruct (lookup_some _ _ _ Hlk) as [Hat Hnm].
    destruct suf1 as [|x suf1]; [destruct Hne; reflexivity|]. cbn [head_chain in_chain] in *.
    rewrite <- Hnm in Hin. apply mem_str_false in Hin.
    destruct (splice_all_chain_ok_lt t a x suf1 _ Hat Hin Hsuf1 Hn) as [Hg Hlt].
    split; [split; assumption|]. unfold mu; cbn [m_suf]. lia.
  - destruct Hk as [Hn Hne]; [discriminate|]. apply Take; assumption.
  - exact (all_chain_ok_buffer _ _ _ Hpre1 Hsuf1).
  - exact I.
Qed.

Lemma mstep_decreases t s s' :
  chains_inv t s -> mstep t s = Cont s' -> chains_inv t s' /\ (mu t s' < mu t s)%nat.
Proof. intros H E. pose proof (mstep_inv t s H) as K. rewrite E in K. exact K. Qed.

Lemma chains_inv_init t line : chains_inv t (m_init line).
Proof. split; [constructor|]. apply all_chain_ok_tag, chain_ok_nil. Qed.

Lemma mu_init t line : mu t (m_init line) = (length line * W t ^ length t)%nat.
Proof. unfold mu, m_init; cbn [m_suf]. rewrite wsum_tag. unfold wt. cbn [length]. rewrite Nat.sub_0_r. reflexivity. Qed.

Lemma fuel_of_nat t line :
  Pos.to_nat (fuel_of t line) = S (S (length line) * W t ^ length t).
Proof.
  unfold fuel_of, W.
  set (n := (N.of_nat (S (length line)) * N.of_nat (S (max_value_len t)) ^ N.of_nat (length t))%N).
  assert (H : N.to_nat (N.pos (N.succ_pos n)) = S (N.to_nat n)) by (rewrite N.succ_pos_spec; lia).
  cbn [N.to_nat] in H. rewrite H. f_equal. subst n.
  rewrite N2Nat.inj_mul, N2Nat.inj_pow, !Nat2N.id. reflexivity.
Qed.

Lemma fuel_of_enough t line : (mu t (m_init line) < Pos.to_nat (fuel_of t line))%nat.
Proof.
  rewrite mu_init, fuel_of_nat.
  pose proof (pow_pos (W t) (length t) ltac:(unfold W; lia)). nia.
Qed.

Theorem model_terminates t line : model_run t line <> ROutOfFuel.
Proof.
  unfold model_run.
  apply (run_enough_fuel (mstep t) (chains_inv t) (mu t)).
  - intros s s'. apply mstep_decreases.
  - apply chains_inv_init.
  - apply fuel_of_enough.
Qed.

Theorem model_chains_ok t line b :
  model_run t line = RFin b -> all_chain_ok t b.
Proof.
  apply (run_fin_sat (mstep t) (chains_inv t) (all_chain_ok t)); [|apply chains_inv_init].
  intros s Hs. pose proof (mstep_inv t s Hs) as K. destruct (mstep t s); [apply K|exact K|exact I].
Qed.
