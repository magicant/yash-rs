(* C17 — with the empty alias table nothing is replaced: every step of the
   specification only moves characters from the unread text to the text read. *)
From Yv Require Import Common.Base C17.Model C17.Spec C17.PLoop.
Local Open Scope N_scope.

Definition plain_inv (text : str) (s : sstate) : Prop :=
  s_stack s = [] /\ text_of (rev (s_out s)) ++ s_base s = text.

Lemma text_of_app a b : text_of (a ++ b) = text_of a ++ text_of b.
Proof. apply map_app. Qed.

Lemma read1_plain text lc s : plain_inv text s -> plain_inv text (read1 lc s).
Proof.
  intros [Hs Ht]. unfold read1. rewrite Hs. destruct (s_base s) as [|c r] eqn:Eb.
  - split; auto. rewrite Eb. exact Ht.
  - split; [reflexivity|]. cbn [s_out s_base rev]. rewrite text_of_app, <- app_assoc. exact Ht.
Qed.

Lemma read_plain text marks : forall s, plain_inv text s -> plain_inv text (read marks s).
Proof.
  induction marks as [|m marks IH]; intros s H; [exact H|]. cbn [read]. apply IH. apply read1_plain. exact H.
Qed.

Lemma eligible_empty s lit cmd : eligible [] s lit cmd = None.
Proof. unfold eligible. destruct lit; [|reflexivity]. destruct (mem_str s0 (names (s_stack s))); reflexivity. Qed.

Lemma plain_fin text s : plain_inv text s ->
  text_of (rev (s_out s) ++ flat_obs (s_stack s) (s_base s)) = text.
Proof.
  intros [Hs Ht]. rewrite Hs. cbn [flat_obs]. rewrite text_of_app.
  unfold text_of at 2. rewrite map_map. cbn [fst]. rewrite map_id. exact Ht.
Qed.

Lemma sstep_plain text s :
  plain_inv text s -> outcome_sat (plain_inv text) (fun b => text_of b = text) (sstep [] s).
Proof.
  intros H. unfold sstep. destruct (lex (flat (s_stack s) (s_base s))) as [lx|[]]; [|apply plain_fin; exact H|exact I].
  pose proof (read_plain text (lx_gap lx) s H) as H1.
  destruct (decide_lx (s_ps s) lx) as [cmd ps'|ps'| |].
  - rewrite eligible_empty. exact (read_plain text (lx_tok lx) _ H1).
  - exact (read_plain text (lx_tok lx) _ H1).
  - apply plain_fin. exact H1.
  - exact I.
Qed.
