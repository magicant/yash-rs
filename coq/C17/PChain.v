(* C17 — the blank-ending continuation on a concrete family of inputs:
   for every n, n aliases whose values end in a blank, named one after the
   other on a command line, are all replaced. *)
From Yv Require Import Common.Base C17.Model C17.Spec C17.PList C17.PLoop C17.PLex C17.PMeasure C17.PSim.
From Coq Require Import Lia PeanoNat.
Local Open Scope N_scope.

Definition plainc (c : N) : bool :=
  negb (is_delim c) && negb (c =? 92) && negb (c =? 39) && negb (c =? 34)
  && negb (c =? 36) && negb (c =? 96) && negb (c =? 61).

(* a word that [lex] returns as a literal [TWord] whatever follows the blank
   behind it: nothing quoted, no `$` or backquote, no `=` (assignment), no `#`
   or `~` in front (comment, tilde word), not a reserved word *)
Record plain_word (w : str) : Prop := mkPlain {
  pw_nonempty : w <> [];
  pw_chars : forallb plainc w = true;
  pw_first : (hd 0 w =? 35) || (hd 0 w =? 126) = false;
  pw_nokey : keyword_of w = None
}.

Lemma plainc_inv c : plainc c = true ->
  is_delim c = false /\ (c =? 92) = false /\ (c =? 39) = false /\ (c =? 34) = false
  /\ (c =? 36) = false /\ (c =? 96) = false /\ (c =? 61) = false.
Proof.
  unfold plainc. intros H.
  destruct (is_delim c); [discriminate H|]. destruct (c =? 92); [discriminate H|].
  destruct (c =? 39); [discriminate H|]. destruct (c =? 34); [discriminate H|].
  destruct (c =? 36); [discriminate H|]. destruct (c =? 96); [discriminate H|].
  destruct (c =? 61); [discriminate H|]. repeat split.
Qed.

Lemma word_body_plain w : forall fuel rest wi,
  (length w < fuel)%nat -> forallb plainc w = true -> w_assign wi = None ->
  word_body fuel (w ++ 32 :: rest) wi =
  inl (falses (length w), 32 :: rest,
       mkW (match w_lit wi with Some s => Some (rev w ++ s) | None => None end)
           (length w + w_units wi) None).
Proof.
  induction w as [|c w IH]; intros fuel rest wi Hf Hp Ha.
  - destruct fuel; [cbn in Hf; lia|]. destruct wi as [l u a]. cbn in Ha. subst a.
    cbn. destruct l; reflexivity.
  - destruct fuel; [cbn in Hf; lia|]. cbn [forallb] in Hp. apply andb_true_iff in Hp. destruct Hp as [Hc Hp].
    destruct (plainc_inv _ Hc) as (H1 & H2 & H3 & H4 & H5 & H6 & H7).
    cbn [word_body app]. rewrite H2, H3, H4, H5, H6, H1. cbn [orb].
    rewrite (IH fuel rest (w_literal c wi)); [|cbn in Hf; lia|exact Hp|].
    + cbn [app length falses repeat]. unfold w_literal. cbn [w_lit w_units w_assign].
      replace (length w + S (w_units wi))%nat with (S (length w) + w_units wi)%nat by lia.
      destruct (w_lit wi); [|reflexivity]. cbn [rev]. rewrite <- app_assoc. reflexivity.
    + unfold w_literal. cbn [w_assign]. rewrite Ha, H7. reflexivity.
Qed.

Lemma plain_first w : plain_word w -> exists c w', w = c :: w' /\ plainc c = true /\ (c =? 35) || (c =? 126) = false.
Proof.
  intros [H1 H2 H3 _]. destruct w as [|c w']; [contradiction|]. exists c, w'. cbn [forallb hd] in H2, H3.
  apply andb_true_iff in H2. tauto.
Qed.

Lemma lex_plain w rest : plain_word w ->
  lex (w ++ 32 :: rest) = inl (mkLexed [] (falses (length w)) TWord (Some w) NoAsg).
Proof.
  intros Hw. destruct (plain_first _ Hw) as (c & w' & -> & Hc & Hf).
  destruct (plainc_inv _ Hc) as (H1 & H2 & _). apply orb_false_iff in H1. destruct H1 as [Hop Hb]. apply first_op_none in Hop.
  unfold lex.
  apply orb_false_iff in Hf. destruct Hf as [Hf35 Hf126].
  assert (Hsk : skip_gap ((c :: w') ++ 32 :: rest) = ([], (c :: w') ++ 32 :: rest)).
  { unfold skip_gap. cbn [app skip_blanks]. destruct (w' ++ 32 :: rest) eqn:E; [destruct w'; discriminate|].
    unfold is_lc. rewrite H2, Hb. cbn [andb]. rewrite Hf35. reflexivity. }
  rewrite Hsk. cbn [app]. rewrite Hf126, Hop.
  change (c :: w' ++ 32 :: rest) with ((c :: w') ++ 32 :: rest).
  rewrite (word_body_plain (c :: w')); [| rewrite app_length; cbn; lia | exact (pw_chars _ Hw) | reflexivity].
  cbn [w_lit w_assign w_units w0 fst snd]. rewrite app_nil_r, rev_involutive.
  rewrite (pw_nokey _ Hw). cbn [head_is_redir]. change ((32 =? 60) || (32 =? 62)) with false.
  rewrite !andb_false_r. reflexivity.
Qed.

Lemma skip_blanks_blank b l : is_blank b = true ->
  skip_blanks (b :: l) = (false :: fst (skip_blanks l), snd (skip_blanks l)).
Proof.
  intros Hb. assert (H92 : (b =? 92) = false).
  { destruct (b =? 92) eqn:E; [|reflexivity]. apply N.eqb_eq in E. subst. discriminate. }
  cbn [skip_blanks]. destruct l as [|d r2].
  - rewrite Hb. reflexivity.
  - unfold is_lc at 1. rewrite H92, Hb. cbn [andb]. destruct (skip_blanks (d :: r2)). reflexivity.
Qed.

Lemma skip_gap_blank b l : is_blank b = true ->
  skip_gap (b :: l) = (false :: fst (skip_gap l), snd (skip_gap l)).
Proof.
  intros Hb. unfold skip_gap. rewrite (skip_blanks_blank _ _ Hb).
  destruct (skip_blanks l) as [gm l1]. cbn [fst snd].
  destruct l1 as [|c r]; [reflexivity|]. destruct (c =? 35); [|reflexivity].
  destruct (skip_comment (c :: r)). reflexivity.
Qed.

Definition add_gap (lx : lexed) : lexed :=
  mkLexed (false :: lx_gap lx) (lx_tok lx) (lx_kind lx) (lx_lit lx) (lx_assign lx).

Lemma lex_blank b l : is_blank b = true ->
  lex (b :: l) = match lex l with inl lx => inl (add_gap lx) | inr e => inr e end.
Proof.
  intros Hb. unfold lex. rewrite (skip_gap_blank _ _ Hb).
  destruct (skip_gap l) as [gm l1]. cbn [fst snd].
  destruct l1 as [|c r]; [reflexivity|].
  destruct (c =? 126); [reflexivity|].
  destruct (first_op c).
  - destruct (op_tail 3 o r) as [[o' m] rr]. reflexivity.
  - destruct (word_body (S (length (c :: r))) (c :: r) w0) as [[[m rest] w]|]; [|reflexivity].
    match goal with |- context [if ?b then _ else _] => destruct b end; reflexivity.
Qed.

Section Chain.
  Variable t : table.

  Definition link_ok (p : str * str) : Prop :=
    plain_word (fst p) /\ plain_word (snd p) /\ lookup t (snd p) = None /\
    exists al, lookup t (fst p) = Some al /\ a_value al = snd p ++ [32].

  Definition chain_line (ws : list (str * str)) : str :=
    concat (map (fun p => fst p ++ [32]) ws) ++ [10].
  Definition chain_out (ws : list (str * str)) : str :=
    concat (map (fun p => snd p ++ [32; 32]) ws) ++ [10].

  (* between two words: the blank that ends the previous value and the blank of the line are unread *)
  Definition stB (out : list (N * chain)) (prev : str) (rest : str) (fn : bool) : sstate :=
    mkS out [mkF prev [32] true] (32 :: rest) false (PSimple false fn false).
  (* a value has just been put on the stack *)
  Definition stW (out : list (N * chain)) (a x : str) (rest : str) (flag : bool) (ps : pstate) : sstate :=
    mkS out [mkF a (x ++ [32]) true] (32 :: rest) flag ps.

  Lemma plain_nonblank w : forallb plainc w = true -> Forall nonblank w.
  Proof.
    intros H. apply Forall_forall. intros c Hc. rewrite forallb_forall in H.
    destruct (plainc_inv _ (H _ Hc)) as (H1 & _). apply not_delim_nonblank. exact H1.
  Qed.

  (* reading a plain word out of the value on top of the stack *)
  Lemma read_word w : forall out a r base flag ps,
    Forall nonblank w -> w <> [] ->
    read (falses (length w)) (mkS out [mkF a (w ++ 32 :: r) true] base flag ps)
    = mkS (rev (map (fun c => (c, [a])) w) ++ out) [mkF a (32 :: r) true] base false ps.
  Proof.
    induction w as [|c w IH]; intros out a r base flag ps Hw Hne; [contradiction|].
    pose proof (Forall_inv Hw) as Hc. pose proof (Forall_inv_tail Hw) as Hw'.
    cbn [length falses repeat read]. unfold read1 at 1. cbn [s_stack f_rest app s_flag s_out s_base s_ps f_name f_blank names map].
    unfold keeps_flag. rewrite Hc. cbn [orb].
    destruct w as [|c2 w2].
    - cbn [app pop_done f_rest length repeat read map rev]. reflexivity.
    - cbn [app pop_done f_rest]. change (repeat false (length (c2 :: w2))) with (falses (length (c2 :: w2))).
      change (c2 :: w2 ++ 32 :: r) with ((c2 :: w2) ++ 32 :: r).
      rewrite IH; [|exact Hw'|discriminate]. cbn [map rev]. rewrite <- !app_assoc. reflexivity.
  Qed.

  Lemma eligible_word s x cmd :
    lookup t x = None -> eligible t s (Some x) cmd = None.
  Proof. intros H. unfold eligible. destruct (mem_str x (names (s_stack s))); [reflexivity|]. rewrite H. reflexivity. Qed.

  (* the word out of an alias value is consumed *)
  Lemma step_word out a x rest flag ps cmd ps' :
    plain_word x -> lookup t x = None ->
    decide ps TWord NoAsg true = ATry cmd ps' ->
    sstep t (stW out a x rest flag ps)
    = Cont (mkS (rev (map (fun c => (c, [a])) x) ++ out) [mkF a [32] true] (32 :: rest) false ps').
  Proof.
    intros Hx Hl Hd. unfold sstep, stW. cbn [s_stack s_base s_ps].
    unfold flat. cbn [map concat f_rest]. rewrite app_nil_r, <- app_assoc. cbn [app].
    rewrite (lex_plain x (32 :: rest) Hx). cbn [lx_gap lx_tok lx_kind lx_lit lx_assign read].
    unfold decide_lx. cbn [lx_gap lx_kind lx_assign forallb]. rewrite Hd.
    rewrite eligible_word by exact Hl.
    rewrite read_word; [reflexivity|apply plain_nonblank; exact (pw_chars _ Hx)|exact (pw_nonempty _ Hx)].
  Qed.

  Lemma lex_plain_gap2 w rest : plain_word w ->
    lex (32 :: 32 :: w ++ 32 :: rest) = inl (mkLexed [false; false] (falses (length w)) TWord (Some w) NoAsg).
  Proof.
    intros Hw. rewrite lex_blank by reflexivity. rewrite lex_blank by reflexivity.
    rewrite (lex_plain w rest Hw). reflexivity.
  Qed.

  (* A plain word that names an alias stands, behind the gap, in front of the
     unread line, and it is a candidate: as the command name, or because the
     flag is up.  It is replaced by the value. *)
  Lemma step_alias s gap out a x rest fl cmd ps' al :
    lex (flat (s_stack s) (s_base s)) = inl (mkLexed gap (falses (length a)) TWord (Some a) NoAsg) ->
    read gap s = mkS out [] (a ++ 32 :: rest) fl (s_ps s) ->
    decide (s_ps s) TWord NoAsg (forallb (fun m => m) gap) = ATry cmd ps' -> cmd || fl = true ->
    lookup t a = Some al -> a_value al = x ++ [32] -> x <> [] ->
    sstep t s = Cont (stW out a x rest fl (s_ps s)).
  Proof.
    intros Hlex Hread Hdec Hc Hl Hv Hx. destruct (lookup_some _ _ _ Hl) as [_ Hn].
    unfold sstep. rewrite Hlex. cbn [lx_gap lx_tok lx_kind lx_lit lx_assign]. rewrite Hread.
    unfold decide_lx. cbn [lx_gap lx_kind lx_assign]. rewrite Hdec.
    unfold eligible. cbn [s_stack names map mem_str existsb s_flag]. rewrite Hl.
    replace (cmd || a_global al || fl) with true by (destruct cmd; [reflexivity|cbn in Hc; rewrite Hc; symmetry; apply orb_true_r]).
    cbn [drop_input s_stack s_base s_out]. unfold falses. rewrite repeat_length, skipn_app_exact.
    rewrite Hv, Hn, ends_blank_last. change (is_blank 32) with true. cbn [pop_done f_rest].
    destruct (x ++ [32]) eqn:E; [destruct x; discriminate|]. rewrite <- E. reflexivity.
  Qed.

  Lemma step_newline_B out prev fn :
    sstep t (stB out prev [10] fn)
    = Cont (mkS ((10, []) :: (32, []) :: (32, [prev]) :: out) [] [] false PCmd).
  Proof. reflexivity. Qed.

  Lemma step_eof out fl ps : sstep t (mkS out [] [] fl ps) = Fin (rev out).
  Proof. unfold sstep. cbn. rewrite app_nil_r. destruct ps; reflexivity. Qed.

  Lemma text_rev_cons c ch out : text_of (rev ((c, ch) :: out)) = text_of (rev out) ++ [c].
  Proof. unfold text_of. cbn [rev]. rewrite map_app. reflexivity. Qed.

  Lemma text_rev_word (a : str) x out :
    text_of (rev (rev (map (fun c => (c, [a])) x) ++ out)) = text_of (rev out) ++ x.
  Proof.
    unfold text_of. rewrite rev_app_distr, rev_involutive, map_app, map_map. cbn [fst]. rewrite map_id. reflexivity.
  Qed.

  Lemma chain_line_cons a x ws : chain_line ((a, x) :: ws) = a ++ 32 :: chain_line ws.
  Proof. unfold chain_line. cbn [map concat fst]. rewrite <- !app_assoc. reflexivity. Qed.

  Lemma chain_out_cons a x ws : chain_out ((a, x) :: ws) = x ++ 32 :: 32 :: chain_out ws.
  Proof. unfold chain_out. cbn [map concat snd]. rewrite <- !app_assoc. reflexivity. Qed.

  Lemma from_B ws : forall out prev fn,
    Forall link_ok ws ->
    exists n b, iter (sstep t) n (stB out prev (chain_line ws) fn) = Fin b
                /\ text_of b = text_of (rev out) ++ 32 :: 32 :: chain_out ws.
  Proof.
    induction ws as [|[a x] ws IH]; intros out prev fn Hok.
    - exists 2%nat. eexists. split.
      + cbn [iter]. unfold chain_line. cbn [map concat app]. rewrite step_newline_B, step_eof. reflexivity.
      + rewrite !text_rev_cons, <- !app_assoc. reflexivity.
    - pose proof (Forall_inv Hok) as (Ha & Hx & Hlx & al & Hl & Hv). cbn [fst snd] in *.
      pose proof (Forall_inv_tail Hok) as Hok'.
      rewrite chain_line_cons.
      destruct (IH (rev (map (fun c => (c, [a])) x) ++ (32, []) :: (32, [prev]) :: out) a false Hok') as (n & b & Hn & Hb).
      exists (S (S n)), b. split.
      + cbn [iter]. rewrite (step_alias (stB out prev (a ++ 32 :: chain_line ws) fn) [false; false] _ a x _ true false _ al
                               (lex_plain_gap2 a _ Ha) eq_refl eq_refl eq_refl Hl Hv (pw_nonempty _ Hx)).
        rewrite (step_word _ a x (chain_line ws) true (PSimple false fn false) false (PSimple false false false) Hx Hlx eq_refl).
        exact Hn.
      + rewrite Hb, text_rev_word, !text_rev_cons, chain_out_cons, <- !app_assoc. reflexivity.
  Qed.

  Lemma from_init ws :
    Forall link_ok ws ->
    exists n b, iter (sstep t) n (s_init (chain_line ws)) = Fin b /\ text_of b = chain_out ws.
  Proof.
    destruct ws as [|[a x] ws]; intros Hok.
    - exists 2%nat. eexists. split; [reflexivity|reflexivity].
    - pose proof (Forall_inv Hok) as (Ha & Hx & Hlx & al & Hl & Hv). cbn [fst snd] in *.
      pose proof (Forall_inv_tail Hok) as Hok'.
      destruct (from_B ws (rev (map (fun c => (c, [a])) x)) a true Hok') as (n & b & Hn & Hb).
      exists (S (S n)), b. split.
      + unfold s_init. rewrite chain_line_cons. cbn [iter].
        rewrite (step_alias (mkS [] [] (a ++ 32 :: chain_line ws) false PCmd) [] _ a x _ false true _ al
                   (lex_plain a _ Ha) eq_refl eq_refl eq_refl Hl Hv (pw_nonempty _ Hx)).
        rewrite (step_word _ a x (chain_line ws) false PCmd true (PSimple false true false) Hx Hlx eq_refl).
        rewrite app_nil_r. exact Hn.
      + rewrite Hb, chain_out_cons. unfold text_of at 1. rewrite rev_involutive, map_map. cbn [fst]. rewrite map_id. reflexivity.
  Qed.
End Chain.

(* non-vacuity: a chain of three aliases *)
Example chain_example_ok :
  let t := [mkAlias [97] [120; 32] false; mkAlias [98] [121; 32] false; mkAlias [99] [122; 32] true] in
  Forall (link_ok t) [([97], [120]); ([98], [121]); ([99], [122])].
Proof.
  assert (P : forall c, In c [97; 98; 99; 120; 121; 122] -> plain_word [c]).
  { intros c Hc. cbn in Hc. repeat destruct Hc as [<-|Hc]; try contradiction;
      (constructor; [discriminate|reflexivity|reflexivity|reflexivity]). }
  cbv zeta. repeat constructor; cbn [fst snd]; try (apply P; cbn; tauto);
    try (eexists; split; reflexivity).
Qed.

Example chain_example_run :
  let t := [mkAlias [97] [120; 32] false; mkAlias [98] [121; 32] false; mkAlias [99] [122; 32] true] in
  match spec_run t (chain_line [([97], [120]); ([98], [121]); ([99], [122])]) with
  | RFin b => text_of b = [120; 32; 32; 121; 32; 32; 122; 32; 32; 10]
  | _ => False
  end.
Proof. vm_compute. reflexivity. Qed.
