(* C14 — the pipe model refines the abstract byte stream of Spec.v for every
   history of system calls (= the stream-A oracle never rejects the model). *)
From Yv Require Import Common.Base C14.Model C14.Spec C14.ProofsLists C14.ProofsFifo.
From Coq Require Import Arith.

Fixpoint model_hist (c : cfg) (p : pipe) (ops : list op) : list (op * obs) :=
  match ops with
  | [] => []
  | o :: r => let (b, p') := pipe_step c p o in (o, b) :: model_hist c p' r
  end.

(* every operation is applied to an end that is still open *)
Fixpoint ops_ok (c : cfg) (p : pipe) (ops : list op) : bool :=
  match ops with
  | [] => true
  | o :: r => op_ok p o && ops_ok c (snd (pipe_step c p o)) r
  end.

Record Sim (c : cfg) (p : pipe) (t : stream) : Prop := mkSim {
  sim_buf : buf p = skipn (delivered t) (accepted t);
  sim_del : delivered t <= length (accepted t);
  sim_r : rrefs p = r_open t;
  sim_w : wrefs p = w_open t;
  sim_cap : length (buf p) <= psize c }.

Lemma sim_occ c p t : Sim c p t -> occupancy t = length (buf p).
Proof. intros [Hb _ _ _ _]. unfold occupancy. rewrite Hb, skipn_length. reflexivity. Qed.

Lemma sim_init c : Sim c new_pipe stream0.
Proof. constructor; cbn; auto; lia. Qed.

(* What the stream oracle accepts for a write, in propositions. *)
Lemma spec_write_accepts c t d n :
  d <> [] -> 0 < r_open t ->
  1 <= n <= length d -> occupancy t + n <= psize c ->
  (length d <= pbuf c -> n = length d) -> (n < length d -> n = psize c - occupancy t) ->
  spec_step c t (OWrite d) (BW (WOk n))
  = (None, mkStream (accepted t ++ firstn n d) (delivered t) (r_open t) (w_open t)).
Proof.
  intros Hd Hr Hn Hcap Hatom Hpart. cbn [spec_step]. f_equal.
  destruct (is_nil d) eqn:E; [destruct d; [congruence | discriminate]|].
  unfold occupancy in *. cbn [accepted delivered]. rewrite app_length, firstn_length_le by lia.
  (* the clauses in the oracle's order: a reader, not more than asked, capacity,
     atomicity, no room left unused, no empty success *)
  destruct (Nat.ltb_spec 0 (r_open t)); [cbn [negb] | lia].
  destruct (Nat.ltb_spec (length d) n); [lia|].
  destruct (Nat.ltb_spec (psize c) (length (accepted t) + n - delivered t)); [lia|].
  destruct (Nat.eqb_spec n (length d)), (Nat.leb_spec (length d) (pbuf c));
    cbn [negb andb]; try lia.
  all: destruct (Nat.ltb_spec n (length d)); cbn [andb]; try lia.
  all: destruct (Nat.eqb_spec n 0); cbn [negb andb]; try lia; try reflexivity.
  all: destruct (Nat.eqb_spec n (psize c - (length (accepted t) - delivered t))); cbn [negb]; try lia;
    reflexivity.
Qed.

Lemma spec_again_accepts c t d :
  0 < r_open t -> psize c - occupancy t < length d ->
  (psize c - occupancy t = 0 \/ length d <= pbuf c) ->
  spec_step c t (OWrite d) (BW WAgain) = (None, t).
Proof.
  intros Hr Hroom Hwhy. cbn [spec_step]. f_equal.
  destruct (Nat.ltb_spec 0 (r_open t)); [cbn [negb] | lia].
  destruct (Nat.leb_spec (length d) (psize c - occupancy t)); [lia|].
  destruct (Nat.ltb_spec (pbuf c) (length d)), (Nat.ltb_spec 0 (psize c - occupancy t));
    cbn [andb]; try lia; reflexivity.
Qed.

Lemma sim_write c p t d b p' :
  Sim c p t -> pipe_step c p (OWrite d) = (b, p') ->
  exists t', spec_step c t (OWrite d) b = (None, t') /\ Sim c p' t'.
Proof.
  intros HS Hst. pose proof (sim_occ c p t HS) as Hocc.
  destruct HS as [Hb Hd Hr Hw Hcap]. cbn [pipe_step] in Hst.
  destruct (is_nil d) eqn:Enil.
  { (* an empty request returns 0 before the pipe is looked at *)
    destruct d; [|discriminate]. injection Hst as <- <-. eexists. split; [reflexivity|].
    constructor; cbn [accepted delivered r_open w_open firstn]; rewrite ?app_nil_r; auto. }
  assert (Hne : d <> []) by (intros ->; discriminate).
  destruct (fifo_write c p d) as [r q] eqn:E. injection Hst as <- <-.
  destruct (ropen p) eqn:Ero.
  - pose proof (fifo_write_ok c p d Ero Hcap Hne) as Hf.
    unfold ropen in Ero. apply Nat.ltb_lt in Ero.
    destruct (wblocked c p d) eqn:Ebl.
    + rewrite Hf in E. injection E as <- <-. apply wblocked_true in Ebl as [H1 H2].
      exists t. split; [|constructor; auto].
      apply spec_again_accepts; rewrite ?Hocc; auto; lia.
    + destruct Hf as (n & En & Hn & Hf). rewrite Hf in E. injection E as <- <-.
      apply not_true_iff_false in Ebl. rewrite wblocked_true in Ebl.
      eexists. split; [apply spec_write_accepts; rewrite ?Hocc; auto; lia|].
      assert (Hfl : length (firstn n d) = n) by (apply firstn_length_le; lia).
      constructor; cbn [set_buf buf rrefs wrefs accepted delivered r_open w_open]; auto;
        rewrite ?app_length, ?Hfl; try lia.
      rewrite skipn_app, Hb. replace (delivered t - length (accepted t)) with 0 by lia. reflexivity.
  - (* no reader: EPIPE *)
    unfold fifo_write in E. rewrite Ero in E. injection E as <- <-.
    unfold ropen in Ero. apply Nat.ltb_ge in Ero.
    exists t. split; [|constructor; auto]. cbn [spec_step].
    destruct (Nat.ltb_spec 0 (r_open t)); [lia | reflexivity].
Qed.

Lemma sim_read c p t cap b p' :
  Sim c p t -> pipe_step c p (ORead cap) = (b, p') ->
  exists t', spec_step c t (ORead cap) b = (None, t') /\ Sim c p' t'.
Proof.
  intros HS Hst. pose proof (sim_occ c p t HS) as Hocc.
  destruct HS as [Hb Hd Hr Hw Hcap]. cbn [pipe_step] in Hst.
  destruct (fifo_read p cap) as [r q] eqn:E. injection Hst as <- <-.
  destruct cap as [|k].
  { (* a read into an empty buffer returns nothing *)
    injection E as <- <-. eexists. split; [reflexivity|].
    constructor; cbn [accepted delivered r_open w_open length]; rewrite ?Nat.add_0_r; auto. }
  pose proof (fifo_read_ok p (S k) ltac:(lia)) as Hf.
  destruct (rblocked p) eqn:Ebl.
  - rewrite Hf in E. injection E as <- <-. apply rblocked_true in Ebl as [H1 H2].
    exists t. split; [|constructor; auto]. cbn [spec_step]. rewrite Hocc, <- Hw, H1.
    destruct (Nat.ltb_spec 0 (wrefs p)); [reflexivity | lia].
  - destruct Hf as (bs & b' & Hf & Hbs & Hlen & Heof). rewrite Hf in E. injection E as <- <-.
    assert (Hl : length (buf p) = length bs + length b') by (rewrite Hbs; apply app_length).
    assert (Hdl : length (buf p) = length (accepted t) - delivered t)
      by (rewrite Hb; apply skipn_length).
    eexists. split.
    + cbn [spec_step]. f_equal. rewrite <- Hb, Hbs, firstn_app, Nat.sub_diag, firstn_all.
      cbn [firstn]. rewrite app_nil_r, bytes_eqb_refl. cbn [negb].
      destruct (Nat.ltb_spec (S k) (length bs)); [lia|].
      destruct bs as [|y bs]; [|reflexivity]. destruct (Heof eq_refl) as [-> Hw0].
      cbn [is_nil Nat.eqb negb andb]. rewrite Hocc, Hl, <- Hw, Hw0. reflexivity.
    + constructor; cbn [set_buf buf rrefs wrefs accepted delivered r_open w_open]; auto; try lia.
      rewrite skipn_add, <- Hb, Hbs, skipn_app, Nat.sub_diag, skipn_all. reflexivity.
Qed.

Lemma sim_step c p t o b p' :
  Sim c p t -> pipe_step c p o = (b, p') ->
  exists t', spec_step c t o b = (None, t') /\ Sim c p' t'.
Proof.
  intros HS Hst. destruct o; [eapply sim_write; eauto | eapply sim_read; eauto |..].
  1-4: (* dup and close only move a descriptor count *)
    destruct HS; injection Hst as <- <-; eexists; (split; [reflexivity|]); constructor; cbn; auto.
  (* select: the stream's readiness is the pipe's *)
  pose proof (sim_occ c p t HS) as Hocc. destruct HS as [Hb Hd Hr Hw Hcap].
  injection Hst as <- <-. exists t. split; [|constructor; auto].
  cbn [spec_step]. rewrite Hocc, <- Hw, <- Hr, ready_r_rblocked.
  unfold rblocked, ready_w, wopen, ropen.
  replace (0 <? length (buf p)) with (negb (length (buf p) =? 0))
    by (destruct (length (buf p)); reflexivity).
  rewrite negb_andb, !Bool.eqb_reflx. reflexivity.
Qed.

Lemma model_hist_accepted c ops : forall p t,
  Sim c p t -> spec_run c t (model_hist c p ops) = None.
Proof.
  induction ops as [|o r IH]; intros p t HS; [reflexivity|].
  cbn [model_hist]. destruct (pipe_step c p o) as [b p'] eqn:Est.
  destruct (sim_step c p t o b p' HS Est) as [t' [Hsp HS']].
  cbn [spec_run]. rewrite Hsp. apply IH; assumption.
Qed.

From Yv Require Import C14.Proofs.

Example ex_pipe_hist :
  ops_ok ex_cfg new_pipe [OWrite [1;2;3]%N; OWrite [4;5;6]%N; ORead 2; ODupW; OCloseW; OWrite [7;8]%N;
                          OCloseW; ORead 9; ORead 1; OCloseR] = true.
Proof. reflexivity. Qed.
