(* C14 — the O_NONBLOCK guard protocol (Guard.v).  One invariant carries every
   claim: of the holders inside, the number that saved `false`, and so will
   clear the flag when they leave, is one while the flag is set on a description
   that was blocking, and none otherwise. *)
From Yv Require Import Common.Base C14.Guard.
From Coq Require Import Lia.

(* number of holders inside that saved `false` (they will clear the flag) *)
Definition clearers (l : list holder) : nat := length (filter (fun h => negb (snd h)) l).

Definition ginv (f0 : bool) (s : gst) : Prop :=
  (f0 = true -> gflag s = true) /\
  clearers (ginside s) = (if f0 then 0 else if gflag s then 1 else 0).

Lemma clearers_cons i b l : clearers ((i, b) :: l) = (if b then 0 else 1) + clearers l.
Proof. unfold clearers. cbn [filter snd negb]. destruct b; reflexivity. Qed.

Lemma gfind_del_clearers i l b :
  gfind i l = Some b -> clearers l = clearers (gdel i l) + (if b then 0 else 1).
Proof.
  induction l as [|[j c] t IH]; cbn [gfind gdel]; intros H; [discriminate|].
  destruct (j =? i).
  - inversion H; subst. rewrite clearers_cons. lia.
  - rewrite !clearers_cons. rewrite (IH H). lia.
Qed.

Lemma gfind_del_len i l b : gfind i l = Some b -> length l = S (length (gdel i l)).
Proof.
  induction l as [|[j c] t IH]; cbn [gfind gdel]; intros H; [discriminate|].
  destruct (j =? i); cbn [length]; [reflexivity|]. rewrite (IH H). reflexivity.
Qed.

Lemma clearers_in i l : In (i, false) l -> 1 <= clearers l.
Proof.
  induction l as [|[j c] t IH]; intros H; [destruct H|].
  rewrite clearers_cons. destruct H as [H|H]; [inversion H; subst; lia|]. specialize (IH H). lia.
Qed.

Lemma ginv_init f0 : ginv f0 (ginit f0).
Proof. unfold ginv, ginit; cbn. split; [auto|]. destruct f0; reflexivity. Qed.

Lemma gstep_inv f0 s o s' : ginv f0 s -> gstep s o = Some s' -> ginv f0 s'.
Proof.
  intros [Ha Hb] H. destruct o as [i|i]; cbn [gstep] in H.
  - destruct (gfind i (ginside s)); [discriminate|]. inversion H; subst; clear H.
    unfold ginv; cbn [gflag ginside]. split; [auto|]. rewrite clearers_cons, Hb.
    destruct f0; [rewrite (Ha eq_refl); reflexivity|]. destruct (gflag s); reflexivity.
  - destruct (gfind i (ginside s)) as [saved|] eqn:E; [|discriminate].
    inversion H; subst; clear H. pose proof (gfind_del_clearers _ _ _ E) as Hn.
    unfold ginv; cbn [gflag ginside]. rewrite Hb in Hn.
    destruct f0.
    + assert (Hf := Ha eq_refl). destruct saved; [|lia]. split; [auto|]. lia.
    + split; [discriminate|]. destruct saved; destruct (gflag s); lia.
Qed.

Lemma grun_inv f0 ops : forall s s', ginv f0 s -> grun s ops = Some s' -> ginv f0 s'.
Proof.
  induction ops as [|o ops IH]; cbn [grun]; intros s s' Hi H.
  - inversion H; subst; exact Hi.
  - destruct (gstep s o) as [s1|] eqn:E; [|discriminate]. eapply IH; [|exact H]. eapply gstep_inv; eauto.
Qed.

Lemma ginv_reach f0 ops s : grun (ginit f0) ops = Some s -> ginv f0 s.
Proof. apply grun_inv, ginv_init. Qed.

Lemma ginv_empty f0 s : ginv f0 s -> ginside s = [] -> gflag s = f0.
Proof.
  intros [Ha Hb] He. rewrite He in Hb. unfold clearers in Hb; cbn in Hb.
  destruct f0; [auto|]. destruct (gflag s); [discriminate|reflexivity].
Qed.

Lemma ginv_first_holder f0 s i : ginv f0 s -> In (i, false) (ginside s) -> gflag s = true.
Proof.
  intros [Ha Hb] Hin. apply clearers_in in Hin. rewrite Hb in Hin.
  destruct f0; [lia|]. destruct (gflag s); [reflexivity|lia].
Qed.

Lemma ginv_one_clearer f0 s : ginv f0 s -> clearers (ginside s) <= 1.
Proof. intros [_ Hb]. rewrite Hb. destruct f0; [lia|]. destruct (gflag s); lia. Qed.

Lemma guard_okb_sound_gen f0 ops : forall s t,
  ginv f0 s -> gtrace s ops = Some t ->
  guard_okb f0 (length (ginside s)) (combine ops t) = true.
Proof.
  induction ops as [|o ops IH]; cbn [gtrace]; intros s t Hi H.
  - inversion H; reflexivity.
  - destruct (gstep s o) as [s1|] eqn:E; [|discriminate].
    destruct (gtrace s1 ops) as [t1|] eqn:E1; [|discriminate]. inversion H; subst; clear H.
    assert (Hi1 : ginv f0 s1) by (eapply gstep_inv; eauto).
    cbn [combine guard_okb].
    assert (Hl : length (ginside s1) = match o with GEnter _ => S (length (ginside s)) | GLeave _ => pred (length (ginside s)) end).
    { destruct o as [i|i]; cbn [gstep] in E.
      - destruct (gfind i (ginside s)); [discriminate|]. inversion E; subst. reflexivity.
      - destruct (gfind i (ginside s)) eqn:F; [|discriminate]. inversion E; subst. cbn [ginside].
        rewrite (gfind_del_len _ _ _ F). reflexivity. }
    rewrite <- Hl. rewrite (IH _ _ Hi1 E1). rewrite Bool.andb_true_r.
    destruct (length (ginside s1) =? 0) eqn:Z; [|reflexivity].
    apply Nat.eqb_eq in Z. apply length_zero_iff_nil in Z.
    rewrite (ginv_empty _ _ Hi1 Z). apply Bool.eqb_reflx.
Qed.
