(* C14 — the writer and the reader on one pipe as a transition system: what
   every run keeps (conservation, the invariant, a measure that bounds its
   length), why no schedule deadlocks, and that the coarse polls are runs of it;
   at the end the concrete runs that show the hypotheses can be met. *)
From Yv Require Import Common.Base C14.Model C14.Spec C14.ProofsFifo.
From Coq Require Import Arith.

(* What every step keeps, every run keeps.  The model has a run function for each
   of its transition systems; all of them satisfy the same two equations, by
   computation, and nothing else about them is used. *)
Definition is_run {St L} (step : St -> L -> option St) (run : St -> list L -> option St) : Prop :=
  (forall s, run s [] = Some s) /\
  (forall s l ls, run s (l :: ls) = match step s l with Some s1 => run s1 ls | None => None end).

Section Runs.
  Context {St L : Type} (step : St -> L -> option St) (run : St -> list L -> option St).
  Hypothesis Hrun : is_run step run.
  Variables (P : St -> Prop) (ok : L -> Prop).

  Lemma run_invariant :
    (forall s l s', P s -> ok l -> step s l = Some s' -> P s') ->
    forall ls s s', P s -> Forall ok ls -> run s ls = Some s' -> P s'.
  Proof.
    destruct Hrun as [Hnil Hcons]. intros Hstep.
    induction ls as [|l ls IH]; intros s s' HI Hls Hr.
    - rewrite Hnil in Hr. injection Hr as <-. assumption.
    - rewrite Hcons in Hr. destruct (step s l) as [s1|] eqn:Es; [|discriminate].
      inversion Hls as [|? ? Hl Hls']; subst. eauto.
  Qed.

  (* With a measure that an ordinary step lowers and a spurious one ([sp]) raises
     by at most one, a run is at most as long as the measure it started with,
     plus two steps for every spurious one. *)
  Lemma run_measure (sp : L -> bool) (m : St -> nat) :
    (forall s l s', P s -> ok l -> step s l = Some s' ->
       P s' /\ m s' + (if sp l then 0 else 1) <= m s + (if sp l then 1 else 0)) ->
    forall ls s s', P s -> Forall ok ls -> run s ls = Some s' ->
      P s' /\ length ls + m s' <= m s + 2 * length (filter sp ls).
  Proof.
    destruct Hrun as [Hnil Hcons]. intros Hstep.
    induction ls as [|l ls IH]; intros s s' HI Hls Hr.
    - rewrite Hnil in Hr. injection Hr as <-. split; [assumption | cbn; lia].
    - rewrite Hcons in Hr. destruct (step s l) as [s1|] eqn:Es; [|discriminate].
      inversion Hls as [|? ? Hl Hls']; subst.
      destruct (Hstep s l s1 HI Hl Es) as [HI1 Hm1]. destruct (IH s1 s' HI1 Hls' Hr) as [HI' Hm'].
      split; [assumption|]. cbn [filter]. destruct (sp l); cbn [length]; lia.
  Qed.
End Runs.

(* From "no deadlock" to "stuck only when finished", over an arbitrary step
   function: the two-party system and the chain both go through it. *)
Lemma stuck_finished {L S} (ok : L -> Prop) (st : L -> option S) (fin : bool) :
  (fin = false -> exists l, ok l /\ st l <> None) -> (forall l, ok l -> st l = None) -> fin = true.
Proof.
  intros Hlive Hstuck. destruct fin; [reflexivity|].
  destruct (Hlive eq_refl) as (l & Hl & Hne). destruct (Hne (Hstuck l Hl)).
Qed.

Lemma run_is_run c : is_run (step c) (run c).
Proof. split; reflexivity. Qed.

(* The termination measure.  A byte weighs 4 on its way into the pipe and 4 on
   its way out, a chunk 4 until it is fetched.  The ranks order the control states
   of a party so that an attempt that moves no byte descends as well: a call
   that will report would-block, then the wait, then the retry that will not.
   The weights leave room for the ranks: a step that moves a byte may lift the
   rank of its party by 2 (its next attempt will report would-block). *)
Definition wrank (c : cfg) (w : wpc) (cur : list N) (p : pipe) : nat :=
  match w with
  | WDone | WFail => 0
  | WClose => 1
  | WWait => 3
  | WTry => if wblocked c p cur then 4 else 2
  end.

Definition rrank (r : rpc) (p : pipe) : nat :=
  match r with
  | RDone => 0
  | RWait => 2
  | RTry => if rblocked p then 3 else 1
  end.

Definition measure (c : cfg) (s : xstate) : nat :=
  8 * bytes_left s + 4 * length (rest s) + 4 * length (buf (pp s))
  + wrank c (wst s) (cur s) (pp s) + rrank (rst s) (pp s).

Lemma wrank_le c w cur p : wrank c w cur p <= 4.
Proof. destruct w; cbn [wrank]; try lia. destruct (wblocked c p cur); lia. Qed.

Lemma rrank_le r p : rrank r p <= 3.
Proof. destruct r; cbn [rrank]; try lia. destruct (rblocked p); lia. Qed.

Lemma wrank_mono c w cur p p' :
  length (buf p') <= length (buf p) -> wrank c w cur p' <= wrank c w cur p.
Proof.
  intros Hl. destruct w; cbn [wrank]; try lia.
  destruct (wblocked c p' cur) eqn:E; [rewrite (wblocked_mono c p p' cur Hl E); lia|].
  destruct (wblocked c p cur); lia.
Qed.

Lemma rrank_mono r p p' :
  (rblocked p' = true -> rblocked p = true) -> rrank r p' <= rrank r p.
Proof.
  intros H. destruct r; cbn [rrank]; try lia.
  destruct (rblocked p'); [rewrite (H eq_refl); lia | destruct (rblocked p); lia].
Qed.

Record Inv (c : cfg) (chunks : list (list N)) (s : xstate) : Prop := mkInv {
  inv_cons : recvd s ++ buf (pp s) ++ cur s ++ concat (rest s) = concat chunks;
  inv_cap : length (buf (pp s)) <= psize c;
  inv_rr : rrefs (pp s) = 1;
  inv_wr : wrefs (pp s) = match wst s with WDone => 0 | _ => 1 end;
  inv_nofail : wst s <> WFail;
  inv_close : (wst s = WClose \/ wst s = WDone) -> cur s = [] /\ rest s = [];
  inv_wait : wst s = WWait -> cur s <> [];
  inv_rdone : rst s = RDone -> wst s = WDone /\ buf (pp s) = [] }.

Lemma inv_init c chunks : Inv c chunks (init chunks).
Proof.
  constructor; cbn; try reflexivity; try lia; try discriminate.
  - intros [H|H]; discriminate.
Qed.

Lemma measure_init c chunks : measure c (init chunks) <= step_bound chunks.
Proof. unfold measure, step_bound, init, bytes_left. cbn. lia. Qed.

(* [inv_cons] on its own.  Every step keeps it whatever the configuration, the
   labels and the rest of the invariant are, which is why pipe_conservation has
   no hypothesis. *)
Definition conserved (chunks : list (list N)) (s : xstate) : Prop :=
  recvd s ++ buf (pp s) ++ cur s ++ concat (rest s) = concat chunks.

(* What a step of the writer moves: bytes from its chunks to the end of the
   buffer, and at most its own descriptor away.  The reader's side is untouched. *)
Lemma step_w_flow c s s' :
  step_w c s = Some s' ->
  recvd s' = recvd s /\ rst s' = rst s /\
  buf (pp s') ++ cur s' ++ concat (rest s') = buf (pp s) ++ cur s ++ concat (rest s) /\
  length (buf (pp s)) <= length (buf (pp s')) /\ wrefs (pp s') <= wrefs (pp s).
Proof.
  destruct s as [cu re p rc ws rs]. unfold step_w. cbn [cur rest pp recvd wst rst]. intros Hs.
  destruct ws; try discriminate.
  - destruct cu as [|x cu].
    + destruct re; injection Hs as <-; cbn [cur rest pp recvd rst concat app]; auto.
    + destruct (fifo_write c p (x :: cu)) as [r p'] eqn:E.
      apply fifo_write_flow in E as (Eb & _ & Ew).
      assert (Hl : length (buf p) <= length (buf p')) by (rewrite Eb, app_length; lia).
      assert (Hw : buf p' ++ skipn (wrote r) (x :: cu) ++ concat re = buf p ++ (x :: cu) ++ concat re)
        by (rewrite Eb, <- app_assoc, (app_assoc (firstn _ _)), firstn_skipn; reflexivity).
      destruct r as [[|n]| | |]; injection Hs as <-; cbn [cur rest pp recvd rst];
        repeat split; (exact Hw || lia).
  - destruct (ready_w c p); [|discriminate]. injection Hs as <-. cbn [cur rest pp recvd rst]. auto.
  - injection Hs as <-. cbn [cur rest pp recvd rst buf wrefs]. repeat split; lia.
Qed.

Lemma step_conserved c chunks s l s' :
  conserved chunks s -> step c s l = Some s' -> conserved chunks s'.
Proof.
  unfold conserved. intros <- Hs. destruct l as [|cap| |]; cbn [step] in Hs.
  - destruct (step_w_flow c s s' Hs) as (Hrc & _ & Hb & _). rewrite Hrc, Hb. reflexivity.
  - destruct s as [cu re p rc ws rs]. unfold step_r in Hs; cbn [cur rest pp recvd wst rst] in *.
    destruct rs; try discriminate.
    + destruct (fifo_read p cap) as [r p'] eqn:E. apply fifo_read_flow in E as [E _].
      rewrite <- E.
      destruct r as [[|y bs]|]; injection Hs as <-; cbn [cur rest pp recvd bytes_of];
        rewrite <- ?app_assoc; reflexivity.
    + destruct (ready_r p); [|discriminate]. injection Hs as <-. reflexivity.
  - destruct (wst s); try discriminate. injection Hs as <-. reflexivity.
  - destruct (rst s); try discriminate. injection Hs as <-. reflexivity.
Qed.

Lemma run_conserved c chunks ls s s' :
  conserved chunks s -> run c s ls = Some s' -> conserved chunks s'.
Proof.
  intros Hc. apply (run_invariant _ _ (run_is_run c) (conserved chunks) (fun _ => True)); auto.
  - intros s0 l s1 H0 _. apply step_conserved. exact H0.
  - apply Forall_forall. auto.
Qed.

Lemma step_w_ok c chunks s s' :
  cfg_ok c -> Inv c chunks s -> step_w c s = Some s' ->
  Inv c chunks s' /\ measure c s' < measure c s.
Proof.
  intros Hc HI Hs.
  pose proof (step_conserved c chunks s LW s' (inv_cons _ _ _ HI) Hs) as Hcons.
  destruct s as [cu re p rc ws rs], HI as [_ Hcap Hrr Hwr Hnf Hcl Hwt Hrd].
  unfold conserved in Hcons. unfold step_w in Hs. cbn [cur rest pp recvd wst rst] in *.
  assert (Hrs : rs <> RDone) by (intros E; destruct (Hrd E) as [-> _]; discriminate).
  unfold measure, bytes_left.
  destruct ws; try discriminate.
  - destruct cu as [|x cu'].
    + (* between two chunks *)
      destruct re as [|ch re]; injection Hs as <-; cbn [cur rest pp recvd wst rst] in *.
      * split; [constructor; cbn [cur rest pp recvd wst rst]; intuition congruence|].
        change (wrank c WTry [] p) with 2. cbn [wrank concat length]. lia.
      * split; [constructor; cbn [cur rest pp recvd wst rst]; intuition congruence|].
        pose proof (wrank_le c WTry ch p). cbn [concat length]. rewrite app_length.
        change (wrank c WTry [] p) with 2. lia.
    + (* a write attempt *)
      remember (x :: cu') as d eqn:Ed.
      assert (Hd : d <> []) by (subst d; discriminate).
      pose proof (fifo_write_ok c p d (one_reader p Hrr) Hcap Hd) as Hw.
      destruct (wblocked c p d) eqn:Eb.
      * rewrite Hw in Hs. injection Hs as <-. cbn [cur rest pp recvd wst rst] in *.
        split; [constructor; cbn [cur rest pp recvd wst rst]; intuition congruence|].
        cbn [wrank]. rewrite Eb. lia.
      * destruct Hw as (n & En & Hn & Hw). rewrite Hw in Hs.
        destruct n as [|m]; [lia|]. cbv beta iota in Hs. remember (S m) as n eqn:Em.
        injection Hs as <-. cbn [cur rest pp recvd wst rst] in *.
        assert (Hfl : length (firstn n d) = n) by (apply firstn_length_le; lia).
        split.
        -- constructor; cbn [cur rest pp recvd wst rst set_buf buf rrefs wrefs];
             rewrite ?app_length, ?Hfl; intuition (congruence || lia).
        -- pose proof (wrank_le c WTry (skipn n d) (set_buf p (buf p ++ firstn n d))).
           pose proof (rrank_mono rs _ _ (rblocked_app p (firstn n d))).
           cbn [wrank set_buf buf] in *. rewrite Eb, app_length, Hfl, skipn_length. lia.
  - (* woken: the descriptor is ready *)
    destruct (ready_w c p) eqn:Er; [|discriminate]. injection Hs as <-.
    cbn [cur rest pp recvd wst rst] in *.
    split; [constructor; cbn [cur rest pp recvd wst rst]; intuition congruence|].
    cbn [wrank]. rewrite (ready_w_not_blocked c p cu Hc Hrr Er). lia.
  - injection Hs as <-. cbn [cur rest pp recvd wst rst] in *.
    destruct (Hcl (or_introl eq_refl)) as [-> ->].
    pose proof (rrank_mono rs _ _ (rblocked_close p)).
    split; [constructor; cbn [cur rest pp recvd wst rst buf rrefs wrefs];
            intuition (congruence || lia)|].
    cbn [wrank buf] in *. lia.
Qed.

Lemma step_r_ok c chunks s cap s' :
  Inv c chunks s -> 1 <= cap -> step_r s cap = Some s' ->
  Inv c chunks s' /\ measure c s' < measure c s.
Proof.
  intros HI Hcap1 Hs.
  pose proof (step_conserved c chunks s (LR cap) s' (inv_cons _ _ _ HI) Hs) as Hcons.
  destruct s as [cu re p rc ws rs], HI as [_ Hcap Hrr Hwr Hnf Hcl Hwt Hrd].
  unfold conserved in Hcons. unfold step_r in Hs. cbn [cur rest pp recvd wst rst] in *.
  unfold measure, bytes_left.
  destruct rs; try discriminate.
  - pose proof (fifo_read_ok p cap Hcap1) as Hr.
    destruct (rblocked p) eqn:Eb.
    + rewrite Hr in Hs. injection Hs as <-. cbn [cur rest pp recvd wst rst] in *.
      split; [constructor; cbn [cur rest pp recvd wst rst]; intuition congruence|].
      cbn [rrank]. rewrite Eb. lia.
    + destruct Hr as (bs & b' & Hr & Hb & _ & Heof). rewrite Hr in Hs.
      assert (Hlen : length (buf p) = length bs + length b')
        by (rewrite Hb; apply app_length).
      pose proof (wrank_mono c ws cu p (set_buf p b')) as Hwm.
      pose proof (rrank_le RTry (set_buf p b')).
      destruct bs as [|y bs]; injection Hs as <-; cbn [cur rest pp recvd wst rst set_buf buf] in *.
      * (* end of file *)
        destruct (Heof eq_refl) as [-> Hw0].
        assert (Hws : ws = WDone) by (destruct ws; congruence).
        split; [constructor; cbn [cur rest pp recvd wst rst set_buf buf rrefs wrefs length];
                intuition (congruence || lia)|].
        cbn [rrank length] in *. rewrite Eb. lia.
      * split; [constructor; cbn [cur rest pp recvd wst rst set_buf buf rrefs wrefs];
                intuition (congruence || lia)|].
        cbn [rrank length] in *. rewrite Eb. lia.
  - destruct (ready_r p) eqn:Er; [|discriminate]. injection Hs as <-.
    cbn [cur rest pp recvd wst rst] in *.
    rewrite ready_r_rblocked, negb_true_iff in Er.
    split; [constructor; cbn [cur rest pp recvd wst rst]; intuition congruence|].
    cbn [rrank]. rewrite Er. lia.
Qed.

Lemma step_spur_ok c chunks s l s' :
  Inv c chunks s -> spurious l = true -> step c s l = Some s' ->
  Inv c chunks s' /\ measure c s' <= S (measure c s).
Proof.
  intros HI Hl Hs.
  destruct s as [cu re p rc ws rs], HI as [Hcons Hcap Hrr Hwr Hnf Hcl Hwt Hrd].
  unfold measure, bytes_left. cbn [cur rest pp recvd wst rst] in *.
  destruct l; try discriminate; cbn [step cur rest pp recvd wst rst] in Hs.
  - destruct ws; try discriminate. injection Hs as <-. cbn [cur rest pp recvd wst rst] in *.
    pose proof (wrank_le c WTry cu p).
    split; [constructor; cbn [cur rest pp recvd wst rst]; intuition congruence|].
    cbn [wrank] in *. lia.
  - destruct rs; try discriminate. injection Hs as <-. cbn [cur rest pp recvd wst rst] in *.
    pose proof (rrank_le RTry p).
    split; [constructor; cbn [cur rest pp recvd wst rst]; intuition congruence|].
    cbn [rrank] in *. lia.
Qed.

Lemma step_label_ok c chunks s l s' :
  cfg_ok c -> Inv c chunks s -> label_ok l -> step c s l = Some s' ->
  Inv c chunks s' /\
  measure c s' + (if spurious l then 0 else 1) <= measure c s + (if spurious l then 1 else 0).
Proof.
  intros Hc HI Hl Hs. destruct l as [|cap| |]; cbn [spurious].
  - destruct (step_w_ok c chunks s s' Hc HI Hs). split; [assumption | lia].
  - destruct (step_r_ok c chunks s cap s' HI Hl Hs). split; [assumption | lia].
  - destruct (step_spur_ok c chunks s LSpurW s' HI eq_refl Hs). split; [assumption | lia].
  - destruct (step_spur_ok c chunks s LSpurR s' HI eq_refl Hs). split; [assumption | lia].
Qed.

Lemma reach_inv c chunks ls s :
  cfg_ok c -> Forall label_ok ls -> run c (init chunks) ls = Some s ->
  Inv c chunks s /\ length ls + measure c s <= step_bound chunks + 2 * count_spurious ls.
Proof.
  intros Hc Hls Hr.
  destruct (run_measure _ _ (run_is_run c) (Inv c chunks) label_ok spurious (measure c)
              (fun s0 l s1 => step_label_ok c chunks s0 l s1 Hc) ls _ s (inv_init c chunks) Hls Hr)
    as [HI Hm].
  split; [assumption|]. pose proof (measure_init c chunks). unfold count_spurious. lia.
Qed.

Definition writer_enabled (c : cfg) (s : xstate) : bool :=
  match wst s with WTry | WClose => true | WWait => ready_w c (pp s) | WDone | WFail => false end.

Definition reader_enabled (s : xstate) : bool :=
  match rst s with RTry => true | RWait => ready_r (pp s) | RDone => false end.

Lemma writer_enabled_step c s : step_w c s <> None <-> writer_enabled c s = true.
Proof.
  unfold step_w, writer_enabled. destruct (wst s); try (split; congruence).
  - destruct (cur s) as [|x d]; [destruct (rest s); split; congruence|].
    destruct (fifo_write c (pp s) (x :: d)) as [[[|k]| | |] p']; split; congruence.
  - destruct (ready_w c (pp s)); split; congruence.
Qed.

Lemma reader_enabled_step s cap : step_r s cap <> None <-> reader_enabled s = true.
Proof.
  unfold step_r, reader_enabled. destruct (rst s); try (split; congruence).
  - destruct (fifo_read (pp s) cap) as [[[|b bs]|] p']; split; congruence.
  - destruct (ready_r (pp s)); split; congruence.
Qed.

Lemma inv_enabled c chunks s :
  cfg_ok c -> Inv c chunks s -> finished s = false ->
  writer_enabled c s = true \/ reader_enabled s = true.
Proof.
  intros Hc [_ _ _ Hwr Hnf _ _ Hrd] Hf.
  unfold finished in Hf. unfold writer_enabled, reader_enabled.
  destruct (wst s); try congruence; auto.
  - (* the writer waits: if its pipe is not ready it is not empty *)
    destruct (ready_w c (pp s)) eqn:Ew; [auto|]. right.
    destruct (rst s); [reflexivity | | destruct (Hrd eq_refl); discriminate].
    destruct (ready_r (pp s)) eqn:Er; [reflexivity|].
    destruct (not_ready_r _ Er) as [Hb _]. rewrite (empty_pipe_ready c _ Hc Hb) in Ew. discriminate.
  - (* the writer is done: end of file is readable *)
    right. destruct (rst s); [reflexivity | | discriminate].
    destruct (ready_r (pp s)) eqn:Er; [reflexivity|].
    destruct (not_ready_r _ Er) as [_ Hw]. congruence.
Qed.

Lemma inv_no_deadlock c chunks s :
  cfg_ok c -> Inv c chunks s -> finished s = false ->
  exists l, proper l /\ step c s l <> None.
Proof.
  intros Hc HI Hf.
  destruct (inv_enabled c chunks s Hc HI Hf) as [H|H]; [exists LW | exists (LR 1)];
    (split; [cbn; lia|]); cbn [step].
  - apply writer_enabled_step, H.
  - apply reader_enabled_step, H.
Qed.

Lemma inv_finished_complete c chunks s :
  Inv c chunks s -> finished s = true -> recvd s = concat chunks.
Proof.
  intros [Hcons _ _ _ _ Hcl _ Hrd] Hf. unfold finished in Hf.
  destruct (wst s); try discriminate. destruct (rst s); try discriminate.
  destruct (Hcl (or_intror eq_refl)) as [Hc Hr]. destruct (Hrd eq_refl) as [_ Hb].
  rewrite Hc, Hr, Hb in Hcons. cbn [app concat] in Hcons. rewrite app_nil_r in Hcons. exact Hcons.
Qed.

(* The reading loops take their buffer sizes from a list and then repeat a
   default: whatever holds of all of them holds of the next one and of the rest. *)
Lemma next_cap_Forall (P : nat -> Prop) caps dflt :
  Forall P caps -> P dflt ->
  exists cap caps', match caps with [] => (dflt, []) | x :: r => (x, r) end = (cap, caps')
                    /\ P cap /\ Forall P caps'.
Proof.
  intros Hcaps Hd. destruct caps as [|x r]; [exists dflt, []; auto|].
  inversion Hcaps; subst. exists x, r; auto.
Qed.

(* The coarse polls used by the correspondence check are runs of the fine
   transition system. *)

Lemma poll_w_loop_run fuel : forall c s s',
  poll_w_loop fuel c s = Some s' ->
  exists ls, Forall (fun l => l = LW) ls /\ run c s ls = Some s'.
Proof.
  induction fuel as [|fuel IH]; intros c s s' H; [discriminate|].
  cbn [poll_w_loop] in H.
  assert (Hstop : Some s = Some s' -> exists ls, Forall (fun l => l = LW) ls /\ run c s ls = Some s').
  { intros [= <-]. exists []. split; [constructor | reflexivity]. }
  assert (Hgo : match step_w c s with Some s1 => poll_w_loop fuel c s1 | None => Some s end = Some s' ->
                exists ls, Forall (fun l => l = LW) ls /\ run c s ls = Some s').
  { destruct (step_w c s) as [s1|] eqn:Es; [|exact Hstop]. intros H1.
    destruct (IH c s1 s' H1) as (ls & Hls & Hr).
    exists (LW :: ls). split; [constructor; auto|]. cbn [run step]. rewrite Es. exact Hr. }
  destruct (wst s); auto.
Qed.

Lemma poll_w_run c s s' :
  poll_w c s = Some s' ->
  exists ls, Forall (fun l => l = LW \/ l = LSpurW) ls /\ run c s ls = Some s'.
Proof.
  unfold poll_w. intros H. destruct (poll_w_loop_run _ _ _ _ H) as (ls & Hls & Hr).
  assert (Hls' : Forall (fun l => l = LW \/ l = LSpurW) ls)
    by (eapply Forall_impl; [|exact Hls]; auto).
  destruct (wst s) eqn:Ew; try (exists ls; split; assumption).
  (* a task that had yielded re-tries whatever woke it: a spurious wake-up covers both *)
  exists (LSpurW :: ls). split; [constructor; auto|]. cbn [run step]. rewrite Ew. exact Hr.
Qed.

(* [step_r] does not look at the configuration: [cfg_repo] stands for any [c]. *)
Lemma poll_r_loop_run fuel : forall s caps dflt s' caps',
  poll_r_loop fuel s caps dflt = Some (s', caps') ->
  exists ls, Forall (fun l => exists cap, l = LR cap /\ (In cap caps \/ cap = dflt)) ls
             /\ run cfg_repo s ls = Some s'.
Proof.
  induction fuel as [|fuel IH]; intros s caps dflt s' caps' H; [discriminate|].
  cbn [poll_r_loop] in H.
  assert (Hstop : forall x, Some (s, x) = Some (s', caps') ->
            exists ls, Forall (fun l => exists cap, l = LR cap /\ (In cap caps \/ cap = dflt)) ls
                       /\ run cfg_repo s ls = Some s').
  { intros x [= <- _]. exists []. split; [constructor | reflexivity]. }
  destruct (rst s) eqn:Er; eauto.
  destruct (next_cap_Forall (fun x => In x caps \/ x = dflt) caps dflt) as (cap & r & Ec & Hcap & Hr);
    [apply Forall_forall; auto | auto |]. rewrite Ec in H.
  destruct (step_r s cap) as [s1|] eqn:Es; eauto.
  destruct (IH _ _ _ _ _ H) as (ls & Hls & Hrun).
  exists (LR cap :: ls). split.
  - constructor; [exists cap; auto|]. eapply Forall_impl; [|exact Hls].
    intros l (k & E & [Hin|Hd]); exists k; split; auto.
    apply (proj1 (Forall_forall _ _) Hr k Hin).
  - cbn [run step]. rewrite Es. exact Hrun.
Qed.

(* Non-vacuity: concrete runs that meet the hypotheses of the theorems. *)
Definition ex_cfg : cfg := mkCfg 2 4.
Definition ex_chunks : list (list N) := [[1; 2; 3; 4; 5; 6; 7]; []; [8; 9]]%N.
Definition ex_sched : list label :=
  [LR 3; LW; LW; LSpurR; LW; LR 1; LR 1; LR 3; LW; LW; LW; LW; LW;
   LR 1; LR 3; LW; LW; LW; LW; LR 1; LR 1; LR 3].

Example ex_cfg_ok : cfg_ok ex_cfg.
Proof. unfold cfg_ok, ex_cfg; cbn; lia. Qed.

Example ex_labels_ok : Forall label_ok ex_sched.
Proof. repeat constructor. Qed.

Example ex_run_finishes :
  exists s, run ex_cfg (init ex_chunks) ex_sched = Some s /\ finished s = true
            /\ recvd s = [1; 2; 3; 4; 5; 6; 7; 8; 9]%N.
Proof. eexists. vm_compute. repeat split. Qed.

(* a reachable state in which the writer waits on a full pipe and the reader
   has not read yet: the hypotheses of no_deadlock_writer_reader hold with
   finished = false *)
Example ex_run_midway :
  exists s, run ex_cfg (init ex_chunks) [LW; LW; LW] = Some s /\ finished s = false
            /\ wst s = WWait /\ length (buf (pp s)) = 4.
Proof. eexists. vm_compute. repeat split. Qed.

(* the hypothesis "no proper label is enabled" of transfer_complete_in_order is
   satisfiable: it holds in the final state of the run above *)
Example ex_final_is_stuck :
  exists s, run ex_cfg (init ex_chunks) ex_sched = Some s /\
            forall l, proper l -> step ex_cfg s l = None.
Proof.
  eexists. split; [vm_compute; reflexivity|].
  intros [|cap| |] H; try contradiction; reflexivity.
Qed.

From Yv Require Import C14.ProofsUtf8.

Lemma strip_oracle_sound_lemma s : strip_okb s (strip_nl s) = true.
Proof. apply strip_okb_iff. apply strip_nl_spec_lemma. Qed.

Example ex_strip : strip_nl [97; 10; 10; 98; 10; 10; 10]%N = [97; 10; 10; 98]%N.
Proof. reflexivity. Qed.
