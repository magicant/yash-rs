(* C14 — the property theorems.  Most follow in a line or two from the
   invariant-level lemmas of the Proofs*.v files; a fact that nothing else uses
   is proved where it stands.  The driver pins the statements with [Check] and
   prints the assumptions on every run. *)
From Yv Require Import Common.Base C14.Model C14.Spec C14.Run C14.Chain C14.Proofs C14.ProofsPipe C14.ProofsRun C14.ProofsChain C14.ProofsUtf8 C14.ChainSpur C14.ProofsChainSpur C14.Blocking C14.ProofsLists C14.ProofsFifo C14.Guard C14.ProofsGuard.
From Yv Require Import Gen.Gen_Consts.

(* received ++ pipe content ++ unsent = payload, in every reachable state, for
   every configuration and every schedule (no hypothesis at all) *)
Theorem pipe_conservation :
  forall c chunks ls s, run c (init chunks) ls = Some s ->
    recvd s ++ buf (pp s) ++ cur s ++ concat (rest s) = concat chunks.
Proof. intros c chunks ls s. apply (run_conserved c chunks ls (init chunks)). reflexivity. Qed.

(* wherever a schedule can go no further (no system call or regular wake-up of
   either party is possible), both parties have finished and the reader holds
   exactly the payload: complete, once, in order *)
Theorem transfer_complete_in_order :
  forall c chunks ls s, cfg_ok c -> Forall label_ok ls ->
    run c (init chunks) ls = Some s ->
    (forall l, proper l -> step c s l = None) ->
    finished s = true /\ recvd s = concat chunks.
Proof.
  intros c chunks ls s Hc Hls Hr Hstuck. destruct (reach_inv c chunks ls s Hc Hls Hr) as [HI _].
  assert (Hf : finished s = true)
    by (apply (stuck_finished proper (step c s)); [apply (inv_no_deadlock c chunks)|]; assumption).
  split; [exact Hf | exact (inv_finished_complete c chunks s HI Hf)].
Qed.

Theorem finished_means_complete :
  forall c chunks ls s, cfg_ok c -> Forall label_ok ls ->
    run c (init chunks) ls = Some s -> finished s = true -> recvd s = concat chunks.
Proof.
  intros c chunks ls s Hc Hls Hr.
  exact (inv_finished_complete c chunks s (proj1 (reach_inv c chunks ls s Hc Hls Hr))).
Qed.

(* the enabled step is a proper one: progress never depends on a spurious wake-up *)
Theorem no_deadlock_writer_reader :
  forall c chunks ls s, cfg_ok c -> Forall label_ok ls ->
    run c (init chunks) ls = Some s -> finished s = false ->
    exists l, proper l /\ step c s l <> None.
Proof.
  intros c chunks ls s Hc Hls Hr.
  exact (inv_no_deadlock c chunks s Hc (proj1 (reach_inv c chunks ls s Hc Hls Hr))).
Qed.

(* termination: only spurious wake-ups prolong a run beyond step_bound, each by
   at most two steps (the wake-up itself and the retry that fails again) *)
Theorem transfer_terminates :
  forall c chunks ls s, cfg_ok c -> Forall label_ok ls ->
    run c (init chunks) ls = Some s ->
    length ls <= step_bound chunks + 2 * count_spurious ls.
Proof. intros c chunks ls s Hc Hls Hr. destruct (reach_inv c chunks ls s Hc Hls Hr). lia. Qed.

(* no EPIPE, no arithmetic underflow, the capacity is respected *)
Theorem writer_never_fails :
  forall c chunks ls s, cfg_ok c -> Forall label_ok ls ->
    run c (init chunks) ls = Some s ->
    wst s <> WFail /\ length (buf (pp s)) <= psize c.
Proof.
  intros c chunks ls s Hc Hls Hr. destruct (reach_inv c chunks ls s Hc Hls Hr) as [[] _]. split; assumption.
Qed.

Theorem strip_trailing_newlines_spec : forall s, strip_spec s (strip_nl s).
Proof. exact strip_nl_spec_lemma. Qed.

Theorem strip_trailing_newlines_unique : forall s o, strip_spec s o -> o = strip_nl s.
Proof. intros s o [[k ->] Hl]. symmetry. apply strip_nl_app_repeat, Hl. Qed.

Theorem strip_oracle_iff : forall s o, strip_okb s o = true <-> strip_spec s o.
Proof. exact strip_okb_iff. Qed.

Theorem strip_nl_as_trailing :
  forall s, strip_nl s = firstn (length s - trailing_nl s) s.
Proof.
  intros s. destruct (strip_nl_spec_lemma s) as [[k Hk] Hl].
  set (o := strip_nl s) in *.
  rewrite Hk. rewrite trailing_nl_unfold, rev_app_distr, rev_repeat, tnl_go_repeat.
  rewrite (tnl_go_rev_last o Hl). rewrite app_length, repeat_length.
  replace (length o + k - (k + 0)) with (length o) by lia.
  rewrite firstn_app, Nat.sub_diag, firstn_all. cbn [firstn]. rewrite app_nil_r. reflexivity.
Qed.

Theorem heredoc_bytes_exact :
  forall content caps dflt, Forall (fun n => 1 <= n) caps -> 1 <= dflt ->
    heredoc_transfer content caps dflt = Some content.
Proof.
  intros content caps dflt Hcaps Hd. unfold heredoc_transfer. rewrite reg_write_fresh.
  rewrite reg_read_all_ok; auto. cbn [length]. lia.
Qed.

(* the pipe model satisfies the abstract byte-stream specification (complete,
   exactly once, in order, capacity, PIPE_BUF atomicity, would-block, end of
   file, EPIPE, select readiness) for every history of system calls on every
   set of descriptors: the stream-A oracle is sound *)
Theorem pipe_refines_stream :
  forall c ops, cfg_ok c -> ops_ok c new_pipe ops = true ->
    spec_run c stream0 (model_hist c new_pipe ops) = None.
Proof. intros c ops _ _. apply model_hist_accepted, sim_init. Qed.

(* what the script oracle demands is what the model computes *)
Theorem eval_model_is_spec : forall e, eval_model e = eval_spec e.
Proof.
  fix IH 1. intros [n k t|s|l|e|e r c|e c]; cbn [eval_model eval_spec]; try reflexivity.
  - induction l as [|a l IHl]; cbn [flat_map]; [reflexivity|]. rewrite (IH a), IHl. reflexivity.
  - rewrite (IH e). apply strip_nl_as_trailing.
  - apply IH.
  - apply IH.
Qed.

(* one poll of a task in the coarse model is a run of the transition system *)
Theorem poll_w_is_run :
  forall c s s', poll_w c s = Some s' ->
    exists ls, Forall (fun l => l = LW \/ l = LSpurW) ls /\ run c s ls = Some s'.
Proof. exact poll_w_run. Qed.

(* the executable side of the script check, one pipe: the fuel computed from the
   input never runs out, and the data arrives unchanged for every chunking and
   every reader buffer *)
Theorem pump_delivers :
  forall c chunk cap l, cfg_ok c -> through_pipe c chunk cap l = Some l.
Proof. exact through_pipe_identity. Qed.

(* every route of stream C (any number of pipes, a consumer that exits early,
   command substitution, here-document): the MODEL side of Run.run_script is
   total and is what the ORACLE side demands *)
Theorem model_route_meets_spec :
  forall c r l, cfg_ok c -> model_route c r l = Some (spec_route r l).
Proof.
  intros c r l Hc. destruct r as [stages chunk cap|stages k cap| |cap]; cbn [model_route spec_route].
  - apply through_pipes_identity. assumption.
  - rewrite through_pipes_identity by assumption. reflexivity.
  - rewrite through_pipe_identity by assumption. f_equal. apply strip_nl_as_trailing.
  - apply heredoc_bytes_exact; [constructor | lia].
Qed.

(* pipelines of any number of stages: a source, n relays (read a buffer,
   write_all it) and a sink connected by n + 1 pipes, every schedule of the
   n + 2 processes, every buffer size >= 1 *)
Theorem chain_conservation :
  forall c chunks n ls s, cfg_ok c -> Forall clabel_ok ls ->
    crun c (cinit chunks n) ls = Some s ->
    crecvd s ++ buf (pout s) ++ content (top s) = concat chunks.
Proof.
  intros c chunks n ls s Hc Hls Hr. exact (ci_cons _ _ _ (proj1 (chain_reach c chunks n ls s Hc Hls Hr))).
Qed.

Theorem chain_transfer_complete_in_order :
  forall c chunks n ls s, cfg_ok c -> Forall clabel_ok ls ->
    crun c (cinit chunks n) ls = Some s ->
    (forall l, clabel_ok l -> cstep c s l = None) ->
    cfinished s = true /\ crecvd s = concat chunks.
Proof.
  intros c chunks n ls s Hc Hls Hr.
  exact (cinv_stuck_complete c chunks s Hc (proj1 (chain_reach c chunks n ls s Hc Hls Hr))).
Qed.

Theorem chain_no_deadlock :
  forall c chunks n ls s, cfg_ok c -> Forall clabel_ok ls ->
    crun c (cinit chunks n) ls = Some s -> cfinished s = false ->
    exists l, clabel_ok l /\ cstep c s l <> None.
Proof.
  intros c chunks n ls s Hc Hls Hr.
  exact (chain_no_deadlock_inv c chunks s Hc (proj1 (chain_reach c chunks n ls s Hc Hls Hr))).
Qed.

Theorem chain_terminates :
  forall c chunks n ls s, cfg_ok c -> Forall clabel_ok ls ->
    crun c (cinit chunks n) ls = Some s -> length ls <= chain_bound chunks n.
Proof. intros c chunks n ls s Hc Hls Hr. destruct (chain_reach c chunks n ls s Hc Hls Hr). lia. Qed.

(* output that is not valid UTF-8: after the lossy decoding exactly the
   trailing newlines are removed, and the newline bytes at the end of the
   output are all that is dropped, whatever bytes precede them *)
Theorem subst_value_is_stripped_decoding :
  forall bytes, strip_spec (utf8_lossy bytes) (subst_value bytes).
Proof. intros bytes. apply strip_nl_spec_lemma. Qed.

Theorem lossy_decoding_keeps_trailing_newlines :
  forall s k, utf8_lossy (s ++ repeat NL k) = utf8_lossy s ++ repeat NL k.
Proof.
  intros s k. destruct k as [|k]; [cbn [repeat]; rewrite !app_nil_r; reflexivity|].
  cbn [repeat]. rewrite (utf8_lossy_app_nl_len (length s)) by lia. do 2 f_equal.
  induction k as [|k IH]; [reflexivity|]. cbn [repeat]. rewrite utf8_lossy_nl, IH. reflexivity.
Qed.

Theorem subst_value_ignores_trailing_newlines :
  forall s k, subst_value (s ++ repeat NL k) = subst_value s.
Proof.
  intros s k. unfold subst_value. rewrite lossy_decoding_keeps_trailing_newlines.
  destruct (strip_nl_spec_lemma (utf8_lossy s)) as [[j Hj] Hl].
  rewrite Hj at 1. rewrite <- app_assoc, <- repeat_app.
  apply strip_nl_app_repeat. exact Hl.
Qed.

(* the same four facts for pipelines when every process may also be woken
   spuriously at any time *)
Theorem chain_spurious_conservation :
  forall c chunks n es s, cfg_ok c -> Forall cevent_ok es ->
    crun2 c (cinit chunks n) es = Some s ->
    crecvd s ++ buf (pout s) ++ content (top s) = concat chunks.
Proof.
  intros c chunks n es s Hc Hes Hr. exact (ci_cons _ _ _ (proj1 (chain2_reach c chunks n es s Hc Hes Hr))).
Qed.

Theorem chain_spurious_complete_in_order :
  forall c chunks n es s, cfg_ok c -> Forall cevent_ok es ->
    crun2 c (cinit chunks n) es = Some s ->
    (forall l, clabel_ok l -> cstep c s l = None) ->
    cfinished s = true /\ crecvd s = concat chunks.
Proof.
  intros c chunks n es s Hc Hes Hr.
  exact (cinv_stuck_complete c chunks s Hc (proj1 (chain2_reach c chunks n es s Hc Hes Hr))).
Qed.

Theorem chain_spurious_no_deadlock :
  forall c chunks n es s, cfg_ok c -> Forall cevent_ok es ->
    crun2 c (cinit chunks n) es = Some s -> cfinished s = false ->
    exists l, clabel_ok l /\ cstep c s l <> None.
Proof.
  intros c chunks n es s Hc Hes Hr.
  exact (chain_no_deadlock_inv c chunks s Hc (proj1 (chain2_reach c chunks n es s Hc Hes Hr))).
Qed.

Theorem chain_spurious_terminates :
  forall c chunks n es s, cfg_ok c -> Forall cevent_ok es ->
    crun2 c (cinit chunks n) es = Some s ->
    length es <= chain_bound chunks n + 2 * count_spur es.
Proof. intros c chunks n es s Hc Hes Hr. destruct (chain2_reach c chunks n es s Hc Hes Hr). lia. Qed.

(* the blocking-mode write (poll_write_full): whatever it does in one poll, it
   only appends the next bytes of its request to the pipe *)
Theorem blocking_write_appends_in_order :
  forall fuel c p data written r p' w',
    write_full fuel c p data written = (r, p', w') ->
    written <= w' /\ buf p' = buf p ++ firstn (w' - written) (skipn written data)
    /\ rrefs p' = rrefs p /\ wrefs p' = wrefs p.
Proof.
  induction fuel as [|fuel IH]; intros c p data written r p' w' H; cbn [write_full] in H.
  all: assert (Hstay : forall r0, (r0, p, written) = (r, p', w') ->
         written <= w' /\ buf p' = buf p ++ firstn (w' - written) (skipn written data)
         /\ rrefs p' = rrefs p /\ wrefs p' = wrefs p)
    by (intros r0 [= _ <- <-]; rewrite Nat.sub_diag, app_nil_r; auto).
  - exact (Hstay _ H).
  - destruct (is_nil (skipn written data)); [exact (Hstay _ H)|].
    destruct (fifo_write c p (skipn written data)) as [q p1] eqn:E.
    apply fifo_write_flow in E as (Eb & Er & Ew).
    destruct q as [n| | |]; cbn [wrote] in Eb;
      [|exact (Hstay _ H) | destruct (0 <? written); exact (Hstay _ H)..].
    destruct (n =? 0).
    + injection H as <- <- <-. replace (written + n - written) with n by lia.
      split; [lia | auto].
    + (* the part written now, then the part the rest of the poll writes *)
      apply IH in H as (H1 & H2 & H3 & H4).
      split; [lia|]. split; [|split; congruence].
      replace (w' - written) with (n + (w' - (written + n))) by lia.
      rewrite H2, Eb, <- app_assoc, firstn_add, skipn_add. reflexivity.
Qed.

(* O_NONBLOCK guard protocol of Concurrent::read/write (TemporaryNonBlockingGuard): for every
   number of holders of one open file description and every order of entering and
   leaving, once nobody is inside the flag is what it was before the first entered *)
Theorem guard_restores_flag :
  forall f0 ops s, grun (ginit f0) ops = Some s -> ginside s = [] -> gflag s = f0.
Proof. intros f0 ops s H. exact (ginv_empty f0 s (ginv_reach f0 ops s H)). Qed.

(* what IS true while holders are inside: the flag is set as long as the holder that
   found the description blocking (saved `false`) is inside *)
Theorem guard_first_holder_keeps_nonblocking :
  forall f0 ops s i, grun (ginit f0) ops = Some s -> In (i, false) (ginside s) -> gflag s = true.
Proof. intros f0 ops s i H. exact (ginv_first_holder f0 s i (ginv_reach f0 ops s H)). Qed.

(* at most one holder inside is going to clear the flag *)
Theorem guard_one_clearer :
  forall f0 ops s, grun (ginit f0) ops = Some s -> length (filter (fun h => negb (snd h)) (ginside s)) <= 1.
Proof. intros f0 ops s H. exact (ginv_one_clearer f0 s (ginv_reach f0 ops s H)). Qed.

(* a description that was O_NONBLOCK before stays so at every moment *)
Theorem guard_keeps_nonblocking_description :
  forall ops s, grun (ginit true) ops = Some s -> gflag s = true.
Proof. intros ops s H. exact (proj1 (ginv_reach true ops s H) eq_refl). Qed.

(* FALSE of the code as it is (witness: A enters, B enters, A leaves): 'the flag is set
   while some holder is inside'.  B then runs its next read/write on a BLOCKING
   description (finding F48 is the consequence on the simulator) *)
Theorem guard_flag_while_inside_refuted :
  exists f0 ops s, grun (ginit f0) ops = Some s /\ ginside s <> [] /\ gflag s = false.
Proof.
  exists false, [GEnter 0; GEnter 1; GLeave 0], (mkG false [(1, true)]).
  split; [reflexivity|]. split; [discriminate | reflexivity].
Qed.

(* the run-time oracle of stream H accepts the flags of every run of the model *)
Theorem guard_oracle_sound :
  forall f0 ops t, gtrace (ginit f0) ops = Some t -> guard_okb f0 0 (combine ops t) = true.
Proof. intros f0 ops t. exact (guard_okb_sound_gen f0 ops (ginit f0) t (ginv_init f0)). Qed.

(* non-vacuity of guard_restores_flag / guard_first_holder_keeps_nonblocking:
   three holders, the first leaves in the middle *)
Example guard_run_example :
  grun (ginit false) [GEnter 0; GEnter 1; GLeave 0; GEnter 2; GLeave 1]
    = Some (mkG true [(2, false)]) /\
  grun (ginit false) [GEnter 0; GEnter 1; GLeave 0; GEnter 2; GLeave 1; GLeave 2]
    = Some (mkG false []).
Proof. split; vm_compute; reflexivity. Qed.

(* TIE BY TRANSLATION: the configuration the theorems are instantiated with is
   the one the source declares (translator/consts.py reads PIPE_BUF and
   PIPE_SIZE out of yash-env/src/system/virtual/file_body.rs on every run), and
   it satisfies the hypothesis [cfg_ok] of the theorems above *)
Theorem cfg_repo_is_source : cfg_repo = mkCfg gen_pipe_buf gen_pipe_size.
Proof. reflexivity. Qed.
Theorem source_cfg_ok : cfg_ok (mkCfg gen_pipe_buf gen_pipe_size).
Proof. rewrite <- cfg_repo_is_source. unfold cfg_ok, cfg_repo. cbn [pbuf psize]. split; apply Nat.leb_le; vm_compute; reflexivity. Qed.

Print Assumptions pipe_conservation.
Print Assumptions guard_restores_flag.
Print Assumptions guard_first_holder_keeps_nonblocking.
Print Assumptions guard_one_clearer.
Print Assumptions guard_keeps_nonblocking_description.
Print Assumptions guard_flag_while_inside_refuted.
Print Assumptions guard_oracle_sound.
Print Assumptions blocking_write_appends_in_order.
Print Assumptions chain_spurious_conservation.
Print Assumptions chain_spurious_complete_in_order.
Print Assumptions chain_spurious_no_deadlock.
Print Assumptions chain_spurious_terminates.
Print Assumptions subst_value_is_stripped_decoding.
Print Assumptions lossy_decoding_keeps_trailing_newlines.
Print Assumptions subst_value_ignores_trailing_newlines.
Print Assumptions chain_conservation.
Print Assumptions chain_transfer_complete_in_order.
Print Assumptions chain_no_deadlock.
Print Assumptions chain_terminates.
Print Assumptions pump_delivers.
Print Assumptions model_route_meets_spec.
Print Assumptions pipe_refines_stream.
Print Assumptions eval_model_is_spec.
Print Assumptions poll_w_is_run.
Print Assumptions transfer_complete_in_order.
Print Assumptions finished_means_complete.
Print Assumptions no_deadlock_writer_reader.
Print Assumptions transfer_terminates.
Print Assumptions writer_never_fails.
Print Assumptions strip_trailing_newlines_spec.
Print Assumptions strip_trailing_newlines_unique.
Print Assumptions strip_oracle_iff.
Print Assumptions strip_nl_as_trailing.
Print Assumptions heredoc_bytes_exact.
Print Assumptions cfg_repo_is_source.
Print Assumptions source_cfg_ok.
