(* C14 — what one operation does to a pipe: the facts about fifo_write,
   fifo_read and readiness that every transition system over the pipe uses. *)
From Yv Require Import Common.Base C14.Model.
From Coq Require Import Arith.

(* Would the operation report "would block"?  A request that does not fit, when
   nothing fits or PIPE_BUF forbids splitting it; nothing to read while a
   writer is left. *)
Definition wblocked (c : cfg) (p : pipe) (d : list N) : bool :=
  let room := psize c - length (buf p) in
  (room <? length d) && ((room =? 0) || (length d <=? pbuf c)).

Definition rblocked (p : pipe) : bool := (length (buf p) =? 0) && wopen p.

Lemma wblocked_true c p d :
  wblocked c p d = true <->
  psize c - length (buf p) < length d /\ (psize c - length (buf p) = 0 \/ length d <= pbuf c).
Proof.
  unfold wblocked. rewrite andb_true_iff, orb_true_iff, Nat.ltb_lt, Nat.eqb_eq, Nat.leb_le.
  reflexivity.
Qed.

Lemma rblocked_true p : rblocked p = true <-> length (buf p) = 0 /\ 0 < wrefs p.
Proof. unfold rblocked, wopen. rewrite andb_true_iff, Nat.eqb_eq, Nat.ltb_lt. reflexivity. Qed.

(* Draining a pipe never blocks its writer, filling it or closing a write end
   never blocks its reader. *)
Lemma wblocked_mono c p p' d :
  length (buf p') <= length (buf p) -> wblocked c p' d = true -> wblocked c p d = true.
Proof. rewrite !wblocked_true. lia. Qed.

Lemma rblocked_mono p p' :
  length (buf p) <= length (buf p') -> wrefs p' <= wrefs p ->
  rblocked p' = true -> rblocked p = true.
Proof. rewrite !rblocked_true. lia. Qed.

Lemma wblocked_nil c p : wblocked c p [] = false.
Proof. reflexivity. Qed.

Lemma rblocked_app p x : rblocked (set_buf p (buf p ++ x)) = true -> rblocked p = true.
Proof. apply rblocked_mono; cbn [set_buf buf wrefs]; [rewrite app_length|]; lia. Qed.

Lemma rblocked_close p :
  rblocked (mkPipe (buf p) (rrefs p) (pred (wrefs p))) = true -> rblocked p = true.
Proof. apply rblocked_mono; cbn [buf wrefs]; lia. Qed.

(* Readiness as select reports it is the absence of would-block. *)
Lemma ready_r_rblocked p : ready_r p = negb (rblocked p).
Proof. unfold ready_r, rblocked. destruct (wopen p), (length (buf p) =? 0); reflexivity. Qed.

Lemma ready_w_not_blocked c p d :
  cfg_ok c -> rrefs p = 1 -> ready_w c p = true -> wblocked c p d = false.
Proof.
  intros [Hc1 Hc2] Hr. unfold ready_w, ropen. rewrite Hr. change (0 <? 1) with true. cbn [negb orb].
  intros Hw%Nat.leb_le.
  apply not_true_is_false. rewrite wblocked_true. lia.
Qed.

(* A pipe is never unreadable and unwritable at once: this is why no schedule
   deadlocks. *)
Lemma not_ready_r p : ready_r p = false -> buf p = [] /\ wrefs p <> 0.
Proof.
  rewrite ready_r_rblocked, negb_false_iff, rblocked_true.
  intros [H1 H2]. split; [apply length_zero_iff_nil; assumption | lia].
Qed.

Lemma empty_pipe_ready c p : cfg_ok c -> buf p = [] -> ready_w c p = true.
Proof.
  intros [Hc1 Hc2] Hb. unfold ready_w. rewrite Hb. cbn [length]. rewrite Nat.sub_0_r.
  apply orb_true_iff. right. apply Nat.leb_le. assumption.
Qed.

(* What an operation moves, whatever its outcome: a write appends the bytes it
   reports, a read takes the bytes it returns from the front; the descriptor
   counts stay. *)
Definition wrote (r : wres) : nat := match r with WOk n => n | _ => 0 end.
Definition bytes_of (r : rres) : list N := match r with ROk bs => bs | RAgain => [] end.

Lemma fifo_write_flow c p d r p' :
  fifo_write c p d = (r, p') ->
  buf p' = buf p ++ firstn (wrote r) d /\ rrefs p' = rrefs p /\ wrefs p' = wrefs p.
Proof.
  unfold fifo_write. cbv zeta. intros H.
  destruct (negb (ropen p));
    [|destruct (psize c <? length (buf p)); [|destruct (_ <? length d); [destruct (_ || _)|]]];
    injection H as <- <-; cbn [wrote firstn set_buf buf rrefs wrefs];
    rewrite ?app_nil_r, ?firstn_all; auto.
Qed.

Lemma fifo_read_flow p cap r p' :
  fifo_read p cap = (r, p') ->
  bytes_of r ++ buf p' = buf p /\ rrefs p' = rrefs p /\ wrefs p' = wrefs p.
Proof.
  unfold fifo_read. intros H.
  destruct (cap =? 0); [|destruct (_ && _)]; injection H as <- <-;
    cbn [bytes_of set_buf buf rrefs wrefs app]; rewrite ?firstn_skipn; auto.
Qed.

Lemma one_reader p : rrefs p = 1 -> ropen p = true.
Proof. unfold ropen. intros ->. reflexivity. Qed.

(* The outcome in a well-formed state: a reader present, the capacity
   respected, a request (a buffer) of at least one byte. *)
Lemma fifo_write_ok c p d :
  ropen p = true -> length (buf p) <= psize c -> d <> [] ->
  if wblocked c p d then fifo_write c p d = (WAgain, p)
  else exists n, n = Nat.min (psize c - length (buf p)) (length d) /\ 1 <= n /\
                 fifo_write c p d = (WOk n, set_buf p (buf p ++ firstn n d)).
Proof.
  intros Hr Hl Hd. assert (1 <= length d) by (destruct d; [congruence | cbn; lia]).
  unfold fifo_write, wblocked. rewrite Hr. cbn [negb]. cbv zeta.
  destruct (Nat.ltb_spec (psize c) (length (buf p))); [lia|].
  destruct (Nat.ltb_spec (psize c - length (buf p)) (length d)); cbn [andb].
  - destruct (Nat.eqb_spec (psize c - length (buf p)) 0); cbn [orb]; [reflexivity|].
    destruct (length d <=? pbuf c); [reflexivity|].
    exists (psize c - length (buf p)). repeat split; lia.
  - exists (length d). rewrite firstn_all. repeat split; lia.
Qed.

Lemma fifo_read_ok p cap :
  1 <= cap ->
  if rblocked p then fifo_read p cap = (RAgain, p)
  else exists bs b', fifo_read p cap = (ROk bs, set_buf p b') /\ buf p = bs ++ b' /\
                     length bs <= cap /\ (bs = [] -> b' = [] /\ wrefs p = 0).
Proof.
  intros Hc. unfold fifo_read. destruct cap as [|k]; [lia|]. cbn [Nat.eqb]. fold (rblocked p).
  destruct (rblocked p) eqn:E; [reflexivity|].
  exists (firstn (S k) (buf p)), (skipn (S k) (buf p)).
  split; [reflexivity|]. split; [symmetry; apply firstn_skipn|]. split; [apply firstn_le_length|].
  intros Hn. apply not_true_iff_false in E. rewrite rblocked_true in E.
  destruct (buf p); [|discriminate]. split; [reflexivity | cbn [length] in E; lia].
Qed.
