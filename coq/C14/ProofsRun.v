(* C14 — the loops with fuel never run out of it: the coarse polls and the pump
   of Run.v, which delivers the payload, and the reading of a here-document.
   Properties.model_route_meets_spec gets from these that the MODEL side of the
   script check is total and agrees with the ORACLE side. *)
From Yv Require Import Common.Base C14.Model C14.ProofsLists C14.ProofsFifo C14.Proofs C14.Run.
From Coq Require Import Arith.

(* The polls need + 2 of this: a poll of a task that had yielded starts one
   spurious step above [s] (step_spur_ok), and the loops want the measure
   strictly below the fuel. *)
Lemma measure_lt_fuel c s : measure c s + 3 <= poll_fuel s.
Proof.
  unfold measure, poll_fuel.
  pose proof (wrank_le c (wst s) (cur s) (pp s)). pose proof (rrank_le (rst s) (pp s)). lia.
Qed.

(* While the writer is about to make a call (Try or Close) the loop follows it;
   each call descends in the measure, so the fuel lasts. *)
Lemma poll_w_loop_total c chunks fuel : forall s,
  cfg_ok c -> Inv c chunks s -> measure c s < fuel ->
  exists s', poll_w_loop fuel c s = Some s' /\ Inv c chunks s' /\
             measure c s' <= measure c s /\
             ((wst s = WTry \/ wst s = WClose) -> measure c s' < measure c s).
Proof.
  induction fuel as [|fuel IH]; intros s Hc HI Hm; [lia|].
  cbn [poll_w_loop].
  assert (Hgo : exists s', match step_w c s with Some s1 => poll_w_loop fuel c s1 | None => Some s end
                           = Some s' /\ Inv c chunks s' /\ measure c s' <= measure c s /\
                           (step_w c s <> None -> measure c s' < measure c s)).
  { destruct (step_w c s) as [s1|] eqn:Es; [|exists s; intuition (lia || congruence)].
    destruct (step_w_ok c chunks s s1 Hc HI Es) as [HI1 Hm1].
    destruct (IH s1 Hc HI1 ltac:(lia)) as (s' & H1 & H2 & H3 & _).
    exists s'. split; [|split; [|split]]; auto; intros; lia. }
  pose proof (proj2 (writer_enabled_step c s)) as He. unfold writer_enabled in He.
  destruct (wst s); try (exists s; intuition (discriminate || lia));
    destruct Hgo as (s' & H1 & H2 & H3 & H4); exists s'; (split; [|split; [|split]]); auto.
Qed.

Lemma poll_fuel_spur s :
  poll_fuel (mkX (cur s) (rest s) (pp s) (recvd s) WTry (rst s)) = poll_fuel s.
Proof. reflexivity. Qed.

Lemma poll_w_total c chunks s :
  cfg_ok c -> Inv c chunks s ->
  exists s', poll_w c s = Some s' /\ Inv c chunks s' /\ measure c s' <= measure c s /\
             (step_w c s <> None -> measure c s' < measure c s).
Proof.
  intros Hc HI. unfold poll_w. pose proof (measure_lt_fuel c s) as Hf.
  pose proof (proj1 (writer_enabled_step c s)) as He. unfold writer_enabled in He.
  destruct (wst s) eqn:Ew.
  2: { (* It had yielded.  Whatever woke it counts as a spurious wake-up, and the
          retry that follows gives back the unit that one added.  If the
          descriptor was ready after all, the state the retry starts from is
          also one regular step below [s]. *)
    set (s0 := mkX (cur s) (rest s) (pp s) (recvd s) WTry (rst s)).
    assert (Es : step c s LSpurW = Some s0) by (cbn [step]; rewrite Ew; reflexivity).
    destruct (step_spur_ok c chunks s LSpurW s0 HI eq_refl Es) as [HI0 Hm0].
    destruct (poll_w_loop_total c chunks (poll_fuel s) s0 Hc HI0 ltac:(lia)) as (s' & H1 & H2 & H3 & H4).
    specialize (H4 (or_introl eq_refl)).
    exists s'. split; [|split; [|split]]; auto; [lia|]. intros Hn.
    assert (Ew' : step_w c s = Some s0)
      by (revert Hn; unfold step_w; rewrite Ew; destruct (ready_w c (pp s));
          [reflexivity | intros Hn; destruct (Hn eq_refl)]).
    destruct (step_w_ok c chunks s s0 Hc HI Ew') as [_ Hm1]. lia. }
  (* otherwise the loop starts from [s]; a writer that has finished cannot step *)
  all: destruct (poll_w_loop_total c chunks (poll_fuel s) s Hc HI ltac:(lia)) as (s' & H1 & H2 & H3 & H4);
    exists s'; (split; [|split; [|split]]); auto; intros Hn; discriminate (He Hn).
Qed.

Lemma poll_r_loop_total c chunks fuel : forall s caps dflt,
  Inv c chunks s -> Forall (fun n => 1 <= n) caps -> 1 <= dflt ->
  measure c s < fuel ->
  exists s' caps', poll_r_loop fuel s caps dflt = Some (s', caps') /\ Inv c chunks s' /\
                   measure c s' <= measure c s /\ (rst s = RTry -> measure c s' < measure c s).
Proof.
  induction fuel as [|fuel IH]; intros s caps dflt HI Hcaps Hd Hm; [lia|].
  cbn [poll_r_loop].
  pose proof (fun cap => proj2 (reader_enabled_step s cap)) as He. unfold reader_enabled in He.
  destruct (rst s) eqn:Er; try (exists s, caps; split; [|split; [|split]]; auto; discriminate).
  destruct (next_cap_Forall _ caps dflt Hcaps Hd) as (cap & caps' & -> & Hc1 & Hcaps').
  destruct (step_r s cap) as [s1|] eqn:Es; [|destruct (He cap eq_refl Es)].
  destruct (step_r_ok c chunks s cap s1 HI Hc1 Es) as [HI1 Hm1].
  destruct (IH s1 caps' dflt HI1 Hcaps' Hd ltac:(lia)) as (s' & cl & H1 & H2 & H3 & _).
  exists s', cl. split; [|split; [|split]]; auto; lia.
Qed.

Lemma poll_r_total c chunks s caps dflt :
  Inv c chunks s -> Forall (fun n => 1 <= n) caps -> 1 <= dflt ->
  exists s' caps', poll_r s caps dflt = Some (s', caps') /\ Inv c chunks s' /\
                   measure c s' <= measure c s /\
                   (reader_enabled s = true -> measure c s' < measure c s).
Proof.
  intros HI Hcaps Hd. unfold poll_r, reader_enabled. pose proof (measure_lt_fuel c s) as Hf.
  destruct (rst s) eqn:Er.
  2: { set (s0 := mkX (cur s) (rest s) (pp s) (recvd s) (wst s) RTry).
    assert (Es : step c s LSpurR = Some s0) by (cbn [step]; rewrite Er; reflexivity).
    destruct (step_spur_ok c chunks s LSpurR s0 HI eq_refl Es) as [HI0 Hm0].
    destruct (poll_r_loop_total c chunks (poll_fuel s) s0 caps dflt HI0 Hcaps Hd ltac:(lia))
      as (s' & cl & H1 & H2 & H3 & H4).
    specialize (H4 eq_refl).
    exists s', cl. split; [|split; [|split]]; auto; [lia|]. intros Erd.
    assert (Es' : step_r s 1 = Some s0) by (unfold step_r; rewrite Er, Erd; reflexivity).
    destruct (step_r_ok c chunks s 1 s0 HI ltac:(lia) Es') as [_ Hm1]. lia. }
  all: destruct (poll_r_loop_total c chunks (poll_fuel s) s caps dflt HI Hcaps Hd ltac:(lia))
      as (s' & cl & H1 & H2 & H3 & H4);
    exists s', cl; (split; [|split; [|split]]); auto; discriminate.
Qed.

(* A step of the writer only fills the pipe or closes its end, so it never
   disables the reader. *)
Lemma writer_run_keeps_reader c ls s s' :
  Forall (fun l => l = LW \/ l = LSpurW) ls -> run c s ls = Some s' ->
  reader_enabled s = true -> reader_enabled s' = true.
Proof.
  intros Hls Hr He. revert ls s s' He Hls Hr.
  apply (run_invariant _ _ (run_is_run c)). intros s l s1 He Hl E.
  assert (H : rst s1 = rst s /\ length (buf (pp s)) <= length (buf (pp s1))
              /\ wrefs (pp s1) <= wrefs (pp s)).
  { destruct Hl as [-> | ->]; cbn [step] in E; [apply step_w_flow in E; tauto|].
    destruct (wst s); try discriminate. injection E as <-. cbn [rst pp]. auto. }
  destruct H as (Hrs & Hb & Hw).
  unfold reader_enabled in *. rewrite Hrs. destruct (rst s); auto.
  rewrite ready_r_rblocked, negb_true_iff in *. apply not_true_iff_false. intros H.
  rewrite (rblocked_mono _ _ Hb Hw H) in He. discriminate.
Qed.

Lemma pump_total c chunks cap fuel : forall s,
  cfg_ok c -> 1 <= cap -> Inv c chunks s -> measure c s < fuel ->
  pump fuel c cap s = Some (concat chunks).
Proof.
  induction fuel as [|fuel IH]; intros s Hc Hcap HI Hm; [lia|].
  cbn [pump]. destruct (finished s) eqn:Hf.
  - f_equal. eapply inv_finished_complete; eauto.
  - destruct (poll_w_total c chunks s Hc HI) as (s1 & H1 & HI1 & Hm1 & Hs1).
    rewrite H1.
    destruct (poll_r_total c chunks s1 [] cap HI1 ltac:(constructor) Hcap) as (s2 & cl & H2 & HI2 & Hm2 & Hs2).
    rewrite H2. apply IH; auto.
    destruct (inv_enabled c chunks s Hc HI Hf) as [Hw|Hre].
    + apply writer_enabled_step in Hw. specialize (Hs1 Hw). lia.
    + (* only the reader can move, and still can after the writer's poll *)
      destruct (poll_w_run c s s1 H1) as (ls & Hls & Hrun).
      specialize (Hs2 (writer_run_keeps_reader c ls s s1 Hls Hrun Hre)). lia.
Qed.

Lemma chunked_concat chunk l : concat (chunked chunk l) = l.
Proof.
  unfold chunked. destruct (chunk =? 0); [cbn; apply app_nil_r|].
  remember (length l) as n eqn:Hn. clear Hn. revert l.
  induction n as [|n IH]; intros l; cbn [chunks_of]; [cbn; apply app_nil_r|].
  destruct l as [|x t]; [reflexivity|]. cbn [concat]. rewrite IH. apply firstn_skipn.
Qed.

Lemma through_pipe_identity c chunk cap l :
  cfg_ok c -> through_pipe c chunk cap l = Some l.
Proof.
  intros Hc. unfold through_pipe.
  rewrite (pump_total c (chunked chunk l)); [rewrite chunked_concat; reflexivity | assumption | lia | apply inv_init |].
  pose proof (measure_init c (chunked chunk l)). lia.
Qed.

Lemma through_pipes_identity n : forall c chunk cap l,
  cfg_ok c -> through_pipes n c chunk cap l = Some l.
Proof.
  induction n as [|n IH]; intros c chunk cap l Hc; [reflexivity|].
  cbn [through_pipes]. rewrite through_pipe_identity by assumption. apply IH. assumption.
Qed.

(* A here-document is a regular file written once and read to its end. *)
Lemma reg_write_fresh data : reg_write [] 0 data = (data, length data).
Proof.
  unfold reg_write. cbn [length Nat.ltb Nat.leb Nat.sub firstn skipn app].
  rewrite Nat.min_0_r. cbn [firstn skipn app Nat.add]. reflexivity.
Qed.

Lemma firstn_nil_inv {A} n (l : list A) : 1 <= n -> firstn n l = [] -> l = [].
Proof. destruct n, l; cbn; (lia || congruence). Qed.

Lemma skipn_firstn_len {A} cap (l : list A) : skipn (length (firstn cap l)) l = skipn cap l.
Proof.
  rewrite firstn_length.
  destruct (Nat.le_ge_cases cap (length l)) as [Hle|Hge].
  - rewrite Nat.min_l by assumption. reflexivity.
  - rewrite Nat.min_r by assumption. rewrite !skipn_all2; [reflexivity | assumption | lia].
Qed.

Lemma reg_read_all_ok fuel : forall content off caps dflt,
  Forall (fun n => 1 <= n) caps -> 1 <= dflt -> length content - off < fuel ->
  reg_read_all fuel content off caps dflt = Some (skipn off content).
Proof.
  induction fuel as [|fuel IH]; intros content off caps dflt Hcaps Hd Hf; [lia|].
  cbn [reg_read_all].
  destruct (next_cap_Forall _ caps dflt Hcaps Hd) as (cap & caps' & -> & Hc1 & Hcaps').
  unfold reg_read.
  remember (firstn cap (skipn off content)) as bs eqn:Hbs.
  destruct bs as [|y bs].
  - symmetry in Hbs. rewrite (firstn_nil_inv _ _ Hc1 Hbs). reflexivity.
  - rewrite IH; auto.
    + f_equal. rewrite Hbs. rewrite skipn_add, skipn_firstn_len. apply firstn_skipn.
    + apply (f_equal (@length _)) in Hbs. rewrite firstn_length, skipn_length in Hbs.
      cbn [length] in *. lia.
Qed.
