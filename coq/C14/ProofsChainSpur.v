(* C14 — Chain with spurious wake-ups: a spurious wake-up keeps the invariant
   and raises the measure by at most one; the chain without them is the special case. *)
From Yv Require Import Common.Base C14.Model C14.ProofsFifo C14.Proofs C14.Chain C14.ProofsChain C14.ChainSpur.
From Coq Require Import Arith.

Lemma spur_mode_rank c m m' cur b out :
  spur_mode m = Some m' -> mode_rank c m' cur b out <= S (mode_rank c m cur b out).
Proof.
  destruct m; cbn [spur_mode]; intros [= <-]; cbn [mode_rank].
  - destruct b; lia.
  - destruct (wblocked c out cur); lia.
Qed.

(* a process woken while it waits goes back to the call it waited for: its part
   of the invariant does not distinguish the two *)
Lemma spur_whalf_inv c m m' cur out :
  spur_mode m = Some m' -> whalf_inv c m cur out ->
  whalf_inv c m' cur out /\ m' <> MReadWait /\ (m' = MRead -> m = MReadWait) /\
  m' <> MClose /\ m' <> MDone.
Proof.
  unfold whalf_inv. destruct m; cbn [spur_mode]; intros [= <-]; cbn [mode_done];
    intuition congruence.
Qed.

Lemma uspur_ok c : forall u d u' out v,
  UInv c u out -> uspur u d = Some u' ->
  UInv c u' out /\ content u' = content u /\ umeasure c u' out v <= S (umeasure c u out v).
Proof.
  induction u as [cur rest m|up IH pin cur m]; intros d u' out v HI Hs; destruct d; cbn [uspur] in Hs;
    try discriminate.
  - destruct (spur_mode m) as [m'|] eqn:Em; [|discriminate]. injection Hs as <-.
    destruct HI as (Hh & Hm & Hcl).
    destruct (spur_whalf_inv c m m' cur out Em Hh) as (Hh' & H1 & H2 & H3 & H4).
    split; [|split; [reflexivity|]].
    + cbn [UInv]. split; [exact Hh'|]. intuition congruence.
    + cbn [umeasure]. pose proof (spur_mode_rank c m m' cur false out Em). lia.
  - destruct (spur_mode m) as [m'|] eqn:Em; [|discriminate]. injection Hs as <-.
    destruct HI as (Hh & Hup & Hrd & Hcl).
    destruct (spur_whalf_inv c m m' cur out Em Hh) as (Hh' & H1 & H2 & H3 & H4).
    split; [|split; [reflexivity|]].
    + cbn [UInv]. split; [exact Hh'|]. split; [exact Hup|]. intuition congruence.
    + cbn [umeasure]. pose proof (spur_mode_rank c m m' cur (rblocked pin) out Em). lia.
  - destruct (uspur up d) as [up'|] eqn:E; [|discriminate]. injection Hs as <-.
    destruct HI as (Hh & Hup & Hrd & Hcl).
    destruct (IH d up' pin (v + 16) Hup E) as (HI' & Hc' & Hm').
    split; [|split].
    + cbn [UInv]. auto.
    + cbn [content]. rewrite Hc'. reflexivity.
    + cbn [umeasure]. lia.
Qed.

Lemma cevent_step_ok c chunks s e s' :
  cfg_ok c -> cevent_ok e -> CInv c chunks s -> cevent_step c s e = Some s' ->
  CInv c chunks s' /\ cmeasure c s' + (if is_spur e then 0 else 1) <= cmeasure c s + (if is_spur e then 1 else 0).
Proof.
  intros Hc He HI Hs. destruct e as [l|d]; cbn [cevent_step is_spur] in *.
  - destruct (cstep_ok c chunks s l s' Hc He HI Hs) as [H1 H2]. split; [assumption | lia].
  - destruct HI as [Hcons Hup Hdone], s as [u p rc rs].
    unfold cmeasure. cbn [top pout crecvd crst] in *.
    destruct d as [|d].
    + destruct rs; try discriminate. injection Hs as <-. split.
      * constructor; cbn [top pout crecvd crst]; auto. discriminate.
      * pose proof (rrank_le RTry p). cbn [top pout crecvd crst rrank] in *. lia.
    + destruct (uspur u d) as [u'|] eqn:E; [|discriminate]. injection Hs as <-.
      destruct (uspur_ok c u d u' p 8 Hup E) as (HI' & Hc' & Hm'). split.
      * constructor; cbn [top pout crecvd crst]; auto. rewrite Hc'. assumption.
      * cbn [top pout crecvd crst]. lia.
Qed.

Lemma crun2_is_run c : is_run (cevent_step c) (crun2 c).
Proof. split; reflexivity. Qed.

Lemma chain2_reach c chunks n es s :
  cfg_ok c -> Forall cevent_ok es -> crun2 c (cinit chunks n) es = Some s ->
  CInv c chunks s /\ length es + cmeasure c s <= chain_bound chunks n + 2 * count_spur es.
Proof.
  intros Hc Hes Hr.
  destruct (run_measure _ _ (crun2_is_run c) (CInv c chunks) cevent_ok is_spur (cmeasure c)
              (fun s0 e s1 HI He => cevent_step_ok c chunks s0 e s1 Hc He HI)
              es _ s (cinv_init c chunks n) Hes Hr) as [HI Hm].
  split; [assumption|]. pose proof (cmeasure_init c chunks n). unfold count_spur. lia.
Qed.

Lemma crun_crun2 c ls : forall s, crun c s ls = crun2 c s (map EStep ls).
Proof.
  induction ls as [|l ls IH]; intros s; cbn [crun crun2 map cevent_step]; [reflexivity|].
  destruct (cstep c s l); [apply IH | reflexivity].
Qed.

Lemma chain_reach c chunks n ls s :
  cfg_ok c -> Forall clabel_ok ls -> crun c (cinit chunks n) ls = Some s ->
  CInv c chunks s /\ length ls + cmeasure c s <= chain_bound chunks n.
Proof.
  intros Hc Hls Hr. rewrite crun_crun2 in Hr.
  assert (Hes : Forall cevent_ok (map EStep ls)) by (apply Forall_map; exact Hls).
  destruct (chain2_reach c chunks n _ s Hc Hes Hr) as [HI Hm]. split; [assumption|].
  assert (Hsp : count_spur (map EStep ls) = 0)
    by (unfold count_spur; clear; induction ls; cbn; auto).
  rewrite Hsp, map_length in Hm. lia.
Qed.

Example exs_run :
  exists s, crun2 exc_cfg (cinit exc_chunks 1)
              [EStep (1, 3); ESpur 1; EStep (2, 1); EStep (2, 1); EStep (2, 1); ESpur 2; EStep (2, 1);
               EStep (0, 1); ESpur 0; EStep (0, 1); EStep (1, 3)] = Some s
            /\ cfinished s = false.
Proof. eexists. vm_compute. split; reflexivity. Qed.
