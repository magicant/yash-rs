(* C14 — the value of a command substitution (expand_common): the output is
   decoded, lossily, and then exactly its trailing newlines are removed.  The
   decoder keeps trailing newline bytes as trailing newline characters, so the
   newlines removed are exactly the newline bytes at the end of the output,
   whatever (invalid) bytes precede. *)
From Yv Require Import Common.Base C14.Model C14.Spec C14.ProofsLists.
From Coq Require Import Arith.

Lemma strip_nl_repeat k : strip_nl (repeat NL k) = [].
Proof.
  induction k as [|k IH]; [reflexivity|].
  cbn [repeat strip_nl]. rewrite IH. rewrite N.eqb_refl. reflexivity.
Qed.

Lemma strip_nl_app_repeat o k :
  (o = [] \/ last o 0%N <> NL) -> strip_nl (o ++ repeat NL k) = o.
Proof.
  induction o as [|x o IH]; intros Hl.
  - cbn [app]. apply strip_nl_repeat.
  - cbn [app strip_nl].
    destruct o as [|y o].
    + cbn [app]. rewrite strip_nl_repeat. cbn [is_nil].
      destruct Hl as [Hl|Hl]; [discriminate|]. cbn [last] in Hl.
      destruct (N.eqb_spec x NL); [contradiction|]. reflexivity.
    + rewrite IH.
      * cbn [is_nil]. rewrite andb_false_r. reflexivity.
      * right. destruct Hl as [Hl|Hl]; [discriminate|]. exact Hl.
Qed.

Lemma strip_nl_spec_lemma s : strip_spec s (strip_nl s).
Proof.
  induction s as [|x t [[k Hk] Hl]].
  - split; [exists 0; reflexivity | left; reflexivity].
  - cbn [strip_nl].
    destruct (N.eqb_spec x NL) as [Hx|Hx]; cbn [andb].
    + destruct (strip_nl t) as [|y t'] eqn:Et; cbn [is_nil].
      * split; [|left; reflexivity]. exists (S k). cbn [repeat app]. subst x. rewrite Hk at 1. reflexivity.
      * split.
        -- exists k. cbn [app]. f_equal. exact Hk.
        -- right. destruct Hl as [Hl|Hl]; [discriminate|]. exact Hl.
    + split.
      * exists k. cbn [app]. f_equal. exact Hk.
      * right. destruct (strip_nl t) as [|y t'] eqn:Et.
        -- cbn [last]. exact Hx.
        -- destruct Hl as [Hl|Hl]; [discriminate|]. exact Hl.
Qed.

Lemma all_nl_repeat k : all_nl (repeat NL k) = true.
Proof. induction k; cbn [repeat all_nl]; [reflexivity|]. rewrite IHk. reflexivity. Qed.

Lemma all_nl_is_repeat s : all_nl s = true -> s = repeat NL (length s).
Proof.
  induction s as [|x t IH]; intros H; [reflexivity|].
  cbn [all_nl] in H. apply andb_true_iff in H. destruct H as [Hx Ht].
  apply N.eqb_eq in Hx. subst x. cbn [length repeat]. f_equal. apply IH. exact Ht.
Qed.

Lemma strip_okb_iff s o : strip_okb s o = true <-> strip_spec s o.
Proof.
  unfold strip_okb, strip_spec. rewrite !andb_true_iff. split.
  - intros [[H1 H2] H3]. apply bytes_eqb_eq in H1. split.
    + exists (length (skipn (length o) s)). rewrite <- (all_nl_is_repeat _ H2).
      rewrite <- H1 at 1. symmetry. apply firstn_skipn.
    + destruct o as [|y o]; [left; reflexivity|]. right. cbn [is_nil orb] in H3.
      apply negb_true_iff in H3. apply N.eqb_neq in H3. exact H3.
  - intros [[k Hk] Hl]. subst s.
    rewrite firstn_app, Nat.sub_diag, firstn_all. cbn [firstn]. rewrite app_nil_r.
    rewrite skipn_app, Nat.sub_diag, skipn_all. cbn [skipn app].
    rewrite bytes_eqb_refl, all_nl_repeat. split; [split; reflexivity|].
    destruct Hl as [->|Hl]; [reflexivity|].
    destruct o; [reflexivity|]. cbn [is_nil orb]. apply negb_true_iff. apply N.eqb_neq. exact Hl.
Qed.

(* Spec.trailing_nl, the "count from the end" reading used by the script oracle,
   runs a local loop over the reversed text: [tnl_go] is that loop, with its
   values on the newlines strip_nl removes and on what it leaves. *)
Definition tnl_go := fix go (r : str) : nat :=
  match r with
  | x :: t => if N.eqb x NL then S (go t) else 0
  | [] => 0
  end.

Lemma trailing_nl_unfold s : trailing_nl s = tnl_go (rev s).
Proof. reflexivity. Qed.

Lemma tnl_go_repeat k r : tnl_go (repeat NL k ++ r) = k + tnl_go r.
Proof. induction k as [|k IH]; [reflexivity|]. cbn [repeat app tnl_go]. rewrite N.eqb_refl, IH. reflexivity. Qed.

Lemma rev_repeat {A} (x : A) k : rev (repeat x k) = repeat x k.
Proof.
  induction k as [|k IH]; [reflexivity|]. cbn [repeat rev]. rewrite IH.
  clear IH. induction k as [|k IH]; [reflexivity|]. cbn [repeat app]. rewrite IH. reflexivity.
Qed.

Lemma tnl_go_rev_last o : (o = [] \/ last o 0%N <> NL) -> tnl_go (rev o) = 0.
Proof.
  intros [->|Hl]; [reflexivity|].
  destruct o as [|x o] using rev_ind; [reflexivity|].
  rewrite rev_app_distr. cbn [rev app tnl_go]. rewrite last_last in Hl.
  destruct (N.eqb_spec x NL); [contradiction|reflexivity].
Qed.

(* A newline is neither a continuation byte nor a valid second byte, so it ends
   any sequence that is still open exactly as the end of the input does, and
   decoding starts afresh behind it.  The induction is on a bound of the length
   because the decoder consumes one to four bytes at a time. *)
Lemma nl_second b : is_cont NL = false /\ second3 b NL = false /\ second4 b NL = false.
Proof.
  unfold second3, second4. change (is_cont NL) with false. change (160 <=? NL)%N with false.
  change (144 <=? NL)%N with false. change (128 <=? NL)%N with false.
  rewrite !andb_false_r. auto.
Qed.

Lemma utf8_lossy_nl r : utf8_lossy (NL :: r) = NL :: utf8_lossy r.
Proof. reflexivity. Qed.

Lemma utf8_lossy_app_nl_len n : forall s r,
  length s <= n -> utf8_lossy (s ++ NL :: r) = utf8_lossy s ++ NL :: utf8_lossy r.
Proof.
  induction n as [|n IH]; intros s r Hl; (destruct s as [|b t]; [reflexivity|]); cbn [length] in Hl; [lia|].
  assert (IHt : forall u, length u <= length t ->
                utf8_lossy (u ++ NL :: r) = utf8_lossy u ++ NL :: utf8_lossy r)
    by (intros u Hu; apply IH; lia).
  destruct (nl_second b) as (Hc & H3 & H4).
  cbn [app utf8_lossy].
  destruct (b <? 128)%N; [rewrite (IHt t) by lia; reflexivity|].
  destruct ((194 <=? b) && (b <=? 223))%N.
  { destruct t as [|c t1]; cbn [app]; [rewrite Hc; reflexivity|].
    destruct (is_cont c); [rewrite (IHt t1) by (cbn; lia); reflexivity|].
    cbn [app]. f_equal. apply (IHt (c :: t1)). lia. }
  destruct ((224 <=? b) && (b <=? 239))%N.
  { destruct t as [|c t1]; cbn [app]; [rewrite H3; reflexivity|].
    destruct (second3 b c); [|cbn [app]; f_equal; apply (IHt (c :: t1)); lia].
    destruct t1 as [|d t2]; cbn [app]; [rewrite Hc; reflexivity|].
    destruct (is_cont d); [rewrite (IHt t2) by (cbn; lia); reflexivity|].
    cbn [app]. f_equal. apply (IHt (d :: t2)). cbn; lia. }
  destruct ((240 <=? b) && (b <=? 244))%N; [|rewrite (IHt t) by lia; reflexivity].
  destruct t as [|c t1]; cbn [app]; [rewrite H4; reflexivity|].
  destruct (second4 b c); [|cbn [app]; f_equal; apply (IHt (c :: t1)); lia].
  destruct t1 as [|d t2]; cbn [app]; [rewrite Hc; reflexivity|].
  destruct (is_cont d); [|cbn [app]; f_equal; apply (IHt (d :: t2)); cbn; lia].
  destruct t2 as [|e t3]; cbn [app]; [rewrite Hc; reflexivity|].
  destruct (is_cont e); [rewrite (IHt t3) by (cbn; lia); reflexivity|].
  cbn [app]. f_equal. apply (IHt (e :: t3)). cbn; lia.
Qed.

(* one U+FFFD per maximal invalid sequence: FF, C0 and 80 give one each; E8 AA
   and F0 9F, cut short by a newline, give one each, and the newline stays *)
Example ex_lossy :
  utf8_lossy [97; 255; 195; 169; 192; 128; 232; 170; 10; 240; 159; 10]%N
  = [97; 65533; 233; 65533; 65533; 65533; 10; 65533; 10]%N.
Proof. reflexivity. Qed.
