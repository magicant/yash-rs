(* C14 — pipelines of any number of stages.  The state is a nest built from the
   sink upwards (Chain.upstream), so the invariant [UInv] and the measure
   [umeasure] are recursions over that nest, relative to the pipe a process
   writes to.  A step of the head process is analysed once ([whalf_ok] for the
   writing half that source and relay share, [relay_step_ok] for the reading
   half) and carried through the nest by induction on the depth ([ustep_ok]).
   A byte weighs 16 more for every pipe between it and the sink: this is the
   factor n + 1 of Chain.chain_bound. *)
From Yv Require Import Common.Base C14.Model C14.ProofsFifo C14.Proofs C14.Chain.
From Coq Require Import Arith.

(* The writing half of a process, the same for the source and for a relay:
   `write_all` on [cur], then (at the end of the input) close. *)
Definition whalf_step (c : cfg) (m : mode) (cur : list N) (out : pipe)
  : option (mode * list N * pipe) :=
  match m with
  | MWrite =>
      match write_step c cur out with
      | Some (cur', out', y) => Some (if y then MWriteWait else MWrite, cur', out')
      | None => None
      end
  | MWriteWait => if ready_w c out then Some (MWrite, cur, out) else None
  | MClose => Some (MDone, cur, close_w out)
  | _ => None
  end.

Lemma src_whalf c cur rest m out cap :
  (m = MWrite -> cur <> []) ->
  head_step c (USrc cur rest m) out cap =
  match whalf_step c m cur out with
  | Some (m', cur', out') => Some (USrc cur' rest m', out')
  | None => None
  end.
Proof.
  intros H. destruct m; cbn [head_step whalf_step]; try reflexivity.
  - destruct cur as [|x d]; [destruct (H eq_refl eq_refl)|].
    destruct (write_step c (x :: d) out) as [[[? ?] []]|]; reflexivity.
  - destruct (ready_w c out); reflexivity.
Qed.

Lemma relay_whalf c up pin cur m out cap :
  m <> MRead -> m <> MReadWait -> (m = MWrite -> cur <> []) ->
  head_step c (URelay up pin cur m) out cap =
  match whalf_step c m cur out with
  | Some (m', cur', out') => Some (URelay up pin cur' m', out')
  | None => None
  end.
Proof.
  intros H1 H2 H. destruct m; try congruence; cbn [head_step whalf_step]; try reflexivity.
  - destruct cur as [|x d]; [destruct (H eq_refl eq_refl)|].
    destruct (write_step c (x :: d) out) as [[[? ?] []]|]; reflexivity.
  - destruct (ready_w c out); reflexivity.
Qed.

Lemma between_or_writing (m : mode) (cur : list N) :
  m = MWrite /\ cur = [] \/ (m = MWrite -> cur <> []).
Proof. destruct m, cur; (left; split; reflexivity) || (right; congruence). Qed.

Definition mode_done (m : mode) : bool := match m with MDone => true | _ => false end.

(* what a process and the pipe it writes owe each other *)
Definition whalf_inv (c : cfg) (m : mode) (cur : list N) (out : pipe) : Prop :=
  length (buf out) <= psize c /\ rrefs out = 1 /\
  wrefs out = (if mode_done m then 0 else 1) /\
  ((m = MClose \/ m = MDone) -> cur = []).

(* The rank of a control state in the termination measure: as in the two-party
   system, an attempt that will report would-block stands above the wait, the
   wait above the attempt that will not; writing stands above reading because
   a relay reads again only after it has written all it read. *)
Definition mode_rank (c : cfg) (m : mode) (cur : list N) (in_blocked : bool) (out : pipe) : nat :=
  match m with
  | MDone => 0
  | MClose => 1
  | MRead => if in_blocked then 4 else 2
  | MReadWait => 3
  | MWrite => if wblocked c out cur then 7 else 5
  | MWriteWait => 6
  end.

Lemma mode_rank_le c m cur b out : mode_rank c m cur b out <= 7.
Proof. destruct m; cbn [mode_rank]; try lia; [destruct b | destruct (wblocked c out cur)]; lia. Qed.

Lemma mode_rank_mono c m cur b out out' :
  length (buf out') <= length (buf out) ->
  mode_rank c m cur b out' <= mode_rank c m cur b out.
Proof.
  intros Hl. destruct m; cbn [mode_rank]; try lia.
  destruct (wblocked c out' cur) eqn:E; [rewrite (wblocked_mono c out out' cur Hl E); lia|].
  destruct (wblocked c out cur); lia.
Qed.

Lemma mode_rank_in_mono c m cur b b' out :
  (b' = true -> b = true) -> mode_rank c m cur b' out <= mode_rank c m cur b out.
Proof.
  intros H. destruct m; cbn [mode_rank]; try lia.
  destruct b'; [rewrite (H eq_refl); lia | destruct b; lia].
Qed.

(* One step of the writing half: its part of the invariant, of conservation and
   of the measure ([v] is the weight of a byte in [out], a byte still in [cur]
   weighs 8 more), and it never blocks the reader of [out]. *)
Lemma whalf_ok c m cur out m' cur' out' b v :
  cfg_ok c -> whalf_inv c m cur out -> (m = MWrite -> cur <> []) ->
  whalf_step c m cur out = Some (m', cur', out') ->
  whalf_inv c m' cur' out' /\
  match m' with MWrite | MWriteWait => True | MDone => m = MClose | _ => False end /\
  buf out' ++ cur' = buf out ++ cur /\
  v * length (buf out') + (v + 8) * length cur' + mode_rank c m' cur' b out'
    < v * length (buf out) + (v + 8) * length cur + mode_rank c m cur b out /\
  (rblocked out' = true -> rblocked out = true).
Proof.
  intros Hc (Hl & Hr & Hw & Hce) Hne Hs. unfold whalf_inv.
  destruct m; try discriminate; cbn [whalf_step mode_done] in *.
  - specialize (Hne eq_refl). unfold write_step in Hs.
    pose proof (fifo_write_ok c out cur (one_reader out Hr) Hl Hne) as Hf.
    destruct (wblocked c out cur) eqn:Eb.
    + rewrite Hf in Hs. injection Hs as <- <- <-.
      cbn [mode_rank mode_done]. rewrite Eb. intuition (congruence || lia).
    + destruct Hf as (n & En' & Hn & Hf). rewrite Hf in Hs. destruct n as [|k]; [lia|].
      cbv beta iota in Hs. remember (S k) as n eqn:En. injection Hs as <- <- <-.
      assert (Hfl : length (firstn n cur) = n) by (apply firstn_length_le; lia).
      pose proof (mode_rank_le c MWrite (skipn n cur) b (set_buf out (buf out ++ firstn n cur))).
      cbn [mode_rank mode_done set_buf buf rrefs wrefs] in *.
      rewrite Eb, <- app_assoc, firstn_skipn, app_length, Hfl.
      pose proof (skipn_length n cur).
      repeat split; try (intuition (congruence || lia)). apply (rblocked_app out).
  - destruct (ready_w c out) eqn:Er; [|discriminate]. injection Hs as <- <- <-.
    cbn [mode_rank mode_done]. rewrite (ready_w_not_blocked c out cur Hc Hr Er).
    intuition (congruence || lia).
  - injection Hs as <- <- <-. cbn [mode_rank mode_done close_w buf rrefs wrefs].
    repeat split; try (intuition (congruence || lia)). apply rblocked_close.
Qed.

(* [UInv c u out]: the upstream [u] is the (only) writer of the pipe [out] *)
Fixpoint UInv (c : cfg) (u : upstream) (out : pipe) : Prop :=
  match u with
  | USrc cur rest m =>
      whalf_inv c m cur out /\ (m <> MRead /\ m <> MReadWait) /\
      ((m = MClose \/ m = MDone) -> rest = [])
  | URelay up pin cur m =>
      whalf_inv c m cur out /\ UInv c up pin /\
      ((m = MRead \/ m = MReadWait) -> cur = []) /\
      ((m = MClose \/ m = MDone) -> buf pin = [] /\ wrefs pin = 0)
  end.

Record CInv (c : cfg) (chunks : list (list N)) (s : cstate) : Prop := mkCInv {
  ci_cons : crecvd s ++ buf (pout s) ++ content (top s) = concat chunks;
  ci_up : UInv c (top s) (pout s);
  ci_done : crst s = RDone -> buf (pout s) = [] /\ wrefs (pout s) = 0 }.

Lemma UInv_whalf c u out :
  UInv c u out ->
  length (buf out) <= psize c /\ rrefs out = 1 /\
  wrefs out = (if mode_done (head_mode u) then 0 else 1).
Proof. destruct u; cbn [UInv head_mode]; unfold whalf_inv; tauto. Qed.

(* [v]: the weight of a byte in the buffer of [out]; a byte further upstream
   weighs 8 more for every read and every write it still has to go through *)
Fixpoint umeasure (c : cfg) (u : upstream) (out : pipe) (v : nat) : nat :=
  match u with
  | USrc cur rest m =>
      (v + 8) * (length cur + length (concat rest)) + 8 * length rest + mode_rank c m cur false out
  | URelay up pin cur m =>
      (v + 8) * length cur + mode_rank c m cur (rblocked pin) out
      + (v + 16) * length (buf pin) + umeasure c up pin (v + 16)
  end.

Definition cmeasure (c : cfg) (s : cstate) : nat :=
  8 * length (buf (pout s)) + rrank (crst s) (pout s) + umeasure c (top s) (pout s) 8.

(* Draining [out] leaves its upstream as it is and does not raise its measure. *)
Lemma upstream_drained c u out b' v :
  UInv c u out -> length b' <= length (buf out) ->
  UInv c u (set_buf out b') /\ umeasure c u (set_buf out b') v <= umeasure c u out v.
Proof.
  intros HI Hl. split.
  - assert (Hh : forall m cur, whalf_inv c m cur out -> whalf_inv c m cur (set_buf out b'))
      by (unfold whalf_inv; cbn [set_buf buf rrefs wrefs]; intuition lia).
    destruct u; cbn [UInv] in *; destruct HI as [H HI]; auto.
  - destruct u; cbn [umeasure].
    + pose proof (mode_rank_mono c m cur false out (set_buf out b') Hl). lia.
    + pose proof (mode_rank_mono c m cur (rblocked pin) out (set_buf out b') Hl). lia.
Qed.

(* Once the write end of [out] is closed, nothing upstream holds data or moves. *)
Lemma all_done c u : forall out,
  UInv c u out -> wrefs out = 0 -> content u = [] /\ forall d cap, ustep c u out d cap = None.
Proof.
  induction u as [cur rest m|up IH pin cur m]; intros out HI H0;
    destruct (UInv_whalf c _ out HI) as (_ & _ & Hw); cbn [head_mode] in Hw;
    destruct m; cbn [mode_done] in Hw; try congruence; cbn [UInv content] in HI.
  - destruct HI as ((_ & _ & _ & Hce) & _ & Hcl).
    rewrite (Hce (or_intror eq_refl)), (Hcl (or_intror eq_refl)).
    split; [reflexivity | intros [|d] cap; reflexivity].
  - destruct HI as ((_ & _ & _ & Hce) & Hup & _ & Hcl).
    destruct (Hcl (or_intror eq_refl)) as [Hb Hw0]. destruct (IH pin Hup Hw0) as [Hc Hn].
    cbn [content]. rewrite (Hce (or_intror eq_refl)), Hb, Hc.
    split; [reflexivity | intros [|d] cap; [reflexivity|]]. cbn [ustep]. rewrite Hn. reflexivity.
Qed.

(* What a step of any process upstream of [out] gives, seen from [out]: the
   invariant, the bytes in and above [out] unchanged, a smaller measure (the
   buffer of [out] counted at weight [v]), and the reader of [out] not blocked
   by it.  For every [v], because ustep_ok descends with [v + 16]. *)
Definition step_goal (c : cfg) (u : upstream) (out : pipe) (v : nat) (u' : upstream) (out' : pipe) : Prop :=
  UInv c u' out' /\ buf out' ++ content u' = buf out ++ content u /\
  v * length (buf out') + umeasure c u' out' v < v * length (buf out) + umeasure c u out v /\
  (rblocked out' = true -> rblocked out = true).

Lemma src_step_ok c cur rest m out cap v u' out' :
  cfg_ok c -> UInv c (USrc cur rest m) out ->
  head_step c (USrc cur rest m) out cap = Some (u', out') ->
  step_goal c (USrc cur rest m) out v u' out'.
Proof.
  intros Hc (Hh & _ & Hcl) Hs. unfold step_goal.
  destruct (between_or_writing m cur) as [[-> ->]|Hne].
  - (* between two chunks *)
    cbn [head_step] in Hs. unfold whalf_inv in Hh.
    destruct rest as [|ch r]; injection Hs as <- <-;
      (split; [cbn [UInv]; unfold whalf_inv; cbn [mode_done] in *; intuition congruence|]);
      (split; [reflexivity|]); (split; [|auto]); cbn [umeasure mode_rank concat length].
    + rewrite wblocked_nil. lia.
    + pose proof (mode_rank_le c MWrite ch false out). cbn [mode_rank] in *.
      rewrite wblocked_nil, app_length. lia.
  - rewrite (src_whalf c cur rest m out cap Hne) in Hs.
    destruct (whalf_step c m cur out) as [[[m' cur'] o']|] eqn:E; [|discriminate].
    injection Hs as <- <-.
    destruct (whalf_ok c m cur out m' cur' o' false v Hc Hh Hne E) as (Hh' & Hm' & Hcons & Hmeas & Hb).
    split; [|split; [|split; [|exact Hb]]].
    + cbn [UInv]. split; [exact Hh'|].
      destruct m'; try contradiction; (split; [split; discriminate|]); intuition discriminate.
    + cbn [content]. rewrite !app_assoc, Hcons. reflexivity.
    + cbn [umeasure]. lia.
Qed.

Lemma relay_step_ok c up pin cur m out cap v u' out' :
  cfg_ok c -> 1 <= cap -> UInv c (URelay up pin cur m) out ->
  head_step c (URelay up pin cur m) out cap = Some (u', out') ->
  step_goal c (URelay up pin cur m) out v u' out'.
Proof.
  intros Hc Hcap (Hh & Hup & Hrd & Hcl) Hs. unfold step_goal.
  assert (Hwh : m <> MRead -> m <> MReadWait -> (m = MWrite -> cur <> []) ->
                step_goal c (URelay up pin cur m) out v u' out').
  { intros H1 H2 Hne. rewrite (relay_whalf c up pin cur m out cap H1 H2 Hne) in Hs.
    destruct (whalf_step c m cur out) as [[[m' cur'] o']|] eqn:E; [|discriminate].
    injection Hs as <- <-.
    destruct (whalf_ok c m cur out m' cur' o' (rblocked pin) v Hc Hh Hne E)
      as (Hh' & Hm' & Hcons & Hmeas & Hb).
    split; [|split; [|split; [|exact Hb]]].
    - cbn [UInv]. split; [exact Hh'|]. split; [exact Hup|].
      destruct m'; try contradiction; intuition discriminate.
    - cbn [content]. rewrite !app_assoc, Hcons. reflexivity.
    - cbn [umeasure]. lia. }
  unfold whalf_inv in Hh.
  destruct m; try (apply Hwh; discriminate).
  - (* a read *)
    clear Hwh. cbn [head_step] in Hs. rewrite (Hrd (or_introl eq_refl)) in *.
    pose proof (fifo_read_ok pin cap Hcap) as Hr.
    destruct (rblocked pin) eqn:Eb.
    + rewrite Hr in Hs. injection Hs as <- <-.
      split; [cbn [UInv]; unfold whalf_inv; cbn [mode_done] in *; intuition congruence|].
      split; [reflexivity|]. split; [|auto]. cbn [umeasure mode_rank]. rewrite Eb. lia.
    + destruct Hr as (bs & b' & Hr & Hb & _ & Heof). rewrite Hr in Hs.
      assert (Hlen : length (buf pin) = length bs + length b') by (rewrite Hb; apply app_length).
      destruct (upstream_drained c up pin b' (v + 16) Hup ltac:(lia)) as [Hup' Hum].
      destruct bs as [|y bs]; injection Hs as <- <-.
      * (* end of file *)
        destruct (Heof eq_refl) as [-> Hw0].
        split; [cbn [UInv]; unfold whalf_inv; cbn [mode_done set_buf buf wrefs] in *;
                intuition congruence|].
        split; [cbn [content set_buf buf]; rewrite Hb; reflexivity|]. split; [|auto].
        cbn [umeasure mode_rank set_buf buf length] in *. rewrite Eb, Hlen. lia.
      * pose proof (mode_rank_le c MWrite (y :: bs) (rblocked (set_buf pin b')) out).
        split; [cbn [UInv]; unfold whalf_inv; cbn [mode_done] in *; intuition congruence|].
        split; [cbn [content set_buf buf]; rewrite Hb, <- app_assoc; reflexivity|]. split; [|auto].
        cbn [umeasure mode_rank set_buf buf length] in *. rewrite Eb, Hlen. lia.
  - (* woken: the input is readable *)
    clear Hwh. cbn [head_step] in Hs. destruct (ready_r pin) eqn:Er; [|discriminate]. injection Hs as <- <-.
    rewrite ready_r_rblocked, negb_true_iff in Er.
    split; [cbn [UInv]; unfold whalf_inv; cbn [mode_done] in *; intuition congruence|].
    split; [reflexivity|]. split; [|auto]. cbn [umeasure mode_rank]. rewrite Er. lia.
  - destruct cur as [|x cur']; [|apply Hwh; discriminate].
    (* all of the buffer written: read again *)
    clear Hwh. cbn [head_step] in Hs. injection Hs as <- <-.
    split; [cbn [UInv]; unfold whalf_inv; cbn [mode_done] in *; intuition congruence|].
    split; [reflexivity|]. split; [|auto]. cbn [umeasure mode_rank length] in *.
    rewrite wblocked_nil. destruct (rblocked pin); lia.
Qed.

Lemma ustep_ok c d : forall u out cap v u' out',
  cfg_ok c -> 1 <= cap -> UInv c u out -> ustep c u out d cap = Some (u', out') ->
  step_goal c u out v u' out'.
Proof.
  induction d as [|d IH]; intros u out cap v u' out' Hc Hcap HI Hs.
  - destruct u; [exact (src_step_ok c _ _ _ out cap v u' out' Hc HI Hs)
                | exact (relay_step_ok c _ _ _ _ out cap v u' out' Hc Hcap HI Hs)].
  - destruct u as [|up pin cur m]; cbn [ustep] in Hs; [discriminate|].
    destruct (ustep c up pin d cap) as [[up' pin']|] eqn:E; [|discriminate].
    injection Hs as <- <-. destruct HI as (Hh & Hup & Hrd & Hcl).
    destruct (IH up pin cap (v + 16) up' pin' Hc Hcap Hup E) as (HI' & Hcons & Hm & Hb).
    split; [|split; [|split; [|auto]]].
    + cbn [UInv]. split; [exact Hh|]. split; [exact HI'|]. split; [exact Hrd|].
      (* a process that has seen end of file has nobody upstream that moves *)
      intros Hd. destruct (Hcl Hd) as [_ Hw0].
      destruct (all_done c up pin Hup Hw0) as [_ Hn]. rewrite Hn in E. discriminate.
    + cbn [content]. rewrite Hcons. reflexivity.
    + cbn [umeasure].
      pose proof (mode_rank_in_mono c m cur (rblocked pin) (rblocked pin') out Hb). lia.
Qed.

Lemma cstep_ok c chunks s l s' :
  cfg_ok c -> clabel_ok l -> CInv c chunks s -> cstep c s l = Some s' ->
  CInv c chunks s' /\ cmeasure c s' < cmeasure c s.
Proof.
  intros Hc Hl [Hcons Hup Hdone] Hs. destruct l as [d cap], s as [u p rc rs].
  unfold clabel_ok in Hl. unfold cstep in Hs. unfold cmeasure.
  cbn [fst snd top pout crecvd crst] in *.
  destruct d as [|d].
  - (* the sink *)
    destruct rs; try discriminate.
    + pose proof (fifo_read_ok p cap Hl) as Hr.
      destruct (rblocked p) eqn:Eb.
      * rewrite Hr in Hs. injection Hs as <-.
        split; [constructor; cbn [top pout crecvd crst]; auto; discriminate|].
        cbn [top pout crecvd crst rrank]. rewrite Eb. lia.
      * destruct Hr as (bs & b' & Hr & Hb & _ & Heof). rewrite Hr in Hs.
        assert (Hlen : length (buf p) = length bs + length b') by (rewrite Hb; apply app_length).
        destruct (upstream_drained c u p b' 8 Hup ltac:(lia)) as [Hup' Hum].
        pose proof (rrank_le RTry (set_buf p b')).
        rewrite Hb in Hcons.
        destruct bs as [|y bs]; injection Hs as <-;
          cbn [top pout crecvd crst set_buf buf wrefs length rrank] in *; rewrite Eb.
        -- (* end of file *)
           split; [constructor; cbn [top pout crecvd crst buf wrefs]; auto;
                   intros _; exact (Heof eq_refl) | lia].
        -- split; [constructor; cbn [top pout crecvd crst buf wrefs]; auto; [|discriminate];
                   rewrite <- Hcons, <- !app_assoc; reflexivity | lia].
    + destruct (ready_r p) eqn:Er; [|discriminate]. injection Hs as <-.
      rewrite ready_r_rblocked, negb_true_iff in Er.
      split; [constructor; cbn [top pout crecvd crst]; auto; discriminate|].
      cbn [top pout crecvd crst rrank]. rewrite Er. lia.
  - (* a writer *)
    destruct (ustep c u p d cap) as [[u' p']|] eqn:E; [|discriminate].
    injection Hs as <-.
    destruct (ustep_ok c d u p cap 8 u' p' Hc Hl Hup E) as (HI' & Hc' & Hm & Hb).
    split.
    + constructor; cbn [top pout crecvd crst]; auto.
      * rewrite Hc'. assumption.
      * intros Hd. destruct (Hdone Hd) as [_ Hw0].
        destruct (all_done c u p Hup Hw0) as [_ Hn]. rewrite Hn in E. discriminate.
    + cbn [top pout crecvd crst]. pose proof (rrank_mono rs p p' Hb). lia.
Qed.

Lemma cinv_init c chunks n : CInv c chunks (cinit chunks n).
Proof.
  constructor; unfold cinit; cbn [top pout crecvd crst buf new_pipe].
  - cbn [app]. induction n as [|n IH]; cbn [relays content]; [reflexivity | exact IH].
  - induction n as [|n IH]; cbn [relays UInv]; unfold whalf_inv; cbn; intuition (discriminate || lia).
  - discriminate.
Qed.

Lemma umeasure_relays c chunks n : forall v,
  umeasure c (relays n (USrc [] chunks MWrite)) new_pipe v =
  4 * n + (v + 16 * n + 8) * length (concat chunks) + 8 * length chunks + 5.
Proof.
  induction n as [|n IH]; intros v; cbn [relays umeasure mode_rank length].
  - rewrite wblocked_nil. lia.
  - rewrite IH. change (rblocked new_pipe) with true. cbn [buf new_pipe length]. lia.
Qed.

Lemma cmeasure_init c chunks n : cmeasure c (cinit chunks n) <= chain_bound chunks n.
Proof.
  unfold cmeasure, cinit, chain_bound; cbn [top pout crecvd crst].
  rewrite umeasure_relays. cbn. lia.
Qed.

Lemma whalf_enabled c m cur out :
  whalf_inv c m cur out -> (m = MWrite -> cur <> []) ->
  match m with MWrite | MClose => True | MWriteWait => ready_w c out = true | _ => False end ->
  whalf_step c m cur out <> None.
Proof.
  intros (Hl & Hr & _) Hne Hm. destruct m; try contradiction; cbn [whalf_step].
  - unfold write_step. pose proof (fifo_write_ok c out cur (one_reader out Hr) Hl (Hne eq_refl)) as Hf.
    destruct (wblocked c out cur); [rewrite Hf; discriminate|].
    destruct Hf as ([|k] & _ & Hn & ->); [lia | discriminate].
  - rewrite Hm. discriminate.
  - discriminate.
Qed.

(* Where the reader of [out] has nothing to read and no end of file, somebody
   upstream can move: the writer of [out] itself (an empty pipe is writable),
   or, if that one waits for input in turn, somebody further up. *)
Lemma starved_enabled c u : forall out,
  cfg_ok c -> UInv c u out -> ready_r out = false -> exists d, ustep c u out d 1 <> None.
Proof.
  induction u as [cur rest m|up IH pin cur m]; intros out Hc HI Hr;
    destruct (not_ready_r out Hr) as [Hb Hw0]; pose proof (empty_pipe_ready c out Hc Hb) as Hrw;
    destruct (UInv_whalf c _ out HI) as (_ & _ & Hw); cbn [head_mode] in Hw;
    assert (Hnd : m <> MDone) by (intros ->; cbn in Hw; congruence).
  - exists 0. cbn [ustep]. destruct HI as (Hh & [Hm1 Hm2] & _).
    destruct (between_or_writing m cur) as [[-> ->]|Hne]; [cbn; destruct rest; discriminate|].
    rewrite (src_whalf c cur rest m out 1 Hne).
    assert (He : whalf_step c m cur out <> None)
      by (apply whalf_enabled; auto; destruct m; auto; congruence).
    destruct (whalf_step c m cur out) as [[[? ?] ?]|]; congruence.
  - destruct HI as (Hh & Hup & _ & _).
    assert (Hwh : m <> MRead -> m <> MReadWait -> exists d, ustep c (URelay up pin cur m) out d 1 <> None).
    { intros H1 H2. exists 0. cbn [ustep].
      destruct (between_or_writing m cur) as [[-> ->]|Hne]; [cbn; discriminate|].
      rewrite (relay_whalf c up pin cur m out 1 H1 H2 Hne).
      assert (He : whalf_step c m cur out <> None)
        by (apply whalf_enabled; auto; destruct m; auto; congruence).
      destruct (whalf_step c m cur out) as [[[? ?] ?]|]; congruence. }
    destruct m; try (apply Hwh; discriminate).
    + exists 0. cbn [ustep head_step]. destruct (fifo_read pin 1) as [[[|b bs]|] p']; discriminate.
    + destruct (ready_r pin) eqn:Er.
      * exists 0. cbn [ustep head_step]. rewrite Er. discriminate.
      * destruct (IH pin Hc Hup Er) as [d Hd].
        exists (S d). cbn [ustep]. destruct (ustep c up pin d 1) as [[u' p']|]; congruence.
Qed.

Lemma chain_no_deadlock_inv c chunks s :
  cfg_ok c -> CInv c chunks s -> cfinished s = false ->
  exists l, clabel_ok l /\ cstep c s l <> None.
Proof.
  intros Hc [_ Hup _] Hf. unfold cfinished in Hf.
  assert (Hl : clabel_ok (0, 1)) by (unfold clabel_ok; cbn; lia).
  destruct (crst s) eqn:Ers; try discriminate.
  - exists (0, 1). split; [exact Hl|]. unfold cstep; cbn [fst snd]. rewrite Ers.
    destruct (fifo_read (pout s) 1) as [[[|b bs]|] p']; discriminate.
  - destruct (ready_r (pout s)) eqn:Er.
    + exists (0, 1). split; [exact Hl|]. unfold cstep; cbn [fst snd]. rewrite Ers, Er. discriminate.
    + destruct (starved_enabled c (top s) (pout s) Hc Hup Er) as [d Hd].
      exists (S d, 1). split; [exact Hl|].
      unfold cstep; cbn [fst snd]. destruct (ustep c (top s) (pout s) d 1) as [[u' p']|]; congruence.
Qed.

Lemma chain_finished_complete c chunks s :
  CInv c chunks s -> cfinished s = true -> crecvd s = concat chunks.
Proof.
  intros [Hcons Hup Hdone] Hf. unfold cfinished in Hf.
  destruct (crst s) eqn:Er; try discriminate.
  destruct (Hdone eq_refl) as [Hb Hw]. destruct (all_done c _ _ Hup Hw) as [Hc _].
  rewrite Hb, Hc in Hcons. cbn [app] in Hcons. rewrite app_nil_r in Hcons. exact Hcons.
Qed.

Lemma cinv_stuck_complete c chunks s :
  cfg_ok c -> CInv c chunks s -> (forall l, clabel_ok l -> cstep c s l = None) ->
  cfinished s = true /\ crecvd s = concat chunks.
Proof.
  intros Hc HI Hstuck.
  assert (Hf : cfinished s = true)
    by (apply (stuck_finished clabel_ok (cstep c s)); [apply (chain_no_deadlock_inv c chunks)|]; assumption).
  split; [exact Hf | exact (chain_finished_complete c chunks s HI Hf)].
Qed.

(* non-vacuity: a complete run through two relays (three pipes), found by a
   rotating scheduler *)
Definition exc_cfg : cfg := mkCfg 2 4.
Definition exc_chunks : list (list N) := [[1; 2; 3; 4; 5; 6; 7]; [8; 9]]%N.

Fixpoint exc_auto (fuel : nat) (k : nat) (s : cstate) : list clabel :=
  match fuel with
  | O => []
  | S fuel =>
      let cands := map (fun d => ((d + k) mod 5, 1 + (k mod 3))) (seq 0 5) in
      let fix pick (l : list clabel) : option (clabel * cstate) :=
        match l with
        | [] => None
        | x :: t => match cstep exc_cfg s x with Some s' => Some (x, s') | None => pick t end
        end in
      match pick cands with
      | Some (l, s') => l :: exc_auto fuel (S k) s'
      | None => []
      end
  end.

Definition exc_sched : list clabel := exc_auto 400 0 (cinit exc_chunks 2).

Example exc_sched_ok : Forall clabel_ok exc_sched.
Proof. vm_compute. repeat constructor. Qed.

Example exc_run_complete :
  exists s, crun exc_cfg (cinit exc_chunks 2) exc_sched = Some s
            /\ cfinished s = true /\ crecvd s = [1; 2; 3; 4; 5; 6; 7; 8; 9]%N
            /\ forall l, clabel_ok l -> cstep exc_cfg s l = None.
Proof.
  eexists. split; [vm_compute; reflexivity|]. split; [reflexivity|]. split; [reflexivity|].
  intros [[|[|[|[|d]]]] cap] _; reflexivity.
Qed.

Example exc_run_midway :
  exists s, crun exc_cfg (cinit exc_chunks 2) (firstn 40 exc_sched) = Some s
            /\ cfinished s = false /\ length (crecvd s) = 3.
Proof. eexists. vm_compute. repeat split. Qed.

(* the same function as ProofsFifo.rblocked *)
Definition blocked_rp (p : pipe) : bool := (length (buf p) =? 0) && wopen p.

Lemma blocked_rp_read p cap :
  blocked_rp p = false -> forall q, snd (fifo_read p cap) = q -> length (buf q) <= length (buf p) /\
  rrefs q = rrefs p /\ wrefs q = wrefs p.
Proof.
  intros _ q <-. destruct (fifo_read p cap) as [r q] eqn:E.
  apply fifo_read_flow in E as (E & Hr & Hw). rewrite <- E, app_length. cbn [snd]. repeat split; auto; lia.
Qed.
