(* C11 — the concrete histories, tables and scripts on which Properties.v shows
   that the hypotheses of its theorems can be met by non-trivial runs, and that
   the strict reading of the property fails. *)
From Yv Require Import Common.Base C11.Model C11.Spec C11.ScriptModel C11.ScriptSpec.

Definition SIGUSR1 : N := 124.

(* a non-interactive history on a signal ignored on entry: trap attempts, an
   internal handler, a subshell *)
Definition ex_ops : list op :=
  [OSetAction SIGINT (ACommand 1) 1 false; OInternal SIGINT Catch;
   OSetAction SIGINT ADefault 2 false; OEnterSubshell true false; ODeliver SIGINT;
   OTakeSig SIGINT; OPeek SIGINT].

Lemma ex_ops_ok : Forall (fun o => op_ok o = true) ex_ops.
Proof. repeat constructor. Qed.

(* a global history over five conditions inside the domain of oracle_sound *)
Definition ex_univ : list (N * disp) :=
  [(EXIT, Default); (SIGINT, Ignore); (SIGQUIT, Default); (SIGTERM, Default); (SIGUSR1, Default)].

Definition ex_gops : list gop :=
  [GOp (OSetAction SIGUSR1 (ACommand 1) 1 false); GEnableTerm;
   GOp (OSetAction SIGINT (ACommand 2) 2 false); GOp (ODeliver SIGUSR1);
   GOp (OSetAction EXIT (ACommand 3) 3 false);
   GOp (OEnterSubshell true false); GTakeAny; GOp (OSetAction SIGTERM AIgnore 4 true);
   GDisableTerm; GOp (OPeek SIGUSR1)].

(* the history is not trivial: a trap was set, a signal caught, dispositions changed *)
Lemma ex_trace_nontrivial :
  map (fun p => ob_disp (snd p))
      (map (fun p => (fst p, observe (snd p)))
           (grun ex_univ [GOp (OSetAction SIGUSR1 (ACommand 1) 1 false); GEnableTerm;
                          GOp (ODeliver SIGUSR1)]))
  = [Default; Catch; Ignore; Ignore; Catch]
  /\ first_pending (grun ex_univ [GOp (OSetAction SIGUSR1 (ACommand 1) 1 false);
                                  GOp (ODeliver SIGUSR1)]) = Some SIGUSR1.
Proof. split; reflexivity. Qed.

Definition USR1 : N := 124.
Definition USR2 : N := 125.

(* USR1's action delivers USR2 twice and replaces nothing; USR2's action is a
   probe; the script delivers USR1 with $? = 42, in the main shell and in a
   subshell (where the trap is reset and the signal kills the subshell) *)
Definition ex_tbl : table :=
  [(1, [BProbe 1001 1; BRaise USR2 2; BRaise USR2 3; BProbe 11 4]);
   (2, [BProbe 1002 9])]%N.

Definition ex_main : list cmd :=
  [CB (BTrap USR1 (TBody 1)); CB (BTrap USR2 (TBody 2));
   CB (BRaise USR1 42); CB (BProbe 1 0);
   CSub [CB (BProbe 2 5); CB (BRaise USR1 0); CB (BProbe 3 0)];
   CIf [CB (BRaise USR2 1)] [CB (BProbe 4 0)] [CB (BProbe 5 0)]]%N.

Definition ex_trace : list event :=
  [(0, EMark USR1 (TBody 1) 0); (0, EMark USR2 (TBody 2) 0);
   (0, ERaise USR1 0 42);
   (0, EProbe 1001 42 1); (0, ERaise USR2 1 2); (0, ERaise USR2 2 3); (0, EProbe 11 3 4);
   (0, EProbe 1002 42 9);
   (0, EProbe 1 42 0);
   (1, EProbe 2 0 5); (1, ERaise USR1 5 0);
   (0, ERaise USR2 508 1); (0, EProbe 1002 1 9);
   (0, EProbe 5 1 0)]%N.

(* the monitor is not vacuous: it rejects a lost run, a duplicated run, a run
   that comes one command late, and a $? that is not restored *)
Definition tr_prefix : list event :=
  [(0, EMark USR2 (TBody 2) 0); (0, ERaise USR2 0 7)]%N.

Lemma ex_monitor_rejects :
  monitor false ex_tbl (tr_prefix ++ [(0, EProbe 1002 7 9); (0, EProbe 1 7 0)])%N false = None
  /\ monitor false ex_tbl (tr_prefix ++ [(0, EProbe 1 7 0)])%N false = Some R_LATE
  /\ monitor false ex_tbl tr_prefix false = Some R_LOST
  /\ monitor false ex_tbl (tr_prefix ++ [(0, EProbe 1002 7 9); (0, EProbe 1002 7 9)])%N false
     = Some R_SPURIOUS
  /\ monitor false ex_tbl (tr_prefix ++ [(0, EProbe 1002 7 9); (0, EProbe 1 9 0)])%N false
     = Some R_STATUS
  /\ monitor false ex_tbl (tr_prefix ++ [(0, EProbe 1002 0 9); (0, EProbe 1 7 0)])%N false
     = Some R_STATUS.
Proof. vm_compute. repeat split. Qed.

(* The strict reading of "exactly once" fails on the model.
   TrapSet level: trap set, signal caught, trap replaced by another command,
   take_caught_signal: the model (like yash-rs) reports no caught signal *)
Definition refute_univ : list (N * disp) := [(SIGUSR1, Default)].
Definition refute_gops : list gop :=
  [GOp (OSetAction SIGUSR1 (ACommand 1) 1 false); GOp (ODeliver SIGUSR1);
   GOp (OSetAction SIGUSR1 (ACommand 2) 2 false); GTakeAny].

(* script level: USR1's action delivers USR2 and then replaces USR2's trap by
   another command; neither the old nor the new action of USR2 runs *)
Definition refute_tbl : table :=
  [(1, [BProbe 1001 0; BRaise USR2 1; BTrap USR2 (TBody 3); BProbe 12 2]);
   (2, [BProbe 1002 0]);
   (3, [BProbe 1003 0])]%N.
Definition refute_main : list cmd :=
  [CB (BTrap USR1 (TBody 1)); CB (BTrap USR2 (TBody 2)); CB (BRaise USR1 4); CB (BProbe 1 0)]%N.
Definition refute_trace : list event :=
  [(0, EMark USR1 (TBody 1) 0); (0, EMark USR2 (TBody 2) 0); (0, ERaise USR1 0 4);
   (0, EProbe 1001 4 0); (0, ERaise USR2 0 1); (0, EMark USR2 (TBody 3) 1); (0, EProbe 12 0 2);
   (0, EProbe 1 4 0)]%N.

(* the example script satisfies the rank condition; an action that raises its
   own signal does not: each round of the boundary loop catches it again, so
   the model runs out of whatever fuel it is given *)
Definition loop_tbl : table := [(1, [BProbe 1001 0; BRaise USR1 0])]%N.
Definition loop_main : list cmd := [CB (BTrap USR1 (TBody 1)); CB (BRaise USR1 0)]%N.

