(* C11 — the `trap` built-in's operand loop: what `partition` tells of the
   operands, and a worked example. *)
From Yv Require Import Common.Base C11.Model C11.TrapCmd.

Section Known.
  Variable known : N -> bool.

  Lemma partition_ok rest cs :
    partition (map (parse_cond known) rest) = (cs, O) ->
    Forall2 (fun w c => parse_cond known w = Some c) rest cs.
  Proof.
    revert cs. induction rest as [|w rest IH]; intros cs H; cbn in H.
    - inversion H. constructor.
    - destruct (parse_cond known w) as [c|] eqn:Hp;
        destruct (partition (map (parse_cond known) rest)) as [cs' e] eqn:Hq;
        inversion H; subst.
      constructor; [exact Hp|]. apply IH. reflexivity.
  Qed.

  (* operands that all parse: each names a condition, and gets its operation *)
  Lemma parsed_all rest cs :
    Forall2 (fun w c => parse_cond known w = Some c) rest cs -> all_conditions known rest.
  Proof.
    induction 1 as [|w c rest cs Hw _ IH]; intros x Hx; [destruct Hx|].
    destruct Hx as [<-|Hx]; [congruence | exact (IH x Hx)].
  Qed.

  Lemma parsed_ops inter a rest cs :
    Forall2 (fun w c => parse_cond known w = Some c) rest cs ->
    ops_match known inter a rest (map (fun c => OSetAction c a 0 inter) cs).
  Proof. unfold ops_match. induction 1; cbn; constructor; eauto. Qed.

  Lemma partition_err rest cs e :
    partition (map (parse_cond known) rest) = (cs, S e) ->
    exists w, In w rest /\ parse_cond known w = None.
  Proof.
    revert cs e. induction rest as [|w rest IH]; intros cs e H; cbn in H.
    - inversion H.
    - destruct (parse_cond known w) as [c|] eqn:Hp;
        destruct (partition (map (parse_cond known) rest)) as [cs' e'] eqn:Hq;
        inversion H; subst.
      + destruct (IH _ _ eq_refl) as [x [Hx Hn]]. exists x. split; [right; exact Hx|exact Hn].
      + exists w. split; [left; reflexivity|exact Hp].
  Qed.

  Lemma partition_noerr rest :
    all_conditions known rest -> exists cs, partition (map (parse_cond known) rest) = (cs, O).
  Proof.
    intros H. destruct (partition (map (parse_cond known) rest)) as [cs [|e]] eqn:Hq.
    - exists cs. reflexivity.
    - destruct (partition_err _ _ _ Hq) as [w [Hw Hn]]. exfalso. exact (H w Hw Hn).
  Qed.

End Known.

Definition ex_known (n : N) : bool := N.ltb n 200.

Example ex_trap_ops :
  trap_builtin_ops ex_known false [WCmd 1; WName 2; WNum 9; WName 15; WNum 0]%N
  = [OSetAction 2 (ACommand 1) 0 false; OSetAction 9 (ACommand 1) 0 false;
     OSetAction 15 (ACommand 1) 0 false; OSetAction 0 (ACommand 1) 0 false]%N
  /\ trap_builtin_status ex_known [WCmd 1; WName 2; WNum 9; WName 15; WNum 0]%N
       [RErrIgnored; RErrKill; ROk; ROk] = 1%N
  /\ trap_builtin_status ex_known [WCmd 1; WName 2; WName 15]%N [RErrIgnored; ROk] = 0%N
  /\ trap_builtin_ops ex_known true [WNum 2; WName 15]%N
     = [OSetAction 2 ADefault 0 true; OSetAction 15 ADefault 0 true]%N
  /\ trap_builtin_ops ex_known false [WDash; WName 2; WOther; WName 15]%N = []
  /\ trap_builtin_status ex_known [WDash; WName 2; WOther; WName 15]%N [] = 1%N
  /\ trap_builtin_status ex_known [WCmd 1]%N [] = 2%N
  /\ trap_builtin_status ex_known [] [] = 0%N.
Proof. vm_compute. repeat split. Qed.
