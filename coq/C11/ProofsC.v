(* C11 — one step of the model against the reference state machine of Spec.v:
   the entry a slot stands for, read as a reference state, moves as [spec_step]
   says, and every clause of the oracle holds of the step. *)
From Yv Require Import Common.Base C11.Model C11.Spec C11.Proofs.
Local Arguments N.eqb : simpl never.

(* What holds, along a history, between the model state [st] of condition [c]
   (started with disposition [init]) and the reference state [sp] the oracle
   has reached.  EXIT has no disposition: a universe lists it as Default
   ([univ_ok]) and [DispInv] is not asked of it. *)
Definition Good (c : N) (init : disp) (st : sigst) (sp : spec) : Prop :=
  init <> Catch /\ (c = EXIT -> init = Default) /\
  (c <> EXIT -> DispInv init st) /\ Refines init st sp.

(* What the result [r] of a global operation can be, seen from condition c:
   the oracle checks every condition against the one result the caller got,
   and for a condition the operation does not report for, only [cl_kill_stop]
   reads it. *)
Definition ResOk (c : N) (o : op) (st : sigst) (r : res) : Prop :=
  (target o = Some c -> r = o_res (step c o st)) /\
  (target o <> Some c -> cl_kill_stop c o r = true).

(* [Refines] on an entry; a vacant slot moreover owes no trap run *)
Definition EntRefines (e : entry) (sp : spec) : Prop :=
  u_act sp = t_action (e_cur e) /\ u_need sp = e_internal e /\ u_locked sp = locked (e_cur e)
  /\ (u_pend sp = Yes -> t_pending (e_cur e) = true)
  /\ (u_pend sp = No -> is_command (t_action (e_cur e)) = true -> t_pending (e_cur e) = false).

Lemma refines_vent init st sp :
  Refines init st sp <-> EntRefines (vent init st) sp /\ (s_ent st = None -> u_pend sp = No).
Proof.
  unfold Refines, EntRefines, vent. destruct (s_ent st) as [e|].
  - rewrite (eq_iff_eq_true (u_locked sp) (locked (e_cur e))), locked_iff. intuition discriminate.
  - cbn. destruct init; cbn; intuition congruence.
Qed.

Lemma good_init c d :
  d <> Catch -> (c = EXIT -> d = Default) -> Good c d (init_st d) (spec_init d).
Proof.
  intros H1 H2. repeat split; auto.
  - destruct d; cbn; congruence.
Qed.

(* one step from a state in [Good], on the entry the slot stands for; a command
   trap makes the signal caught, so its delivery is seen *)
Lemma good_estep c init st sp o :
  Good c init st sp -> op_ok o = true ->
  exists k,
    vent init (step_st c st o) = fst (estep c o k (vent init st))
    /\ o_res (step c o st) = snd (estep c o k (vent init st))
    /\ (is_command (t_action (e_cur (vent init st))) = true -> o = ODeliver c -> k = true).
Proof.
  intros (Hi & H0 & Hinv & _) Hok. exists (disp_eqb (s_disp st) Catch). apply and_assoc. split.
  - apply step_vent; [exact Hi | exact H0 |]. intros E.
    destruct (N.eqb_spec c EXIT) as [Hc|Hc]; [auto | left; exact (disp_inv_vacant init st (Hinv Hc) E)].
  - intros Hcmd ->. assert (Hc : c <> EXIT) by (intros ->; discriminate Hok).
    apply disp_eqb_eq. rewrite (disp_vent _ _ Hi (Hinv Hc)). unfold ent_disp.
    destruct (t_action _); try discriminate. apply dmax_catch.
Qed.

(* [r] is what the caller saw: the result of [estep] if the operation is for
   this condition; otherwise it is not looked at *)
Lemma ent_refines_step c o k e sp r :
  EntRefines e sp ->
  (target o = Some c -> r = snd (estep c o k e)) ->
  (is_command (t_action (e_cur e)) = true -> o = ODeliver c -> k = true) ->
  EntRefines (fst (estep c o k e)) (spec_step false c sp o r).
Proof.
  intros HE Hr Hk. pose proof HE as (Ha & Hn & Hl & Hp1 & Hp2).
  destruct o as [c' a tag ovr | c' | c' d' | ign keep | c' | c']; cbn [estep spec_step].
  - destruct (N.eqb_spec c c') as [<-|_].
    2: { destruct (N.eqb c' SIGKILL); [exact HE|]. destruct (N.eqb c' SIGSTOP); exact HE. }
    rewrite (Hr eq_refl). cbn [estep].
    destruct (N.eqb c SIGKILL); [exact HE|]. destruct (N.eqb c SIGSTOP); [exact HE|].
    rewrite N.eqb_refl. destruct (negb ovr && locked (e_cur e)) eqn:El; [exact HE|].
    (* accepted: the new state is not pending, and locked only if it was and stays *)
    repeat split; cbn.
    + exact Hn.
    + rewrite Hl, andb_comm, El. unfold locked. cbn. symmetry. apply andb_false_r.
    + destruct (u_pend sp); discriminate.
  - exact HE.
  - destruct (N.eqb c c'); [|exact HE]. repeat split; assumption.
  - unfold sub_entry. fold (forced_ignore c ign keep (u_need sp)). rewrite Ha, Hn.
    repeat split; cbn [fst u_act u_need u_locked u_pend e_cur e_internal].
    + destruct (forced_ignore _ _ _ _), (is_command _); reflexivity.
    + rewrite Hl. symmetry. apply sub_entry_lock.
    + destruct (is_command (t_action (e_cur e))) eqn:Ec; [discriminate|].
      intros H. destruct (forced_ignore _ _ _ _); apply Hp1; exact H.
    + destruct (is_command (t_action (e_cur e))) eqn:Ec.
      * intros _ _. destruct (forced_ignore _ _ _ _); reflexivity.
      * destruct (forced_ignore _ _ _ _); [discriminate|]. rewrite Ec. discriminate.
  - destruct (N.eqb_spec c c') as [<-|_]; [|exact HE]. rewrite Ha. cbn [andb].
    destruct (is_command (t_action (e_cur e))) eqn:Ec.
    + rewrite (Hk eq_refl eq_refl). repeat split; try assumption; discriminate.
    + destruct k; [|exact HE]. repeat split; try assumption. cbn. rewrite Ec. discriminate.
  - destruct (N.eqb c c'); [|exact HE]. cbn [andb].
    destruct (t_pending (e_cur e)) eqn:Ep; repeat split; try assumption; try discriminate.
    cbn. intros _ _. exact Ep.
Qed.

Lemma spec_pend_no s c sp o r :
  u_pend sp = No -> is_command (u_act sp) = false -> u_pend (spec_step s c sp o r) = No.
Proof.
  intros Hp Hc. destruct o; cbn; rewrite ?Hc, ?andb_false_r; try destruct (N.eqb c _);
    try destruct r; cbn; rewrite ?Hp; auto.
Qed.

Lemma refines_step c init st sp o r :
  Good c init st sp -> op_ok o = true -> ResOk c o st r ->
  Refines init (step_st c st o) (spec_step false c sp o r).
Proof.
  intros HG Hok Hr. destruct (good_estep c init st sp o HG Hok) as (k & Hv1 & Hv2 & Hk).
  destruct HG as (_ & _ & _ & HR). apply refines_vent in HR. destruct HR as [HE Hvac].
  apply refines_vent. split.
  - rewrite Hv1. apply ent_refines_step; [exact HE | | exact Hk].
    intros Ht. rewrite <- Hv2. apply Hr. exact Ht.
  - (* an occupied slot stays occupied; on a vacant one nothing is owed *)
    intros E. destruct (s_ent st) as [e|] eqn:E0.
    + rewrite (proj1 (step_occ_ent c o st e E0)) in E. discriminate.
    + destruct HE as (Ha & _). apply spec_pend_no; [auto|]. rewrite Ha. unfold vent. rewrite E0.
      destruct init; reflexivity.
Qed.

Lemma refines_expected c init st sp :
  Good c init st sp -> c <> EXIT -> s_disp st = expected sp.
Proof.
  intros (Hi & _ & Hinv & HR) Hc. apply refines_vent in HR. destruct HR as [(Ha & Hn & _) _].
  rewrite (disp_vent _ _ Hi (Hinv Hc)). unfold expected, ent_disp. rewrite Ha, Hn. reflexivity.
Qed.

Lemma refines_shown init st sp : Refines init st sp -> cl_shown sp (observe st) = true.
Proof.
  unfold Refines, cl_shown, observe. cbn. destruct (s_ent st); [|reflexivity].
  intros [-> _]. apply action_eqb_refl.
Qed.

Lemma exit_no_syscall o st : op_ok o = true -> o_calls (step EXIT o st) = [].
Proof.
  intros Hok. destruct (s_ent st) as [e|] eqn:E.
  - rewrite (step_occ EXIT o st e E).
    destruct o as [ | | c' d' | | | ]; try (destruct (estep _ _ _ _); reflexivity).
    cbn [estep]. destruct (N.eqb_spec EXIT c') as [<-|_]; [discriminate Hok|].
    rewrite settle_same; reflexivity.
  - destruct st as [oe d b]. cbn in E. subst oe.
    destruct o as [c' a tag ovr | c' | c' d' | ign keep | c' | c']; cbn [step].
    + destruct (N.eqb c' SIGKILL), (N.eqb c' SIGSTOP), (N.eqb EXIT c'); reflexivity.
    + destruct (N.eqb EXIT c'); reflexivity.
    + destruct (N.eqb_spec EXIT c') as [<-|_]; [discriminate Hok | reflexivity].
    + destruct ign; reflexivity.
    + destruct (N.eqb EXIT c'); reflexivity.
    + destruct (N.eqb EXIT c'); reflexivity.
Qed.

Lemma calls_ok c init st o :
  init <> Catch -> (c <> EXIT -> DispInv init st) -> op_ok o = true ->
  cl_calls c (observe st) (observe (step_st c st o)) (o_calls (step c o st)) = true.
Proof.
  intros Hi Hinv Hok. unfold cl_calls. destruct (N.eqb_spec c EXIT) as [->|Hc].
  - cbn. rewrite (exit_no_syscall o st Hok). reflexivity.
  - rewrite (is_signal_true c Hc). cbn [negb].
    destruct (step_sys c init o st Hc Hi (Hinv Hc)) as [_ HC]. unfold Calls in HC.
    unfold observe. cbn [ob_cur ob_disp]. fold (step_st c st o) in HC. destruct (s_ent st).
    + destruct HC as [[-> ->] | (d & -> & Hd & ->)]; [apply disp_eqb_refl|].
      apply disp_eqb_neq in Hd. rewrite Hd. apply disp_eqb_refl.
    + destruct HC as [[-> ->] | [(d & -> & ->) | (d & -> & Hd & ->)]].
      * apply disp_eqb_refl.
      * destruct d; reflexivity.
      * apply disp_eqb_neq in Hd. rewrite Hd. apply disp_eqb_refl.
Qed.

Lemma gs_set_action_res c a tag ovr st :
  o_res (gs_set_action c a tag ovr st) = RErrIgnored \/ o_res (gs_set_action c a tag ovr st) = ROk.
Proof.
  destruct (s_ent st) as [e|] eqn:E.
  - rewrite (gs_set_action_occ _ _ _ _ _ e E).
    destruct (_ && _); [left; reflexivity | right; apply settle_res].
  - unfold gs_set_action. rewrite E. destruct (is_signal c), ovr; cbn; auto.
    destruct (disp_eqb _ _); [auto|]. destruct (negb _); auto.
Qed.

Lemma kill_stop_ok c o st : cl_kill_stop c o (o_res (step c o st)) = true.
Proof.
  destruct o as [c' a tag ovr | | | | | ]; try reflexivity. unfold cl_kill_stop, step.
  destruct (N.eqb c' SIGKILL); [reflexivity|]. destruct (N.eqb c' SIGSTOP); [reflexivity|].
  destruct (N.eqb c c'); [|reflexivity].
  destruct (gs_set_action_res c a tag ovr (clear_parent st)) as [-> | ->]; reflexivity.
Qed.

Lemma resok_kill_stop c o st r : ResOk c o st r -> cl_kill_stop c o r = true.
Proof.
  intros [Hr1 Hr2]. destruct (target o) as [c'|] eqn:Et; [|apply Hr2; discriminate].
  destruct (N.eqb_spec c' c) as [->|Hne]; [rewrite (Hr1 eq_refl); apply kill_stop_ok|].
  apply Hr2. congruence.
Qed.

(* clauses 3, 4, 6, 8, on the entry the slot stands for; of [new], what is
   observed after the step, only the parent state is looked at *)
Lemma ent_clauses c o k e sp r new :
  EntRefines e sp ->
  (target o = Some c -> r = snd (estep c o k e)) ->
  cl_kill_stop c o r = true ->
  ob_parent new = e_parent (fst (estep c o k e)) ->
  cl_locked c sp o r = true /\ cl_refusal c sp o r = true /\ cl_take c sp o r = true /\
  cl_parent c sp o r new = true.
Proof.
  intros (Ha & _ & Hl & Hp1 & Hp2) Hr1 Hks Hpar.
  destruct o as [c' a tag ovr | c' | c' d' | ign keep | c' | c'];
    try (repeat split; reflexivity); cbn [estep] in Hr1, Hpar;
    unfold cl_locked, cl_refusal, cl_take, cl_parent.
  - destruct (N.eqb_spec c c') as [<-|Hne].
    + rewrite (Hr1 eq_refl). cbn [andb].
      destruct (N.eqb c SIGKILL); [rewrite !andb_false_r; repeat split; reflexivity|].
      destruct (N.eqb c SIGSTOP); [rewrite !andb_false_r; repeat split; reflexivity|].
      rewrite Hl. cbn [negb andb]. rewrite !andb_true_r.
      destruct (negb ovr && locked (e_cur e)); cbn [fst snd res_eqb] in *;
        [repeat split; reflexivity|].
      rewrite Hpar. repeat split; reflexivity.
    + cbn [andb]. repeat split; try reflexivity. unfold cl_kill_stop in Hks.
      destruct (N.eqb c' SIGKILL); [apply res_eqb_eq in Hks; rewrite Hks; reflexivity|].
      destruct (N.eqb c' SIGSTOP); [apply res_eqb_eq in Hks; rewrite Hks; reflexivity|].
      rewrite Hpar. destruct r; reflexivity.
  - (* enter_subshell: the parent state is the command trap that was reset *)
    repeat split; try reflexivity. rewrite Hpar, Ha. cbn.
    destruct (is_command (t_action (e_cur e))); [apply action_eqb_refl | reflexivity].
  - (* take: handed out iff pending; a command's delivery is neither invented nor lost *)
    repeat split; try reflexivity. destruct (N.eqb_spec c c') as [<-|_]; [|reflexivity].
    rewrite (Hr1 eq_refl), Ha. cbn [andb].
    destruct (t_pending (e_cur e)) eqn:Ep; cbn [snd]; rewrite ?N.eqb_refl, ?action_eqb_refl; cbn;
      destruct (is_command (t_action (e_cur e))) eqn:Ec; try reflexivity;
      destruct (u_pend sp) eqn:Eu; try reflexivity.
    + discriminate (Hp2 eq_refl eq_refl).
    + discriminate (Hp1 eq_refl).
Qed.

Lemma ob_parent_vent init st : ob_parent (observe st) = e_parent (vent init st).
Proof. unfold observe, vent. cbn. destruct (s_ent st); reflexivity. Qed.

Lemma other_clauses_ok c init st sp o r :
  Good c init st sp -> op_ok o = true -> ResOk c o st r ->
  cl_locked c sp o r = true /\ cl_refusal c sp o r = true /\ cl_take c sp o r = true /\
  cl_parent c sp o r (observe (step_st c st o)) = true.
Proof.
  intros HG Hok Hr. destruct (good_estep c init st sp o HG Hok) as (k & Hv1 & Hv2 & _).
  destruct HG as (_ & _ & _ & HR). apply refines_vent in HR. destruct HR as [HE _].
  apply (ent_clauses c o k (vent init st) sp r); [exact HE | | exact (resok_kill_stop c o st r Hr) |].
  - intros Ht. rewrite <- Hv2. apply Hr, Ht.
  - rewrite <- Hv1. apply ob_parent_vent.
Qed.

Lemma first_failing_none l : forallb snd l = true -> first_failing l = None.
Proof.
  unfold first_failing. induction l as [|[k b] l IH]; cbn; [reflexivity|].
  intros H. apply andb_true_iff in H. destruct H as [-> H]. apply IH, H.
Qed.

Lemma good_step c init st sp o r :
  Good c init st sp -> op_ok o = true -> ResOk c o st r ->
  Good c init (step_st c st o) (spec_step false c sp o r).
Proof.
  intros HG Hok Hr. pose proof (refines_step c init st sp o r HG Hok Hr) as HR.
  destruct HG as (Hi & H0 & Hinv & _).
  split; [exact Hi | split; [exact H0 | split; [|exact HR]]].
  intros Hc. apply (disp_inv_step c init o st Hc Hi (Hinv Hc)).
Qed.

(* clauses 0, 1, 7: what a state in [Good] shows *)
Lemma good_shows c init st sp :
  Good c init st sp ->
  negb (is_signal c) || disp_eqb (ob_disp (observe st)) (expected sp) = true /\
  negb (is_signal c) || Bool.eqb (ob_blocked (observe st)) (disp_eqb (ob_disp (observe st)) Catch) = true /\
  cl_shown sp (observe st) = true.
Proof.
  intros HG. assert (H7 := HG). destruct H7 as (_ & _ & Hinv & H7). apply refines_shown in H7.
  destruct (N.eqb_spec c EXIT) as [->|Hc]; [auto|].
  rewrite (is_signal_true c Hc). cbn. rewrite <- (refines_expected c init st sp HG Hc), disp_eqb_refl.
  destruct (Hinv Hc) as [_ ->]. rewrite Bool.eqb_reflx. auto.
Qed.

Lemma check_sig_nil c init st sp r :
  Good c init st sp ->
  check_sig false c sp [] r (observe st) (observe st) [] = (sp, None).
Proof.
  intros HG. unfold check_sig. cbn [spec_steps fold_left forallb]. f_equal.
  apply first_failing_none. cbn [forallb snd].
  destruct (good_shows c init st sp HG) as (-> & -> & ->).
  unfold cl_calls. destruct (negb (is_signal c)), (ob_cur (observe st)); rewrite ?disp_eqb_refl; reflexivity.
Qed.

Lemma check_sig_single c init st sp o r :
  Good c init st sp -> op_ok o = true -> ResOk c o st r ->
  check_sig false c sp [o] r (observe st) (observe (step_st c st o)) (o_calls (step c o st))
  = (spec_step false c sp o r, None).
Proof.
  intros HG Hok Hr. unfold check_sig. cbn [spec_steps fold_left forallb]. f_equal.
  destruct (good_shows c init _ _ (good_step c init st sp o r HG Hok Hr)) as (H0 & H1 & H7).
  destruct (other_clauses_ok c init st sp o r HG Hok Hr) as (H3 & H4 & H6 & H8).
  pose proof (resok_kill_stop c o st r Hr) as H2.
  assert (H5 : cl_calls c (observe st) (observe (step_st c st o)) (o_calls (step c o st)) = true).
  { destruct HG as (Hi & _ & Hinv & _). apply (calls_ok c init st o Hi Hinv Hok). }
  apply first_failing_none. cbn [forallb snd]. rewrite H0, H1, H2, H3, H4, H5, H6, H7, H8. reflexivity.
Qed.
