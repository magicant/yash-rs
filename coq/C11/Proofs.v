(* C11 — the per-condition model, one operation at a time.

   A vacant slot of the trap set stands for the entry that
   `insert_from_system_if_vacant` would put there ([vent]); on entries the
   operations are plain record updates ([estep]); and every operation that
   changes what an entry asks of the system ends the same way, installing the
   merged disposition of the new entry iff it differs from that of the old
   ([settle]).  [step_occ], [step_vac] and [step_sys] say this of [step]; the
   invariants of the model are then read off [estep]. *)
From Yv Require Import Common.Base C11.Model C11.Spec.

Local Arguments N.eqb : simpl never.
(* otherwise [cbn] turns [dmax Default d] into a match on [d] *)
Local Arguments dmax !a !b : simpl nomatch.

Lemma disp_eqb_eq a b : disp_eqb a b = true <-> a = b.
Proof. destruct a, b; cbn; split; congruence. Qed.

Lemma disp_eqb_refl a : disp_eqb a a = true.
Proof. destruct a; reflexivity. Qed.

Lemma disp_eqb_neq a b : disp_eqb a b = false <-> a <> b.
Proof. destruct a, b; cbn; split; congruence. Qed.

Lemma action_eqb_eq a b : action_eqb a b = true <-> a = b.
Proof.
  destruct a, b; cbn; split; try congruence.
  - intros H; apply N.eqb_eq in H; congruence.
  - intros H; inversion H; apply N.eqb_refl.
Qed.

Lemma action_eqb_refl a : action_eqb a a = true.
Proof. apply action_eqb_eq; reflexivity. Qed.

Lemma origin_eqb_eq a b : origin_eqb a b = true <-> a = b.
Proof.
  destruct a, b; cbn; split; try congruence.
  - intros H; apply N.eqb_eq in H; congruence.
  - intros H; inversion H; apply N.eqb_refl.
Qed.

Lemma tstate_eqb_eq a b : tstate_eqb a b = true <-> a = b.
Proof.
  destruct a as [a1 o1 p1], b as [a2 o2 p2]; unfold tstate_eqb; cbn.
  rewrite !andb_true_iff, action_eqb_eq, origin_eqb_eq, Bool.eqb_true_iff.
  split; [intros [[-> ->] ->]; reflexivity | intros H; inversion H; auto].
Qed.

Lemma res_eqb_eq a b : res_eqb a b = true <-> a = b.
Proof.
  destruct a, b; cbn; split; try congruence.
  - rewrite andb_true_iff, N.eqb_eq, tstate_eqb_eq. intros [-> ->]; reflexivity.
  - intros H; inversion H; subst. rewrite N.eqb_refl. cbn. apply tstate_eqb_eq; reflexivity.
  - rewrite tstate_eqb_eq. congruence.
  - intros H; inversion H; subst. apply tstate_eqb_eq; reflexivity.
Qed.

Lemma res_eqb_refl a : res_eqb a a = true.
Proof. apply res_eqb_eq; reflexivity. Qed.

Lemma dmax_default_l d : dmax Default d = d.
Proof. destruct d; reflexivity. Qed.

Lemma dmax_default_r d : dmax d Default = d.
Proof. destruct d; reflexivity. Qed.

Lemma dmax_catch d : dmax d Catch = Catch.
Proof. destruct d; reflexivity. Qed.

Lemma is_signal_true c : c <> EXIT -> is_signal c = true.
Proof. intros H. unfold is_signal. apply negb_true_iff, N.eqb_neq. exact H. Qed.

Lemma not_signal c : is_signal c = false -> c = EXIT.
Proof. unfold is_signal. intros H. apply negb_false_iff, N.eqb_eq in H. exact H. Qed.

(* the disposition an entry asks of the system *)
Definition ent_disp (e : entry) : disp := dmax (e_internal e) (disp_of (t_action (e_cur e))).

(* GrandState::set_action refuses exactly these states in a non-interactive shell *)
Definition locked (t : tstate) : bool :=
  action_eqb (t_action t) AIgnore && origin_eqb (t_origin t) Inherited.

Definition vent (init : disp) (st : sigst) : entry :=
  match s_ent st with Some e => e | None => mkE (from_initial init) None Default end.

(* the disposition invariant, on the entry the slot stands for *)
Lemma disp_vent init st : init <> Catch -> DispInv init st -> s_disp st = ent_disp (vent init st).
Proof.
  intros Hi [-> _]. unfold merged, vent. destruct (s_ent st); [reflexivity|].
  destruct init; [reflexivity..|contradiction].
Qed.

Definition settle (sig : bool) (st : sigst) (old : disp) (e : entry) (r : res) : outcome :=
  if sig && negb (disp_eqb old (ent_disp e))
  then (with_ent (sys_set st (ent_disp e)) e, [ent_disp e], r)
  else (with_ent st e, [], r).

Lemma settle_same sig st old e r :
  ent_disp e = old -> settle sig st old e r = (with_ent st e, [], r).
Proof. intros <-. unfold settle. rewrite disp_eqb_refl, andb_false_r. reflexivity. Qed.

Lemma settle_ent sig st old e r : s_ent (o_st (settle sig st old e r)) = Some e.
Proof. unfold settle. destruct (_ && _); reflexivity. Qed.

Lemma settle_res sig st old e r : o_res (settle sig st old e r) = r.
Proof. unfold settle. destruct (_ && _); reflexivity. Qed.

Lemma gs_set_action_occ c a tag ovr st e : s_ent st = Some e ->
  gs_set_action c a tag ovr st =
  if negb ovr && locked (e_cur e) then (st, [], RErrIgnored)
  else settle (is_signal c) st (ent_disp e)
         (mkE (mkT a (User tag) false) (e_parent e) (e_internal e)) ROk.
Proof. intros H. unfold gs_set_action, locked. rewrite H, andb_assoc. reflexivity. Qed.

Lemma gs_set_internal_occ d st e : s_ent st = Some e ->
  gs_set_internal d st = settle true st (ent_disp e) (mkE (e_cur e) (e_parent e) d) ROk.
Proof. intros H. unfold gs_set_internal. rewrite H. reflexivity. Qed.

(* the entry after TrapSet::enter_subshell *)
Definition sub_entry (c : N) (ign keep : bool) (e : entry) : entry :=
  let cmd := is_command (t_action (e_cur e)) in
  let cur1 := if cmd then mkT ADefault Subshell false else e_cur e in
  mkE (if forced_ignore c ign keep (e_internal e)
       then mkT AIgnore (if action_eqb (t_action cur1) AIgnore then t_origin cur1 else Subshell)
                (t_pending cur1)
       else cur1)
      (if cmd then Some (e_cur e) else None)
      (if N.eqb c SIGCHLD then e_internal e else Default).

(* [es_option] is [forced_ignore], except that EXIT has no disposition and
   SIGCHLD keeps its internal one: the only place where the operations tell
   one condition from another *)
Lemma ts_enter_subshell_occ c ign keep st e : s_ent st = Some e ->
  ts_enter_subshell c ign keep st
  = settle (is_signal c) st (ent_disp e) (sub_entry c ign keep e) ROk.
Proof.
  destruct st as [oe d b]. cbn. intros ->.
  unfold ts_enter_subshell, clear_parent, gs_enter_subshell, es_option, sub_entry,
    forced_ignore, settle, ent_disp. cbn.
  rewrite (andb_comm _ (is_signal c)).
  destruct (is_signal c) eqn:Hs; cbn [negb].
  2: { apply not_signal in Hs. subst c. cbn. rewrite !andb_false_r. reflexivity. }
  destruct (N.eqb_spec c SIGCHLD) as [->|_].
  { cbn. rewrite !andb_false_r. reflexivity. }
  destruct (ign && is_int_quit c); cbn; [rewrite ?dmax_default_l; reflexivity|].
  destruct (keep && is_stopper c && negb (disp_eqb (e_internal e) Default)); cbn;
    rewrite ?dmax_default_l; reflexivity.
Qed.

Definition set_pending (b : bool) (e : entry) : entry :=
  mkE (mkT (t_action (e_cur e)) (t_origin (e_cur e)) b) (e_parent e) (e_internal e).

Definition no_parent (e : entry) : entry := mkE (e_cur e) None (e_internal e).

(* [caught]: the disposition installed for the signal is Catch *)
Definition estep (c : N) (o : op) (caught : bool) (e : entry) : entry * res :=
  match o with
  | OSetAction c' a tag ovr =>
      if N.eqb c' SIGKILL then (e, RErrKill)
      else if N.eqb c' SIGSTOP then (e, RErrStop)
      else if N.eqb c c' then
        if negb ovr && locked (e_cur e) then (no_parent e, RErrIgnored)
        else (mkE (mkT a (User tag) false) None (e_internal e), ROk)
      else (no_parent e, RNone)
  | OPeek c' =>
      (e, if N.eqb c c'
          then RState (match e_parent e with Some p => p | None => e_cur e end) else RNone)
  | OInternal c' d => if N.eqb c c' then (mkE (e_cur e) (e_parent e) d, ROk) else (e, RNone)
  | OEnterSubshell ign keep => (sub_entry c ign keep e, ROk)
  | ODeliver c' =>
      if N.eqb c c' then (if caught then set_pending true e else e, ROk) else (e, RNone)
  | OTakeSig c' =>
      if N.eqb c c' && t_pending (e_cur e)
      then (set_pending false e, RTaken c (mkT (t_action (e_cur e)) (t_origin (e_cur e)) false))
      else (e, RNone)
  end.

(* GrandState::set_internal_disposition does not ask whether the condition is a
   signal (for EXIT it is a panic site, outside [op_ok]) *)
Definition touches (c : N) (o : op) : bool :=
  match o with OInternal _ _ => true | _ => is_signal c end.

Lemma touches_signal c o : c <> EXIT -> touches c o = true.
Proof. intros H. destruct o; try apply (is_signal_true c H). reflexivity. Qed.

Lemma step_occ c o st e : s_ent st = Some e ->
  step c o st =
  let (e', r) := estep c o (disp_eqb (s_disp st) Catch) e in
  settle (touches c o) st (ent_disp e) e' r.
Proof.
  destruct st as [oe d b]. cbn. intros ->.
  destruct o as [c' a tag ovr | c' | c' d' | ign keep | c' | c']; cbn [step estep touches].
  - destruct (N.eqb c' SIGKILL); [rewrite settle_same; reflexivity|].
    destruct (N.eqb c' SIGSTOP); [rewrite settle_same; reflexivity|].
    destruct (N.eqb c c'); [|rewrite settle_same; reflexivity].
    rewrite (gs_set_action_occ _ _ _ _ _ (no_parent e)) by reflexivity. cbn.
    destruct (negb ovr && locked (e_cur e)); [rewrite settle_same; reflexivity | reflexivity].
  - destruct (N.eqb c c'); rewrite settle_same; reflexivity.
  - destruct (N.eqb c c'); [|rewrite settle_same; reflexivity].
    apply gs_set_internal_occ. reflexivity.
  - apply ts_enter_subshell_occ. reflexivity.
  - destruct (N.eqb c c'); [|rewrite settle_same; reflexivity].
    destruct d; rewrite settle_same; reflexivity.
  - destruct (N.eqb c c'); cbn [andb]; [|rewrite settle_same; reflexivity].
    unfold ts_take. cbn [s_ent].
    destruct (t_pending (e_cur e)); rewrite settle_same; reflexivity.
Qed.

Lemma step_occ_ent c o st e : s_ent st = Some e ->
  let x := estep c o (disp_eqb (s_disp st) Catch) e in
  s_ent (step_st c st o) = Some (fst x) /\ o_res (step c o st) = snd x.
Proof.
  intros E. cbv zeta. unfold step_st. rewrite (step_occ c o st e E).
  destruct (estep _ _ _ _) as [e' r]. rewrite settle_ent, settle_res. split; reflexivity.
Qed.

(* What [step c o] reads of the disposition installed at a vacant slot is
   [init].  It is read only for a signal, and by set_internal_disposition: for
   EXIT, whose [s_disp] means nothing, it is enough that the operation is none
   of the panic sites. *)
Definition VacantInit (c : N) (init : disp) (o : op) (st : sigst) : Prop :=
  s_ent st = None -> s_disp st = init \/ (c = EXIT /\ op_ok o = true).

(* A vacant slot is left alone or filled; either way the result and the entry
   are those of [estep] on the entry it stands for. *)
Lemma step_vac c init o st :
  s_ent st = None -> init <> Catch -> (c = EXIT -> init = Default) -> VacantInit c init o st ->
  let (e', r) := estep c o (disp_eqb (s_disp st) Catch) (vent init st) in
  o_res (step c o st) = r /\
  (s_ent (step_st c st o) = Some e' \/ (step_st c st o = st /\ e' = vent init st)).
Proof.
  destruct st as [oe d b]. cbn [s_ent s_disp]. intros -> Hi H0 Hv.
  specialize (Hv eq_refl). cbn [s_disp] in Hv. unfold vent, step_st. cbn [s_ent].
  assert (Hd : is_signal c = true -> d = init).
  { intros Hs. destruct Hv as [Hv | [-> _]]; [exact Hv | discriminate Hs]. }
  destruct o as [c' a tag ovr | c' | c' d' | ign keep | c' | c']; cbn [estep step].
  - destruct (N.eqb c' SIGKILL); [auto|]. destruct (N.eqb c' SIGSTOP); [auto|].
    destruct (N.eqb c c'); [|auto].
    unfold gs_set_action. cbn [clear_parent s_ent s_disp]. destruct (is_signal c) eqn:Hs.
    + rewrite (Hd eq_refl).
      destruct ovr, init; try contradiction; cbn; auto.
      destruct (disp_eqb (disp_of a) Ignore); cbn; auto.
    + rewrite (H0 (not_signal c Hs)). cbn. rewrite andb_false_r. auto.
  - destruct (N.eqb c c'); [|auto]. unfold ts_peek. cbn [s_ent s_disp].
    destruct (is_signal c) eqn:Hs; [rewrite (Hd eq_refl) | rewrite (H0 (not_signal c Hs))]; auto.
  - destruct (N.eqb_spec c c') as [<-|_]; [|auto]. unfold gs_set_internal. cbn [s_ent s_disp].
    destruct (disp_eqb d' Default) eqn:Ed.
    + apply disp_eqb_eq in Ed. subst d'. auto.
    + destruct Hv as [-> | [-> Hok]]; [auto | discriminate Hok].
  - unfold ts_enter_subshell. cbn [clear_parent s_ent]. unfold sub_entry, forced_ignore.
    cbn [e_internal e_cur e_parent disp_eqb negb]. rewrite andb_false_r, orb_false_r.
    assert (Hcmd : is_command (t_action (from_initial init)) = false) by (destruct init; reflexivity).
    rewrite Hcmd. destruct (ign && is_int_quit c) eqn:Ef.
    + split; [reflexivity|]. left.
      assert (Hs : is_signal c = true).
      { destruct (is_signal c) eqn:Hs; [reflexivity|].
        rewrite (not_signal c Hs), andb_false_r in Ef. discriminate. }
      rewrite (Hd Hs). destruct (N.eqb c SIGCHLD), init; try contradiction; reflexivity.
    + split; [reflexivity|]. right. destruct (N.eqb c SIGCHLD), init; split; reflexivity.
  - destruct (N.eqb_spec c c') as [<-|_]; [|auto].
    assert (disp_eqb d Catch = false) as ->.
    { destruct Hv as [-> | [-> Hok]]; [apply disp_eqb_neq; exact Hi | discriminate Hok]. }
    destruct d; auto.
  - rewrite andb_false_r. destruct (N.eqb c c'); auto.
Qed.

Lemma step_vent c init o st :
  init <> Catch -> (c = EXIT -> init = Default) -> VacantInit c init o st ->
  let x := estep c o (disp_eqb (s_disp st) Catch) (vent init st) in
  vent init (step_st c st o) = fst x /\ o_res (step c o st) = snd x.
Proof.
  intros Hi H0 Hv. cbv zeta. destruct (s_ent st) as [e|] eqn:E.
  - replace (vent init st) with e by (unfold vent; rewrite E; reflexivity).
    destruct (step_occ_ent c o st e E) as [H ->]. unfold vent. rewrite H. split; reflexivity.
  - pose proof (step_vac c init o st E Hi H0 Hv) as H.
    destruct (estep _ _ _ _) as [e' r]. destruct H as [-> [H | [-> ->]]]; [|split; reflexivity].
    unfold vent. rewrite H. split; reflexivity.
Qed.

Lemma stays_vacant c init o st :
  init <> Catch -> (c = EXIT -> init = Default) -> VacantInit c init o st ->
  s_ent (step_st c st o) = None -> step_st c st o = st.
Proof.
  intros Hi H0 Hv E'. destruct (s_ent st) as [e|] eqn:E.
  - destruct (step_occ_ent c o st e E) as [H _]. rewrite H in E'. discriminate.
  - pose proof (step_vac c init o st E Hi H0 Hv) as H.
    destruct (estep _ _ _ _) as [e' r]. destruct H as [_ [H | [H _]]]; [|exact H].
    rewrite H in E'. discriminate.
Qed.

(* system calls only on change; only a vacant slot may be probed *)
Definition Calls (st : sigst) (x : outcome) : Prop :=
  match s_ent st with
  | Some _ =>
      (o_calls x = [] /\ s_disp (o_st x) = s_disp st)
      \/ (exists d, o_calls x = [d] /\ d <> s_disp st /\ s_disp (o_st x) = d)
  | None =>
      (o_calls x = [] /\ s_disp (o_st x) = s_disp st)
      \/ (exists d, o_calls x = [d] /\ s_disp (o_st x) = d)
      \/ (exists d, o_calls x = [Ignore; d] /\ d <> Ignore /\ s_disp (o_st x) = d)
  end.

Lemma settle_sys init st e0 e r :
  s_ent st = Some e0 -> DispInv init st ->
  let x := settle true st (ent_disp e0) e r in DispInv init (o_st x) /\ Calls st x.
Proof.
  unfold DispInv, merged, Calls. intros -> [Hd Hb]. unfold settle. cbn [andb].
  destruct (disp_eqb (ent_disp e0) (ent_disp e)) eqn:E;
    cbn [o_st o_calls fst snd s_ent s_disp s_blocked with_ent sys_set negb].
  - apply disp_eqb_eq in E. unfold ent_disp in E. rewrite <- E. auto.
  - apply disp_eqb_neq in E. rewrite Hd. unfold ent_disp in *. eauto 8.
Qed.

Lemma disp_inv_init d : d <> Catch -> DispInv d (init_st d).
Proof. destruct d; intros H; split; try reflexivity; congruence. Qed.

Lemma clear_parent_disp st : s_disp (clear_parent st) = s_disp st.
Proof. unfold clear_parent; destruct (s_ent st); reflexivity. Qed.

Lemma clear_parent_inv init st : DispInv init st -> DispInv init (clear_parent st).
Proof.
  unfold DispInv, merged, clear_parent. destruct st as [[e|] d b]; cbn; auto.
Qed.

(* On a vacant slot the state is the initial one: by inspection of each branch. *)
Lemma step_sys c init o st : c <> EXIT -> init <> Catch -> DispInv init st ->
  DispInv init (step_st c st o) /\ Calls st (step c o st).
Proof.
  intros Hc Hi Hinv. destruct (s_ent st) as [e|] eqn:E.
  - unfold step_st. rewrite (step_occ c o st e E), (touches_signal c o Hc).
    destruct (estep _ _ _ _) as [e' r]. apply (settle_sys init st e e' r E Hinv).
  - pose proof (is_signal_true c Hc) as Hs.
    destruct st as [oe d b], Hinv as [Hd Hb]. unfold merged in Hd. cbn in E, Hd, Hb. subst oe d.
    apply disp_eqb_neq in Hi. rewrite Hi in Hb. subst b. symmetry in Hi.
    unfold step_st, Calls, DispInv, merged.
    destruct o as [c' a tag ovr | c' | c' d' | ign keep | c' | c']; cbn [step s_ent].
    + destruct (N.eqb c' SIGKILL); [cbn; auto|]. destruct (N.eqb c' SIGSTOP); [cbn; auto|].
      destruct (N.eqb c c'); [|cbn; auto].
      unfold gs_set_action. rewrite Hs. cbn. destruct ovr; cbn.
      * rewrite dmax_default_l. eauto 8.
      * destruct (disp_eqb init Ignore) eqn:Ei; cbn.
        { apply disp_eqb_eq in Ei. subst init. eauto 8. }
        destruct (disp_eqb (disp_of a) Ignore) eqn:Ea; cbn; rewrite dmax_default_l.
        { apply disp_eqb_eq in Ea. rewrite Ea. eauto 8. }
        apply disp_eqb_neq in Ea. eauto 8.
    + destruct (N.eqb c c'); [|cbn; auto]. unfold ts_peek. rewrite Hs.
      destruct init; cbn; auto; discriminate.
    + destruct (N.eqb c c'); [|cbn; auto]. destruct d', init; try discriminate; cbn; eauto 8.
    + unfold ts_enter_subshell. cbn. destruct (ign && is_int_quit c); cbn; eauto 8.
    + destruct (N.eqb c c'); [|cbn; auto]. destruct init; cbn; auto; discriminate.
    + destruct (N.eqb c c'); cbn; auto.
Qed.

Lemma disp_inv_step c init o st :
  c <> EXIT -> init <> Catch -> DispInv init st -> DispInv init (step_st c st o).
Proof. intros Hc Hi H. apply (step_sys c init o st Hc Hi H). Qed.

Lemma run_snoc c d ops o : run c d (ops ++ [o]) = step_st c (run c d ops) o.
Proof. unfold run. rewrite fold_left_app. reflexivity. Qed.

Lemma disp_inv_run c init ops :
  c <> EXIT -> init <> Catch -> DispInv init (run c init ops).
Proof.
  intros Hc Hi. induction ops as [|o ops IH] using rev_ind.
  - apply disp_inv_init; assumption.
  - rewrite run_snoc. apply disp_inv_step; assumption.
Qed.

Lemma disp_inv_vacant init st : DispInv init st -> s_ent st = None -> s_disp st = init.
Proof. intros [Hd _] E. unfold merged in Hd. rewrite E in Hd. exact Hd. Qed.

Lemma step_vent_sig c init o st :
  c <> EXIT -> init <> Catch -> DispInv init st ->
  let x := estep c o (disp_eqb (s_disp st) Catch) (vent init st) in
  vent init (step_st c st o) = fst x /\ o_res (step c o st) = snd x.
Proof.
  intros Hc Hi H. apply step_vent; [exact Hi | contradiction |].
  intros E. left. exact (disp_inv_vacant init st H E).
Qed.

(* KILL and STOP: no operation of the API concerns their entry, except a
   read-only look. *)
Definition KSInv (init : disp) (st : sigst) : Prop :=
  DispInv init st /\ e_cur (vent init st) = from_initial init /\ e_internal (vent init st) = Default.

Lemma ks_disp init st : init <> Catch -> KSInv init st -> s_disp st = init.
Proof.
  intros Hi (Hinv & Hcur & Hint). rewrite (disp_vent init st Hi Hinv). unfold ent_disp.
  rewrite Hcur, Hint. destruct init; [reflexivity..|contradiction].
Qed.

Lemma ks_class c : c = SIGKILL \/ c = SIGSTOP ->
  c <> EXIT /\ N.eqb c SIGCHLD = false /\ is_int_quit c = false /\ is_stopper c = false
  /\ (forall d, internal_ok c d = false)
  /\ (forall c', N.eqb c' SIGKILL = false -> N.eqb c' SIGSTOP = false -> N.eqb c c' = false).
Proof.
  intros [-> | ->]; (split; [discriminate|]); do 3 (split; [reflexivity|]);
    (split; [reflexivity|]); intros c' H1 H2; rewrite N.eqb_sym; assumption.
Qed.

Lemma ks_estep c init o e :
  c = SIGKILL \/ c = SIGSTOP -> op_ok o = true ->
  e_cur e = from_initial init -> e_internal e = Default ->
  let e' := fst (estep c o false e) in e_cur e' = e_cur e /\ e_internal e' = e_internal e.
Proof.
  intros Hc Hok Hcur Hint. destruct (ks_class c Hc) as (_ & Hk & Hq & Ht & Hio & Hother).
  destruct o as [c' a tag ovr | c' | c' d' | ign keep | c' | c']; cbn [estep].
  - destruct (N.eqb c' SIGKILL) eqn:E1; [auto|]. destruct (N.eqb c' SIGSTOP) eqn:E2; [auto|].
    rewrite (Hother c' E1 E2). auto.
  - auto.
  - destruct (N.eqb_spec c c') as [<-|_]; [|auto]. cbn in Hok. rewrite Hio in Hok. discriminate.
  - unfold sub_entry, forced_ignore. rewrite Hk, Hq, Ht, Hcur, Hint, !andb_false_r.
    destruct init; auto.
  - destruct (N.eqb c c'); auto.
  - rewrite Hcur, andb_false_r. auto.
Qed.

Lemma ks_step c init o st :
  (c = SIGKILL \/ c = SIGSTOP) -> init <> Catch -> op_ok o = true ->
  KSInv init st -> KSInv init (step_st c st o) /\ o_calls (step c o st) = [].
Proof.
  intros Hc Hi Hok HK. pose proof HK as (Hinv & Hcur & Hint).
  destruct (ks_class c Hc) as (Hne & _ & Hq & _ & Hio & Hother).
  pose proof (ks_estep c init o _ Hc Hok Hcur Hint) as He.
  assert (Hcaught : disp_eqb (s_disp st) Catch = false)
    by (rewrite (ks_disp init st Hi HK); apply disp_eqb_neq, Hi).
  pose proof (step_vent_sig c init o st Hne Hi Hinv) as [Hv _]. rewrite Hcaught in Hv.
  split.
  - split; [apply disp_inv_step; assumption|]. rewrite Hv. destruct He as [-> ->]. auto.
  - destruct (s_ent st) as [e|] eqn:E.
    + (* the entry asks of the system what it asked before *)
      rewrite (step_occ c o st e E), Hcaught. unfold vent in He, Hcur, Hint. rewrite E in He, Hcur, Hint.
      destruct (estep c o false e) as [e' r]. cbn [fst] in He. destruct He as [H1 H2].
      rewrite settle_same; [reflexivity|]. unfold ent_disp. rewrite H1, H2. reflexivity.
    + destruct st as [oe d b]. cbn in E. subst oe.
      destruct o as [c' a tag ovr | c' | c' d' | ign keep | c' | c']; cbn [step].
      * destruct (N.eqb c' SIGKILL) eqn:E1; [reflexivity|].
        destruct (N.eqb c' SIGSTOP) eqn:E2; [reflexivity|]. rewrite (Hother c' E1 E2). reflexivity.
      * destruct (N.eqb c c'); reflexivity.
      * destruct (N.eqb_spec c c') as [<-|_]; [|reflexivity]. cbn in Hok. rewrite Hio in Hok. discriminate.
      * unfold ts_enter_subshell. cbn. rewrite Hq, andb_false_r. reflexivity.
      * destruct (N.eqb c c'); reflexivity.
      * destruct (N.eqb c c'); reflexivity.
Qed.

Lemma ks_run c init ops :
  (c = SIGKILL \/ c = SIGSTOP) -> init <> Catch -> Forall (fun o => op_ok o = true) ops ->
  KSInv init (run c init ops) /\ calls_of c (init_st init) ops = [].
Proof.
  intros Hc Hi. unfold run.
  assert (H0 : KSInv init (init_st init)) by (split; [apply disp_inv_init; exact Hi | split; reflexivity]).
  revert H0. generalize (init_st init) as st.
  induction ops as [|o ops IH]; intros st H0 Hok; cbn.
  - split; [exact H0 | reflexivity].
  - inversion Hok as [|? ? Ho Hops]; subst.
    destruct (ks_step c init o st Hc Hi Ho H0) as [H1 H2].
    destruct (IH (step_st c st o) H1 Hops) as [H3 H4].
    split; [exact H3|]. rewrite H2, H4. reflexivity.
Qed.

Lemma kill_stop_refused c a tag ovr st :
  (c = SIGKILL \/ c = SIGSTOP) ->
  step c (OSetAction c a tag ovr) st = (st, [], if N.eqb c SIGKILL then RErrKill else RErrStop).
Proof. intros [-> | ->]; reflexivity. Qed.

Lemma locked_iff t : locked t = true <-> t_action t = AIgnore /\ t_origin t = Inherited.
Proof. unfold locked. rewrite andb_true_iff, action_eqb_eq, origin_eqb_eq. reflexivity. Qed.

Lemma sub_entry_lock c ign keep e : locked (e_cur (sub_entry c ign keep e)) = locked (e_cur e).
Proof.
  unfold sub_entry, locked.
  destruct (t_action (e_cur e)) eqn:E, (forced_ignore c ign keep (e_internal e)); cbn;
    rewrite ?E; reflexivity.
Qed.

(* the lock moves only when an interactive shell overrides it, and then it comes off *)
Lemma lock_step c o k e :
  locked (e_cur (fst (estep c o k e))) = locked (e_cur e)
  \/ noninteractive o = false /\ locked (e_cur (fst (estep c o k e))) = false.
Proof.
  destruct o as [c' a tag ovr | c' | c' d' | ign keep | c' | c']; cbn [estep].
  - destruct (N.eqb c' SIGKILL); [auto|]. destruct (N.eqb c' SIGSTOP); [auto|].
    destruct (N.eqb c c'); [|auto].
    destruct ovr; [right; split; [reflexivity | apply andb_false_r]|]. left. cbn [negb andb].
    destruct (locked (e_cur e)) eqn:H; [exact H | apply andb_false_r].
  - auto.
  - destruct (N.eqb c c'); auto.
  - left. apply sub_entry_lock.
  - destruct (N.eqb c c'), k; auto.
  - destruct (N.eqb c c' && t_pending (e_cur e)); auto.
Qed.

Lemma locked_run c ops :
  c <> EXIT -> Forall (fun o => noninteractive o = true) ops ->
  locked (e_cur (vent Ignore (run c Ignore ops))) = true.
Proof.
  intros Hc Hn. assert (Hi : Ignore <> Catch) by discriminate.
  induction ops as [|o ops IH] using rev_ind; [reflexivity|].
  apply Forall_app in Hn. destruct Hn as [Hn1 Hn2]. inversion Hn2; subst.
  rewrite run_snoc.
  destruct (step_vent_sig c Ignore o _ Hc Hi (disp_inv_run c Ignore ops Hc Hi)) as [-> _].
  destruct (lock_step c o (disp_eqb (s_disp (run c Ignore ops)) Catch) (vent Ignore (run c Ignore ops)))
    as [-> | [Hi' _]]; [exact (IH Hn1) | congruence].
Qed.

(* A signal not ignored on entry: whatever happened before (internal
   dispositions, read-only looks by `trap -p`, subshell entries that make the
   shell ignore it), the lock stays off. *)
Definition FreeInv (st : sigst) : Prop :=
  locked (e_cur (vent Default st)) = false /\ (s_ent st = None -> s_disp st = Default).

Lemma free_step c o st : FreeInv st -> FreeInv (step_st c st o).
Proof.
  intros [HL Hv].
  assert (Hi : Default <> Catch) by discriminate.
  assert (Hv' : VacantInit c Default o st) by (intros E; left; exact (Hv E)).
  split.
  - destruct (step_vent c Default o st Hi (fun _ => eq_refl) Hv') as [-> _].
    destruct (lock_step c o (disp_eqb (s_disp st) Catch) (vent Default st)) as [-> | [_ ->]];
      [exact HL | reflexivity].
  - intros E. pose proof (stays_vacant c Default o st Hi (fun _ => eq_refl) Hv' E) as Hst.
    rewrite Hst in E |- *. exact (Hv E).
Qed.

Lemma free_run c ops : FreeInv (run c Default ops).
Proof.
  induction ops as [|o ops IH] using rev_ind; [split; reflexivity|].
  rewrite run_snoc. apply free_step. exact IH.
Qed.

(* the caught flag of a condition, on the entry its slot stands for *)
Lemma pending_vent init st : pending st = t_pending (e_cur (vent init st)).
Proof. unfold pending, vent. destruct (s_ent st); reflexivity. Qed.

Lemma sub_entry_pending c ign keep e :
  t_pending (e_cur (sub_entry c ign keep e))
  = if is_command (t_action (e_cur e)) then false else t_pending (e_cur e).
Proof.
  unfold sub_entry. destruct (forced_ignore _ _ _ _), (is_command _); reflexivity.
Qed.

(* how the flag moves: set by the delivery of a caught signal; cleared by take,
   by an accepted trap command, by a subshell that resets a command trap *)
Lemma pending_step c o k e :
  let e' := fst (estep c o k e) in
  t_pending (e_cur e') = t_pending (e_cur e)
  \/ (t_pending (e_cur e') = true /\ o = ODeliver c /\ k = true)
  \/ (t_pending (e_cur e') = false /\
      (o = OTakeSig c
       \/ (exists a tag ovr, o = OSetAction c a tag ovr /\ snd (estep c o k e) = ROk)
       \/ (exists ign keep, o = OEnterSubshell ign keep /\ is_command (t_action (e_cur e)) = true))).
Proof.
  cbv zeta. destruct o as [c' a tag ovr | c' | c' d' | ign keep | c' | c']; cbn [estep].
  - destruct (N.eqb c' SIGKILL); [auto|]. destruct (N.eqb c' SIGSTOP); [auto|].
    destruct (N.eqb_spec c c') as [<-|_]; [|auto].
    destruct (negb ovr && locked (e_cur e)); [auto|].
    right; right. split; [reflexivity|]. right; left. exists a, tag, ovr. split; reflexivity.
  - auto.
  - destruct (N.eqb c c'); auto.
  - cbn [fst]. rewrite sub_entry_pending. destruct (is_command (t_action (e_cur e))); [|auto].
    right; right. split; [reflexivity|]. right; right. exists ign, keep. split; reflexivity.
  - destruct (N.eqb_spec c c') as [<-|_]; [|auto]. destruct k; [|auto].
    right; left. repeat split; reflexivity.
  - destruct (N.eqb_spec c c') as [<-|_]; cbn [andb]; [|auto].
    destruct (t_pending (e_cur e)) eqn:Ep; [|left; exact Ep].
    right; right. split; [reflexivity | left; reflexivity].
Qed.

(* a slot is never filled with a pending state *)
Lemma fresh_not_pending c o st : s_ent st = None -> pending (step_st c st o) = false.
Proof.
  destruct st as [oe d b]. cbn. intros ->. unfold pending, step_st.
  destruct o as [c' a tag ovr | c' | c' d' | ign keep | c' | c']; cbn [step].
  - destruct (N.eqb c' SIGKILL); [reflexivity|]. destruct (N.eqb c' SIGSTOP); [reflexivity|].
    destruct (N.eqb c c'); [|reflexivity]. unfold gs_set_action. cbn.
    destruct (is_signal c), ovr; cbn; try reflexivity.
    destruct (disp_eqb d Ignore); [reflexivity|]. destruct (disp_eqb (disp_of a) Ignore); reflexivity.
  - destruct (N.eqb c c'); reflexivity.
  - destruct (N.eqb c c'); [|reflexivity]. unfold gs_set_internal. cbn.
    destruct (disp_eqb d' Default); reflexivity.
  - unfold ts_enter_subshell. cbn. destruct (ign && is_int_quit c); reflexivity.
  - destruct (N.eqb c c'); [|reflexivity]. destruct d; reflexivity.
  - destruct (N.eqb c c'); reflexivity.
Qed.

