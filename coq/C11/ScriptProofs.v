(* C11, second half — why the monitor accepts every trace the model of trap
   execution can produce (for every script of the language, every table of trap
   actions, every fuel).

   The interpreter state of one process is related to the monitor's
   bookkeeping for it ([Rel]); a run is simulated ([Sim]) when the monitor
   accepts the events it recorded and ends related to where the run ended.
   This is shown for one trap action, for the loop that runs the actions of
   the caught signals, for a process without subshells, and then for the main
   shell with its subshells ([TopRel], [TopSim]); the last two by the same
   induction over commands ([exec_lift]). *)
From Coq Require Import Sorting.Sorted.
From Yv Require Import Common.Base C11.ScriptModel C11.ScriptSpec.

(* the interpreter's sequencing, [match r with SOk s => k s | r => r end] *)
Definition andthen (r : sres) (k : sh -> sres) : sres :=
  match r with SOk s => k s | SDead sg s => SDead sg s | SFuel => SFuel end.

(* the state in which a run ended, alive or killed *)
Definition final (r : sres) : option sh :=
  match r with SOk s | SDead _ s => Some s | SFuel => None end.

Definition with_pend (s : sh) (p : list N) : sh :=
  mkSh (traps s) p (status s) (pid s) (nextpid s) (tr s).

Lemma run_body_cons b l s : run_body (b :: l) s = andthen (do_b b s) (run_body l).
Proof. reflexivity. Qed.

(* run_traps_for_caught_signals with nothing caught *)
Lemma boundary_idle tbl bf s : pend s = [] -> boundary tbl bf s = SOk s.
Proof. intros H. destruct bf; cbn; rewrite H; reflexivity. Qed.

(* one round of the loop: the lowest caught signal is taken; if it has an
   action, the action runs and $? is restored *)
Lemma boundary_round tbl f s sg rest :
  pend s = sg :: rest ->
  boundary tbl (S f) s =
  match trap_of (traps s) sg with
  | TBody id => andthen (run_body (body_of tbl id) (with_pend s rest))
                        (fun s2 => boundary tbl f (with_status s2 (status s)))
  | _ => boundary tbl f (with_pend s rest)
  end.
Proof. intros H. cbn [boundary]. rewrite H. reflexivity. Qed.

Lemma exec_leaf tbl bf b s : exec tbl bf (CB b) s = andthen (do_b b s) (boundary tbl bf).
Proof. reflexivity. Qed.

Lemma exec_brace tbl bf l s :
  exec tbl bf (CBrace l) s = andthen (exec_list tbl bf l s) (boundary tbl bf).
Proof. reflexivity. Qed.

Lemma exec_if tbl bf c t e s :
  exec tbl bf (CIf c t e) s =
  andthen (exec_list tbl bf c s)
    (fun s1 => andthen (if N.eqb (status s1) 0 then exec_list tbl bf t s1 else exec_list tbl bf e s1)
                       (boundary tbl bf)).
Proof. reflexivity. Qed.

Definition child_of (s : sh) : sh :=
  mkSh (reset_traps (traps s)) [] (status s) (nextpid s) (nextpid s + 1) (tr s).

(* the status a subshell leaves in its parent *)
Definition sub_status (r : sres) : N :=
  match r with SOk c => status c | SDead sg _ => 384 + sg | SFuel => 0 end.

Lemma exec_sub tbl bf l s :
  exec tbl bf (CSub l) s =
  match final (exec_list tbl bf l (child_of s)) with
  | Some c => boundary tbl bf (mkSh (traps s) (pend s) (sub_status (exec_list tbl bf l (child_of s)))
                                    (pid s) (nextpid c) (tr c))
  | None => SFuel
  end.
Proof.
  cbn [exec]. fold (exec_list tbl bf). fold (child_of s).
  destruct (exec_list tbl bf l (child_of s)); reflexivity.
Qed.

Lemma exec_list_cons tbl bf c l s :
  exec_list tbl bf (c :: l) s = andthen (exec tbl bf c s) (exec_list tbl bf l).
Proof. reflexivity. Qed.

Section CmdInd.
  Variable P : cmd -> Prop.
  Hypothesis HB : forall b, P (CB b).
  Hypothesis HBrace : forall l, Forall P l -> P (CBrace l).
  Hypothesis HSub : forall l, Forall P l -> P (CSub l).
  Hypothesis HIf : forall c t e, Forall P c -> Forall P t -> Forall P e -> P (CIf c t e).

  Fixpoint cmd_forall_ind (c : cmd) : P c :=
    let all :=
      fix all (l : list cmd) : Forall P l :=
        match l with
        | [] => Forall_nil P
        | c :: l => Forall_cons c (cmd_forall_ind c) (all l)
        end in
    match c with
    | CB b => HB b
    | CBrace l => HBrace l (all l)
    | CSub l => HSub l (all l)
    | CIf c t e => HIf c t e (all c) (all t) (all e)
    end.
End CmdInd.

(* a syntactic condition that a brace group or an `if` passes on to its parts
   (the body of a subshell may be under another condition) *)
Definition hereditary (ok : cmd -> bool) : Prop :=
  (forall l, ok (CBrace l) = true -> forallb ok l = true) /\
  (forall c t e, ok (CIf c t e) = true ->
                 forallb ok c = true /\ forallb ok t = true /\ forallb ok e = true).

Lemma forallb_andb {A} (f g : A -> bool) l :
  forallb (fun x => f x && g x) l = forallb f l && forallb g l.
Proof.
  induction l as [|x l IH]; cbn; [reflexivity|].
  rewrite IH. destruct (f x), (g x), (forallb f l); reflexivity.
Qed.

Lemma hereditary_and f g : hereditary f -> hereditary g -> hereditary (fun c => f c && g c).
Proof.
  intros [F1 F2] [G1 G2]. split.
  - intros l H. apply andb_true_iff in H. rewrite forallb_andb, (F1 l), (G1 l); tauto.
  - intros c t e H. apply andb_true_iff in H. rewrite !forallb_andb.
    destruct (F2 c t e) as (-> & -> & ->); [tauto|]. destruct (G2 c t e) as (-> & -> & ->); [tauto|].
    auto.
Qed.

Lemma hereditary_no_sub : hereditary no_sub.
Proof. split; cbn; intros *; rewrite ?andb_true_iff; tauto. Qed.

Lemma hereditary_subs_ok : hereditary subs_ok.
Proof. split; cbn; intros *; rewrite ?andb_true_iff; tauto. Qed.

Lemma hereditary_plain : hereditary cmd_plain.
Proof. split; cbn; intros *; rewrite ?andb_true_iff; tauto. Qed.

Lemma hereditary_ids tbl : hereditary (cmd_ids_ok tbl).
Proof. split; cbn; intros *; rewrite ?andb_true_iff; tauto. Qed.

(* A statement [Post] about runs from states satisfying [Pre] (with some
   bookkeeping [x] on the side) holds of every command satisfying [ok] as soon
   as it holds of simple commands and subshells, is kept by sequencing, and
   [Pre] leaves no caught signal behind. *)
Section ExecLift.
  Variables (tbl : table) (bf : nat) (X : Type).
  Variable Pre : sh -> X -> Prop.
  Variable Post : sres -> sh -> X -> Prop.
  Variable ok : cmd -> bool.
  Hypothesis ok_parts : hereditary ok.
  Hypothesis pre_idle : forall s x, Pre s x -> pend s = [].
  Hypothesis post_ret : forall s x, Pre s x -> Post (SOk s) s x.
  Hypothesis post_seq : forall r k s x,
    Post r s x -> (forall s1 x1, Pre s1 x1 -> Post (k s1) s1 x1) -> Post (andthen r k) s x.
  Hypothesis post_leaf : forall b s x, ok (CB b) = true -> Pre s x -> Post (exec tbl bf (CB b) s) s x.
  Hypothesis post_sub : forall l s x,
    ok (CSub l) = true ->
    (forallb ok l = true -> forall s1 x1, Pre s1 x1 -> Post (exec_list tbl bf l s1) s1 x1) ->
    Pre s x -> Post (exec tbl bf (CSub l) s) s x.

  Let Holds (c : cmd) : Prop := ok c = true -> forall s x, Pre s x -> Post (exec tbl bf c s) s x.

  Lemma exec_list_lift l :
    Forall Holds l -> forallb ok l = true ->
    forall s x, Pre s x -> Post (exec_list tbl bf l s) s x.
  Proof.
    induction 1 as [|c l Hc _ IH]; intros Hok s x HP; [apply post_ret; exact HP|].
    apply andb_true_iff in Hok. destruct Hok as [Hok1 Hok2]. rewrite exec_list_cons.
    apply post_seq; [apply Hc; assumption | intros s1 x1; apply IH; exact Hok2].
  Qed.

  (* after a compound command nothing is caught, so its boundary is idle *)
  Lemma then_boundary r s x : Post r s x -> Post (andthen r (boundary tbl bf)) s x.
  Proof.
    intros H. apply post_seq; [exact H|]. intros s1 x1 H1.
    rewrite (boundary_idle tbl bf s1 (pre_idle s1 x1 H1)). apply post_ret. exact H1.
  Qed.

  Theorem exec_lift c : Holds c.
  Proof.
    induction c as [b|l IH|l IH|c t e IHc IHt IHe] using cmd_forall_ind; intros Hok s x HP.
    - apply post_leaf; assumption.
    - rewrite exec_brace. apply then_boundary, exec_list_lift; auto. apply ok_parts, Hok.
    - apply post_sub; auto. intros Hl. apply exec_list_lift; assumption.
    - destruct (proj2 ok_parts c t e Hok) as (Hc & Ht & He). rewrite exec_if.
      apply post_seq; [apply exec_list_lift; assumption|]. intros s1 x1 H1.
      apply then_boundary. destruct (N.eqb (status s1) 0); apply exec_list_lift; assumption.
  Qed.

  Corollary exec_all l :
    forallb ok l = true -> forall s x, Pre s x -> Post (exec_list tbl bf l s) s x.
  Proof. apply exec_list_lift, Forall_forall. intros c _. apply exec_lift. Qed.
End ExecLift.

Fixpoint mon_run (tbl : table) (m : mon) (l : list ev) : mon + N :=
  match l with
  | [] => inl m
  | e :: l => match mon_event false tbl m e with inl m' => mon_run tbl m' l | inr k => inr k end
  end.

Lemma mon_run_app tbl l1 l2 m :
  mon_run tbl m (l1 ++ l2) =
  match mon_run tbl m l1 with inl m' => mon_run tbl m' l2 | inr k => inr k end.
Proof.
  revert m. induction l1 as [|e l1 IH]; intros m; cbn; [reflexivity|].
  destruct (mon_event false tbl m e); [apply IH | reflexivity].
Qed.

Lemma tact_eqb_eq a b : tact_eqb a b = true <-> a = b.
Proof.
  destruct a, b; cbn; split; try congruence.
  - intros H. apply N.eqb_eq in H. congruence.
  - intros [= ->]. apply N.eqb_refl.
Qed.

Lemma tact_eqb_refl a : tact_eqb a a = true.
Proof. apply tact_eqb_eq. reflexivity. Qed.

Lemma trap_of_set traps sg a sg' :
  trap_of (set_trap traps sg a) sg' = if N.eqb sg sg' then a else trap_of traps sg'.
Proof.
  induction traps as [|[s x] traps IH]; cbn; [reflexivity|].
  destruct (N.eqb_spec s sg) as [->|Hne]; cbn; [destruct (N.eqb sg sg'); reflexivity|].
  rewrite IH. destruct (N.eqb_spec s sg') as [->|]; [|reflexivity].
  rewrite (proj2 (N.eqb_neq sg sg')) by congruence. reflexivity.
Qed.

Lemma owed_of_set l sg o sg' :
  owed_of (set_owed l sg o) sg' = if N.eqb sg sg' then o else owed_of l sg'.
Proof.
  induction l as [|[s x] l IH]; cbn; [reflexivity|].
  destruct (N.eqb_spec s sg) as [->|Hne]; cbn; [destruct (N.eqb sg sg'); reflexivity|].
  rewrite IH. destruct (N.eqb_spec s sg') as [->|]; [|reflexivity].
  rewrite (proj2 (N.eqb_neq sg sg')) by congruence. reflexivity.
Qed.

(* a delivery outstanding for [sg] becomes unknown, the others stay *)
Lemma owed_of_forget l sg sg' :
  owed_of (match owed_of l sg with OYes => set_owed l sg OUnknown | _ => l end) sg' = OYes
  <-> owed_of l sg' = OYes /\ sg' <> sg.
Proof.
  destruct (owed_of l sg) eqn:E; rewrite ?owed_of_set;
    destruct (N.eqb_spec sg sg') as [<-|]; rewrite ?E; intuition congruence.
Qed.

Lemma in_insert_sig sg l x : In x (insert_sig sg l) <-> x = sg \/ In x l.
Proof.
  induction l as [|y l IH]; cbn; [intuition|].
  destruct (N.ltb sg y); cbn; [intuition|].
  destruct (N.eqb_spec sg y) as [->|]; cbn; [|rewrite IH]; intuition.
Qed.

Lemma in_remove_sig sg l x : In x (remove_sig sg l) <-> In x l /\ x <> sg.
Proof.
  unfold remove_sig. rewrite filter_In, negb_true_iff, N.eqb_neq. reflexivity.
Qed.

Lemma sorted_insert sg l : StronglySorted N.lt l -> StronglySorted N.lt (insert_sig sg l).
Proof.
  induction 1 as [|y l Hs IH Hy]; cbn; [repeat constructor|].
  rewrite Forall_forall in Hy.
  destruct (N.ltb_spec sg y) as [Hlt|Hge].
  - repeat constructor; [assumption | apply Forall_forall; assumption | exact Hlt |].
    apply Forall_forall. intros x Hx. specialize (Hy x Hx). lia.
  - destruct (N.eqb_spec sg y) as [->|Hne]; constructor; try assumption; apply Forall_forall; [exact Hy|].
    intros x Hx. apply in_insert_sig in Hx. destruct Hx as [->|Hx]; [lia | exact (Hy x Hx)].
Qed.

Lemma sorted_remove sg l : StronglySorted N.lt l -> StronglySorted N.lt (remove_sig sg l).
Proof.
  unfold remove_sig. induction 1 as [|y l Hs IH Hy]; cbn; [constructor|].
  destruct (negb (N.eqb y sg)); [|exact IH].
  constructor; [exact IH|]. rewrite Forall_forall in *. intros x Hx. apply filter_In in Hx. apply Hy, Hx.
Qed.

(* the head of the caught signals is the lowest *)
Lemma sorted_head sg rest x : StronglySorted N.lt (sg :: rest) -> In x rest -> (sg < x)%N.
Proof.
  intros Hs. apply StronglySorted_inv in Hs. destruct Hs as [_ Hall].
  rewrite Forall_forall in Hall. apply Hall.
Qed.

(* [md] is the monitor's mode; the last clause says that the actions named by
   the trap table exist *)
Section RelDef.
  Context {tbl : table} {md : mode} {s : sh} {m : mon}.
  Record Rel : Prop := {
    r_cur : m_cur m = traps s;
    r_dead : m_dead m = None;
    r_mode : m_mode m = md;
    r_last : m_last m = status s;
    r_owed : forall sg, owed_of (m_owed m) sg = OYes <-> In sg (pend s);
    r_sorted : StronglySorted N.lt (pend s);
    r_body : forall sg, In sg (pend s) -> is_body (trap_of (traps s) sg) = true;
    r_ids : forall sg id, trap_of (traps s) sg = TBody id ->
                          existsb (fun p => N.eqb (fst p) id) tbl = true
  }.
End RelDef.
Arguments Rel : clear implicits.

(* $? and the mode change, traps and caught signals do not *)
Lemma rel_set tbl md md' s s2 m :
  Rel tbl md s m -> traps s2 = traps s -> pend s2 = pend s ->
  Rel tbl md' s2 (mkMon (m_cur m) (m_owed m) (status s2) md' (m_dead m)).
Proof. intros [] E1 E2. constructor; cbn; rewrite ?E1, ?E2; auto. Qed.

(* outside trap actions, nothing caught *)
Definition Idle (tbl : table) (s : sh) (m : mon) : Prop := Rel tbl MMain s m /\ pend s = [].

(* what the built-in for [b] records in state [s] *)
Definition ev_of (b : bcmd) (s : sh) : ev :=
  match b with
  | BProbe k st => EProbe k (status s) st
  | BRaise sg st => ERaise sg (status s) st
  | BTrap sg a => EMark sg a (status s)
  end.

(* s' extends s by these events of the same process *)
Definition events (s s' : sh) (l : list ev) : Prop :=
  tr s' = map (fun e => (pid s, e)) (rev l) ++ tr s /\ pid s' = pid s /\ nextpid s' = nextpid s.

Lemma events_nil s : events s s [].
Proof. repeat split. Qed.

Lemma events_trans s1 s2 s3 l1 l2 :
  events s1 s2 l1 -> events s2 s3 l2 -> events s1 s3 (l1 ++ l2).
Proof.
  intros (H1 & H2 & H3) (H4 & H5 & H6). repeat split; try congruence.
  rewrite H4, H1, H2, rev_app_distr, map_app, app_assoc. reflexivity.
Qed.

Definition same_io (a b : sh) : Prop := tr a = tr b /\ pid a = pid b /\ nextpid a = nextpid b.

Lemma events_same_l a a' b l : same_io a a' -> events a' b l -> events a b l.
Proof.
  intros (H1 & H2 & H3) (H4 & H5 & H6). unfold events. rewrite H1, H2, H3. repeat split; assumption.
Qed.

Lemma do_b_events b s :
  match final (do_b b s) with Some s' => events s s' [ev_of b s] | None => True end.
Proof. destruct b; cbn; [|destruct (trap_of (traps s) sg)|]; repeat split. Qed.

Lemma ev_matches_self b s : ev_matches b (ev_of b s) = true.
Proof. destruct b; cbn; rewrite ?N.eqb_refl, ?tact_eqb_refl; reflexivity. Qed.

Lemma ev_before_self b s : ev_before (ev_of b s) = status s.
Proof. destruct b; reflexivity. Qed.

(* how the monitor state must stand to the result of a run: [Q] if the process
   lives, killed by the same signal if it was killed *)
Definition fits (Q : sh -> mon -> Prop) (r : sres) (m : mon) : Prop :=
  match r with SOk s => Q s m | SDead sg _ => m_dead m = Some sg | SFuel => True end.

(* the monitor, started in [m], accepts what the run recorded from [s] on, and
   ends in a state that fits the result *)
Definition Sim (tbl : table) (Q : sh -> mon -> Prop) (r : sres) (s : sh) (m : mon) : Prop :=
  match final r with
  | Some s' => exists evs m', events s s' evs /\ mon_run tbl m evs = inl m' /\ fits Q r m'
  | None => True
  end.

Lemma sim_ret tbl (Q : sh -> mon -> Prop) s m : Q s m -> Sim tbl Q (SOk s) s m.
Proof. intros H. exists [], m. split; [apply events_nil | split; [reflexivity | exact H]]. Qed.

Lemma sim_seq tbl (Q1 Q2 : sh -> mon -> Prop) r k s m :
  Sim tbl Q1 r s m -> (forall s1 m1, Q1 s1 m1 -> Sim tbl Q2 (k s1) s1 m1) ->
  Sim tbl Q2 (andthen r k) s m.
Proof.
  intros H1 H2. destruct r as [s1|sg s1|]; [|exact H1|exact I].
  destruct H1 as (evs & m1 & Hev & Hmr & HQ). specialize (H2 s1 m1 HQ).
  unfold Sim in *. cbn [andthen]. destruct (final (k s1)) as [s2|]; [|exact I].
  destruct H2 as (evs2 & m2 & Hev2 & Hmr2 & Hfit). exists (evs ++ evs2), m2.
  split; [exact (events_trans s s1 s2 evs evs2 Hev Hev2)|].
  split; [rewrite mon_run_app, Hmr; exact Hmr2 | exact Hfit].
Qed.

Lemma sim_same_l tbl Q r a a' m : same_io a a' -> Sim tbl Q r a' m -> Sim tbl Q r a m.
Proof.
  intros Hio H. unfold Sim in *. destruct (final r) as [s'|]; [|exact I].
  destruct H as (evs & m' & Hev & H). exists evs, m'.
  split; [exact (events_same_l a a' s' evs Hio Hev) | exact H].
Qed.

(* a built-in records one event *)
Lemma sim_one tbl Q b s m m' :
  mon_event false tbl m (ev_of b s) = inl m' -> fits Q (do_b b s) m' -> Sim tbl Q (do_b b s) s m.
Proof.
  intros E Hfit. pose proof (do_b_events b s) as Hev. unfold Sim.
  destruct (final (do_b b s)); [|exact I]. exists [ev_of b s], m'.
  split; [exact Hev | split; [cbn; rewrite E; reflexivity | exact Hfit]].
Qed.

(* the bookkeeping of the monitor follows the interpreter *)
Lemma effect_rel tbl md0 md b s m :
  Rel tbl md0 s m -> bcmd_ids_ok tbl b = true ->
  fits (Rel tbl md) (do_b b s) (effect false m (ev_of b s) md).
Proof.
  intros [Hc Hd _ Hl Ho Hs Hb Hi] Hid. destruct b as [k st | sg st | sg a]; cbn.
  - constructor; cbn; auto.
  - rewrite Hc. destruct (trap_of (traps s) sg) eqn:Et; cbn; [reflexivity | constructor; cbn; auto |].
    constructor; cbn; auto.
    + intros sg'. rewrite owed_of_set, in_insert_sig, <- Ho.
      destruct (N.eqb_spec sg sg') as [<-|]; intuition congruence.
    + apply sorted_insert, Hs.
    + intros sg' Hin. apply in_insert_sig in Hin.
      destruct Hin as [->|Hin]; [rewrite Et; reflexivity | apply Hb, Hin].
  - constructor; cbn; auto.
    + rewrite Hc. reflexivity.
    + intros sg'. rewrite owed_of_forget, in_remove_sig, Ho. reflexivity.
    + apply sorted_remove, Hs.
    + intros sg' Hin. apply in_remove_sig in Hin. rewrite trap_of_set.
      destruct (N.eqb_spec sg sg') as [<-|]; [tauto | apply Hb; tauto].
    + intros sg' id. rewrite trap_of_set. destruct (N.eqb sg sg'); [intros ->; exact Hid | apply Hi].
Qed.

(* the relation while [rest] of an action is still to run, to be left with
   $? = [saved] *)
Definition BRel (tbl : table) (rest : list bcmd) (saved : N) (s : sh) (m : mon) : Prop :=
  match rest with
  | [] => Rel tbl MMain (with_status s saved) m
  | _ => Rel tbl (MBody rest saved) s m
  end.

Lemma next_mode_rel tbl md rest saved s m :
  Rel tbl md s m -> BRel tbl rest saved s (next_mode rest saved m).
Proof. intros []. destruct rest; constructor; cbn; auto. Qed.

(* [b] is the next command of the action; [m0] is the bookkeeping from which
   the monitor takes its step in the action ([m] itself, or [m] with the
   delivery consumed when the action starts) *)
Lemma in_body_sim tbl saved b l s m m0 md :
  Rel tbl md s m0 -> bcmd_ids_ok tbl b = true ->
  mon_event false tbl m (ev_of b s) = in_body false tbl m0 (ev_of b s) (b :: l) saved ->
  Sim tbl (BRel tbl l saved) (do_b b s) s m.
Proof.
  intros HR Hid E.
  pose proof (effect_rel tbl md (MBody l saved) b s m0 HR Hid) as He.
  unfold in_body in E. rewrite ev_matches_self, ev_before_self, (r_last HR), N.eqb_refl in E.
  cbn [negb] in E. destruct (do_b b s) as [s1|sg s1|] eqn:Eb; cbn [fits] in He; rewrite <- Eb.
  - rewrite (r_dead He) in E. apply (sim_one tbl _ b s m _ E). rewrite Eb.
    exact (next_mode_rel tbl _ l saved s1 _ He).
  - rewrite He in E. apply (sim_one tbl _ b s m _ E). rewrite Eb. exact He.
  - rewrite Eb. exact I.
Qed.

Lemma action_sim tbl saved l : forall s m,
  BRel tbl l saved s m -> forallb (bcmd_ids_ok tbl) l = true ->
  Sim tbl (BRel tbl [] saved) (run_body l s) s m.
Proof.
  induction l as [|b l IH]; intros s m HR Hids; [apply sim_ret; exact HR|].
  apply andb_true_iff in Hids. destruct Hids as [Hid Hids]. rewrite run_body_cons.
  apply sim_seq with (Q1 := BRel tbl l saved); [|intros s1 m1 H1; apply IH; assumption].
  apply (in_body_sim tbl saved b l s m m _ HR Hid).
  unfold mon_event. rewrite (r_dead HR), (r_mode HR). reflexivity.
Qed.

Lemma body_of_in tbl id :
  existsb (fun p => N.eqb (fst p) id) tbl = true -> In (id, body_of tbl id) tbl.
Proof.
  induction tbl as [|[i b] tbl IH]; cbn; [discriminate|].
  destruct (N.eqb_spec i id) as [->|]; cbn; auto.
Qed.

Lemma body_of_forall (P : bcmd -> bool) tbl id :
  forallb (fun p => forallb P (snd p)) tbl = true -> forallb P (body_of tbl id) = true.
Proof.
  induction tbl as [|[i b] tbl IH]; cbn; [reflexivity|].
  intros H. apply andb_true_iff in H. destruct (N.eqb i id); [apply H | apply IH, H].
Qed.

Definition TblOk (tbl : table) : Prop :=
  forallb body_ok tbl = true /\
  forallb (fun p => forallb (bcmd_ids_ok tbl) (snd p)) tbl = true.

Lemma body_of_ok tbl id :
  TblOk tbl -> existsb (fun p => N.eqb (fst p) id) tbl = true ->
  exists st tail, body_of tbl id = BProbe (BODY_KEY + id) st :: tail
                  /\ forallb (bcmd_ids_ok tbl) (body_of tbl id) = true.
Proof.
  intros [H1 H2] Hin. apply body_of_in in Hin.
  rewrite forallb_forall in H1. specialize (H1 _ Hin). unfold body_ok in H1. cbn [fst snd] in H1.
  pose proof (body_of_forall _ tbl id H2) as Hids.
  (* as a variable: otherwise every conversion below unfolds the addition *)
  remember (BODY_KEY + id)%N as key.
  destruct (body_of tbl id) as [|[k st| |] tail]; try discriminate.
  apply andb_true_iff in H1. destruct H1 as [Hk _]. apply N.eqb_eq in Hk. subst k.
  exists st, tail. split; [reflexivity | exact Hids].
Qed.

(* [min_sig] finds [sg] when it is the least of the listed signals that pass [f];
   [acc] is what the fold has found so far *)
Lemma min_sig_from (f : N -> bool) sg (l : list (N * tact)) : forall acc,
  f sg = true ->
  (forall x, In x (map fst l) -> f x = true -> (sg <= x)%N) ->
  match acc with Some a => (sg <= a)%N | None => True end ->
  acc = Some sg \/ In sg (map fst l) ->
  fold_left (fun acc p =>
               if f (fst p)
               then match acc with None => Some (fst p) | Some a => Some (N.min a (fst p)) end
               else acc) l acc = Some sg.
Proof.
  induction l as [|[x a0] l IH]; intros acc Hf Hmin Hacc Hin; cbn in Hin |- *.
  - destruct Hin as [->|[]]. reflexivity.
  - assert (Hx : f x = true -> (sg <= x)%N) by (apply Hmin; left; reflexivity).
    apply IH; [exact Hf | intros y Hy; apply Hmin; right; exact Hy | |].
    + destruct (f x); [|exact Hacc]. destruct acc; lia.
    + destruct Hin as [->|[<-|Hin]]; [| |right; exact Hin]; left.
      * destruct (f x); [f_equal; lia | reflexivity].
      * rewrite Hf. destruct acc; [f_equal; lia | reflexivity].
Qed.

Lemma min_sig_spec (f : N -> bool) sg (l : list (N * tact)) :
  f sg = true -> In sg (map fst l) ->
  (forall x, In x (map fst l) -> f x = true -> (sg <= x)%N) ->
  min_sig f l = Some sg.
Proof. intros H1 H2 H3. apply min_sig_from; auto. Qed.

Lemma trap_of_in l sg id : trap_of l sg = TBody id -> In sg (map fst l).
Proof.
  induction l as [|[s a] l IH]; cbn; [discriminate|].
  destruct (N.eqb_spec s sg); auto.
Qed.

Lemma owed_signal_head tbl md s m sg rest id :
  Rel tbl md s m -> pend s = sg :: rest -> trap_of (traps s) sg = TBody id ->
  owed_signal m id = Some sg.
Proof.
  intros HR Hp Ht. unfold owed_signal. cbv zeta.
  rewrite (min_sig_spec _ sg (m_cur m)); [reflexivity| | |].
  - rewrite (r_cur HR), Ht, tact_eqb_refl, (proj2 (r_owed HR sg)); [reflexivity|].
    rewrite Hp. left; reflexivity.
  - rewrite (r_cur HR). exact (trap_of_in _ _ _ Ht).
  - intros x _ Hx. apply andb_true_iff in Hx. destruct Hx as [_ Hx].
    assert (H : In x (pend s)) by (apply (r_owed HR); destruct (owed_of (m_owed m) x); congruence).
    pose proof (r_sorted HR) as Hs. rewrite Hp in H, Hs.
    destruct H as [->|H]; [lia|]. pose proof (sorted_head sg rest x Hs H). lia.
Qed.

Lemma some_owed_false tbl md s m : Rel tbl md s m -> pend s = [] -> some_owed m = false.
Proof.
  intros HR Hp. unfold some_owed.
  destruct (existsb _ (m_owed m)) eqn:E; [|reflexivity].
  apply existsb_exists in E. destruct E as ([sg o] & _ & H). cbn [fst] in H.
  destruct (owed_of (m_owed m) sg) eqn:Eo; try discriminate.
  apply (r_owed HR) in Eo. rewrite Hp in Eo. destruct Eo.
Qed.

Lemma mon_finished_idle tbl s m : Idle tbl s m -> mon_finished m = true.
Proof.
  intros [HR Hp]. unfold mon_finished. rewrite (r_mode HR), (some_owed_false tbl _ s m HR Hp). reflexivity.
Qed.

Lemma starts_body_marker id b a : starts_body (EProbe (BODY_KEY + id) b a) = Some id.
Proof.
  unfold starts_body, BODY_KEY. rewrite (proj2 (N.leb_le 1000 (1000 + id))) by lia. f_equal. lia.
Qed.

Lemma boundary_sim tbl : TblOk tbl -> forall fuel s m,
  Rel tbl MMain s m -> Sim tbl (Idle tbl) (boundary tbl fuel s) s m.
Proof.
  intros Htbl. induction fuel as [|f IH]; intros s m HR; destruct (pend s) as [|sg rest] eqn:Hp;
    try (rewrite boundary_idle by exact Hp; apply sim_ret; split; assumption).
  - cbn. rewrite Hp. exact I.
  - rewrite (boundary_round tbl f s sg rest Hp).
    pose proof (r_body HR sg) as Hb. pose proof (r_sorted HR) as Hs. rewrite Hp in Hb, Hs.
    destruct (trap_of (traps s) sg) as [| |id] eqn:Et; try (discriminate Hb; left; reflexivity).
    destruct (body_of_ok tbl id Htbl (r_ids HR sg id Et)) as (st & tail & Ebody & Hids).
    rewrite Ebody in *. apply andb_true_iff in Hids. destruct Hids as [Hid Hids].
    (* the monitor consumes the delivery when the action starts *)
    assert (HR0 : Rel tbl MMain (with_pend s rest)
                      (mkMon (m_cur m) (set_owed (m_owed m) sg ONo) (status s) MMain None)).
    { destruct HR as [H1 H2 H3 H4 H5 H6 H7 H8]. constructor; cbn; auto.
      - intros x. rewrite owed_of_set. destruct (N.eqb_spec sg x) as [<-|Hne].
        + split; [discriminate|]. intros Hin. pose proof (sorted_head sg rest sg Hs Hin). lia.
        + rewrite H5, Hp. cbn. intuition congruence.
      - apply StronglySorted_inv in Hs. apply Hs.
      - intros x Hx. apply H7. rewrite Hp. right; exact Hx. }
    apply sim_seq with (Q1 := BRel tbl [] (status s)).
    + apply (sim_same_l tbl _ _ s (with_pend s rest)); [repeat split|]. rewrite run_body_cons.
      apply sim_seq with (Q1 := BRel tbl tail (status s));
        [|intros s2 m2 H2; apply action_sim; assumption].
      apply (in_body_sim tbl (status s) _ tail _ m _ MMain HR0 Hid).
      unfold mon_event. rewrite (r_dead HR), (r_mode HR). cbn [ev_of].
      rewrite starts_body_marker, (owed_signal_head tbl _ s m sg rest id HR Hp Et), Ebody, (r_last HR).
      reflexivity.
    + intros s2 m2 H2. apply (sim_same_l tbl _ _ s2 (with_status s2 (status s))); [repeat split|].
      apply IH. exact H2.
Qed.

Lemma plain_not_marker b s : bcmd_plain b = true -> starts_body (ev_of b s) = None.
Proof.
  destruct b as [k st| |]; cbn; try reflexivity. intros H. apply N.ltb_lt in H.
  rewrite (proj2 (N.leb_gt BODY_KEY k) H). reflexivity.
Qed.

(* a simple command outside any trap action, nothing outstanding *)
Lemma leaf_sim tbl bf b s m :
  TblOk tbl -> Idle tbl s m -> bcmd_plain b = true -> bcmd_ids_ok tbl b = true ->
  Sim tbl (Idle tbl) (exec tbl bf (CB b) s) s m.
Proof.
  intros Htbl [HR Hp] Hplain Hid. rewrite exec_leaf.
  apply sim_seq with (Q1 := Rel tbl MMain); [|intros s1 m1; apply boundary_sim; exact Htbl].
  apply (sim_one tbl _ b s m (effect false m (ev_of b s) MMain)); [|exact (effect_rel tbl _ _ b s m HR Hid)].
  unfold mon_event.
  rewrite (r_dead HR), (r_mode HR), (plain_not_marker b s Hplain), (some_owed_false tbl _ s m HR Hp),
    ev_before_self, (r_last HR), N.eqb_refl.
  reflexivity.
Qed.

Definition nosub_ok (tbl : table) (c : cmd) : bool := no_sub c && cmd_plain c && cmd_ids_ok tbl c.

Lemma exec_nosub tbl bf l :
  TblOk tbl -> forallb (nosub_ok tbl) l = true ->
  forall s m, Idle tbl s m -> Sim tbl (Idle tbl) (exec_list tbl bf l s) s m.
Proof.
  intros Htbl. apply (exec_all tbl bf mon (Idle tbl) (Sim tbl (Idle tbl))).
  - exact (hereditary_and _ _ (hereditary_and _ _ hereditary_no_sub hereditary_plain) (hereditary_ids tbl)).
  - intros s m H. apply H.
  - apply sim_ret.
  - intros r k s m. apply sim_seq.
  - intros b s m Hok HI. unfold nosub_ok in Hok. cbn in Hok. apply andb_true_iff in Hok.
    apply leaf_sim; tauto.
  - discriminate.
Qed.

(* Every command records at least one event, and it is at the first event of
   the next command that the whole monitor closes a subshell that has ended
   ([top_run_closed]).  [ext n t r]: the run appended at least [n] events to
   the trace [t]. *)
Definition ext (n : nat) (t : list event) (r : sres) : Prop :=
  match final r with Some s' => (n + length t <= length (tr s'))%nat | None => True end.

Lemma ext_le n k t r : (k <= n)%nat -> ext n t r -> ext k t r.
Proof. unfold ext. destruct (final r); [lia | trivial]. Qed.

(* when the first part is killed the second records nothing *)
Lemma ext_seq n t r f : ext n t r -> (forall s1, ext 0 (tr s1) (f s1)) -> ext n t (andthen r f).
Proof.
  intros H1 H2. destruct r as [s1|sg s1|]; [|exact H1|exact I].
  specialize (H2 s1). unfold ext in *. cbn in *. destruct (final (f s1)); [lia | exact I].
Qed.

Lemma do_b_ext b s : ext 1 (tr s) (do_b b s).
Proof. destruct b; cbn; [|destruct (trap_of (traps s) sg)|]; cbn; lia. Qed.

Lemma run_body_ext l : forall s, ext 0 (tr s) (run_body l s).
Proof.
  induction l as [|b l IH]; intros s; [cbn; lia|]. rewrite run_body_cons.
  apply ext_seq; [apply (ext_le 1), do_b_ext; lia | exact IH].
Qed.

Lemma boundary_ext tbl fuel : forall s, ext 0 (tr s) (boundary tbl fuel s).
Proof.
  induction fuel as [|f IH]; intros s; destruct (pend s) as [|sg rest] eqn:Hp;
    try (rewrite boundary_idle by exact Hp; cbn; lia).
  - cbn. rewrite Hp. exact I.
  - rewrite (boundary_round tbl f s sg rest Hp).
    destruct (trap_of (traps s) sg); try exact (IH (with_pend s rest)).
    apply ext_seq; [exact (run_body_ext _ (with_pend s rest)) | intros s2; exact (IH (with_status s2 _))].
Qed.

Lemma exec_list_ext tbl bf l :
  Forall (fun c => cmd_plain c = true -> forall s, ext 1 (tr s) (exec tbl bf c s)) l ->
  forallb cmd_plain l = true ->
  forall s, ext (Nat.b2n (nonempty l)) (tr s) (exec_list tbl bf l s).
Proof.
  induction 1 as [|c l Hc _ IH]; intros Hpl s; [cbn; lia|].
  apply andb_true_iff in Hpl. rewrite exec_list_cons.
  apply ext_seq; [apply Hc, Hpl | intros s1; apply (ext_le (Nat.b2n (nonempty l))); [lia | apply IH, Hpl]].
Qed.

Lemma exec_ext tbl bf c : cmd_plain c = true -> forall s, ext 1 (tr s) (exec tbl bf c s).
Proof.
  induction c as [b|l IH|l IH|c t e IHc IHt IHe] using cmd_forall_ind; cbn [cmd_plain];
    rewrite ?andb_true_iff; intros Hpl s.
  - rewrite exec_leaf. apply ext_seq; [apply do_b_ext | apply boundary_ext].
  - rewrite exec_brace. destruct Hpl as [Hne Hpl].
    apply ext_seq; [|apply boundary_ext].
    pose proof (exec_list_ext tbl bf l IH Hpl s) as H. rewrite Hne in H. exact H.
  - rewrite exec_sub. destruct Hpl as [Hne Hpl].
    pose proof (exec_list_ext tbl bf l IH Hpl (child_of s)) as H. rewrite Hne in H. unfold ext in H.
    destruct (final (exec_list tbl bf l (child_of s))) as [c|]; [|exact I].
    pose proof (boundary_ext tbl bf (mkSh (traps s) (pend s) (sub_status (exec_list tbl bf l (child_of s)))
                                          (pid s) (nextpid c) (tr c))) as Hb.
    unfold ext in *. destruct (final (boundary tbl bf _)); cbn in *; [lia | exact I].
  - rewrite exec_if. destruct Hpl as [[[[[Hc Ht] He] Hpc] Hpt] Hpe].
    pose proof (exec_list_ext tbl bf c IHc Hpc s) as H. rewrite Hc in H.
    apply ext_seq; [exact H|]. intros s1.
    apply ext_seq; [|apply boundary_ext].
    destruct (N.eqb (status s1) 0);
      [apply (ext_le (Nat.b2n (nonempty t))) | apply (ext_le (Nat.b2n (nonempty e)))];
      try lia; apply exec_list_ext; assumption.
Qed.

Corollary exec_list_ext1 tbl bf l :
  forallb cmd_plain l = true -> nonempty l = true ->
  forall s, ext 1 (tr s) (exec_list tbl bf l s).
Proof.
  intros Hpl Hne s. change 1%nat with (Nat.b2n true). rewrite <- Hne.
  apply exec_list_ext; [|exact Hpl]. apply Forall_forall. intros c _. apply exec_ext.
Qed.

Definition tevents (s s' : sh) (l : list event) : Prop := tr s' = rev l ++ tr s.

Lemma tevents_trans s1 s2 s3 l1 l2 : tevents s1 s2 l1 -> tevents s2 s3 l2 -> tevents s1 s3 (l1 ++ l2).
Proof. unfold tevents. intros H1 H2. rewrite H2, H1, rev_app_distr, app_assoc. reflexivity. Qed.

Lemma events_tevents s s' evs : events s s' evs -> tevents s s' (map (fun e => (pid s, e)) evs).
Proof. intros (H & _). unfold tevents. rewrite H, map_rev. reflexivity. Qed.

Lemma events_cons s s' evs :
  events s s' evs -> (1 + length (tr s) <= length (tr s'))%nat -> exists e evs', evs = e :: evs'.
Proof. intros (H & _) Hl. destruct evs; [cbn in H; rewrite H in Hl; lia | eauto]. Qed.

Lemma top_run_app tbl l1 l2 : forall t,
  top_run false tbl t (l1 ++ l2) =
  match top_run false tbl t l1 with inl t' => top_run false tbl t' l2 | inr k => inr k end.
Proof.
  induction l1 as [|x l1 IH]; intros t; cbn; [reflexivity|].
  destruct (top_event false tbl t x); [apply IH | reflexivity].
Qed.

Lemma finish_child_closed t t1 :
  finish_child t = inl t1 -> t_child t1 = None /\ t_next t1 = t_next t.
Proof.
  unfold finish_child. destruct (t_child t) as [[q cm]|] eqn:E; [|intros [= <-]; split; [exact E | reflexivity]].
  destruct (m_dead cm) as [sg|]; [generalize (384 + sg)%N; intros x [= <-]; split; reflexivity|].
  destruct (mon_finished cm); [intros [= <-]; split; reflexivity | discriminate].
Qed.

(* a subshell that has ended stays open in the monitor until the next event,
   which is of another process and closes it first *)
Lemma top_run_closed tbl t t1 p e l :
  finish_child t = inl t1 -> (forall q cm, t_child t = Some (q, cm) -> q <> p) ->
  top_run false tbl t ((p, e) :: l) = top_run false tbl t1 ((p, e) :: l).
Proof.
  intros Hf Hp. pose proof (proj1 (finish_child_closed t t1 Hf)) as Hc.
  assert (Hf1 : finish_child t1 = inl t1) by (unfold finish_child; rewrite Hc; reflexivity).
  cbn [top_run]. unfold top_event. rewrite Hf1, Hc. destruct (t_child t) as [[q cm]|] eqn:Ech.
  - rewrite (proj2 (N.eqb_neq q p) (Hp q cm eq_refl)), Hf. reflexivity.
  - unfold finish_child in Hf. rewrite Ech in Hf. injection Hf as <-. rewrite Hf1. reflexivity.
Qed.

(* events of the main process when no subshell is open *)
Lemma top_run_main tbl evs : forall m n,
  top_run false tbl (mkTop m None n) (map (fun e => (0%N, e)) evs) =
  match mon_run tbl m evs with inl m' => inl (mkTop m' None n) | inr k => inr k end.
Proof.
  induction evs as [|e evs IH]; intros m n; cbn; [reflexivity|].
  destruct (mon_event false tbl m e) as [m'|k]; cbn; [apply IH | reflexivity].
Qed.

(* events of the subshell that is open *)
Lemma top_run_child tbl q evs : forall par cm n, q <> 0%N ->
  top_run false tbl (mkTop par (Some (q, cm)) n) (map (fun e => (q, e)) evs) =
  match mon_run tbl cm evs with
  | inl cm' => inl (mkTop par (Some (q, cm')) n)
  | inr k => inr k
  end.
Proof.
  induction evs as [|e evs IH]; intros par cm n Hq; cbn; [reflexivity|].
  rewrite (proj2 (N.eqb_neq q 0) Hq), N.eqb_refl. cbn.
  destruct (mon_event false tbl cm e) as [cm'|k]; cbn; [apply IH, Hq | reflexivity].
Qed.

(* the subshell's monitor at its start: the parent's traps with the commands
   reset, nothing outstanding *)
Definition child_mon (par : mon) : mon := mkMon (reset_cur (m_cur par)) [] (m_last par) MMain None.

(* events of a new subshell, opened by the first *)
Lemma top_run_sub tbl s par q e evs :
  Idle tbl s par -> q <> 0%N ->
  top_run false tbl (mkTop par None q) ((q, e) :: map (fun x => (q, x)) evs) =
  match mon_run tbl (child_mon par) (e :: evs) with
  | inl cm' => inl (mkTop par (Some (q, cm')) (q + 1))
  | inr k => inr k
  end.
Proof.
  intros HI Hq. cbn [top_run mon_run]. unfold top_event. cbv zeta. cbn [t_child t_next t_par].
  rewrite (proj2 (N.eqb_neq q 0) Hq), N.eqb_refl, (r_dead (proj1 HI)), (mon_finished_idle tbl s par HI).
  cbn [negb]. fold (child_mon par).
  destruct (mon_event false tbl (child_mon par) e) as [cm1|k]; [|reflexivity].
  apply (top_run_child tbl q evs), Hq.
Qed.

(* the main shell is between commands, [m] its monitor once the subshell that
   may still be open is closed *)
Definition TopRel (tbl : table) (s : sh) (t : top) : Prop :=
  pid s = 0%N /\ nextpid s <> 0%N /\
  (forall q cm, t_child t = Some (q, cm) -> q <> 0%N /\ (q < nextpid s)%N) /\
  exists m, finish_child t = inl (mkTop m None (nextpid s)) /\ Idle tbl s m.

Definition tfits (tbl : table) (r : sres) (t : top) : Prop :=
  match r with
  | SOk s => TopRel tbl s t
  | SDead sg _ => exists t1, finish_child t = inl t1 /\ m_dead (t_par t1) = Some sg
  | SFuel => True
  end.

Definition TopSim (tbl : table) (r : sres) (s : sh) (t : top) : Prop :=
  match final r with
  | Some s' => exists l t', tevents s s' l /\ top_run false tbl t l = inl t' /\ tfits tbl r t'
  | None => True
  end.

Lemma topsim_ret tbl s t : TopRel tbl s t -> TopSim tbl (SOk s) s t.
Proof. intros H. exists [], t. split; [reflexivity | split; [reflexivity | exact H]]. Qed.

Lemma topsim_seq tbl r k s t :
  TopSim tbl r s t -> (forall s1 t1, TopRel tbl s1 t1 -> TopSim tbl (k s1) s1 t1) ->
  TopSim tbl (andthen r k) s t.
Proof.
  intros H1 H2. destruct r as [s1|sg s1|]; [|exact H1|exact I].
  destruct H1 as (l & t1 & Hl & Hrun & HR). specialize (H2 s1 t1 HR).
  unfold TopSim in *. cbn [andthen]. destruct (final (k s1)) as [s2|]; [|exact I].
  destruct H2 as (l2 & t2 & Hl2 & Hrun2 & Hfit). exists (l ++ l2), t2.
  split; [exact (tevents_trans s s1 s2 l l2 Hl Hl2)|].
  split; [rewrite top_run_app, Hrun; exact Hrun2 | exact Hfit].
Qed.

(* what the main process does, seen by the whole monitor *)
Lemma lift_main tbl r s t :
  TopRel tbl s t -> ext 1 (tr s) r -> (forall m, Idle tbl s m -> Sim tbl (Idle tbl) r s m) ->
  TopSim tbl r s t.
Proof.
  intros (Hpid & Hn & Hch & m & Hf & HI) Hext Hsim. specialize (Hsim m HI).
  unfold Sim, TopSim, ext in *. destruct (final r) as [s'|] eqn:Ef; [|exact I].
  destruct Hsim as (evs & m' & Hevs & Hmr & Hfit).
  destruct (events_cons s s' evs Hevs Hext) as (e & evs' & ->).
  pose proof (events_tevents s s' _ Hevs) as Hte. rewrite Hpid in Hte. destruct Hevs as (_ & Hpid' & Hnp').
  exists (map (fun e => (0%N, e)) (e :: evs')), (mkTop m' None (nextpid s)). split; [exact Hte|]. split.
  - cbn [map]. rewrite (top_run_closed tbl t _ 0 e _ Hf) by (intros q cm H; apply Hch in H; lia).
    rewrite (top_run_main tbl (e :: evs')), Hmr. reflexivity.
  - destruct r as [s0|sg s0|]; [| |discriminate]; injection Ef as ->; cbn.
    + split; [congruence | split; [congruence | split; [discriminate|]]].
      exists m'. split; [rewrite Hnp'; reflexivity | exact Hfit].
    + eexists. split; [reflexivity | exact Hfit].
Qed.

Lemma reset_no_body l sg id : trap_of (reset_traps l) sg <> TBody id.
Proof.
  induction l as [|[s a] l IH]; cbn; [discriminate|].
  destruct (N.eqb s sg); [destruct a; discriminate | exact IH].
Qed.

Lemma reset_cur_eq l : reset_cur l = reset_traps l.
Proof. reflexivity. Qed.

Lemma child_idle tbl s par : Idle tbl s par -> Idle tbl (child_of s) (child_mon par).
Proof.
  intros [HR _]. split; [|reflexivity]. constructor; cbn; try reflexivity.
  - rewrite (r_cur HR). reflexivity.
  - apply (r_last HR).
  - intros sg. split; [discriminate | intros []].
  - constructor.
  - intros sg [].
  - intros sg id H. destruct (reset_no_body _ _ _ H).
Qed.

(* a subshell: its process is simulated on a monitor of its own, which the
   whole monitor opens at the first event; closing it gives the parent the
   subshell's exit status *)
Lemma sub_sim tbl bf l s t :
  TblOk tbl -> TopRel tbl s t -> forallb (nosub_ok tbl) l = true -> nonempty l = true ->
  TopSim tbl (exec tbl bf (CSub l) s) s t.
Proof.
  intros Htbl (Hpid & Hn & Hch & par & Hf & HI) Hok Hne. rewrite exec_sub.
  pose proof (exec_nosub tbl bf l Htbl Hok _ _ (child_idle tbl s par HI)) as Hsim.
  assert (Hpl : forallb cmd_plain l = true).
  { unfold nosub_ok in Hok. rewrite !forallb_andb, !andb_true_iff in Hok. tauto. }
  pose proof (exec_list_ext1 tbl bf l Hpl Hne (child_of s)) as Hgrow. unfold Sim, ext in *.
  destruct (final (exec_list tbl bf l (child_of s))) as [c|] eqn:Ef; [|exact I].
  destruct Hsim as (evs & cm' & Hevs & Hmr & Hfit).
  destruct (events_cons _ c evs Hevs Hgrow) as (e & evs' & ->).
  pose proof (events_tevents _ _ _ Hevs) as Hte. destruct Hevs as (_ & _ & Hnpc).
  cbn in Hnpc. destruct HI as [HR Hp]. rewrite boundary_idle by exact Hp.
  exists (map (fun x => (nextpid s, x)) (e :: evs')), (mkTop par (Some (nextpid s, cm')) (nextpid s + 1)).
  split; [exact Hte|]. split.
  - cbn [map]. rewrite (top_run_closed tbl t _ _ e _ Hf) by (intros q cm H; apply Hch in H; lia).
    rewrite (top_run_sub tbl s par _ e evs' (conj HR Hp) Hn), Hmr. reflexivity.
  - split; [exact Hpid | split; [cbn; lia | split; [intros q cm [= <- _]; cbn; lia|]]].
    exists (mkMon (m_cur par) (m_owed par) (sub_status (exec_list tbl bf l (child_of s))) MMain (m_dead par)).
    cbn [nextpid]. rewrite Hnpc. split.
    + unfold finish_child. cbn [t_child t_par t_next]. rewrite (r_mode HR).
      destruct (exec_list tbl bf l (child_of s)) as [c0|sg c0|]; [| |discriminate]; cbn in Hfit |- *.
      * rewrite (r_dead (proj1 Hfit)), (mon_finished_idle tbl c0 cm' Hfit), (r_last (proj1 Hfit)). reflexivity.
      * rewrite Hfit. reflexivity.
    + split; [|exact Hp].
      exact (rel_set tbl MMain MMain s (mkSh (traps s) (pend s) _ (pid s) _ (tr c)) par HR eq_refl eq_refl).
Qed.

Definition top_ok (tbl : table) (c : cmd) : bool := subs_ok c && cmd_plain c && cmd_ids_ok tbl c.

Lemma exec_top tbl bf l :
  TblOk tbl -> forallb (top_ok tbl) l = true ->
  forall s t, TopRel tbl s t -> TopSim tbl (exec_list tbl bf l s) s t.
Proof.
  intros Htbl. apply (exec_all tbl bf top (TopRel tbl) (TopSim tbl)).
  - exact (hereditary_and _ _ (hereditary_and _ _ hereditary_subs_ok hereditary_plain) (hereditary_ids tbl)).
  - intros s t (_ & _ & _ & m & _ & _ & Hp). exact Hp.
  - apply topsim_ret.
  - apply topsim_seq.
  - intros b s t Hok HR. apply andb_true_iff in Hok.
    apply (lift_main tbl _ s t HR); [apply exec_ext; tauto|]. intros m HI. apply leaf_sim; tauto.
  - intros l0 s t Hok _ HR. unfold top_ok in Hok. cbn in Hok. rewrite !andb_true_iff in Hok.
    apply sub_sim; try tauto. unfold nosub_ok. rewrite !forallb_andb, !andb_true_iff. tauto.
Qed.

Lemma toprel_init tbl : TopRel tbl init_sh top_init.
Proof.
  split; [reflexivity | split; [discriminate | split; [discriminate|]]].
  eexists. split; [reflexivity|]. split; [|reflexivity].
  constructor; cbn; try reflexivity; try discriminate.
  - intros sg. split; [discriminate | intros []].
  - constructor.
  - intros sg [].
Qed.

(* Outside the class of the known finding the strict monitor is the lenient
   one: they differ only in [effect], on a `trap` that gives a new command to a
   signal with a delivery outstanding. *)
Lemma effect_strict_eq m e md : retrap_ev m e = false -> effect true m e md = effect false m e md.
Proof.
  destruct e as [k b a | sg b a | sg a b]; try reflexivity.
  cbn. destruct (owed_of (m_owed m) sg); try reflexivity.
  rewrite andb_true_r. intros ->. reflexivity.
Qed.

Lemma in_body_strict_eq tbl m e rest saved :
  retrap_ev m e = false -> in_body true tbl m e rest saved = in_body false tbl m e rest saved.
Proof.
  intros H. unfold in_body. destruct rest as [|b rest']; [reflexivity|].
  rewrite (effect_strict_eq m e (MBody rest' saved) H). reflexivity.
Qed.

Lemma mon_event_strict_eq tbl m e :
  retrap_ev m e = false -> mon_event true tbl m e = mon_event false tbl m e.
Proof.
  intros H. unfold mon_event. destruct (m_dead m); [reflexivity|].
  destruct (m_mode m) as [|rest saved]; [|apply in_body_strict_eq; exact H].
  destruct (starts_body e) as [id|] eqn:Es.
  - destruct (owed_signal m id); [|reflexivity].
    apply in_body_strict_eq. destruct e; try discriminate. reflexivity.
  - rewrite (effect_strict_eq m e MMain H). reflexivity.
Qed.

(* a subshell starts with nothing outstanding *)
Lemma retrap_ev_fresh cur last e : retrap_ev (mkMon cur [] last MMain None) e = false.
Proof. destruct e; try reflexivity. cbn. apply andb_false_r. Qed.

Lemma top_event_strict_eq tbl t p e :
  match event_mon t p with Some m => retrap_ev m e | None => false end = false ->
  top_event true tbl t (p, e) = top_event false tbl t (p, e).
Proof.
  unfold event_mon, top_event. cbv zeta. destruct (N.eqb p 0).
  - destruct (finish_child t) as [t1|k]; [|reflexivity].
    intros H. rewrite (mon_event_strict_eq tbl (t_par t1) e H). reflexivity.
  - destruct (t_child t) as [[q cm]|]; [destruct (N.eqb q p)|].
    + intros H. rewrite (mon_event_strict_eq tbl cm e H). reflexivity.
    + intros _. destruct (finish_child t) as [t1|k]; [|reflexivity].
      rewrite mon_event_strict_eq by apply retrap_ev_fresh. reflexivity.
    + intros _. rewrite mon_event_strict_eq by apply retrap_ev_fresh. reflexivity.
Qed.

Lemma top_run_strict_eq tbl l : forall t,
  retrap_free_from tbl t l = true -> top_run true tbl t l = top_run false tbl t l.
Proof.
  induction l as [|[p e] l IH]; intros t H; [reflexivity|].
  cbn [retrap_free_from] in H. apply andb_true_iff in H. destruct H as [H1 H2].
  apply negb_true_iff in H1. cbn [top_run].
  rewrite (top_event_strict_eq tbl t p e H1).
  destruct (top_event false tbl t (p, e)) as [t'|k]; [apply IH; exact H2 | reflexivity].
Qed.
