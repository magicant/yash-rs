(* C11, second half — termination of the loop that runs the traps of caught
   signals (run_traps_for_caught_signals), under a syntactic condition on the
   script: every trap command (in the script or inside an action) installs, for
   a signal sg, an action that only raises signals with a number greater than
   sg.  Then the model never runs out of fuel once the fuel is at least the
   number of `raise` commands in the table of actions plus two.  Without the
   condition an action can re-raise its own signal (directly or through others)
   and the real shell loops forever; the model then ends in [SFuel]
   ([run_script] = None). *)
From Coq Require Import Sorting.Sorted.
From Yv Require Import Common.Base C11.ScriptModel C11.ScriptSpec C11.ScriptProofs.

Definition raises_above (sg : N) (body : list bcmd) : bool :=
  forallb (fun b => match b with BRaise s' _ => N.ltb sg s' | _ => true end) body.

Definition b_rank_ok (tbl : table) (b : bcmd) : bool :=
  match b with
  | BTrap sg (TBody id) => raises_above sg (body_of tbl id)
  | _ => true
  end.

Fixpoint cmd_rank_ok (tbl : table) (c : cmd) : bool :=
  match c with
  | CB b => b_rank_ok tbl b
  | CBrace l => forallb (cmd_rank_ok tbl) l
  | CSub l => forallb (cmd_rank_ok tbl) l
  | CIf c t e =>
      forallb (cmd_rank_ok tbl) c && forallb (cmd_rank_ok tbl) t && forallb (cmd_rank_ok tbl) e
  end.

Definition rank_ok (tbl : table) (main : list cmd) : bool :=
  forallb (fun p => forallb (b_rank_ok tbl) (snd p)) tbl && forallb (cmd_rank_ok tbl) main.

(* the signals raised by the actions of the table, with multiplicity *)
Definition b_raises (b : bcmd) : list N := match b with BRaise s _ => [s] | _ => [] end.
Definition tbl_raises (tbl : table) : list N :=
  flat_map (fun p => flat_map b_raises (snd p)) tbl.

(* The fuel of one boundary bounds its rounds.  The lowest caught signal grows
   from round to round, and what can be caught there is raised by an action
   of the table or by the command the boundary follows: at most
   [length (tbl_raises tbl) + 1] rounds ([leaf_fuel]); the last unit is slack,
   [boundary_fuel] being stated with the strict bound [mu L h < fuel]. *)
Definition enough_fuel (tbl : table) : nat := S (S (length (tbl_raises tbl))).

(* the run ended, in a state satisfying [Q] unless the process was killed *)
Definition Lives (Q : sh -> Prop) (r : sres) : Prop :=
  match r with SOk s => Q s | SDead _ _ => True | SFuel => False end.

Lemma lives_seq (Q1 Q2 : sh -> Prop) r k :
  Lives Q1 r -> (forall s1, Q1 s1 -> Lives Q2 (k s1)) -> Lives Q2 (andthen r k).
Proof. intros H1 H2. destruct r; cbn in *; auto. Qed.

Definition TrapsRank (tbl : table) (s : sh) : Prop :=
  forall sg id, trap_of (traps s) sg = TBody id -> raises_above sg (body_of tbl id) = true.

(* every caught signal satisfies [P] *)
Record PInv (tbl : table) (P : N -> Prop) (s : sh) : Prop := {
  p_sorted : StronglySorted N.lt (pend s);
  p_all : forall x, In x (pend s) -> P x;
  p_rank : TrapsRank tbl s
}.

Lemma pinv_impl tbl (P Q : N -> Prop) s : (forall x, P x -> Q x) -> PInv tbl P s -> PInv tbl Q s.
Proof. intros H [A B C]. constructor; auto. Qed.

(* the measure: how many members of [L] are not below [h] *)
Definition mu (L : list N) (h : N) : nat := length (filter (fun u => N.leb h u) L).

Lemma mu_mono L h h' : (h <= h')%N -> (mu L h' <= mu L h)%nat.
Proof.
  unfold mu. intros Hle. induction L as [|u L IH]; cbn; [lia|].
  destruct (N.leb_spec h' u), (N.leb_spec h u); cbn; lia.
Qed.

Lemma mu_lt L h h' : In h L -> (h < h')%N -> (mu L h' < mu L h)%nat.
Proof.
  intros Hin Hlt. induction L as [|u L IH]; [destruct Hin|].
  destruct Hin as [->|Hin]; unfold mu in *; cbn.
  - rewrite (proj2 (N.leb_le h h)), (proj2 (N.leb_gt h' h)) by lia. cbn.
    pose proof (mu_mono L h h' (N.lt_le_incl _ _ Hlt)). unfold mu in *. lia.
  - specialize (IH Hin). destruct (N.leb_spec h' u), (N.leb_spec h u); cbn; lia.
Qed.

Lemma mu_le_length L h : (mu L h <= length L)%nat.
Proof. unfold mu. induction L as [|u L IH]; cbn; [lia|]. destruct (N.leb h u); cbn; lia. Qed.

Lemma body_raises_in tbl id x :
  In x (flat_map b_raises (body_of tbl id)) -> In x (tbl_raises tbl).
Proof.
  unfold tbl_raises. induction tbl as [|[i b] tbl IH]; cbn; [intros []|].
  intros H. apply in_or_app. destruct (N.eqb i id); [left; exact H | right; apply IH; exact H].
Qed.

Lemma raises_above_spec h l x :
  raises_above h l = true -> In x (flat_map b_raises l) -> (h < x)%N.
Proof.
  unfold raises_above. intros H Hx. rewrite forallb_forall in H.
  apply in_flat_map in Hx. destruct Hx as (b & Hb & Hx). specialize (H b Hb).
  destruct b; try contradiction. destruct Hx as [<-|[]]. apply N.ltb_lt, H.
Qed.

(* a built-in whose raise, if it is one, satisfies [P] *)
Lemma do_b_pinv tbl (P : N -> Prop) b s :
  PInv tbl P s -> b_rank_ok tbl b = true -> (forall x, In x (b_raises b) -> P x) ->
  Lives (PInv tbl P) (do_b b s).
Proof.
  intros [Hs Hall Hr] Hb Hraise. destruct b as [k st | sg st | sg a]; cbn.
  - constructor; assumption.
  - destruct (trap_of (traps s) sg); cbn; [exact I | constructor; assumption |].
    constructor; cbn; [apply sorted_insert, Hs | | exact Hr].
    intros x Hx. apply in_insert_sig in Hx. destruct Hx as [->|Hx]; [apply Hraise; left; reflexivity | auto].
  - constructor; cbn.
    + apply sorted_remove, Hs.
    + intros x Hx. apply in_remove_sig in Hx. apply Hall, Hx.
    + intros sg' id. cbn. rewrite trap_of_set.
      destruct (N.eqb_spec sg sg') as [<-|]; [intros ->; exact Hb | apply Hr].
Qed.

Lemma run_body_pinv tbl (P : N -> Prop) l : forall s,
  PInv tbl P s -> forallb (b_rank_ok tbl) l = true ->
  (forall x, In x (flat_map b_raises l) -> P x) ->
  Lives (PInv tbl P) (run_body l s).
Proof.
  induction l as [|b l IH]; intros s HP Hb Hraise; [exact HP|].
  apply andb_true_iff in Hb. rewrite run_body_cons.
  apply lives_seq with (Q1 := PInv tbl P).
  - apply do_b_pinv; [exact HP | apply Hb|]. intros x Hx. apply Hraise, in_or_app. left; exact Hx.
  - intros s1 H1. apply IH; [exact H1 | apply Hb|]. intros x Hx. apply Hraise, in_or_app. right; exact Hx.
Qed.

(* the loop terminates: the lowest caught signal grows at every round *)
Lemma boundary_fuel tbl L :
  forallb (fun p => forallb (b_rank_ok tbl) (snd p)) tbl = true ->
  (forall x, In x (tbl_raises tbl) -> In x L) ->
  forall fuel s, PInv tbl (fun x => In x L) s ->
  match pend s with [] => True | h :: _ => (mu L h < fuel)%nat end ->
  Lives (fun s' => PInv tbl (fun x => In x L) s' /\ pend s' = []) (boundary tbl fuel s).
Proof.
  intros Htbl HL. induction fuel as [|f IH]; intros s HP Hfuel; destruct (pend s) as [|h rest] eqn:Hp;
    try (rewrite boundary_idle by exact Hp; split; assumption); [lia|].
  rewrite (boundary_round tbl f s h rest Hp).
  destruct HP as [Hs Hin Hr]. rewrite Hp in Hs, Hin.
  (* once h is taken, what is caught or gets caught in this round is above h *)
  set (P := fun x => In x L /\ (h < x)%N).
  assert (Hnext : forall s2, PInv tbl P s2 ->
            Lives (fun s' => PInv tbl (fun x => In x L) s' /\ pend s' = []) (boundary tbl f s2)).
  { intros s2 HP2. apply IH; [exact (pinv_impl tbl P _ s2 (fun x Hx => proj1 Hx) HP2)|].
    destruct (pend s2) as [|h2 r2] eqn:Hp2; [exact I|].
    destruct (p_all _ _ _ HP2 h2) as [_ Hlt]; [rewrite Hp2; left; reflexivity|].
    pose proof (mu_lt L h h2 (Hin h (or_introl eq_refl)) Hlt). lia. }
  assert (HP1 : PInv tbl P (with_pend s rest)).
  { constructor; cbn; [apply StronglySorted_inv in Hs; apply Hs | | exact Hr].
    intros x Hx. split; [apply Hin; right; exact Hx | exact (sorted_head h rest x Hs Hx)]. }
  destruct (trap_of (traps s) h) as [| |id] eqn:Et; try exact (Hnext _ HP1).
  apply lives_seq with (Q1 := PInv tbl P).
  - apply run_body_pinv; [exact HP1 | exact (body_of_forall _ tbl id Htbl)|].
    intros x Hx. split; [apply HL, (body_raises_in tbl id x Hx)|].
    exact (raises_above_spec h _ x (Hr h id Et) Hx).
  - intros s2 [A B C]. apply Hnext. constructor; assumption.
Qed.

Definition TInv (tbl : table) (s : sh) : Prop := pend s = [] /\ TrapsRank tbl s.

Definition NoFuel (tbl : table) : sres -> Prop := Lives (TInv tbl).

(* a built-in catches at most the signal it raises, which with the raises of
   the table bounds the rounds of the loop *)
Lemma leaf_fuel tbl bf b s :
  forallb (fun p => forallb (b_rank_ok tbl) (snd p)) tbl = true ->
  (enough_fuel tbl <= bf)%nat ->
  TInv tbl s -> b_rank_ok tbl b = true ->
  NoFuel tbl (andthen (do_b b s) (boundary tbl bf)).
Proof.
  intros Htbl Hbf [Hp Hr] Hb. set (L := tbl_raises tbl ++ b_raises b).
  apply lives_seq with (Q1 := PInv tbl (fun x => In x L)).
  - apply do_b_pinv; [|exact Hb | intros x Hx; apply in_or_app; right; exact Hx].
    constructor; [rewrite Hp; constructor | rewrite Hp; intros x [] | exact Hr].
  - intros s1 HP.
    pose proof (boundary_fuel tbl L Htbl (fun x Hx => in_or_app _ _ x (or_introl Hx)) bf s1 HP) as H.
    assert (Hfuel : match pend s1 with [] => True | h :: _ => (mu L h < bf)%nat end).
    { destruct (pend s1) as [|h r]; [exact I|]. pose proof (mu_le_length L h) as Hm.
      unfold L in *. rewrite app_length in Hm.
      assert (length (b_raises b) <= 1)%nat by (destruct b; cbn; lia).
      unfold enough_fuel in Hbf. lia. }
    specialize (H Hfuel). destruct (boundary tbl bf s1); cbn in *; auto.
    destruct H as [[_ _ Hr'] Hp']. split; assumption.
Qed.

Lemma exec_fuel tbl bf l :
  forallb (fun p => forallb (b_rank_ok tbl) (snd p)) tbl = true ->
  (enough_fuel tbl <= bf)%nat ->
  forallb (cmd_rank_ok tbl) l = true -> forall s, TInv tbl s -> NoFuel tbl (exec_list tbl bf l s).
Proof.
  intros Htbl Hbf Hl s HT.
  refine (exec_all tbl bf unit (fun s _ => TInv tbl s) (fun r _ _ => NoFuel tbl r) (cmd_rank_ok tbl)
            _ _ _ _ _ _ l Hl s tt HT).
  - split; cbn; intros *; rewrite ?andb_true_iff; tauto.
  - intros s0 _ H. apply H.
  - intros s0 _ H. exact H.
  - intros r k s0 _ H1 H2. apply (lives_seq _ _ _ _ H1). intros s1 H. exact (H2 s1 tt H).
  - intros b s0 _ Hb H0. rewrite exec_leaf. apply leaf_fuel; assumption.
  - (* the subshell starts with the command traps reset; the parent's are kept *)
    intros l0 s0 _ Hl0 IH [Hp Hr]. rewrite exec_sub.
    assert (HTc : TInv tbl (child_of s0)).
    { split; [reflexivity|]. intros sg id H. destruct (reset_no_body _ _ _ H). }
    specialize (IH Hl0 (child_of s0) tt HTc).
    destruct (exec_list tbl bf l0 (child_of s0)); cbn [final]; [| |exact IH];
      rewrite boundary_idle by exact Hp; split; assumption.
Qed.
