(* C11 — the loop of the `wait` built-in and its specification advance by the
   same step on one event; what an interrupting event leaves caught. *)
From Coq Require Import Sorted.
From Yv Require Import Common.Base C11.ScriptModel C11.ScriptProofs C11.WaitModel C11.WaitSpec.

Lemma memN_In x l : memN x l = true <-> In x l.
Proof.
  unfold memN. rewrite existsb_exists. split.
  - intros (y & Hy & ->%N.eqb_eq). exact Hy.
  - intros H. exists x. split; [exact H | apply N.eqb_refl].
Qed.

Lemma in_catch_all l : forall p x, In x (catch_all l p) <-> In x l \/ In x p.
Proof.
  unfold catch_all. induction l as [|a l IH]; intros p x; cbn.
  - tauto.
  - rewrite IH, in_insert_sig. intuition congruence.
Qed.

Lemma sorted_catch_all l : forall p, StronglySorted N.lt p -> StronglySorted N.lt (catch_all l p).
Proof.
  unfold catch_all. induction l as [|a l IH]; intros p Hp; cbn; [exact Hp|].
  apply IH, sorted_insert, Hp.
Qed.

Lemma first_trap_head traps pend sg c :
  body_sig traps sg = true -> memN sg pend = true ->
  first_trap traps pend (sg :: c) = (Some sg, remove_sig sg pend).
Proof. intros Hb Hm. cbn. rewrite Hm, Hb. reflexivity. Qed.

Lemma span_quiet_spec traps evs q r :
  span_quiet traps evs = (q, r) ->
  evs = q ++ r /\ forallb (quiet traps) q = true /\
  match r with [] => True | e :: _ => quiet traps e = false end.
Proof.
  revert q. induction evs as [|e evs IH]; intros q; cbn; [intros [= <- <-]; auto|].
  destruct (quiet traps e) eqn:Hq; [|intros [= <- <-]; auto].
  destruct (span_quiet traps evs) as [q' r']. intros [= <- <-].
  destruct (IH q' eq_refl) as (-> & H1 & H2). cbn. rewrite Hq. auto.
Qed.

Lemma span_quiet_app traps q e r :
  forallb (quiet traps) q = true -> quiet traps e = false -> span_quiet traps (q ++ e :: r) = (q, e :: r).
Proof.
  intros Hq He. induction q as [|x q IH]; cbn; [rewrite He; reflexivity|].
  cbn in Hq. apply andb_prop in Hq. destruct Hq as [-> Hq]. rewrite (IH Hq). reflexivity.
Qed.

(* the specification, one event at a time *)
Lemma wait_spec_done traps t js js' st evs :
  tgt_check t js = (Some st, js') ->
  wait_spec traps t js evs = (WDone st, js', [], [], evs).
Proof.
  intros Hc. unfold wait_spec. destruct (span_quiet traps evs) as [q r] eqn:Hs.
  destruct (span_quiet_spec _ _ _ _ Hs) as [-> _]. destruct q; cbn [scan_done]; rewrite Hc; reflexivity.
Qed.

Lemma wait_spec_step traps t js js' e evs :
  tgt_check t js = (None, js') ->
  wait_spec traps t js (e :: evs) =
  match classify traps e with
  | Quiet => consume e (wait_spec traps t (jafter js' e) evs)
  | Lethal => (WKilled, js', [], [e], evs)
  | Intr sg c => (WIntr sg, jafter js' e, remove_sig sg (sort_dedup c), [e], evs)
  end.
Proof.
  intros Hc. unfold wait_spec. cbn [span_quiet]. unfold quiet at 1.
  destruct (classify traps e) eqn:Hcl; [|cbn [scan_done]; rewrite Hc, Hcl; reflexivity ..].
  destruct (span_quiet traps evs) as [q r] eqn:Hs. cbn [scan_done]. rewrite Hc.
  destruct (scan_done t (jafter js' e) q) as [[[[st js2] used] lft]|js2]; [reflexivity|].
  (* what follows the quiet events is not quiet *)
  destruct r as [|e' r']; [reflexivity|]. destruct (span_quiet_spec _ _ _ _ Hs) as (_ & _ & Hne).
  unfold quiet in Hne. destruct (classify traps e'); try discriminate; reflexivity.
Qed.

(* ... and the loop of the implementation *)
Lemma wait_loop_step traps t js js' e evs :
  tgt_check t js = (None, js') ->
  wait_loop traps t js (e :: evs) =
  match classify traps e with
  | Quiet => consume e (wait_loop traps t (jafter js' e) evs)
  | Lethal => (WKilled, js', [], [e], evs)
  | Intr sg c => (WIntr sg, jafter js' e, remove_sig sg (sort_dedup c), [e], evs)
  end.
Proof.
  intros Hc. cbn [wait_loop]. rewrite Hc. destruct e as [j l|j st]; cbn [classify jafter].
  - destruct (existsb (lethal_sig traps) l); [reflexivity|].
    destruct (filter (body_sig traps) l) as [|sg c] eqn:Hf; [reflexivity|].
    (* the first signal with a command trap has just been caught *)
    assert (Hin : In sg (filter (body_sig traps) l)) by (rewrite Hf; left; reflexivity).
    rewrite first_trap_head; [reflexivity | apply filter_In in Hin; apply Hin|].
    apply memN_In, in_catch_all. left; left; reflexivity.
  - change (catch_all [WCHLD] []) with [WCHLD]. cbn [first_trap memN existsb]. rewrite N.eqb_refl.
    destruct (body_sig traps WCHLD); reflexivity.
Qed.

(* a script sees the core of `wait` only through what it returns *)
Lemma wexec_ext c1 c2 atbl :
  (forall traps t js evs, c1 traps t js evs = c2 traps t js evs) ->
  forall cs s, wexec c1 atbl cs s = wexec c2 atbl cs s.
Proof.
  intros H. induction cs as [|c cs IH]; intros s; [reflexivity|].
  destruct c; cbn [wexec]; try apply IH.
  rewrite H. destruct (c2 (w_traps s) t (w_jobs s) (w_evs s)) as [[[[o js] pend] used] rest].
  destruct o; try apply IH; reflexivity.
Qed.

Lemma wevt_eqb_refl e : wevt_eqb e e = true.
Proof.
  destruct e; cbn; rewrite ?N.eqb_refl; cbn; try reflexivity.
  destruct a; cbn; rewrite ?N.eqb_refl; reflexivity.
Qed.

Lemma first_diff_refl l : first_diff l l = None.
Proof. induction l as [|e l IH]; cbn; [reflexivity|]. rewrite wevt_eqb_refl. exact IH. Qed.

Lemma w_consume e r :
  w_out (consume e r) = w_out r /\ w_pend (consume e r) = w_pend r /\
  w_used (consume e r) = e :: w_used r /\ w_rest (consume e r) = w_rest r.
Proof. destruct r as [[[[o js] p] u] x]. cbn. auto. Qed.

(* an interrupting event: its first signal with a command trap interrupts, [c]
   lists its signals with a command trap *)
Lemma classify_intr traps e sg c :
  classify traps e = Intr sg c ->
  body_sig traps sg = true /\
  forall x, In x c <-> body_sig traps x = true
                       /\ match e with WSigs _ l => In x l | WChild _ _ => x = WCHLD end.
Proof.
  destruct e as [j l|j st]; cbn.
  - destruct (existsb (lethal_sig traps) l); [discriminate|].
    destruct (filter (body_sig traps) l) as [|x c'] eqn:Hf; [discriminate|]. intros [= <- <-].
    assert (H : forall y, In y (x :: c') <-> body_sig traps y = true /\ In y l)
      by (intros y; rewrite <- Hf, filter_In; tauto).
    split; [apply H; left; reflexivity | exact H].
  - destruct (body_sig traps WCHLD) eqn:Hb; [|discriminate]. intros [= <- <-].
    split; [exact Hb|]. intros x. cbn. split; [intros [<-|[]]; auto | intros [_ ->]; auto].
Qed.

(* what a `wait` that completes records; Properties.wait_interrupt_trace is
   the same for one that is interrupted *)
Theorem wait_done_trace_proof core atbl t cs s st js pend used rest :
  core (w_traps s) t (w_jobs s) (w_evs s) = (WDone st, js, pend, used, rest) ->
  wexec core atbl (WcWait t :: cs) s =
  wexec core atbl cs (mkW (w_traps s) st js rest (rev (flat_map ev_trace used) ++ w_tr s)).
Proof. intros H. cbn [wexec]. rewrite H. reflexivity. Qed.

(* HUP (1) ignored, TERM (15), USR1 (124), USR2 (125) trapped with commands.
   The first batch is quiet.  In the second, USR2 interrupts: it is the first
   in the order sent that has a command, not the lowest; TERM and USR1 stay
   caught, lowest first, and USR2, sent twice, is not caught again.  The
   child's end is not used up. *)
Definition ex_traps : list (N * tact) := [(124, TBody 1); (125, TBody 2); (1, TIgnore); (15, TBody 3)]%N.
Definition ex_jobs : jobs := [(0, None)]%N.
Definition ex_evs : list wev := [WSigs 0 [1; 1]; WSigs 0 [1; 125; 15; 124; 125]; WChild 0 3]%N.

Example ex_wait_interrupted :
  wait_loop ex_traps WAll ex_jobs ex_evs
  = (WIntr 125, ex_jobs, [15; 124], [WSigs 0 [1; 1]; WSigs 0 [1; 125; 15; 124; 125]], [WChild 0 3])%N.
Proof. vm_compute. reflexivity. Qed.

Example ex_wait_quiet :
  forallb (quiet [(1, TIgnore)]%N) [WSigs 0 [1; 1]; WChild 0 3]%N = true
  /\ wait_loop [(1, TIgnore)]%N (WJob 0) ex_jobs [WSigs 0 [1; 1]; WChild 0 3]%N
     = (WDone 3, [], [], [WSigs 0 [1; 1]; WChild 0 3], [])%N.
Proof. vm_compute. auto. Qed.

(* the same events under a script: USR2's action (1002) sees the $? = 7 of
   before the `wait`; those of TERM and USR1 run after the built-in and see
   509 = 384 + 125, as does the next command; the second `wait` completes *)
Example ex_wait_script :
  wrun wait_loop [(1, 0); (2, 5); (3, 0)]%N
    [WcTrap 124 (TBody 1); WcTrap 125 (TBody 2); WcTrap 15 (TBody 3); WcTrap 1 TIgnore;
     WcSpawn 0; WcP 1 7; WcWait WAll; WcP 2 0; WcWait WAll; WcP 3 0]%N ex_evs
  = (EndOk,
     [TMark 124 (TBody 1) 0; TMark 125 (TBody 2) 0; TMark 15 (TBody 3) 0; TMark 1 TIgnore 0;
      TP 1 0 7; TTell 0 1; TTell 0 1; TTell 0 1; TTell 0 125; TTell 0 15; TTell 0 124; TTell 0 125;
      TP 1002 7 5; TP 1003 509 0; TP 1001 509 0; TP 2 509 0; TBye 0 3; TP 3 0 0])%N.
Proof. vm_compute. reflexivity. Qed.
