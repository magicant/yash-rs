(* C11 — the property theorems; the driver pins their statements (props/C11.json)
   and prints their assumptions on every run.  Four groups: the TrapSet model
   (Model.v; theorems per condition, about [run c init ops], which
   [global_projection] shows to be what every history of TrapSet API calls is
   for each condition in play), trap execution around commands (ScriptModel.v),
   `wait` interrupted by a trapped signal (WaitModel.v), and the operands of
   the `trap` built-in (TrapCmd.v).  [init <> Catch] is the property's
   quantifier: a shell starts with a signal at its default or ignored. *)
From Coq Require Import Sorted.
From Yv Require Import Common.Base C11.Model C11.Spec C11.Proofs C11.ProofsC
  C11.ProofsE C11.ScriptModel C11.ScriptSpec C11.ScriptProofs C11.ScriptTerm C11.Examples
  C11.WaitModel C11.WaitSpec C11.WaitProofs C11.TrapCmd C11.TrapCmdProofs.
Local Arguments N.eqb : simpl never.

Theorem global_projection : forall univ gops,
  exists ops,
    (Forall (fun o => gop_ok (map fst univ) o = true) gops ->
     Forall (fun x => op_ok x = true) ops) /\
    grun univ gops = map (fun p => (fst p, run (fst p) (snd p) ops)) univ.
Proof.
  intros univ gops.
  exists (flatten (ginit univ) gops). split.
  - intros H. apply flatten_ok. unfold ginit. rewrite map_map. exact H.
  - unfold grun. rewrite grun_flatten. unfold gmap, ginit, run. rewrite map_map. reflexivity.
Qed.

(* first half of the property: whatever TrapSet has been asked, what it has
   installed with sigaction for a signal is max (what the shell needs, what the
   user's trap asks), and the signal is in the blocking mask iff caught *)
Theorem disposition_inv : forall c init ops,
  c <> EXIT -> init <> Catch -> DispInv init (run c init ops).
Proof. exact disp_inv_run. Qed.

Theorem disposition_inv_global : forall univ gops c st,
  In (c, st) (grun univ gops) -> c <> EXIT ->
  (forall d, In (c, d) univ -> d <> Catch) ->
  exists d, In (c, d) univ /\ DispInv d st.
Proof.
  intros univ gops c st Hin Hc Hd. destruct (global_projection univ gops) as (ops & _ & E).
  rewrite E in Hin. apply in_map_iff in Hin. destruct Hin as ([c' d] & E' & Hin).
  cbn in E'. inversion E'; subst. exists d. split; [exact Hin|].
  apply disp_inv_run; [exact Hc | apply (Hd d Hin)].
Qed.

(* KILL and STOP: every trap command is refused, no system call is ever made
   for them, their entry (if peeked) stays the inherited one *)
Theorem kill_stop_never_trapped : forall c init ops,
  (c = SIGKILL \/ c = SIGSTOP) -> init <> Catch -> Forall (fun o => op_ok o = true) ops ->
  calls_of c (init_st init) ops = [] /\
  s_disp (run c init ops) = init /\
  (forall e, s_ent (run c init ops) = Some e ->
             e_cur e = from_initial init /\ e_internal e = Default) /\
  (forall a tag ovr,
     step c (OSetAction c a tag ovr) (run c init ops)
     = (run c init ops, [], if N.eqb c SIGKILL then RErrKill else RErrStop)).
Proof.
  intros c init ops Hc Hi Hok. destruct (ks_run c init ops Hc Hi Hok) as [HK Hcalls].
  pose proof HK as (_ & Hcur & Hint). split; [exact Hcalls|]. split; [|split].
  - exact (ks_disp init _ Hi HK).
  - intros e E. unfold vent in Hcur, Hint. rewrite E in Hcur, Hint. auto.
  - intros. apply kill_stop_refused. exact Hc.
Qed.

(* non-interactive shell, signal ignored on entry: never reset to Default,
   never given a command, caught only for the shell's own needs, and every
   trap command on it is refused without changing the disposition *)
Theorem initially_ignored_immutable : forall c ops,
  c <> EXIT -> Forall (fun o => noninteractive o = true) ops ->
  let st := run c Ignore ops in
  s_disp st <> Default /\
  (forall e, s_ent st = Some e ->
             t_action (e_cur e) = AIgnore /\ t_origin (e_cur e) = Inherited) /\
  (s_disp st = Catch -> exists e, s_ent st = Some e /\ e_internal e = Catch) /\
  (forall a tag, c <> SIGKILL -> c <> SIGSTOP ->
     o_res (step c (OSetAction c a tag false) st) = RErrIgnored /\
     s_disp (step_st c st (OSetAction c a tag false)) = s_disp st).
Proof.
  intros c ops Hc Hn st. assert (Hi : Ignore <> Catch) by discriminate.
  pose proof (locked_run c ops Hc Hn) as HL.
  pose proof (disp_inv_run c Ignore ops Hc Hi) as Hinv. fold st in HL, Hinv. clearbody st.
  pose proof (proj1 (locked_iff _) HL) as [Ha _].
  assert (Hd : s_disp st = dmax (e_internal (vent Ignore st)) Ignore).
  { rewrite (disp_vent _ _ Hi Hinv). unfold ent_disp. rewrite Ha. reflexivity. }
  split; [|split; [|split]].
  - rewrite Hd. destruct (e_internal _); discriminate.
  - intros e E. unfold vent in HL. rewrite E in HL. apply locked_iff. exact HL.
  - rewrite Hd. unfold vent. destruct (s_ent st) as [e|]; [|discriminate].
    intros H. exists e. split; [reflexivity|]. destruct (e_internal e); (discriminate || reflexivity).
  - intros a tag Hk Hs. apply N.eqb_neq in Hk, Hs.
    pose proof (step_vent_sig c Ignore (OSetAction c a tag false) st Hc Hi Hinv) as [Hv1 Hv2].
    cbn [estep] in Hv1, Hv2. rewrite Hk, Hs, N.eqb_refl, HL in Hv1, Hv2.
    split; [exact Hv2|].
    rewrite (disp_vent _ _ Hi (disp_inv_step c Ignore (OSetAction c a tag false) st Hc Hi Hinv)),
      (disp_vent _ _ Hi Hinv), Hv1. reflexivity.
Qed.

Example initially_ignored_immutable_nonvacuous :
  Forall (fun o => noninteractive o = true) ex_ops /\
  s_disp (run SIGINT Ignore [OSetAction SIGINT (ACommand 1) 1 false; OInternal SIGINT Catch]) = Catch
  /\ o_res (step SIGINT (OSetAction SIGINT (ACommand 1) 1 false) (init_st Ignore)) = RErrIgnored.
Proof. split; [repeat constructor | split; reflexivity]. Qed.

(* the complement: an interactive shell (override) may set any trap, also on a
   signal ignored on entry; the action is merged with the internal disposition *)
Theorem interactive_override_allowed : forall c init ops a tag,
  c <> EXIT -> c <> SIGKILL -> c <> SIGSTOP -> init <> Catch ->
  let st := run c init ops in
  let x := step c (OSetAction c a tag true) st in
  o_res x = ROk /\
  exists e, s_ent (o_st x) = Some e /\ e_cur e = mkT a (User tag) false /\
            e_parent e = None /\
            e_internal e = match s_ent st with Some e0 => e_internal e0 | None => Default end /\
            s_disp (o_st x) = dmax (e_internal e) (disp_of a).
Proof.
  intros c init ops a tag Hc Hk Hs Hi st x.
  pose proof (disp_inv_step c init (OSetAction c a tag true) st Hc Hi (disp_inv_run c init ops Hc Hi))
    as [Hd _].
  unfold step_st in Hd. fold x in Hd. unfold merged in Hd. clearbody st.
  apply N.eqb_neq in Hk, Hs. destruct (s_ent st) as [e|] eqn:E.
  - destruct (step_occ_ent c (OSetAction c a tag true) st e E) as [E' Hr].
    cbn [estep] in E', Hr. rewrite Hk, Hs, N.eqb_refl in E', Hr. cbn in E', Hr.
    fold x in Hr. unfold step_st in E'. fold x in E'. rewrite E' in Hd.
    split; [exact Hr|]. eexists. split; [exact E'|]. repeat split. exact Hd.
  - destruct st as [oe d b]. cbn in E. subst oe. subst x.
    unfold step, gs_set_action in *. rewrite Hk, Hs, N.eqb_refl, (is_signal_true c Hc) in *.
    cbn in *. split; [reflexivity|]. eexists. repeat split. exact Hd.
Qed.

(* and a signal that was not ignored on entry can always be trapped, whatever
   happened before (internal dispositions, `trap -p`, subshell entries that make
   the shell ignore it) *)
Theorem not_ignored_on_entry_trappable : forall c ops a tag ovr,
  c <> SIGKILL -> c <> SIGSTOP ->
  o_res (step c (OSetAction c a tag ovr) (run c Default ops)) = ROk.
Proof.
  intros c ops a tag ovr Hk Hs. destruct (free_run c ops) as [HL Hv]. apply N.eqb_neq in Hk, Hs.
  assert (Hi : Default <> Catch) by discriminate.
  destruct (step_vent c Default (OSetAction c a tag ovr) _ Hi (fun _ => eq_refl)
              (fun E => or_introl (Hv E))) as [_ ->].
  cbn [estep]. rewrite Hk, Hs, N.eqb_refl, HL, andb_false_r. reflexivity.
Qed.

(* the two histories of finding F43 (/repo b8d5cfe, GrandState::enter_subshell
   with the Ignore option on an entry that exists already): with or without an
   earlier read-only look (`trap -p INT`), an asynchronous subshell can trap
   SIGINT *)
Theorem subshell_trap_accepted :
  o_res (step SIGINT (OSetAction SIGINT (ACommand 1) 1 false)
           (run SIGINT Default [OPeek SIGINT; OEnterSubshell true false])) = ROk
  /\ o_res (step SIGINT (OSetAction SIGINT (ACommand 1) 1 false)
              (run SIGINT Default [OEnterSubshell true false])) = ROk.
Proof. split; reflexivity. Qed.

(* entering a subshell: command traps reset (and remembered as parent state,
   the caught flag dropped), ignored ones kept, internal dispositions cleared
   except SIGCHLD's, INT/QUIT resp. the stoppers forced to Ignore on request *)
Theorem enter_subshell_spec : forall c init ops ign keep,
  c <> EXIT -> init <> Catch ->
  let st := run c init ops in
  let st' := step_st c st (OEnterSubshell ign keep) in
  match s_ent st with
  | None =>
      if ign && is_int_quit c
      then s_disp st' = Ignore /\
           exists e', s_ent st' = Some e' /\ t_action (e_cur e') = AIgnore /\
                      e_parent e' = None /\ e_internal e' = Default
      else st' = st
  | Some e =>
      exists e', s_ent st' = Some e' /\
        t_action (e_cur e') =
          (if forced_ignore c ign keep (e_internal e) then AIgnore
           else if is_command (t_action (e_cur e)) then ADefault
           else t_action (e_cur e)) /\
        e_parent e' = (if is_command (t_action (e_cur e)) then Some (e_cur e) else None) /\
        e_internal e' = (if N.eqb c SIGCHLD then e_internal e else Default) /\
        (is_command (t_action (e_cur e)) = true -> t_pending (e_cur e') = false) /\
        s_disp st' = dmax (e_internal e') (disp_of (t_action (e_cur e')))
  end.
Proof.
  intros c init ops ign keep Hc Hi st st'.
  pose proof (disp_inv_step c init (OEnterSubshell ign keep) st Hc Hi (disp_inv_run c init ops Hc Hi))
    as [Hd' _].
  fold st' in Hd'. subst st'. clearbody st. destruct (s_ent st) as [e|] eqn:E.
  - (* [sub_entry], field by field *)
    destruct (step_occ_ent c (OEnterSubshell ign keep) st e E) as [E' _]. cbn in E'.
    exists (sub_entry c ign keep e). split; [exact E'|].
    unfold merged in Hd'. rewrite E' in Hd'. split; [|split; [|split; [|split]]]; try exact Hd'.
    + cbn. destruct (forced_ignore _ _ _ _), (is_command _); reflexivity.
    + reflexivity.
    + reflexivity.
    + intros H. cbn. rewrite H. destruct (forced_ignore _ _ _ _); reflexivity.
  - destruct st as [oe d b]. cbn in E. subst oe.
    unfold step_st, step, ts_enter_subshell. cbn.
    destruct (ign && is_int_quit c); [|reflexivity].
    split; [reflexivity|]. eexists. repeat split.
Qed.

(* a system call is made only when the disposition changes; only a condition
   without an entry may be probed (set to Ignore to learn what it was) *)
Theorem syscall_only_on_change : forall c init ops o,
  c <> EXIT -> init <> Catch ->
  let st := run c init ops in
  let calls := o_calls (step c o st) in
  let st' := step_st c st o in
  match s_ent st with
  | Some _ =>
      (calls = [] /\ s_disp st' = s_disp st)
      \/ (exists d, calls = [d] /\ d <> s_disp st /\ s_disp st' = d)
  | None =>
      (calls = [] /\ s_disp st' = s_disp st)
      \/ (exists d, calls = [d] /\ s_disp st' = d)
      \/ (exists d, calls = [Ignore; d] /\ d <> Ignore /\ s_disp st' = d)
  end.
Proof.
  intros c init ops o Hc Hi. exact (proj2 (step_sys c init o _ Hc Hi (disp_inv_run c init ops Hc Hi))).
Qed.

Theorem exit_condition_no_syscall : forall o st,
  op_ok o = true -> o_calls (step EXIT o st) = [].
Proof. exact exit_no_syscall. Qed.

Example subshell_and_syscall_nonvacuous :
  let st := run SIGUSR1 Default [OSetAction SIGUSR1 (ACommand 1) 1 false; ODeliver SIGUSR1] in
  pending st = true /\ s_disp st = Catch
  /\ s_disp (step_st SIGUSR1 st (OEnterSubshell false false)) = Default
  /\ o_calls (step SIGUSR1 (OEnterSubshell false false) st) = [Default]
  /\ pending (step_st SIGUSR1 st (OEnterSubshell false false)) = false.
Proof. repeat split; reflexivity. Qed.

(* the caught flag: set only by the delivery of a caught signal, always set by
   it; handed out once by take; cleared only by take, a new trap, or a subshell *)
Theorem pending_set_only_by_delivery : forall c o st,
  pending st = false -> pending (step_st c st o) = true ->
  o = ODeliver c /\ s_disp st = Catch.
Proof.
  intros c o st. destruct (s_ent st) as [e|] eqn:E.
  2: { intros _ H. rewrite (fresh_not_pending c o st E) in H. discriminate. }
  destruct (step_occ_ent c o st e E) as [E' _]. unfold pending. rewrite E, E'. intros H0 H1.
  destruct (pending_step c o (disp_eqb (s_disp st) Catch) e) as [H | [(_ & -> & Hk) | (H & _)]];
    [congruence | | congruence].
  split; [reflexivity | apply disp_eqb_eq, Hk].
Qed.

Theorem pending_set_by_delivery : forall c init ops,
  c <> EXIT -> init <> Catch ->
  let st := run c init ops in
  s_disp st = Catch -> pending (step_st c st (ODeliver c)) = true.
Proof.
  intros c init ops Hc Hi st HC.
  destruct (step_vent_sig c init (ODeliver c) st Hc Hi (disp_inv_run c init ops Hc Hi)) as [Hv _].
  rewrite (pending_vent init), Hv, HC. cbn [estep]. rewrite N.eqb_refl. reflexivity.
Qed.

Theorem pending_cleared_once : forall c st,
  c <> EXIT ->
  let x := step c (OTakeSig c) st in
  pending (o_st x) = false /\
  o_calls x = [] /\
  (pending st = true ->
     exists e, s_ent st = Some e /\
       o_res x = RTaken c (mkT (t_action (e_cur e)) (t_origin (e_cur e)) false)) /\
  (pending st = false -> o_res x = RNone /\ o_st x = st) /\
  o_res (step c (OTakeSig c) (o_st x)) = RNone.
Proof.
  intros c st _. unfold step, ts_take, pending. rewrite N.eqb_refl.
  destruct (s_ent st) as [e|] eqn:E; [destruct (t_pending (e_cur e)) eqn:Ep|];
    cbn; rewrite ?E, ?Ep; repeat split; try discriminate; eauto.
Qed.

Theorem pending_cleared_only_by : forall c o st,
  pending st = true -> pending (step_st c st o) = false ->
  o = OTakeSig c
  \/ (exists a tag ovr, o = OSetAction c a tag ovr /\ o_res (step c o st) = ROk)
  \/ (exists ign keep e, o = OEnterSubshell ign keep /\ s_ent st = Some e
                         /\ is_command (t_action (e_cur e)) = true).
Proof.
  intros c o st. unfold pending at 1. destruct (s_ent st) as [e|] eqn:E; [|discriminate].
  destruct (step_occ_ent c o st e E) as [E' ->]. unfold pending. rewrite E'. intros H1 H0.
  destruct (pending_step c o (disp_eqb (s_disp st) Catch) e)
    as [H | [(H & _) | (_ & [-> | [(a & tag & ovr & -> & Hr) | (ign & keep & -> & Hc)]])]];
    [congruence | congruence | auto | right; left; eauto | right; right; exists ign, keep, e; auto].
Qed.

(* The model refines the reference state machine of Spec.v and passes every
   clause of the oracle on every history: the run-time oracle never demands
   more than the theorems give - for the lenient reading of "exactly once"
   ([strict = false]: when the trap of a signal is replaced by another command
   while a delivery of it is caught but not yet run, the outcome is left open).

   Full statement (the oracle as evaluated at run time, [strict = true]):
     forall univ gops, univ_ok univ = true ->
       Forall (fun o => gop_ok (map fst univ) o = true) gops ->
       oracle_hist true (spec_inits univ) (obs_inits univ)
                   (model_trace (ginit univ) gops) = None
   is FALSE of the faithful model: see oracle_sound_refuted. *)
Theorem oracle_sound_partial : forall univ gops,
  univ_ok univ = true ->
  Forall (fun o => gop_ok (map fst univ) o = true) gops ->
  oracle_hist false (spec_inits univ) (obs_inits univ) (model_trace (ginit univ) gops) = None.
Proof.
  intros univ gops Hu Hok. destruct (univ_start univ Hu) as (HA & Hnd & Hk & ->).
  apply (oracle_sound_gen univ); [exact HA | exact Hnd | rewrite Hk; exact Hok].
Qed.

Example oracle_sound_nonvacuous :
  univ_ok ex_univ = true /\
  Forall (fun o => gop_ok (map fst ex_univ) o = true) ex_gops.
Proof. split; [reflexivity | repeat constructor]. Qed.

(* trap set, signal caught, trap replaced by another command, take: the model
   (as TrapSet::set_action, which resets the pending flag) hands out nothing:
   clause 9 of the strict oracle fails, the lenient one accepts *)
Theorem oracle_sound_refuted : exists univ gops,
  univ_ok univ = true /\
  Forall (fun o => gop_ok (map fst univ) o = true) gops /\
  oracle_hist true (spec_inits univ) (obs_inits univ) (model_trace (ginit univ) gops) = Some 9%N /\
  oracle_hist false (spec_inits univ) (obs_inits univ) (model_trace (ginit univ) gops) = None.
Proof.
  exists refute_univ, refute_gops.
  split; [reflexivity|]. split; [repeat constructor|]. split; vm_compute; reflexivity.
Qed.

(* The strict oracle (as evaluated at run time) accepts every history of the
   model that is outside the class of the known finding C11-retrap-pending: no
   step gives a new command to a condition that has a command and whose caught
   flag is set. *)
Theorem oracle_sound_outside_known_finding : forall univ gops,
  univ_ok univ = true ->
  Forall (fun o => gop_ok (map fst univ) o = true) gops ->
  retrap_class_free (ginit univ) gops = true ->
  oracle_hist true (spec_inits univ) (obs_inits univ) (model_trace (ginit univ) gops) = None.
Proof.
  intros univ gops Hu Hok Hfree. destruct (univ_start univ Hu) as (HA & Hnd & Hk & ->).
  apply (oracle_strict_gen univ); [exact HA | exact Hnd | rewrite Hk; exact Hok | exact Hfree].
Qed.

Example known_finding_class_nonvacuous :
  retrap_class_free (ginit ex_univ) ex_gops = true /\
  retrap_class_free (ginit refute_univ) refute_gops = false /\
  trace_retrap_free ex_tbl ex_trace = true /\
  trace_retrap_free refute_tbl refute_trace = false.
Proof. repeat split; vm_compute; reflexivity. Qed.

(* Second half of the property, on the model of trap execution around commands
   (ScriptModel.v): for every table of trap actions and every script of the
   command language, whatever the fuel [bf] of each boundary loop, a run that
   does not run out of it leaves a trace the monitor accepts (what the monitor
   demands is listed at the head of ScriptSpec.v).  "Once per delivery" is up
   to coalescing: the caught flag is one bit, so deliveries of one signal
   before a boundary make one run, in the model, the monitor and yash-rs.
   Proved for the lenient monitor ([strict = false], see ScriptSpec.v).  The
   full statement, with [monitor true], is FALSE of the faithful model: see
   trap_runs_once_per_delivery_at_boundary_refuted. *)
Theorem trap_runs_once_per_delivery_at_boundary_partial : forall tbl bf main trace dead,
  script_ok tbl main = true ->
  run_script tbl bf main = Some (trace, dead) ->
  monitor false tbl trace dead = None.
Proof.
  intros tbl bf main trace dead Hok Hrun. unfold script_ok in Hok. rewrite !andb_true_iff in Hok.
  destruct Hok as ((((Hb & Hi) & Hpl) & Hs) & Hids).
  assert (Hmain : forallb (top_ok tbl) main = true).
  { unfold top_ok. rewrite !forallb_andb, Hs, Hpl, Hids. reflexivity. }
  pose proof (exec_top tbl bf main (conj Hb Hi) Hmain init_sh top_init (toprel_init tbl)) as Hsim.
  unfold run_script in Hrun. unfold monitor, TopSim, tevents in *.
  destruct (exec_list tbl bf main init_sh) as [s'|sg s'|]; [| |discriminate]; injection Hrun as <- <-;
    destruct Hsim as (l & t' & Hl & Htr & Hfit); cbn in Hl; rewrite app_nil_r in Hl;
    rewrite Hl, rev_involutive, Htr.
  - destruct Hfit as (_ & _ & _ & m & Hf & HI).
    rewrite Hf. cbn [t_par]. rewrite (r_dead (proj1 HI)), (mon_finished_idle tbl s' _ HI). reflexivity.
  - destruct Hfit as (t1 & Hf & Hd). rewrite Hf, Hd. reflexivity.
Qed.

(* USR1's action delivers USR2 and then sets another command for USR2: neither
   the old nor the new action of USR2 ever runs (in the model as in yash-rs);
   the strict monitor reports the next command as running while a delivery is
   outstanding *)
Theorem trap_runs_once_per_delivery_at_boundary_refuted : exists tbl bf main trace,
  script_ok tbl main = true /\
  run_script tbl bf main = Some (trace, false) /\
  monitor true tbl trace false = Some R_LATE /\
  monitor false tbl trace false = None.
Proof. exists refute_tbl, 8%nat, refute_main, refute_trace. repeat split; vm_compute; reflexivity. Qed.

(* The strict monitor (as evaluated at run time) accepts every trace of the
   model in which no `trap` gives a new command to a signal with a delivery
   outstanding (the class of the known finding C11-retrap-pending). *)
Theorem trap_runs_once_per_delivery_at_boundary_outside_known_finding :
  forall tbl bf main trace dead,
  script_ok tbl main = true ->
  run_script tbl bf main = Some (trace, dead) ->
  trace_retrap_free tbl trace = true ->
  monitor true tbl trace dead = None.
Proof.
  intros tbl bf main trace dead Hok Hrun Hfree.
  pose proof (trap_runs_once_per_delivery_at_boundary_partial tbl bf main trace dead Hok Hrun) as H.
  unfold monitor in *. unfold trace_retrap_free in Hfree.
  rewrite (top_run_strict_eq tbl trace top_init Hfree). exact H.
Qed.

(* when the hypothesis [run_script ... = Some _] of the theorems above holds:
   under the rank condition of ScriptTerm.v (an action installed for sg raises
   only signals numbered above sg) and with the fuel computed there.  Without
   it an action can raise its own signal and the real shell loops forever; the
   check counts such a case as outside the domain (Run.run_script_case). *)
Theorem trap_loop_terminates : forall tbl main bf,
  rank_ok tbl main = true -> (enough_fuel tbl <= bf)%nat ->
  run_script tbl bf main <> None.
Proof.
  intros tbl main bf Hok Hbf. unfold rank_ok in Hok. apply andb_true_iff in Hok. destruct Hok as [Htbl Hmain].
  assert (HT : TInv tbl init_sh) by (split; [reflexivity | discriminate]).
  pose proof (exec_fuel tbl bf main Htbl Hbf Hmain init_sh HT) as H.
  unfold run_script. destruct (exec_list tbl bf main init_sh); [discriminate | discriminate | destruct H].
Qed.

Example trap_loop_terminates_nonvacuous :
  rank_ok ex_tbl ex_main = true /\
  script_ok loop_tbl loop_main = true /\ rank_ok loop_tbl loop_main = false /\
  run_script loop_tbl 200 loop_main = None.
Proof. repeat split; vm_compute; reflexivity. Qed.

Example trap_runs_nonvacuous :
  script_ok ex_tbl ex_main = true /\
  run_script ex_tbl 8 ex_main = Some (ex_trace, false) /\
  monitor false ex_tbl ex_trace false = None.
Proof. repeat split; vm_compute; reflexivity. Qed.

Theorem wait_model_meets_spec : forall traps t js evs, wait_loop traps t js evs = wait_spec traps t js evs.
Proof.
  intros traps t js evs. revert js. induction evs as [|e evs IH]; intros js;
    destruct (tgt_check t js) as [[st|] js'] eqn:Hc;
    try (rewrite (wait_spec_done _ _ _ _ _ _ Hc); cbn [wait_loop]; rewrite Hc; reflexivity).
  - unfold wait_spec. cbn. rewrite Hc. reflexivity.
  - rewrite (wait_loop_step _ _ _ _ _ _ Hc), (wait_spec_step _ _ _ _ _ _ Hc), IH. reflexivity.
Qed.

Theorem wait_script_meets_spec : forall atbl cs evs, wrun wait_loop atbl cs evs = wrun wait_spec atbl cs evs.
Proof.
  intros atbl cs evs. unfold wrun.
  rewrite (wexec_ext wait_loop wait_spec atbl wait_model_meets_spec). reflexivity.
Qed.

(* the run-time oracle of stream D compares the recorded trace with [wrun wait_spec]: on the model's own output this is wait_script_meets_spec once more *)
Theorem wait_oracle_sound : forall atbl cs evs, let '(e, tr) := wrun wait_loop atbl cs evs in wait_oracle atbl cs evs tr (wend_eqb e EndKilled) = None.
Proof.
  intros atbl cs evs. rewrite wait_script_meets_spec. unfold wait_oracle.
  destruct (wrun wait_spec atbl cs evs) as [e tr].
  rewrite first_diff_refl. destruct (wend_eqb e EndKilled); reflexivity.
Qed.

(* wait returns 384+sg exactly when sg is the first signal with a command trap of an event that arrives before the awaited jobs have finished, all earlier events being quiet *)
Theorem wait_interrupted_iff : forall traps t js evs sg, w_out (wait_loop traps t js evs) = WIntr sg <-> exists q e r c js', evs = q ++ e :: r /\ forallb (quiet traps) q = true /\ scan_done t js q = inr js' /\ classify traps e = Intr sg c.
Proof.
  intros traps t js evs sg. rewrite wait_model_meets_spec. split.
  - unfold wait_spec. destruct (span_quiet traps evs) as [q r] eqn:Hs.
    destruct (span_quiet_spec _ _ _ _ Hs) as (Happ & Hq & _).
    destruct (scan_done t js q) as [[[[st js2] used] lft]|js2] eqn:Hd; [discriminate|].
    destruct r as [|e r']; [discriminate|].
    destruct (classify traps e) as [| |sg' c] eqn:Hcl; try discriminate.
    cbn. intros H. inversion H; subst sg'.
    exists q, e, r', c, js2. repeat split; auto.
  - intros (q & e & r & c & js' & -> & Hq & Hd & Hcl). unfold wait_spec.
    rewrite (span_quiet_app traps q e r Hq), Hd, Hcl; [reflexivity|]. unfold quiet. rewrite Hcl. reflexivity.
Qed.

(* ignored signals (and SIGCHLD without a command) never interrupt wait *)
Theorem wait_quiet_never_interrupts : forall traps t js evs, forallb (quiet traps) evs = true -> forall sg, w_out (wait_loop traps t js evs) <> WIntr sg.
Proof.
  intros traps t js evs Hq sg H. apply wait_interrupted_iff in H.
  destruct H as (q & e & r & c & js' & -> & _ & _ & Hcl).
  rewrite forallb_app in Hq. apply andb_prop in Hq. destruct Hq as [_ Hq].
  cbn in Hq. unfold quiet in Hq. rewrite Hcl in Hq. discriminate.
Qed.

Theorem wait_quiet_sigs_iff : forall traps j l, quiet traps (WSigs j l) = true <-> forall sg, In sg l -> trap_of traps sg = TIgnore.
Proof.
  intros traps j l. unfold quiet. cbn [classify]. induction l as [|x l IH]; cbn [existsb filter].
  - split; [intros _ sg [] | reflexivity].
  - unfold lethal_sig at 1, body_sig at 1. destruct (trap_of traps x) eqn:Ex; cbn [orb].
    + split; [discriminate|]. intros H. specialize (H x (or_introl eq_refl)). congruence.
    + rewrite IH. split; [intros H sg [<-|Hin]; auto | intros H sg Hin; apply H; right; exact Hin].
    + destruct (existsb (lethal_sig traps) l); (split; [discriminate|]); intros H;
        specialize (H x (or_introl eq_refl)); congruence.
Qed.

(* after an interrupted wait the caught flags left are exactly the other command-trapped signals of the interrupting event, each once, in increasing signal number *)
Theorem wait_interrupt_leaves_each_once_in_order : forall traps t js evs sg, w_out (wait_loop traps t js evs) = WIntr sg -> exists q e, w_used (wait_loop traps t js evs) = q ++ [e] /\ body_sig traps sg = true /\ StronglySorted N.lt (w_pend (wait_loop traps t js evs)) /\ forall x, In x (w_pend (wait_loop traps t js evs)) <-> x <> sg /\ body_sig traps x = true /\ match e with WSigs _ l => In x l | WChild _ _ => x = WCHLD end.
Proof.
  intros traps t js evs sg. rewrite wait_model_meets_spec. unfold wait_spec.
  destruct (span_quiet traps evs) as [q r] eqn:Hs.
  destruct (scan_done t js q) as [[[[st js2] used] lft]|js2] eqn:Hd; [discriminate|].
  destruct r as [|e r']; [discriminate|].
  destruct (classify traps e) as [| |sg' c] eqn:Hcl; try discriminate.
  cbn. intros [= ->]. exists q, e. split; [reflexivity|].
  destruct (classify_intr _ _ _ _ Hcl) as [Hb Hc]. split; [exact Hb|]. split.
  - apply sorted_remove, sorted_catch_all. constructor.
  - intros x. rewrite in_remove_sig. unfold sort_dedup. rewrite in_catch_all, Hc. cbn. tauto.
Qed.

(* an interrupted wait records: the interrupting signal's action once with the $? of before the wait, then $? = 384+sg, then the actions of the signals left caught in that order, each once, $? preserved for the next command *)
Theorem wait_interrupt_trace : forall core atbl t cs s sg js pend used rest, core (w_traps s) t (w_jobs s) (w_evs s) = (WIntr sg, js, pend, used, rest) -> wexec core atbl (WcWait t :: cs) s = wexec core atbl cs (mkW (w_traps s) (sig_status sg) js rest (rev (flat_map ev_trace used ++ act_probe atbl (w_traps s) (w_status s) sg ++ flat_map (act_probe atbl (w_traps s) (sig_status sg)) pend) ++ w_tr s)).
Proof.
  intros core atbl t cs s sg js pend used rest H.
  cbn [wexec]. rewrite H. rewrite !rev_app_distr, <- !app_assoc. reflexivity.
Qed.

Theorem wait_events_in_order : forall traps t js evs, w_used (wait_loop traps t js evs) ++ w_rest (wait_loop traps t js evs) = evs.
Proof.
  intros traps t js evs. revert js. induction evs as [|e evs IH]; intros js;
    destruct (tgt_check t js) as [[st|] js'] eqn:Hc; try (cbn [wait_loop]; rewrite Hc; reflexivity).
  rewrite (wait_loop_step _ _ _ _ _ _ Hc). destruct (classify traps e); try reflexivity.
  destruct (w_consume e (wait_loop traps t (jafter js' e) evs)) as (_ & _ & -> & ->).
  cbn. f_equal. apply IH.
Qed.

(* the trap built-in: if any operand after the action names no condition nothing is done; otherwise every condition operand gets exactly one set_action, in order, none skipped after a failing one, all with the same action and the interactive override *)
Theorem trap_builtin_loop_spec : forall known inter ws, let '(act, rest) := split_action ws in ((exists w, In w rest /\ parse_cond known w = None) -> trap_builtin_ops known inter ws = []) /\ (all_conditions known rest -> ops_match known inter (chosen_action act) rest (trap_builtin_ops known inter ws)).
Proof.
  intros known inter ws.
  unfold trap_builtin_ops, interpret.
  destruct (split_action ws) as [act rest] eqn:Hs. split.
  - intros [w [Hw Hn]].
    destruct (partition (map (parse_cond known) rest)) as [cs [|e]] eqn:Hq; [|reflexivity].
    destruct (parsed_all known rest cs (partition_ok _ _ _ Hq) w Hw Hn).
  - intros Hall. destruct (partition_noerr _ _ Hall) as [cs Hq]. rewrite Hq.
    pose proof (partition_ok _ _ _ Hq) as HF. destruct cs as [|c cs].
    + inversion HF; subst. destruct act; constructor.
    + destruct act; exact (parsed_ops known inter _ rest _ HF).
Qed.

(* exit status 0 exactly when the operands were accepted and no set_action was refused for KILL/STOP (a refusal for a signal ignored on entry is silent) *)
Theorem trap_builtin_status_spec : forall known ws rs, trap_builtin_status known ws rs = 0%N <-> (interpret known ws = TPrintAll \/ exists a conds, interpret known ws = TSet a conds /\ Forall (fun r => r <> RErrKill /\ r <> RErrStop) rs).
Proof.
  intros known ws rs.
  unfold trap_builtin_status. destruct (interpret known ws) as [|soft|a conds] eqn:Hi.
  - split; auto.
  - split.
    + destruct soft; discriminate.
    + intros [H|(a & conds & H & _)]; discriminate.
  - split.
    + destruct (existsb hard_res rs) eqn:He; [discriminate|]. intros _. right.
      exists a, conds. split; [reflexivity|]. apply Forall_forall. intros r Hr.
      assert (hard_res r = false).
      { destruct (hard_res r) eqn:E; [|reflexivity].
        assert (existsb hard_res rs = true) by (apply existsb_exists; eauto). congruence. }
      destruct r; cbn in H; try discriminate; split; discriminate.
    + intros [H|(a' & conds' & _ & HF)]; [discriminate|].
      destruct (existsb hard_res rs) eqn:He; [|reflexivity].
      apply existsb_exists in He. destruct He as [r [Hr Hh]].
      rewrite Forall_forall in HF. destruct (HF r Hr) as [H1 H2].
      destruct r; cbn in Hh; try discriminate; congruence.
Qed.

(* a numeric first operand is a condition: all conditions named are reset to the default action *)
Theorem trap_numeric_first_resets : forall known inter n rest, all_conditions known (WNum n :: rest) -> ops_match known inter ADefault (WNum n :: rest) (trap_builtin_ops known inter (WNum n :: rest)).
Proof.
  intros known inter n rest.
  intros H. pose proof (trap_builtin_loop_spec known inter (WNum n :: rest)) as T.
  cbn [split_action is_action_word] in T. destruct T as [_ T]. exact (T H).
Qed.

Print Assumptions global_projection.
Print Assumptions disposition_inv.
Print Assumptions disposition_inv_global.
Print Assumptions kill_stop_never_trapped.
Print Assumptions initially_ignored_immutable.
Print Assumptions interactive_override_allowed.
Print Assumptions not_ignored_on_entry_trappable.
Print Assumptions subshell_trap_accepted.
Print Assumptions enter_subshell_spec.
Print Assumptions syscall_only_on_change.
Print Assumptions exit_condition_no_syscall.
Print Assumptions pending_set_only_by_delivery.
Print Assumptions pending_set_by_delivery.
Print Assumptions pending_cleared_once.
Print Assumptions pending_cleared_only_by.
Print Assumptions oracle_sound_partial.
Print Assumptions oracle_sound_refuted.
Print Assumptions oracle_sound_outside_known_finding.
Print Assumptions trap_runs_once_per_delivery_at_boundary_outside_known_finding.
Print Assumptions trap_runs_once_per_delivery_at_boundary_partial.
Print Assumptions trap_runs_once_per_delivery_at_boundary_refuted.
Print Assumptions trap_loop_terminates.
Print Assumptions wait_model_meets_spec.
Print Assumptions wait_script_meets_spec.
Print Assumptions wait_oracle_sound.
Print Assumptions wait_interrupted_iff.
Print Assumptions wait_quiet_never_interrupts.
Print Assumptions wait_quiet_sigs_iff.
Print Assumptions wait_interrupt_leaves_each_once_in_order.
Print Assumptions wait_interrupt_trace.
Print Assumptions wait_events_in_order.
Print Assumptions trap_builtin_loop_spec.
Print Assumptions trap_builtin_status_spec.
Print Assumptions trap_numeric_first_resets.
