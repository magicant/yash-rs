(* C11 — the oracle accepts every history of the model
   (oracle soundness: the check cannot raise a false alarm on an
   implementation that behaves like the model); outside the class of the known
   finding C11-retrap-pending the strict oracle agrees with the lenient one,
   hence accepts them too. *)
From Yv Require Import Common.Base C11.Model C11.Spec C11.Proofs C11.ProofsC.
Local Arguments N.eqb : simpl never.

(* The API calls that expand to several operations expand to
   set_internal_disposition for distinct signals; those for another signal do
   nothing to condition c, in the model and in the reference state alike.
   Dropped, every API call is at most one operation seen from c ([AtMostOne]),
   and the one-operation lemmas of ProofsC.v apply. *)
Definition internal_elsewhere (c : N) (o : op) : bool :=
  match o with OInternal c' _ => negb (N.eqb c c') | _ => false end.

Lemma internal_elsewhere_step c o st : internal_elsewhere c o = true -> step c o st = (st, [], RNone).
Proof.
  destruct o; cbn; try discriminate. intros H. apply negb_true_iff in H. rewrite H. reflexivity.
Qed.

Lemma internal_elsewhere_spec c o sp r :
  internal_elsewhere c o = true -> spec_step false c sp o r = sp.
Proof.
  destruct o; cbn; try discriminate. intros H. apply negb_true_iff in H. rewrite H. reflexivity.
Qed.

Definition relevant_ops (c : N) (ops : list op) : list op :=
  filter (fun o => negb (internal_elsewhere c o)) ops.

(* a compound operation: at most one of its parts concerns the condition *)
Definition AtMostOne (c : N) (ops : list op) : Prop :=
  relevant_ops c ops = [] \/ exists o, relevant_ops c ops = [o].

(* a fold skips the elements on which its step does nothing *)
Lemma fold_left_filter {A B} (f : A -> B -> A) (p : B -> bool) l :
  (forall a x, p x = false -> f a x = a) -> forall a, fold_left f l a = fold_left f (filter p l) a.
Proof.
  intros Hf. induction l as [|x l IH]; intros a; cbn; [reflexivity|].
  destruct (p x) eqn:E; cbn; [|rewrite (Hf a x E)]; apply IH.
Qed.

Lemma fold_relevant c ops st :
  fold_left (step_st c) ops st = fold_left (step_st c) (relevant_ops c ops) st.
Proof.
  apply fold_left_filter. intros a o E. apply negb_false_iff in E.
  unfold step_st. rewrite (internal_elsewhere_step c o a E). reflexivity.
Qed.

Lemma calls_relevant c ops st : calls_of c st ops = calls_of c st (relevant_ops c ops).
Proof.
  revert st. induction ops as [|o ops IH]; intros st; cbn; [reflexivity|].
  destruct (internal_elsewhere c o) eqn:E; cbn.
  - unfold step_st, o_calls. rewrite (internal_elsewhere_step c o st E). cbn. apply IH.
  - rewrite IH. reflexivity.
Qed.

Lemma spec_relevant c ops sp r : spec_steps false c sp ops r = spec_steps false c sp (relevant_ops c ops) r.
Proof.
  apply fold_left_filter. intros a o E. apply negb_false_iff in E.
  exact (internal_elsewhere_spec c o a r E).
Qed.

Lemma forallb_relevant c (f : op -> bool) ops :
  (forall o, internal_elsewhere c o = true -> f o = true) ->
  forallb f ops = forallb f (relevant_ops c ops).
Proof.
  intros Hf. induction ops as [|o ops IH]; cbn; [reflexivity|].
  destruct (internal_elsewhere c o) eqn:E; cbn.
  - rewrite (Hf o E). exact IH.
  - rewrite IH. reflexivity.
Qed.

Lemma check_sig_relevant c sp ops r prev new log :
  check_sig false c sp ops r prev new log = check_sig false c sp (relevant_ops c ops) r prev new log.
Proof.
  unfold check_sig. rewrite <- (spec_relevant c ops sp r).
  rewrite <- (forallb_relevant c (fun o => cl_kill_stop c o r) ops),
          <- (forallb_relevant c (fun o => cl_locked c sp o r) ops),
          <- (forallb_relevant c (fun o => cl_refusal c sp o r) ops),
          <- (forallb_relevant c (fun o => cl_take c sp o r) ops),
          <- (forallb_relevant c (fun o => cl_parent c sp o r new) ops);
    try reflexivity; intros [] H; cbn in H; try discriminate; reflexivity.
Qed.

Lemma relevant_in c ops o : relevant_ops c ops = [o] -> In o ops.
Proof.
  intros E. assert (Hin : In o (relevant_ops c ops)) by (rewrite E; left; reflexivity).
  apply filter_In in Hin. tauto.
Qed.

Lemma check_sig_ops c init st sp ops r :
  Good c init st sp -> Forall (fun o => op_ok o = true) ops -> AtMostOne c ops ->
  (forall o, relevant_ops c ops = [o] -> ResOk c o st r) ->
  let st' := fold_left (step_st c) ops st in
  check_sig false c sp ops r (observe st) (observe st') (calls_of c st ops)
  = (spec_steps false c sp ops r, None)
  /\ Good c init st' (spec_steps false c sp ops r).
Proof.
  intros HG Hok H1 Hr st'. subst st'.
  rewrite check_sig_relevant, fold_relevant, calls_relevant, spec_relevant.
  destruct H1 as [E | [o E]]; rewrite E in *.
  - cbn. split; [apply (check_sig_nil c init st sp r HG) | exact HG].
  - assert (Ho : op_ok o = true) by (rewrite Forall_forall in Hok; apply Hok, (relevant_in c), E).
    specialize (Hr o eq_refl). cbn [fold_left calls_of spec_steps].
    rewrite app_nil_r. split.
    + apply (check_sig_single c init st sp o r HG Ho Hr).
    + apply (good_step c init st sp o r HG Ho Hr).
Qed.

Inductive AllGood : list (N * disp) -> gstate -> list (N * spec) -> Prop :=
| AG_nil : AllGood [] [] []
| AG_cons c d st sp u g s :
    Good c d st sp -> AllGood u g s -> AllGood ((c, d) :: u) ((c, st) :: g) ((c, sp) :: s).

Definition obs_of (g : gstate) : list (N * sobs) := map (fun p => (fst p, observe (snd p))) g.

Definition gmap (ops : list op) (g : gstate) : gstate :=
  map (fun p => (fst p, fold_left (step_st (fst p)) ops (snd p))) g.

Lemma gmap_nil g : gmap [] g = g.
Proof. unfold gmap. rewrite <- (map_id g) at 2. apply map_ext. intros [c st]; reflexivity. Qed.

Lemma gstep_gmap g o : gstep g o = gmap (expand g o) g.
Proof.
  unfold gstep. generalize (expand g o) as ops. intros ops. revert g.
  induction ops as [|x ops IH]; intros g; cbn.
  - symmetry. apply gmap_nil.
  - rewrite IH. unfold gmap, gapply. rewrite map_map. apply map_ext. intros [c st]; reflexivity.
Qed.

Lemma check_all_sound ops r log u g sps :
  AllGood u g sps ->
  Forall (fun o => op_ok o = true) ops ->
  (forall c st, In (c, st) g -> calls_for c log = calls_of c st ops) ->
  (forall c st, In (c, st) g ->
     AtMostOne c ops /\ (forall o, relevant_ops c ops = [o] -> ResOk c o st r)) ->
  exists sps',
    check_all false sps ops r (obs_of g) (obs_of (gmap ops g)) log = (sps', None)
    /\ AllGood u (gmap ops g) sps'.
Proof.
  intros HA Hok. induction HA as [|c d st sp u g s HG HA IH]; intros Hlog Hrel.
  - exists []. split; [reflexivity | constructor].
  - destruct IH as (sps' & E & HA').
    + intros c' st' Hin. apply Hlog. right; exact Hin.
    + intros c' st' Hin. apply Hrel. right; exact Hin.
    + destruct (Hrel c st (or_introl eq_refl)) as [H1 H2].
      destruct (check_sig_ops c d st sp ops r HG Hok H1 H2) as [Ec HG'].
      exists ((c, spec_steps false c sp ops r) :: sps'). split.
      * cbn [obs_of gmap map fst snd check_all] in *. rewrite (Hlog c st (or_introl eq_refl)).
        rewrite Ec. unfold obs_of, gmap in E. rewrite E. reflexivity.
      * cbn. constructor; assumption.
Qed.

Lemma calls_for_app c l1 l2 : calls_for c (l1 ++ l2) = calls_for c l1 ++ calls_for c l2.
Proof. unfold calls_for. rewrite filter_app, map_app. reflexivity. Qed.

Lemma calls_for_same c l : calls_for c (map (fun d => (c, d)) l) = l.
Proof.
  unfold calls_for. induction l as [|d l IH]; cbn; [reflexivity|].
  rewrite N.eqb_refl. cbn. rewrite IH. reflexivity.
Qed.

Lemma calls_for_other c c' l : c' <> c -> calls_for c (map (fun d => (c', d)) l) = [].
Proof.
  intros H. unfold calls_for. induction l as [|d l IH]; cbn; [reflexivity|].
  apply N.eqb_neq in H. rewrite H. exact IH.
Qed.

Lemma calls_for_absent c g ops :
  ~ In c (map fst g) -> calls_for c (model_log g ops) = [].
Proof.
  induction g as [|[c' st'] g IH]; intros Hn; [reflexivity|].
  unfold model_log in *. cbn [flat_map fst snd]. rewrite calls_for_app.
  rewrite calls_for_other.
  - apply IH. intros H. apply Hn. right; exact H.
  - intros ->. apply Hn. left; reflexivity.
Qed.

Lemma calls_for_model_log c st g ops :
  NoDup (map fst g) -> In (c, st) g -> calls_for c (model_log g ops) = calls_of c st ops.
Proof.
  induction g as [|[c' st'] g IH]; intros Hnd Hin; [destruct Hin|].
  inversion Hnd as [|? ? Hnot Hnd']; subst.
  unfold model_log in *. cbn [flat_map fst snd]. rewrite calls_for_app.
  destruct Hin as [E|Hin].
  - inversion E; subst. rewrite calls_for_same.
    fold (model_log g ops). rewrite (calls_for_absent c g ops Hnot). apply app_nil_r.
  - rewrite calls_for_other.
    + apply IH; assumption.
    + intros ->. apply Hnot. apply (in_map fst) in Hin. exact Hin.
Qed.

Lemma glookup_in g c st : NoDup (map fst g) -> In (c, st) g -> glookup g c = Some st.
Proof.
  induction g as [|[c' st'] g IH]; intros Hnd Hin; [destruct Hin|].
  inversion Hnd as [|? ? Hnot Hnd']; subst. cbn.
  destruct Hin as [E|Hin].
  - inversion E; subst. rewrite N.eqb_refl. reflexivity.
  - destruct (N.eqb c' c) eqn:E.
    + apply N.eqb_eq in E. subst. exfalso. apply Hnot.
      apply (in_map fst) in Hin. exact Hin.
    + apply IH; assumption.
Qed.

Lemma glookup_mem (g : gstate) c : mem c (map fst g) = true -> exists st, In (c, st) g.
Proof.
  unfold mem. intros H. apply existsb_exists in H. destruct H as (x & Hin & E).
  apply N.eqb_eq in E. subst x. apply in_map_iff in Hin. destruct Hin as ([c' st] & E & Hin).
  cbn in E. subst. exists st. exact Hin.
Qed.

Lemma first_pending_some g c :
  first_pending g = Some c ->
  exists st e, In (c, st) g /\ s_ent st = Some e /\ t_pending (e_cur e) = true
               /\ is_signal c = true.
Proof.
  induction g as [|[c' st'] g IH]; cbn; [discriminate|].
  destruct (s_ent st') as [e|] eqn:Ee.
  - destruct (is_signal c' && t_pending (e_cur e)) eqn:Ep.
    + intros H; inversion H; subst. apply andb_true_iff in Ep. destruct Ep as [Hs Hp].
      exists st', e. repeat split; auto.
    + intros H. destruct (IH H) as (st & e0 & Hin & ?). exists st, e0. split; [right; exact Hin | assumption].
  - intros H. destruct (IH H) as (st & e0 & Hin & ?). exists st, e0. split; [right; exact Hin | assumption].
Qed.

Lemma first_pending_none g c st :
  first_pending g = None -> In (c, st) g -> is_signal c = true -> pending st = false.
Proof.
  induction g as [|[c' st'] g IH]; cbn; intros H Hin Hs; [destruct Hin|].
  destruct Hin as [E|Hin].
  - inversion E; subst. unfold pending. destruct (s_ent st) as [e|]; [|reflexivity].
    rewrite Hs in H. cbn in H. destruct (t_pending (e_cur e)); [discriminate | reflexivity].
  - apply IH; auto. destruct (s_ent st') as [e|]; [|exact H].
    destruct (is_signal c' && t_pending (e_cur e)); [discriminate | exact H].
Qed.

Definition is_internal (o : op) : Prop := exists k d, o = OInternal k d.

Lemma relevant_absent c ops :
  Forall is_internal ops -> ~ In c (ops_signals ops) -> relevant_ops c ops = [].
Proof.
  induction 1 as [|o ops (k & d & ->) _ IH]; intros Hn; [reflexivity|]. cbn.
  destruct (N.eqb_spec c k) as [->|_]; [destruct Hn; left; reflexivity|].
  apply IH. intros H. apply Hn. right; exact H.
Qed.

Lemma atmostone_internals c ops :
  Forall is_internal ops -> NoDup (ops_signals ops) -> AtMostOne c ops.
Proof.
  induction 1 as [|o ops (k & d & ->) Hall IH]; intros Hnd; [left; reflexivity|].
  cbn [ops_signals flat_map app] in Hnd. inversion Hnd as [|? ? Hnot Hnd']; subst.
  unfold AtMostOne. cbn. destruct (N.eqb_spec c k) as [<-|_]; cbn.
  - right. exists (OInternal c d). f_equal. apply relevant_absent; assumption.
  - apply IH; assumption.
Qed.

Lemma atmostone_single c o : AtMostOne c [o].
Proof.
  unfold AtMostOne, relevant_ops. cbn. destruct (internal_elsewhere c o); cbn;
  [left; reflexivity | right; eexists; reflexivity].
Qed.

Lemma resok_untargeted c o st r : target o = None -> ResOk c o st r.
Proof. intros Et. split; [rewrite Et; discriminate | destruct o; try discriminate; reflexivity]. Qed.

(* the result reported for condition c0, seen from every condition in play *)
Lemma resok_target g o c st c0 st0 :
  NoDup (map fst g) -> In (c, st) g -> target o = Some c0 -> In (c0, st0) g ->
  ResOk c o st (o_res (step c0 o st0)).
Proof.
  intros Hnd Hin Et Hin0. split.
  - rewrite Et. intros E. inversion E; subst.
    pose proof (glookup_in g c st Hnd Hin). pose proof (glookup_in g c st0 Hnd Hin0). congruence.
  - intros _. destruct o as [c1 a tag ovr| | | | |]; try reflexivity.
    exact (kill_stop_ok c0 (OSetAction c1 a tag ovr) st0).
Qed.

Lemma take_any_result g c :
  NoDup (map fst g) -> first_pending g = Some c ->
  exists st t, In (c, st) g /\
    gresult g GTakeAny = o_res (step c (OTakeSig c) st) /\ gresult g GTakeAny = RTaken c t.
Proof.
  intros Hnd Ef. destruct (first_pending_some g c Ef) as (st & e & Hin & He & Hp & _).
  assert (Eg : gresult g GTakeAny = o_res (step c (OTakeSig c) st)).
  { cbn. rewrite Ef, (glookup_in g c st Hnd Hin). reflexivity. }
  exists st. eexists. repeat split; [exact Hin | exact Eg |]. rewrite Eg.
  unfold step. rewrite N.eqb_refl. unfold ts_take. rewrite He, Hp. reflexivity.
Qed.

(* what the oracle reconstructs from the reported result is what the model did *)
Lemma resolve_expand g o : NoDup (map fst g) -> resolve o (gresult g o) = expand g o.
Proof.
  intros Hnd. destruct o; try reflexivity. cbn [expand].
  destruct (first_pending g) as [c|] eqn:Ef; [|cbn; rewrite Ef; reflexivity].
  destruct (take_any_result g c Hnd Ef) as (st & t & _ & _ & ->). reflexivity.
Qed.

Lemma expand_ok g o :
  gop_ok (map fst g) o = true -> Forall (fun x => op_ok x = true) (expand g o).
Proof.
  unfold gop_ok. intros H. apply andb_true_iff in H. destruct H as [H _].
  destruct o as [x| | | | | | |].
  1-7: (apply Forall_forall; apply forallb_forall; exact H).
  cbn. destruct (first_pending g) as [c|] eqn:E; [|constructor].
  destruct (first_pending_some g c E) as (st & e & _ & _ & _ & Hs).
  repeat constructor. exact Hs.
Qed.

(* At most one part of the operation concerns condition c, and the reported
   result is that part's result if it reports for c.  The compound operations
   are lists of set_internal_disposition for distinct signals. *)
Lemma expand_view g o c st :
  NoDup (map fst g) -> gop_ok (map fst g) o = true -> In (c, st) g ->
  AtMostOne c (expand g o) /\
  (forall x, relevant_ops c (expand g o) = [x] -> ResOk c x st (gresult g o)).
Proof.
  intros Hnd Hok Hin. destruct o as [x| | | | | | |].
  2-7: (split;
        [ apply atmostone_internals;
          [ repeat (constructor; [eexists; eexists; reflexivity|]); constructor
          | cbn; repeat (constructor; [cbn; intuition discriminate|]); constructor ]
        | intros x E; apply relevant_in in E; apply resok_untargeted;
          cbn in E; intuition (subst; reflexivity) ]).
  - split; [apply atmostone_single|]. intros y E. apply relevant_in in E. destruct E as [<-|[]].
    unfold gresult. destruct (target x) as [c0|] eqn:Et; [|apply resok_untargeted; exact Et].
    assert (Hc0 : mem c0 (map fst g) = true).
    { unfold gop_ok in Hok. apply andb_true_iff in Hok. destruct Hok as [_ Hm].
      destruct x; cbn in Et; inversion Et; subst; cbn in Hm; rewrite ?andb_true_r in Hm; exact Hm. }
    destruct (glookup_mem g c0 Hc0) as [st0 Hin0]. rewrite (glookup_in g c0 st0 Hnd Hin0).
    apply (resok_target g x c st c0 st0); assumption.
  - cbn [expand]. destruct (first_pending g) as [c0|] eqn:Ef.
    + destruct (take_any_result g c0 Hnd Ef) as (st0 & t & Hin0 & -> & _).
      split; [apply atmostone_single|]. intros y E. apply relevant_in in E. destruct E as [<-|[]].
      apply (resok_target g (OTakeSig c0) c st c0 st0); auto.
    + split; [left; reflexivity | intros y E; discriminate E].
Qed.

Lemma allgood_keys u g sps : AllGood u g sps -> map fst g = map fst u.
Proof. induction 1; cbn; congruence. Qed.

Lemma gmap_keys ops g : map fst (gmap ops g) = map fst g.
Proof. unfold gmap. rewrite map_map. reflexivity. Qed.

Lemma gstep_keys g o : map fst (gstep g o) = map fst g.
Proof. rewrite gstep_gmap. apply gmap_keys. Qed.

(* where nothing is pending, no trap run is owed *)
Lemma take_any_none_ok u g sps :
  AllGood u g sps -> (forall c st, In (c, st) g -> is_signal c = true -> pending st = false) ->
  forallb (fun p => negb (is_signal (fst p) && is_command (u_act (snd p))
                          && match u_pend (snd p) with Yes => true | _ => false end)) sps = true.
Proof.
  induction 1 as [|c d st sp u g s HG HA IH]; intros Hf; [reflexivity|].
  cbn [forallb fst snd]. rewrite IH by (intros c' st' Hin; apply Hf; right; exact Hin).
  rewrite andb_true_r. destruct (is_signal c) eqn:Hs; [|reflexivity].
  pose proof (Hf c st (or_introl eq_refl) Hs) as Hp. rewrite (pending_vent d) in Hp.
  destruct HG as (_ & _ & _ & HR). apply refines_vent in HR. destruct HR as [(_ & _ & _ & Hy & _) _].
  destruct (u_pend sp); try (rewrite andb_false_r; reflexivity).
  rewrite (Hy eq_refl) in Hp. discriminate.
Qed.

Lemma gop_step_sound u g sps o :
  AllGood u g sps -> NoDup (map fst g) -> gop_ok (map fst g) o = true ->
  exists sps',
    check_all false sps (resolve o (gresult g o)) (gresult g o) (obs_of g) (obs_of (gstep g o))
              (model_log g (expand g o)) = (sps', None)
    /\ cl_take_any o (gresult g o) sps = true
    /\ AllGood u (gstep g o) sps'.
Proof.
  intros HA Hnd Hok. rewrite gstep_gmap, (resolve_expand g o Hnd).
  destruct (check_all_sound (expand g o) (gresult g o) (model_log g (expand g o)) u g sps HA)
    as (sps' & E & HA').
  - apply expand_ok. exact Hok.
  - intros c st Hin. apply calls_for_model_log; assumption.
  - intros c st Hin. apply expand_view; assumption.
  - exists sps'. split; [exact E|]. split; [|exact HA'].
    destruct o; try reflexivity. destruct (first_pending g) as [c|] eqn:Ef.
    + destruct (take_any_result g c Hnd Ef) as (st & t & _ & _ & ->). reflexivity.
    + cbn. rewrite Ef. apply (take_any_none_ok u g sps HA). intros c st. exact (first_pending_none g c st Ef).
Qed.

Lemma sortedb_head a l : sortedb (a :: l) = true -> Forall (N.lt a) l.
Proof.
  revert a. induction l as [|b l IH]; intros a H; [constructor|].
  cbn in H. apply andb_true_iff in H. destruct H as [Hab H].
  apply N.ltb_lt in Hab. constructor; [exact Hab|].
  specialize (IH b H). eapply Forall_impl; [|exact IH]. intros x Hx. lia.
Qed.

Lemma sortedb_nodup l : sortedb l = true -> NoDup l.
Proof.
  induction l as [|a l IH]; intros H; [constructor|].
  constructor.
  - pose proof (sortedb_head a l H) as Hf. rewrite Forall_forall in Hf.
    intros Hin. specialize (Hf a Hin). lia.
  - apply IH. destruct l as [|b l]; [reflexivity|].
    cbn in H. apply andb_true_iff in H. tauto.
Qed.

Lemma allgood_init univ :
  forallb (fun p => negb (disp_eqb (snd p) Catch)
                    && (is_signal (fst p) || disp_eqb (snd p) Default)) univ = true ->
  AllGood univ (ginit univ) (spec_inits univ).
Proof.
  induction univ as [|[c d] univ IH]; intros H; [constructor|].
  cbn in H. apply andb_true_iff in H. destruct H as [H1 H2].
  apply andb_true_iff in H1. destruct H1 as [Hc Hd].
  cbn. constructor; [|apply IH; exact H2].
  apply good_init.
  - intros ->. discriminate.
  - intros ->. cbn in Hd. apply disp_eqb_eq in Hd. exact Hd.
Qed.

Lemma oracle_sound_gen u gops : forall g sps,
  AllGood u g sps -> NoDup (map fst g) ->
  Forall (fun o => gop_ok (map fst g) o = true) gops ->
  oracle_hist false sps (obs_of g) (model_trace g gops) = None.
Proof.
  induction gops as [|o gops IH]; intros g sps HA Hnd Hok; [reflexivity|].
  inversion Hok as [|? ? Ho Hrest]; subst.
  destruct (gop_step_sound u g sps o HA Hnd Ho) as (sps' & E & Ht & HA').
  cbn [model_trace oracle_hist]. fold (obs_of (gstep g o)). rewrite E, Ht. cbn [negb].
  apply IH; auto.
  - rewrite gstep_keys. exact Hnd.
  - rewrite gstep_keys. exact Hrest.
Qed.

Lemma univ_start univ :
  univ_ok univ = true ->
  AllGood univ (ginit univ) (spec_inits univ) /\ NoDup (map fst (ginit univ)) /\
  map fst (ginit univ) = map fst univ /\ obs_inits univ = obs_of (ginit univ).
Proof.
  intros Hu. unfold univ_ok in Hu. apply andb_true_iff in Hu. destruct Hu as [Hs Hf].
  assert (Hk : map fst (ginit univ) = map fst univ) by (unfold ginit; rewrite map_map; reflexivity).
  split; [apply allgood_init; exact Hf|]. split; [rewrite Hk; apply sortedb_nodup; exact Hs|].
  split; [exact Hk|]. unfold obs_inits, obs_of, ginit. rewrite map_map. reflexivity.
Qed.

(* every global history is a per-condition history *)
Fixpoint flatten (g : gstate) (gops : list gop) : list op :=
  match gops with
  | [] => []
  | o :: rest => expand g o ++ flatten (gstep g o) rest
  end.

Lemma gmap_app ops1 ops2 g : gmap (ops1 ++ ops2) g = gmap ops2 (gmap ops1 g).
Proof.
  unfold gmap. rewrite map_map. apply map_ext. intros [c st]. cbn.
  rewrite fold_left_app. reflexivity.
Qed.

Lemma grun_flatten gops : forall g, fold_left gstep gops g = gmap (flatten g gops) g.
Proof.
  induction gops as [|o gops IH]; intros g; cbn.
  - symmetry. apply gmap_nil.
  - rewrite IH, gmap_app, gstep_gmap. reflexivity.
Qed.

Lemma flatten_ok gops : forall g,
  Forall (fun o => gop_ok (map fst g) o = true) gops ->
  Forall (fun x => op_ok x = true) (flatten g gops).
Proof.
  induction gops as [|o gops IH]; intros g H; cbn; [constructor|].
  inversion H as [|? ? Ho Hrest]; subst. apply Forall_app. split.
  - apply expand_ok. exact Ho.
  - apply IH. rewrite gstep_keys. exact Hrest.
Qed.

(* the two readings differ on one operation only in the class *)
Lemma spec_step_strict_eq c init st sp o r :
  Good c init st sp -> retrap c st o = false ->
  spec_step true c sp o r = spec_step false c sp o r.
Proof.
  intros (_ & _ & _ & HR) Hn.
  destruct o as [c' a tag ovr | c' | c' d' | ign keep | c' | c']; try reflexivity.
  cbn [spec_step]. destruct (N.eqb c c') eqn:E; [|reflexivity].
  destruct r; try reflexivity.
  destruct (u_pend sp) eqn:Ep; try reflexivity.
  cbn [andb]. destruct (is_command a) eqn:Ea; [|reflexivity].
  destruct (is_command (u_act sp)) eqn:Eu; [|reflexivity].
  exfalso. unfold Refines in HR. unfold retrap in Hn.
  destruct (s_ent st) as [e|].
  - destruct HR as (Hact & _ & Hy & _). rewrite E, Ea, (Hy Ep), <- Hact, Eu in Hn. discriminate.
  - destruct HR as (_ & _ & Hp & _). congruence.
Qed.

Definition no_setaction (ops : list op) : bool :=
  forallb (fun o => match o with OSetAction _ _ _ _ => false | _ => true end) ops.

Lemma spec_steps_strict_eq_plain c ops r : forall sp,
  no_setaction ops = true -> spec_steps true c sp ops r = spec_steps false c sp ops r.
Proof.
  unfold spec_steps. induction ops as [|o ops IH]; intros sp H; [reflexivity|].
  cbn in H. apply andb_true_iff in H. destruct H as [Ho H]. cbn [fold_left].
  assert (E : spec_step true c sp o r = spec_step false c sp o r) by (destruct o; try discriminate; reflexivity).
  rewrite E. apply IH. exact H.
Qed.

(* the operations of one API call: a single one, or several without trap commands *)
Definition OpsShape (ops : list op) : Prop :=
  (exists o, ops = [o]) \/ no_setaction ops = true.

Lemma check_sig_strict_eq c init st sp ops r prev new log :
  Good c init st sp -> OpsShape ops ->
  forallb (fun x => negb (retrap c st x)) ops = true ->
  check_sig true c sp ops r prev new log = check_sig false c sp ops r prev new log.
Proof.
  intros HG Hshape Hn. unfold check_sig.
  assert (E : spec_steps true c sp ops r = spec_steps false c sp ops r).
  { destruct Hshape as [[o ->] | Hp]; [|apply spec_steps_strict_eq_plain; exact Hp].
    cbn in Hn. rewrite andb_true_r in Hn. apply negb_true_iff in Hn.
    unfold spec_steps. cbn [fold_left]. apply (spec_step_strict_eq c init st sp o r HG Hn). }
  rewrite E. reflexivity.
Qed.

Lemma check_all_strict_eq ops r log u g sps :
  AllGood u g sps -> OpsShape ops ->
  forallb (fun p => forallb (fun x => negb (retrap (fst p) (snd p) x)) ops) g = true ->
  forall new,
  check_all true sps ops r (obs_of g) new log = check_all false sps ops r (obs_of g) new log.
Proof.
  intros HA Hshape. induction HA as [|c d st sp u g s HG HA IH]; intros Hn new; [reflexivity|].
  cbn in Hn. apply andb_true_iff in Hn. destruct Hn as [Hn1 Hn2].
  cbn [obs_of map fst snd check_all]. destruct new as [|[c0 n] new]; [reflexivity|].
  rewrite (check_sig_strict_eq c d st sp ops r (observe st) n (calls_for c log) HG Hshape Hn1).
  fold (obs_of g). rewrite (IH Hn2 new). reflexivity.
Qed.

Lemma expand_shape g o : OpsShape (expand g o).
Proof.
  destruct o as [x| | | | | | |]; cbn;
    try (right; reflexivity); [left; eexists; reflexivity|].
  destruct (first_pending g); right; reflexivity.
Qed.

Lemma oracle_strict_gen u gops : forall g sps,
  AllGood u g sps -> NoDup (map fst g) ->
  Forall (fun o => gop_ok (map fst g) o = true) gops ->
  retrap_class_free g gops = true ->
  oracle_hist true sps (obs_of g) (model_trace g gops) = None.
Proof.
  induction gops as [|o gops IH]; intros g sps HA Hnd Hok Hfree; [reflexivity|].
  inversion Hok as [|? ? Ho Hrest]; subst.
  cbn [retrap_class_free] in Hfree. apply andb_true_iff in Hfree. destruct Hfree as [Hf1 Hf2].
  destruct (gop_step_sound u g sps o HA Hnd Ho) as (sps' & E & Ht & HA').
  cbn [model_trace oracle_hist]. fold (obs_of (gstep g o)).
  rewrite (resolve_expand g o Hnd) in *.
  rewrite (check_all_strict_eq (expand g o) (gresult g o) (model_log g (expand g o)) u g sps HA
             (expand_shape g o) Hf1 (obs_of (gstep g o))).
  rewrite E, Ht. cbn [negb].
  apply IH; auto.
  - rewrite gstep_keys. exact Hnd.
  - rewrite gstep_keys. exact Hrest.
Qed.

