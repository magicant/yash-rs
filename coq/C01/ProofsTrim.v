(* C01 — the pattern matcher and trim_value against their declarative
   specifications; decimal. *)
From Yv Require Import Common.Base C01.Model C01.Spec.

(* the anonymous [fix] of the [*] case of [pmatch], under a name *)
Definition star_loop (p' : list pchar) : str -> bool :=
  fix star (s : str) : bool :=
    pmatch p' s || match s with [] => false | _ :: s' => star s' end.

Lemma pmatch_star p' s : pmatch (PNormal 42%N :: p') s = star_loop p' s.
Proof. reflexivity. Qed.

Lemma star_loop_iff p' s :
  star_loop p' s = true <-> exists s1 s2, s = s1 ++ s2 /\ pmatch p' s2 = true.
Proof.
  induction s as [|c s IH]; cbn.
  - rewrite orb_false_r. split.
    + intros H. exists [], []. auto.
    + intros [s1 [s2 [E H]]]. destruct s1, s2; try discriminate. exact H.
  - rewrite orb_true_iff, IH. split.
    + intros [H | [s1 [s2 [E H]]]].
      * exists [], (c :: s). auto.
      * exists (c :: s1), s2. subst. auto.
    + intros [s1 [s2 [E H]]]. destruct s1 as [|d s1].
      * left. cbn in E. subst. exact H.
      * right. inversion E; subst. eauto.
Qed.

(* an ordinary character matches itself ([pmatch] matches on the numerals 42
   and 63: go through the binary digits of [c]) *)
Lemma pmatch_normal c p s :
  c <> 42%N -> c <> 63%N ->
  pmatch (PNormal c :: p) s = match s with [] => false | d :: s' => N.eqb c d && pmatch p s' end.
Proof.
  intros N42 N63. destruct c as [|q]; [reflexivity|]. cbn [pmatch].
  repeat (match goal with q : positive |- _ => destruct q; try reflexivity end); congruence.
Qed.

Lemma pmatch_iff p : forall s, pmatch p s = true <-> Matches p s.
Proof.
  induction p as [|a p IH]; intros s.
  - destruct s; cbn; split; intros H; try discriminate; try constructor; inversion H.
  - destruct a as [c|c].
    + (* literal *)
      cbn. destruct s as [|d s]; [split; [discriminate|inversion 1]|].
      rewrite andb_true_iff, N.eqb_eq, IH. split.
      * intros [-> H]. constructor; exact H.
      * inversion 1; subst; auto.
    + destruct (N.eq_dec c 42) as [->|N42]; [|destruct (N.eq_dec c 63) as [->|N63]].
      * rewrite pmatch_star, star_loop_iff. split.
        -- intros [s1 [s2 [-> H]]]. constructor. apply IH; exact H.
        -- inversion 1; subst; [|congruence]. eexists _, _. split; [reflexivity|]. apply IH; assumption.
      * cbn. destruct s as [|d s]; [split; [discriminate|inversion 1]|].
        rewrite IH. split; [intros H; constructor; exact H|].
        inversion 1; subst; [assumption|congruence].
      * rewrite pmatch_normal by assumption.
        destruct s as [|d s]; [split; [discriminate|inversion 1; congruence]|].
        rewrite andb_true_iff, N.eqb_eq, IH. split.
        -- intros [-> H]. constructor; assumption.
        -- inversion 1; subst; try congruence. auto.
Qed.

(* the first hit in an ascending range is the least, in a descending one the greatest *)
Lemma find_seq (f : nat -> bool) : forall len start k,
  find f (seq start len) = Some k ->
  start <= k < start + len /\ f k = true
  /\ forall j, start <= j < start + len -> f j = true -> k <= j.
Proof.
  induction len as [|len IH]; intros start k; cbn; [discriminate|].
  destruct (f start) eqn:E.
  - intros [= <-]. repeat split; auto; lia.
  - intros H. apply IH in H as (H1 & H2 & H3). repeat split; auto; try lia.
    intros j Hj Hf. destruct (Nat.eq_dec j start) as [->|]; [congruence|]. apply H3; [lia|exact Hf].
Qed.

Lemma find_rev_seq (f : nat -> bool) : forall len start k,
  find f (rev (seq start len)) = Some k ->
  start <= k < start + len /\ f k = true
  /\ forall j, start <= j < start + len -> f j = true -> j <= k.
Proof.
  induction len as [|len IH]; intros start k; [cbn; discriminate|].
  rewrite seq_S, rev_app_distr. cbn [rev app find].
  destruct (f (start + len)) eqn:E.
  - intros [= <-]. repeat split; auto; lia.
  - intros H. apply IH in H as (H1 & H2 & H3). repeat split; auto; try lia.
    intros j Hj Hf. destruct (Nat.eq_dec j (start + len)) as [->|]; [congruence|]. apply H3; [lia|exact Hf].
Qed.

(* what [trim_value] finds among the lengths 0..n of the part to remove *)
Lemma find_removed (removed : nat -> str) p l n :
  match find (fun k => pmatch p (removed k)) (trim_lengths l n) with
  | Some k => k <= n /\ Matches p (removed k)
              /\ forall k', k' <= n -> Matches p (removed k') ->
                            match l with Shortest => k <= k' | Longest => k' <= k end
  | None => forall k, k <= n -> ~ Matches p (removed k)
  end.
Proof.
  destruct (find _ _) as [k|] eqn:F.
  - unfold trim_lengths in F.
    destruct l; [apply find_seq in F | apply find_rev_seq in F]; destruct F as (H1 & H2 & H3);
      rewrite pmatch_iff in H2; repeat split; try lia; auto;
      intros k' Hk' Hm; (apply H3; [lia | apply pmatch_iff, Hm]).
  - intros k Hk Hm. apply pmatch_iff in Hm. rewrite (find_none _ _ F k) in Hm; [discriminate|].
    unfold trim_lengths. destruct l; [|apply -> in_rev]; apply in_seq; lia.
Qed.

Lemma undecimal_snoc D d : undecimal (D ++ [d]) = (10 * undecimal D + (d - 48))%N.
Proof. unfold undecimal. rewrite fold_left_app. reflexivity. Qed.

Lemma decimal_go_S f n acc :
  decimal_go (S f) n acc
  = if N.eqb (n / 10) 0 then (48 + n mod 10)%N :: acc
    else decimal_go f (n / 10) ((48 + n mod 10)%N :: acc).
Proof. reflexivity. Qed.

(* fuel [f] is enough for a positive number of at most [f] binary digits *)
Lemma decimal_go_spec : forall f n acc,
  (0 < n < 2 ^ N.of_nat f)%N ->
  exists D, decimal_go f n acc = D ++ acc /\ undecimal D = n
            /\ forallb is_digit D = true /\ D <> [].
Proof.
  induction f as [|f IH]; intros n acc Hn; [cbn in Hn; lia|].
  rewrite decimal_go_S.
  pose proof (N.mod_upper_bound n 10 ltac:(lia)) as Hm.
  pose proof (N.div_mod n 10 ltac:(lia)) as Hdm.
  set (m := (n mod 10)%N) in *. set (q := (n / 10)%N) in *.
  set (d := (48 + m)%N).
  assert (Hd : is_digit d = true).
  { unfold is_digit, d. apply andb_true_iff; split; apply N.leb_le; lia. }
  assert (Hdv : (d - 48 = m)%N) by (unfold d; lia).
  destruct (N.eqb_spec q 0) as [E|E].
  - exists [d]. split; [reflexivity|]. split; [|split; [|discriminate]].
    + unfold undecimal. cbn [fold_left]. rewrite Hdv. lia.
    + cbn [forallb]. rewrite Hd. reflexivity.
  - assert (Hq : (0 < q < 2 ^ N.of_nat f)%N).
    { rewrite Nat2N.inj_succ, N.pow_succ_r' in Hn.
      set (X := (2 ^ N.of_nat f)%N) in *. lia. }
    destruct (IH q (d :: acc) Hq) as [D [H1 [H2 [H3 H4]]]].
    exists (D ++ [d]). rewrite H1, <- app_assoc. split; [reflexivity|]. split; [|split].
    + rewrite undecimal_snoc, H2, Hdv. lia.
    + rewrite forallb_app, H3. cbn [forallb]. rewrite Hd. reflexivity.
    + destruct D; discriminate.
Qed.
