(* C01 — on the core of the word language the specification always defines
   the result (fields or an error): SUnspec does not occur. *)
From Yv Require Import Common.Base C01.Model C01.Spec C01.ProofsSplit C01.ProofsWord.

(* Besides "not SUnspec": the environment that comes out is still scalar.
   ${x=w} changes the environment, and the units that follow are evaluated in
   the environment it leaves, so the hypothesis [scalar_env] has to travel along. *)
Definition defined {B} (s : sres B) : Prop :=
  match s with
  | SOk _ e' => scalar_env e' = true
  | SErr _ => True
  | SUnspec => False
  end.

(* definedness goes through each sequencing step of the specification *)
Lemma defined_bind {B D} (s : sres B) (k : B -> env -> sres D) :
  defined s -> (forall b e', scalar_env e' = true -> defined (k b e')) ->
  defined (match s with SOk b e' => k b e' | SErr x => SErr x | SUnspec => SUnspec end).
Proof. destruct s; cbn; auto. Qed.

Lemma top_defined {T} (sem : T -> env -> sres (list pfield)) is_empty t e :
  scalar_env e = true -> defined (sem t e) -> defined (top_or_empty sem is_empty t e).
Proof. unfold top_or_empty. destruct (is_empty t); auto. Qed.

Lemma assoc_scalar k l : 
  forallb (fun kv : str * varval => match snd kv with Scalar _ => true | Array _ => false end) l = true ->
  match assoc k l with Some (Array _) => False | _ => True end.
Proof.
  induction l as [|[k' v] l IH]; cbn; [auto|]. intros H. apply andb_true_iff in H as [H1 H2].
  destruct (str_eqb k k').
  - destruct v; [exact I|discriminate].
  - apply IH. exact H2.
Qed.

Lemma scalar_env_assign e name s : scalar_env e = true -> scalar_env (assign_scalar e name s) = true.
Proof.
  unfold scalar_env, assign_scalar; cbn [vars]. generalize (vars e) as l.
  induction l as [|[k v] l IH]; cbn; [auto|]. intros H. apply andb_true_iff in H as [H1 H2].
  destruct (str_eqb name k); cbn; [exact H2|]. rewrite H1, IH; auto.
Qed.

Lemma ifs_value_defined e : scalar_env e = true -> exists iv, ifs_value e = Some iv.
Proof.
  intros H. unfold ifs_value. pose proof (assoc_scalar IFS_name _ H) as A.
  destruct (assoc IFS_name (vars e)) as [[s|l]|]; [eauto|contradiction|eauto].
Qed.

Lemma param_value_defined e p :
  scalar_env e = true -> param_simple p = true -> exists v, param_value e p = Some v.
Proof.
  intros H Hp. destruct p as [n|[|i]| | |]; cbn in *; try discriminate; eauto.
  - pose proof (assoc_scalar n _ H) as A.
    destruct (assoc n (vars e)) as [[s|l]|]; [eauto|contradiction|eauto].
  - destruct (nth_error (positional e) i); eauto.
Qed.

Lemma param_plain_defined p dq v e : scalar_env e = true -> defined (param_plain p dq v e).
Proof.
  intros H. destruct v as [|s|l]; cbn; auto.
  destruct p, dq; cbn; auto.
  destruct (ifs_value_defined e H) as [iv ->]. exact H.
Qed.

Lemma nonlist_param_pstate e p v :
  param_value e p = Some v -> negb (is_list_param p) = true -> pstate_of v <> None.
Proof.
  intros Hv Hl. destruct v as [|[|c s]|l]; cbn; try discriminate.
  exfalso. destruct p as [n|[|i]| | |]; cbn in *; try discriminate.
  - destruct (assoc n (vars e)) as [[s|l']|]; discriminate.
  - destruct (nth_error (positional e) i); discriminate.
Qed.

Definition tunit_defined (u : tunit) : Prop :=
  core_tunit u = true -> forall dq e, scalar_env e = true -> defined (sem_tunit dq u e).
Definition text_defined (t : text) : Prop :=
  core_text t = true -> forall dq e, scalar_env e = true -> defined (sem_text dq t e).
Definition wunit_defined (u : wunit) : Prop :=
  core_wunit u = true -> forall dq e, scalar_env e = true -> defined (sem_wunit dq u e).
Definition word_defined (w : word) : Prop :=
  core_word w = true -> forall dq e, scalar_env e = true -> defined (sem_word dq w e).
Definition modifier_defined (m : modifier) : Prop :=
  match m with MSwitch _ _ w => word_defined w | _ => True end.

Lemma param_defined p m : modifier_defined m -> tunit_defined (TParam p m).
Proof.
  intros Hm Hc dq e He. cbn [core_tunit] in Hc. apply andb_true_iff in Hc as [Hp Hc].
  cbn [sem_tunit]. destruct (param_value_defined e p He Hp) as [v Hv]. rewrite Hv.
  pose proof (param_plain_defined p dq v e He) as Hplain.
  destruct m as [| |a colon w|s l w]; cbn [modifier_defined] in Hm.
  - destruct v; try exact Hplain. destruct (nounset e); [exact I|exact Hplain].
  - pose proof (nonlist_param_pstate e p v Hv Hc) as Hl.
    destruct v as [|s|l]; cbn; [destruct (nounset e); [exact I|exact He] | exact He | cbn in Hl; congruence].
  - (* switch, by the entry of the POSIX table *)
    apply andb_true_iff in Hc as [Hlp Hw].
    pose proof (nonlist_param_pstate e p v Hv Hlp) as Hl.
    destruct (pstate_of v) as [st|]; [|congruence].
    pose proof (top_defined (sem_word dq) word_is_empty w e He (Hm Hw dq e He)) as D.
    destruct (posix_table a colon st).
    + exact Hplain.
    + apply defined_bind; [exact D|]. auto.
    + exact He.
    + destruct p; try exact I. apply defined_bind; [exact D|]. intros fs e' He'.
      destruct (ifs_value_defined e' He') as [iv ->]. cbn. apply scalar_env_assign, He'.
    + destruct (word_is_empty w); [exact I|]. apply defined_bind; [exact (Hm Hw false e He)|]. intros; exact I.
  - discriminate.
Qed.

Lemma core_defined_all :
  (forall u, tunit_defined u) /\ (forall t, text_defined t) /\ (forall m, modifier_defined m)
  /\ (forall u, wunit_defined u) /\ (forall w, word_defined w).
Proof.
  apply ast_mutind.
  - intros c _ dq e He. exact He.
  - intros c _ dq e He. exact He.
  - intros p m Hm. apply param_defined, Hm.
  - intros raw _ dq e He. exact He.
  - intros t Ht v Hc dq e He. cbn [core_tunit] in Hc. cbn [sem_tunit].
    apply defined_bind; [apply top_defined, Ht; assumption|]. auto.
  - intros _ dq e He. exact He.
  - intros u Hu t Ht Hc dq e He. cbn [core_text] in Hc. apply andb_true_iff in Hc as [H1 H2].
    cbn [sem_text]. apply defined_bind; [apply Hu; assumption|]. intros a e1 He1.
    apply defined_bind; [apply Ht; assumption|]. auto.
  - exact I.
  - exact I.
  - intros a colon w Hw. exact Hw.
  - intros; exact I.
  - intros u Hu Hc dq e He. cbn in *. apply Hu; assumption.
  - intros s _ dq e He. exact He.
  - intros t Ht Hc dq e He. cbn [core_wunit] in Hc. cbn [sem_wunit].
    apply defined_bind; [apply top_defined, Ht; assumption|]. auto.
  - intros s _ dq e He. exact He.
  - intros home slash _ dq e He. exact He.
  - intros _ dq e He. exact He.
  - intros u Hu w Hw Hc dq e He. cbn [core_word] in Hc. apply andb_true_iff in Hc as [H1 H2].
    cbn [sem_word]. apply defined_bind; [apply Hu; assumption|]. intros a e1 He1.
    apply defined_bind; [apply Hw; assumption|]. auto.
Qed.

Lemma all_some_split (is_ws : N -> bool) ic (pfs : list pfield) :
  all_some (map (split_spec (tok_class is_ws ic)) pfs) <> None.
Proof.
  induction pfs as [|pf pfs IH]; [discriminate|]. cbn.
  destruct (split_spec_total (tok_class is_ws ic) pf) as [fs ->].
  destruct (all_some (map (split_spec (tok_class is_ws ic)) pfs)); [discriminate|congruence].
Qed.
