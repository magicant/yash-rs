(* C01 — here-document bodies (expand_text): texts made of literal characters
   and backslash escapes only.

   A here-document with a quoted delimiter (<<'EOF', <<\EOF) is a text of
   literal characters only; in one with an unquoted delimiter the characters
   that are not part of an expansion are literal characters and the escapes
   \$ \` \\ (TBs).  XCU 2.7.4: no expansion at all in the first case; in the
   second the backslash of an escape is removed and every other character —
   the double and the single quote included — stands for itself.  The result is one string: no
   field splitting, no joining, whatever IFS is. *)
From Yv Require Import Common.Base C01.Model C01.Spec C01.ProofsWord.

(* the string a text of literal characters and escapes stands for; None if the
   text contains an expansion *)
Fixpoint plain_value (t : text) : option str :=
  match t with
  | TNil => Some []
  | TCons (TLit c) t' => option_map (cons c) (plain_value t')
  | TCons (TBs c) t' => option_map (cons c) (plain_value t')
  | TCons _ _ => None
  end.

(* a text of literal characters only (what the parser makes of a here-document
   with a quoted delimiter: Text::from_literal_chars) *)
Fixpoint literal_text (s : str) : text :=
  match s with
  | [] => TNil
  | c :: r => TCons (TLit c) (literal_text r)
  end.

(* the one field of a phrase; the unit counts as the empty field *)
Definition sole_field (p : phrase) : option field :=
  match p with
  | Char c => Some [c]
  | Field f => Some f
  | Full [] => Some []
  | Full (_ :: _) => None
  end.

Lemma sole_field_append : forall acc ph f g,
  sole_field acc = Some f -> sole_field ph = Some g -> sole_field (append acc ph) = Some (f ++ g).
Proof.
  intros acc ph f g Ha Hp. destruct acc as [l | l | [| a r]], ph as [r' | r' | [| b r']]; cbn in *;
    try discriminate; injection Ha as <-; injection Hp as <-; rewrite ?app_nil_r; reflexivity.
Qed.

Lemma sole_field_ifs_join : forall p f iv, sole_field p = Some f -> ifs_join p iv = f.
Proof.
  intros p f iv H. destruct p as [l | l | [| a r]]; cbn in *; try discriminate;
    injection H as <-; reflexivity.
Qed.

Lemma rqs_app : forall a b,
  remove_quotes_and_strip (a ++ b) = remove_quotes_and_strip a ++ remove_quotes_and_strip b.
Proof.
  intros a b. unfold remove_quotes_and_strip, strip, skip_quotes.
  rewrite filter_app, map_app. reflexivity.
Qed.

Lemma expand_text_go_plain : forall ws t s acc f e v,
  plain_value t = Some s -> sole_field acc = Some f -> v = remove_quotes_and_strip f ++ s ->
  exists ph f', expand_text_go ws t acc e = Ok ph e /\ sole_field ph = Some f'
    /\ remove_quotes_and_strip f' = v.
Proof.
  intros ws t. induction t as [| u t' IH]; intros s acc f e v Hp Ha ->.
  - cbn in Hp. injection Hp as <-. exists acc, f. cbn. rewrite app_nil_r. auto.
  - destruct u as [c | c | p m | raw | ta v]; cbn in Hp; try discriminate;
      (destruct (plain_value t') as [s' |]; cbn in Hp; [| discriminate]; injection Hp as <-;
       cbn [expand_text_go expand_tunit];
       eapply IH; [reflexivity | eapply sole_field_append; [exact Ha | reflexivity] |];
       rewrite rqs_app, <- app_assoc; reflexivity).
Qed.

Lemma plain_value_literal_text : forall s, plain_value (literal_text s) = Some s.
Proof. induction s as [| c r IH]; cbn; [| rewrite IH]; reflexivity. Qed.

(* non-vacuity: the here-document line  a DQ BACKSLASH DQ BACKSLASH-DOLLAR x SQ  (DQ, SQ
   = double, single quote: both quotes and the backslash before DQ are literal,
   BACKSLASH-DOLLAR is an escape), under IFS = a and nounset *)
Example ex_plain_text :
  let t := TCons (TLit 97) (TCons (TLit 34) (TCons (TLit 92) (TCons (TLit 34)
           (TCons (TBs 36) (TCons (TLit 120) (TCons (TLit 39) TNil)))))) in
  let e := mkEnv [(IFS_name, Scalar [97%N])] [] true in
  plain_value t = Some [97; 34; 92; 34; 36; 120; 39]%N
  /\ expand_text_single t e = Ok [97; 34; 92; 34; 36; 120; 39]%N e
  /\ spec_text_single t e = SOk [97; 34; 92; 34; 36; 120; 39]%N e.
Proof. cbn. repeat split. Qed.
