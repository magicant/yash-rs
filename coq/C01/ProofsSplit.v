(* C01 — field splitting.  The recursive descent [Fields] is studied over an
   arbitrary classification [cls]; the [Ranges] machine is tied to it by reading
   each machine state as "what the descent still has to read" ([pending],
   [consumed], [machine_specS]).  The consequences of [SplitSpec] (nothing lost,
   no empty field without a delimiter, ...) are proved on the descent alone and
   reach the machine through [machine_eq_spec].  Last, [classify_attr] with the
   precomputed [non_whitespaces] is [spec_class]. *)
From Yv Require Import Common.Base C01.Model C01.Spec.

(* removing a trailing run: rev (drop (rev s)) by recursion on s.  Shared by
   trailing IFS white space ([strip_trailing_W], ProofsRead) and trailing
   newlines ([trim_end_newlines], ProofsWord). *)
Section StripEnd.
  Context {A : Type} (p : A -> bool) (drop : list A -> list A).
  Hypothesis drop_nil : drop [] = [].
  Hypothesis drop_cons : forall c r, drop (c :: r) = if p c then drop r else c :: r.

  Lemma drop_snoc m c :
    drop (m ++ [c]) = match drop m with
                      | [] => if p c then [] else [c]
                      | d => d ++ [c]
                      end.
  Proof.
    induction m as [|a m IH]; cbn [app]; rewrite !drop_cons, ?drop_nil; [reflexivity|].
    destruct (p a); [exact IH|reflexivity].
  Qed.

  Lemma strip_end_cons c r :
    rev (drop (rev (c :: r)))
    = match rev (drop (rev r)) with
      | [] => if p c then [] else [c]
      | s => c :: s
      end.
  Proof.
    cbn [rev]. rewrite drop_snoc. destruct (drop (rev r)) as [|d m].
    - destruct (p c); reflexivity.
    - rewrite rev_app_distr. cbn [rev app].
      destruct (rev m ++ [d]) eqn:E; [|reflexivity]. destruct (rev m); discriminate.
  Qed.
End StripEnd.

Section SpecFacts.
  Context {A : Type}.
  Variable cls : A -> class.

  Notation isN := (isN cls).
  Notation isW := (isW cls).
  Notation isD := (isD cls).
  Notation dropW := (dropW cls).
  Notation dropD := (dropD cls).
  Notation spanN := (spanN cls).
  Notation eat_delim := (eat_delim cls).
  Notation Fields := (Fields cls).

  (* what each function of the descent does, by the class of the first character *)
  Lemma dropW_cons a l :
    dropW (a :: l) = match cls a with IfsWhitespace => dropW l | _ => a :: l end.
  Proof. cbn. unfold Spec.isW. destruct (cls a); reflexivity. Qed.

  Lemma spanN_cons a l :
    spanN (a :: l) = match cls a with
                     | NonIfs => (a :: fst (spanN l), snd (spanN l))
                     | _ => ([], a :: l)
                     end.
  Proof. cbn. unfold Spec.isN. destruct (cls a), (spanN l); reflexivity. Qed.

  Lemma dropD_cons a l :
    dropD (a :: l) = match cls a with IfsNonWhitespace => l | _ => a :: l end.
  Proof. cbn. unfold Spec.isD. destruct (cls a); reflexivity. Qed.

  Lemma eat_delim_cons a l :
    eat_delim (a :: l) = match cls a with
                         | NonIfs => a :: l
                         | IfsWhitespace => eat_delim l
                         | IfsNonWhitespace => dropW l
                         end.
  Proof.
    unfold Spec.eat_delim. rewrite dropW_cons.
    destruct (cls a) eqn:E; rewrite ?dropD_cons, ?E, ?dropW_cons, ?E; reflexivity.
  Qed.

  Lemma filter_isN_cons a l :
    filter isN (a :: l) = match cls a with NonIfs => a :: filter isN l | _ => filter isN l end.
  Proof. cbn. unfold Spec.isN. destruct (cls a); reflexivity. Qed.

  Lemma dropW_idem l : dropW (dropW l) = dropW l.
  Proof.
    induction l as [|a l IH]; [reflexivity|]. rewrite dropW_cons.
    destruct (cls a) eqn:E; try exact IH; rewrite dropW_cons, E; reflexivity.
  Qed.

  Lemma dropW_head l : match dropW l with [] => True | b :: _ => isW b = false end.
  Proof.
    induction l as [|a l IH]; cbn; [exact I|].
    destruct (isW a) eqn:E; [exact IH | exact E].
  Qed.

  Lemma eat_delim_head l : match eat_delim l with [] => True | b :: _ => isW b = false end.
  Proof. apply dropW_head. Qed.

  (* [dropW l] and [eat_delim l] are what is left of [l] after a prefix without
     non-IFS characters: seen through [length], [filter isN] and [forallb q] *)
  Lemma length_dropW l : length (dropW l) <= length l.
  Proof.
    induction l as [|a l IH]; [reflexivity|]. rewrite dropW_cons. destruct (cls a); cbn; lia.
  Qed.

  Lemma length_eat_delim l : length (eat_delim l) <= length l.
  Proof.
    induction l as [|a l IH]; [reflexivity|]. rewrite eat_delim_cons.
    pose proof (length_dropW l). destruct (cls a); cbn; lia.
  Qed.

  Lemma filter_isN_dropW l : filter isN (dropW l) = filter isN l.
  Proof.
    induction l as [|a l IH]; [reflexivity|]. rewrite dropW_cons.
    destruct (cls a) eqn:E; try reflexivity. rewrite filter_isN_cons, E. exact IH.
  Qed.

  Lemma filter_isN_eat_delim l : filter isN (eat_delim l) = filter isN l.
  Proof.
    induction l as [|a l IH]; [reflexivity|]. rewrite eat_delim_cons.
    destruct (cls a) eqn:E; [reflexivity| |]; rewrite filter_isN_cons, E;
      [exact IH | apply filter_isN_dropW].
  Qed.

  Lemma forallb_dropW (q : A -> bool) l : forallb q l = true -> forallb q (dropW l) = true.
  Proof.
    induction l as [|a l IH]; [auto|]. rewrite dropW_cons. destruct (cls a); auto.
    cbn. rewrite andb_true_iff. tauto.
  Qed.

  Lemma forallb_eat_delim (q : A -> bool) l : forallb q l = true -> forallb q (eat_delim l) = true.
  Proof.
    induction l as [|a l IH]; [auto|]. rewrite eat_delim_cons. destruct (cls a); auto;
      cbn; rewrite andb_true_iff; intros [_ H]; auto using forallb_dropW.
  Qed.

  Lemma spanN_spec l : forall f rest,
    spanN l = (f, rest) ->
    l = f ++ rest /\ forallb isN f = true
    /\ match rest with [] => True | b :: _ => isN b = false end.
  Proof.
    induction l as [|a l IH]; intros f rest; [intros [= <- <-]; repeat split|].
    rewrite spanN_cons. destruct (cls a) eqn:E; intros [= <- <-].
    2,3: repeat split; unfold Spec.isN; rewrite E; reflexivity.
    destruct (IH _ _ (surjective_pairing _)) as (IH1 & IH2 & IH3).
    cbn [app forallb]. unfold Spec.isN at 1. rewrite E, <- IH1. auto.
  Qed.

  Lemma spanN_app l f rest : spanN l = (f, rest) -> l = f ++ rest.
  Proof. apply spanN_spec. Qed.

  Lemma spanN_all l f rest : spanN l = (f, rest) -> forallb isN f = true.
  Proof. apply spanN_spec. Qed.

  Lemma spanN_rest l f rest :
    spanN l = (f, rest) -> match rest with [] => True | b :: _ => isN b = false end.
  Proof. apply spanN_spec. Qed.

  Lemma spanN_run run l :
    forallb isN run = true -> spanN (run ++ l) = (run ++ fst (spanN l), snd (spanN l)).
  Proof.
    induction run as [|a run IH]; cbn [app forallb]; [destruct (spanN l); reflexivity|].
    rewrite andb_true_iff, spanN_cons. unfold Spec.isN at 1. intros [Ha Hr].
    destruct (cls a); try discriminate. rewrite (IH Hr). reflexivity.
  Qed.

  (* why [length l] is enough fuel for [fields_opt] *)
  Lemma spanN_progress a l f rest :
    spanN (a :: l) = (f, rest) -> length (eat_delim rest) < length (a :: l).
  Proof.
    rewrite spanN_cons. destruct (cls a) eqn:E; intros [= <- <-].
    - pose proof (spanN_app l _ _ (surjective_pairing _)) as El. apply (f_equal (@length A)) in El.
      rewrite app_length in El. pose proof (length_eat_delim (snd (spanN l))). cbn. lia.
    - rewrite eat_delim_cons, E. pose proof (length_eat_delim l). cbn. lia.
    - rewrite eat_delim_cons, E. pose proof (length_dropW l). cbn. lia.
  Qed.

  Lemma Fields_fun l fs1 : Fields l fs1 -> forall fs2, Fields l fs2 -> fs1 = fs2.
  Proof.
    induction 1 as [|a l f rest fs Hs Hf IH]; inversion 1 as [|? ? f' rest' fs' Hs' Hf']; subst.
    - reflexivity.
    - rewrite Hs in Hs'. injection Hs' as <- <-. f_equal. apply IH, Hf'.
  Qed.

  Lemma fields_opt_Fields fuel : forall l,
    length l <= fuel -> exists fs, fields_opt cls fuel l = Some fs /\ Fields l fs.
  Proof.
    induction fuel as [|n IH]; intros [|a l] Hl;
      try (exists []; split; [reflexivity|constructor]); [cbn in Hl; lia|].
    cbn [fields_opt]. destruct (spanN (a :: l)) as [f rest] eqn:E.
    destruct (IH (eat_delim rest)) as (fs & H1 & H2).
    { pose proof (spanN_progress _ _ _ _ E). cbn in *. lia. }
    exists (f :: fs). rewrite H1. split; [reflexivity | econstructor; eassumption].
  Qed.

  Lemma split_spec_iff l fs : split_spec cls l = Some fs <-> SplitSpec cls l fs.
  Proof.
    unfold split_spec, SplitSpec.
    destruct (fields_opt_Fields (length l) (dropW l) (length_dropW l)) as (fs' & -> & H).
    split; [intros [= <-]; exact H | intros H'; f_equal; exact (Fields_fun _ _ H _ H')].
  Qed.

  Lemma split_spec_total l : exists fs, split_spec cls l = Some fs.
  Proof.
    destruct (fields_opt_Fields (length l) (dropW l) (length_dropW l)) as (fs & H & _).
    exists fs. exact H.
  Qed.

  Lemma filter_all_true (p : A -> bool) l : forallb p l = true -> filter p l = l.
  Proof.
    induction l as [|a l IH]; cbn; [reflexivity|].
    intros H. apply andb_true_iff in H as [Ha Hl]. rewrite Ha, IH; auto.
  Qed.

  Lemma SplitSpec_concat l fs : SplitSpec cls l fs -> concat fs = filter isN l.
  Proof.
    unfold SplitSpec. rewrite <- filter_isN_dropW.
    induction 1 as [|a l' f rest fs Hs Hf IH]; [reflexivity|].
    cbn [concat]. rewrite IH, filter_isN_eat_delim, (spanN_app _ _ _ Hs), filter_app.
    rewrite (filter_all_true _ _ (spanN_all _ _ _ Hs)). reflexivity.
  Qed.

  Lemma SplitSpec_all_nonifs l fs :
    SplitSpec cls l fs -> Forall (fun f => forallb isN f = true) fs.
  Proof. induction 1; constructor; eauto using spanN_all. Qed.

  (* [dropW_head]/[eat_delim_head] is the invariant: every recursive call of
     the descent starts on a character that is not white space *)
  Lemma SplitSpec_no_empty l fs :
    forallb (fun a => negb (isD a)) l = true -> SplitSpec cls l fs -> Forall (fun f => f <> []) fs.
  Proof.
    unfold SplitSpec. intros HD H. apply forallb_dropW in HD. pose proof (dropW_head l) as Hh.
    induction H as [|a l' f rest fs Hs Hf IH]; constructor.
    - (* [a] is neither white space nor a delimiter: it starts the field *)
      rewrite spanN_cons in Hs. cbn in HD. apply andb_true_iff in HD as [Ha _].
      unfold Spec.isW, Spec.isD in *. destruct (cls a); try discriminate.
      injection Hs as <- _. discriminate.
    - apply IH; [|apply eat_delim_head]. apply forallb_eat_delim.
      rewrite (spanN_app _ _ _ Hs), forallb_app, andb_true_iff in HD. apply HD.
  Qed.

  Lemma SplitSpec_single l : l <> [] -> forallb isN l = true -> SplitSpec cls l [l].
  Proof.
    unfold SplitSpec. intros Hne HN. destruct l as [|a l]; [congruence|].
    pose proof (spanN_run _ [] HN) as Hs. cbn [Spec.spanN fst snd] in Hs. rewrite !app_nil_r in Hs.
    cbn in HN. apply andb_true_iff in HN as [Ha _]. unfold Spec.isN in Ha.
    rewrite dropW_cons. destruct (cls a); try discriminate.
    econstructor; [exact Hs | constructor].
  Qed.

  (* The fields together with the input that was left when each of them
     started (needed for the remainder rule of [read]). *)
  Inductive FieldsS : list A -> list (list A * list A) -> Prop :=
  | FieldsS_nil : FieldsS [] []
  | FieldsS_cons a l f rest fs :
      spanN (a :: l) = (f, rest) ->
      FieldsS (eat_delim rest) fs ->
      FieldsS (a :: l) ((f, a :: l) :: fs).

  Lemma FieldsS_Fields l ps : FieldsS l ps -> Fields l (map fst ps).
  Proof. induction 1; cbn [map fst]; econstructor; eassumption. Qed.

  (* what a range cuts out of the text, and the text from its start on *)
  Definition outS (full : list A) (rs : list (nat * nat)) : list (list A * list A) :=
    map (fun r => (slice full r, skipn (fst r) full)) rs.

  Lemma out_range (q r x : list A) :
    (slice (q ++ r ++ x) (length q, length (q ++ r)), skipn (length q) (q ++ r ++ x)) = (r, r ++ x).
  Proof.
    unfold slice; cbn [fst snd]. rewrite app_length, Nat.add_comm, Nat.add_sub.
    rewrite skipn_app, skipn_all, Nat.sub_diag. cbn [skipn app].
    rewrite firstn_app, firstn_all, Nat.sub_diag. cbn [firstn]. rewrite app_nil_r. reflexivity.
  Qed.

  Lemma slice_map {B} (g : A -> B) l r : slice (map g l) r = map g (slice l r).
  Proof. unfold slice. rewrite skipn_map, firstn_map. reflexivity. Qed.

  (* What the descent still has to read when the machine is in state [st] in
     front of [l]; [run] holds the characters of the field in progress. *)
  Definition pending (st : rstate) (run l : list A) : list A :=
    match st with
    | Midfield _ => run ++ l
    | AfterIfsWhitespace => eat_delim l
    | AfterIfsNonWhitespace => dropW l
    end.

  (* The machine has consumed [p ++ run]; in the middle of a field, [run] is
     that field so far and begins where the state says.  (In the other two
     states the division of the consumed text into [p] and [run] is immaterial.) *)
  Definition consumed (st : rstate) (p run : list A) : Prop :=
    match st with
    | Midfield s => s = length p /\ run <> [] /\ forallb isN run = true
    | _ => True
    end.

  (* the field in progress ends in front of [l] *)
  Lemma FieldsS_emit p run l fs :
    run <> [] -> forallb isN run = true -> spanN l = ([], l) ->
    FieldsS (eat_delim l) fs ->
    FieldsS (run ++ l)
      ((slice (p ++ run ++ l) (length p, length (p ++ run)), skipn (length p) (p ++ run ++ l)) :: fs).
  Proof.
    intros Hne HN Hl Hfs. rewrite out_range.
    pose proof (spanN_run run l HN) as Hs. rewrite Hl, app_nil_r in Hs.
    destruct run; [congruence|]. econstructor; eassumption.
  Qed.

  (* The ranges the machine still yields, cut out of the text, are the fields
     of what the descent still has to read. *)
  Lemma machine_specS full : forall l st i p run,
    full = p ++ run ++ l -> i = length (p ++ run) -> consumed st p run ->
    FieldsS (pending st run l) (outS full (ranges_go st i (map cls l))).
  Proof.
    induction l as [|a l IH]; intros st i p run Hfull Hi H.
    - subst. destruct st; try constructor. destruct H as (-> & Hne & HN).
      apply FieldsS_emit; try assumption; constructor.
    - (* [a] is consumed: it joins the field in progress, comes after it, or begins one *)
      assert (Join : forall st', consumed st' p (run ++ [a]) ->
        FieldsS (pending st' (run ++ [a]) l) (outS full (ranges_go st' (S i) (map cls l)))).
      { intros st'. apply IH; subst; [rewrite <- app_assoc; reflexivity | rewrite !app_length; cbn; lia]. }
      pose proof (Join AfterIfsWhitespace I) as AfterW.
      pose proof (Join AfterIfsNonWhitespace I) as AfterD.
      assert (Begin : cls a = NonIfs ->
        FieldsS (a :: l) (outS full (ranges_go (Midfield i) (S i) (map cls l)))).
      { intros E. apply (IH (Midfield i) _ (p ++ run) [a]); subst;
          [rewrite <- app_assoc; reflexivity | rewrite !app_length; cbn; lia |].
        repeat split; [discriminate|]. cbn. unfold Spec.isN. rewrite E. reflexivity. }
      unfold outS in *. cbn [map pending] in *.
      (* outside a field nothing is yielded and one of the three facts above applies *)
      destruct (cls a) eqn:E, st as [s| |]; cbn [ranges_go pending map fst];
        rewrite ?eat_delim_cons, ?dropW_cons, ?E; auto.
      2, 3: (* white space or a delimiter ends the field *)
        (destruct H as (-> & Hne & HN); subst full i;
         apply FieldsS_emit; rewrite ?spanN_cons, ?eat_delim_cons, ?E; auto).
      + (* the field goes on *)
        specialize (Join (Midfield s)). cbn [pending] in Join. rewrite <- app_assoc in Join. apply Join.
        destruct H as (-> & Hne & HN). repeat split; [destruct run; discriminate|].
        rewrite forallb_app, HN. cbn. unfold Spec.isN. rewrite E. reflexivity.
      + (* a delimiter at the start or right after another one: an empty field *)
        pose proof (out_range (p ++ run) [] (a :: l)) as O.
        rewrite app_nil_r, <- app_assoc in O. cbn [app] in O. rewrite <- Hfull, <- Hi in O. rewrite O.
        econstructor; [rewrite spanN_cons, E; reflexivity | rewrite eat_delim_cons, E; auto].
  Qed.

  Lemma machine_eq_specS l :
    FieldsS (dropW l) (outS l (ranges_go AfterIfsNonWhitespace 0 (map cls l))).
  Proof. apply (machine_specS l l AfterIfsNonWhitespace 0 [] []); reflexivity || exact I. Qed.

  Lemma machine_eq_spec l :
    SplitSpec cls l (map (slice l) (ranges_go AfterIfsNonWhitespace 0 (map cls l))).
  Proof.
    pose proof (FieldsS_Fields _ _ (machine_eq_specS l)) as H.
    unfold outS in H. rewrite map_map in H. exact H.
  Qed.

  (* ranges are well formed: no slice can panic *)
  Lemma ranges_go_ok : forall l st i n,
    i + length l <= n ->
    match st with Midfield s => s <= i | _ => True end ->
    forallb (range_ok n) (ranges_go st i l) = true.
  Proof.
    induction l as [|c l IH]; intros st i n Hn Hst.
    - destruct st; cbn; [|reflexivity|reflexivity].
      unfold range_ok; cbn. rewrite andb_true_r. apply andb_true_iff; split; apply Nat.leb_le; cbn in Hn; lia.
    - cbn [length] in Hn.
      destruct st, c; cbn [ranges_go forallb];
        rewrite ?IH by (cbn; lia); rewrite ?andb_true_r; try reflexivity;
        unfold range_ok; cbn [fst snd]; apply andb_true_iff; split; apply Nat.leb_le; lia.
  Qed.
End SpecFacts.

(* IFS classification: the code's two [contains] tests = the definition *)
Section Classify.
  Variable is_ws : N -> bool.

  Lemma find_idx_spec p s :
    match find_idx p s with
    | Some i => filter p (firstn i s) = [] /\ exists c r, skipn i s = c :: r /\ p c = true
    | None => filter p s = []
    end.
  Proof.
    induction s as [|c s IH]; cbn; [reflexivity|].
    destruct (p c) eqn:Ec; [split; [reflexivity | exists c, s; auto]|].
    destruct (find_idx p s); cbn; rewrite ?Ec; exact IH.
  Qed.

  Lemma filter_negb_all (p : N -> bool) s : filter p s = [] -> filter (fun c => negb (p c)) s = s.
  Proof.
    induction s as [|c s IH]; cbn; [reflexivity|].
    destruct (p c); [discriminate|]. cbn. intros H; rewrite IH; auto.
  Qed.

  (* a filter may skip to the first hit; the opposite filter copies up to it *)
  Lemma filter_from_idx (p : N -> bool) s :
    filter p s = match find_idx p s with Some i => filter p (skipn i s) | None => [] end.
  Proof.
    pose proof (find_idx_spec p s) as H. destruct (find_idx p s) as [i|]; [|exact H].
    rewrite <- (firstn_skipn i s) at 1. rewrite filter_app, (proj1 H). reflexivity.
  Qed.

  Lemma filter_negb_to_idx (p : N -> bool) s :
    filter (fun c => negb (p c)) s
    = match find_idx p s with
      | Some i => firstn i s ++ filter (fun c => negb (p c)) (skipn i s)
      | None => s
      end.
  Proof.
    pose proof (find_idx_spec p s) as H. destruct (find_idx p s) as [i|]; [|exact (filter_negb_all p s H)].
    rewrite <- (firstn_skipn i s) at 1. rewrite filter_app, (filter_negb_all p _ (proj1 H)). reflexivity.
  Qed.

  (* the hand-optimised [non_whitespaces] is just a filter: it skips the
     leading white space, copies the run without white space that follows,
     skips the white space after it and filters only the rest *)
  Lemma non_whitespaces_filter s : non_whitespaces is_ws s = filter (not_ws is_ws) s.
  Proof.
    unfold non_whitespaces, not_ws. rewrite (filter_from_idx _ s).
    destruct (find_idx _ s) as [start|]; [|reflexivity]. cbv zeta. generalize (skipn start s) as s1. intros s1.
    rewrite (filter_negb_to_idx is_ws s1).
    destruct (find_idx is_ws s1) as [len|]; [|reflexivity]. generalize (skipn len s1) as s2. intros s2.
    rewrite (filter_from_idx _ s2).
    destruct (find_idx _ s2) as [start2|]; [reflexivity|symmetry; apply app_nil_r].
  Qed.

  Lemma contains_filter p s c : contains (filter p s) c = contains s c && p c.
  Proof.
    unfold contains. induction s as [|d s IH]; cbn [filter existsb]; [reflexivity|].
    destruct (p d) eqn:Ed; cbn [existsb]; rewrite IH; destruct (N.eqb_spec c d) as [->|Hn]; cbn [orb andb];
      rewrite ?Ed, ?andb_false_r; reflexivity.
  Qed.

  Lemma classify_attr_spec ic c :
    classify_attr (ifs_new is_ws ic) c = spec_class is_ws ic c.
  Proof.
    unfold classify_attr, spec_class, protected, classify, is_ifs, is_ifs_non_whitespace, ifs_new.
    cbn [ifs_chars ifs_non_whitespaces].
    rewrite non_whitespaces_filter, contains_filter. unfold contains, not_ws.
    destruct (origin_of c), (is_quoted c), (is_quoting c); cbn; try reflexivity.
    destruct (existsb (N.eqb (value c)) ic); cbn; [|reflexivity].
    destruct (is_ws (value c)); reflexivity.
  Qed.
End Classify.

Lemma protected_nonifs is_ws ic c : protected c = true -> isN (spec_class is_ws ic) c = true.
Proof. unfold isN, spec_class. intros ->. reflexivity. Qed.

Lemma filter_filter_imp {A} (p q : A -> bool) l :
  (forall a, p a = true -> q a = true) -> filter p (filter q l) = filter p l.
Proof.
  intros H. induction l as [|a l IH]; cbn; [reflexivity|].
  destruct (q a) eqn:Eq; cbn.
  - destruct (p a); rewrite IH; reflexivity.
  - destruct (p a) eqn:Ep; [rewrite (H _ Ep) in Eq; discriminate|exact IH].
Qed.

(* the test by which the oracle compares lists of fields *)
Lemma attrchar_eqb_eq a b : attrchar_eqb a b = true <-> a = b.
Proof.
  unfold attrchar_eqb. destruct a as [v1 o1 q1 g1], b as [v2 o2 q2 g2]; cbn.
  rewrite !andb_true_iff, N.eqb_eq, !eqb_true_iff. split.
  - intros [[[-> Ho] ->] ->]. destruct o1, o2; cbn in Ho; congruence.
  - intros [= -> -> -> ->]. destruct o2; cbn; auto.
Qed.

Lemma fields_eqb_eq (a b : list field) : fields_eqb a b = true <-> a = b.
Proof. apply list_eqb_spec. intros x y. apply list_eqb_spec, attrchar_eqb_eq. Qed.
