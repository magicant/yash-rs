(* C01 — re-exports the Proofs* files; examples showing that the hypotheses
   of the implication-shaped theorems of Properties.v can be met (and what
   happens when they are not). *)
From Yv Require Import Common.Base C01.Model C01.Spec.
From Yv Require Export C01.ProofsSplit C01.ProofsPhrase C01.ProofsParam C01.ProofsWord C01.ProofsRead C01.ProofsCore C01.ProofsTrim C01.ProofsText.

Definition sp (c : N) : attrchar := AC c SoftExpansion false false.
Definition qu (c : N) : attrchar := AC c SoftExpansion true false.

(* quoted_never_split: a non-empty protected string exists and contains an IFS character *)
Example ex_quoted_never_split :
  let chars := [qu 97; qu 32; qu 98] in
  chars <> [] /\ forallb protected chars = true
  /\ split (ifs_new rust_is_ws [32%N]) chars = [chars].
Proof. cbn. repeat split; discriminate. Qed.

(* the same characters unquoted are split *)
Example ex_unquoted_split :
  split (ifs_new rust_is_ws [32%N]) [sp 97; sp 32; sp 98] = [[sp 97]; [sp 98]].
Proof. reflexivity. Qed.

(* empty_field_needs_delimiter: hypothesis holds for an input that is split *)
Example ex_no_delimiter :
  let chars := [sp 32; sp 97; sp 32; sp 32; sp 98] in
  forallb (fun c => negb (isD (spec_class rust_is_ws [32; 58]%N) c)) chars = true
  /\ length (split (ifs_new rust_is_ws [32; 58]%N) chars) = 2.
Proof. cbn. split; reflexivity. Qed.

(* ... and fails for one that has an empty field *)
Example ex_empty_field :
  split (ifs_new rust_is_ws [32; 58]%N) [sp 97; sp 58; sp 58; sp 98] = [[sp 97]; []; [sp 98]].
Proof. reflexivity. Qed.

(* param_forms_select: every state is the state of some value *)
Example ex_value_states :
  value_state None = Some Unset /\ value_state (Some (Scalar [])) = Some SetNull
  /\ value_state (Some (Scalar [97%N])) = Some SetNotNull.
Proof. repeat split. Qed.

(* glue_field_count: both sides non-empty; glue_unit: one side empty *)
Example ex_glue :
  glue [[1]; [2]] [[3]; [4]] = [[1]; [2; 3]; [4]] /\ glue [[1]] ([] : list (list nat)) = [[1]].
Proof. split; reflexivity. Qed.

(* nounset_error_iff, nounset_trim_unset: an environment with nounset and an unset parameter *)
Example ex_nounset :
  let e := mkEnv [] [] true in
  nounset e = true /\ resolve e (PVar [117%N]) = None
  /\ expand_tunit true (TParam (PVar [117%N]) MNone) e = Err EUnset
  /\ expand_tunit true (TParam PAt MNone) e = Ok (Full []) e.
Proof. cbn. repeat split. Qed.

(* switch_never_unset_error: the hypothesis is satisfiable (the nested word raises it) *)
Example ex_switch_nested_unset :
  let e := mkEnv [] [] true in
  let w := WCons (WUnq (TParam (PVar [118%N]) MNone)) WNil in
  expand_tunit true (TParam (PVar [117%N]) (MSwitch Default false w)) e = Err EUnset.
Proof. reflexivity. Qed.

(* expand_model_eq_spec: the specification defines fields, zero fields and errors *)
Definition ex_env : env :=
  mkEnv [([120%N], Scalar [97; 32; 98]%N); (IFS_name, Scalar [32; 58]%N)] [[49%N]; []; [50; 58; 51]%N] false.
Definition ex_var (n : N) : tunit := TParam (PVar [n]) MNone.

Example ex_spec_fields :
  (* $x"$@" with x='a b', IFS=' :', $1='1' $2='' $3='2:3' *)
  spec_word_fields rust_is_ws
    (WCons (WUnq (ex_var 120)) (WCons (WDq (TCons (TParam PAt MNone) TNil)) WNil)) ex_env
  = SOk [[97%N]; [98; 49]%N; []; [50; 58; 51]%N] ex_env.
Proof. reflexivity. Qed.

Example ex_spec_error :
  spec_word_fields rust_is_ws
    (WCons (WUnq (TParam (PVar [117%N]) (MSwitch Error false WNil))) WNil) ex_env
  = SErr EVacant.
Proof. reflexivity. Qed.

Example ex_spec_zero_fields :
  (* "$@" without positional parameters: no field at all *)
  spec_word_fields rust_is_ws (WCons (WDq (TCons (TParam PAt MNone) TNil)) WNil)
    (mkEnv [] [] false) = SOk [] (mkEnv [] [] false).
Proof. reflexivity. Qed.

(* spec_defined_on_core: a core word with a nested switch in a scalar environment *)
Example ex_core :
  core_word (WCons (WUnq (TParam (PVar [117%N])
               (MSwitch Assign true (WCons (WDq (TCons (TParam PStar MNone) TNil)) WNil)))) WNil) = true
  /\ scalar_env ex_env = true.
Proof. split; reflexivity. Qed.

(* read: the remainder rule at work *)
Example ex_read :
  read_assign (ifs_new rust_is_ws [32; 58]%N) (map sp [49; 32; 50; 32; 58; 32; 51; 32]%N) 1
  = Some [[49%N]; [50; 32; 58; 32; 51]%N].
Proof. reflexivity. Qed.

(* trim: the four forms on a concrete value (a*b against "aXbYb") *)
Example ex_trim :
  let p := [PNormal 97; PNormal 42; PNormal 98]%N in
  let v := [97; 88; 98; 89; 98]%N in
  trim_value Prefix Shortest p v = [89; 98]%N /\ trim_value Prefix Longest p v = []
  /\ trim_value Suffix Shortest p [88; 97; 98; 97; 98]%N = [88; 97; 98]%N
  /\ trim_value Suffix Longest p [88; 97; 98; 97; 98]%N = [88%N].
Proof. repeat split. Qed.
