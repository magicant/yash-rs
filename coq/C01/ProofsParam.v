(* C01 — parameters: the model's lookup against the specification's; the
   switch table; the tail of ParamRef::expand. *)
From Yv Require Import Common.Base C01.Model C01.Spec.

(* The specification reads a parameter as a [pvalue] and IFS as an optional
   string; the model looks both up as [option varval]. *)
Definition to_mv (v : pvalue) : option varval :=
  match v with
  | PVUnset => None
  | PVScalar s => Some (Scalar s)
  | PVList l => Some (Array l)
  end.

Lemma resolve_param_value e p v : param_value e p = Some v -> resolve e p = to_mv v.
Proof.
  destruct p as [n|[|i]| | |]; cbn; unfold lookup; try (intros [= <-]; reflexivity).
  - destruct (assoc n (vars e)) as [[s|l]|]; intros [= <-]; reflexivity.
  - destruct (nth_error (positional e) i); intros [= <-]; reflexivity.
Qed.

Lemma ifs_var_value e iv : ifs_value e = Some iv -> ifs_var e = option_map Scalar iv.
Proof.
  unfold ifs_value, ifs_var, lookup. destruct (assoc IFS_name (vars e)) as [[s|l]|]; intros [= <-]; reflexivity.
Qed.

Lemma env_ifs_value is_ws e iv :
  ifs_value e = Some iv -> env_ifs is_ws e = ifs_new is_ws (splitting_chars iv).
Proof.
  intros H. unfold env_ifs. rewrite (ifs_var_value _ _ H). destruct iv; reflexivity.
Qed.

Lemma value_state_to_mv v : value_state (to_mv v) = pstate_of v.
Proof. destruct v as [|[|c s]|l]; reflexivity. Qed.

(* only a list is the value of the parameter [*] *)
Lemma star_value e p v :
  param_value e p = Some v -> match v with PVList _ => True | _ => is_star p = false end.
Proof. destruct p; try (destruct v; reflexivity || exact (fun _ => I)). intros [= <-]. exact I. Qed.

Lemma switch_decide_posix_table a colon v st :
  value_state v = Some st ->
  decision_outcome st (switch_decide a (value_condition_with colon (vacancy_of v)))
  = posix_table a colon st.
Proof.
  destruct v as [[[|c s]|l]|]; cbn; intros H; inversion H; subst;
    destruct a, colon; reflexivity.
Qed.

Definition is_switch (m : modifier) : bool :=
  match m with MSwitch _ _ _ => true | _ => false end.

(* the tail of ParamRef::expand never fails, and joins only the parameter [*] *)
Lemma finish_param_not_err ws p v e k : finish_param ws p v e <> Err k.
Proof. unfold finish_param. destruct (negb ws && is_star p); discriminate. Qed.

Lemma finish_param_not_star ws p v e :
  is_star p = false -> finish_param ws p v e = Ok (into_phrase v) e.
Proof. unfold finish_param. intros ->. rewrite andb_false_r. reflexivity. Qed.
