(* C01 — the model of the whole word expansion refines the specification:
   wherever the specification defines the result (fields or error), the model
   produces exactly that.  Attributed characters are mapped to the
   specification's tokens by [tok_of]; one mutual induction over the syntax
   ([expand_refines_sem_all]) shows that the phrase the model builds, seen
   through [tok_of], is the list of token fields of the specification; splitting,
   joining and quote removal commute with [tok_of]. *)
From Yv Require Import Common.Base C01.Model C01.Spec C01.ProofsSplit C01.ProofsPhrase C01.ProofsParam.

(* The model's result [r] is what the specification's [s] prescribes, as far
   as it prescribes anything; the values are compared through [R]. *)
Definition refines {A B} (R : A -> B -> Prop) (r : res A) (s : sres B) : Prop :=
  match s with
  | SOk b e' => exists a, r = Ok a e' /\ R a b
  | SErr k => r = Err k
  | SUnspec => True
  end.

Lemma refines_ok {A B} (R : A -> B -> Prop) a b e : R a b -> refines R (Ok a e) (SOk b e).
Proof. intros H. exists a. auto. Qed.

(* Model and specification are written in the same monadic style; refinement
   goes through each sequencing step. *)
Lemma refines_bind {A B C D} (R : A -> B -> Prop) (Q : C -> D -> Prop) r s k k' :
  refines R r s -> (forall a b e, R a b -> refines Q (k a e) (k' b e)) ->
  refines Q (match r with Ok a e => k a e | Err x => Err x end)
            (match s with SOk b e => k' b e | SErr x => SErr x | SUnspec => SUnspec end).
Proof.
  destruct s as [b e|x|]; cbn; [intros (a & -> & H) K; exact (K a b e H) | intros -> _; reflexivity | trivial].
Qed.

Lemma refines_map {A B C D} (R : A -> B -> Prop) (Q : C -> D -> Prop) (g : A -> C) (f : B -> D) r s :
  refines R r s -> (forall a b, R a b -> Q (g a) (f b)) ->
  refines Q (match r with Ok a e => Ok (g a) e | Err x => Err x end)
            (match s with SOk b e => SOk (f b) e | SErr x => SErr x | SUnspec => SUnspec end).
Proof.
  intros H K. apply (refines_bind R Q _ _ (fun a e => Ok (g a) e) (fun b e => SOk (f b) e) H).
  intros; apply refines_ok; auto.
Qed.

Lemma refines_post {A B D} (R : A -> B -> Prop) (Q : A -> D -> Prop) (f : B -> D) r s :
  refines R r s -> (forall a b, R a b -> Q a (f b)) ->
  refines Q r (match s with SOk b e => SOk (f b) e | SErr x => SErr x | SUnspec => SUnspec end).
Proof. destruct s; cbn; [intros (a' & -> & H) K; exists a'; auto | auto | auto]. Qed.

Lemma refines_eq {A} (r : res A) s :
  refines eq r s ->
  match s with SOk b e' => r = Ok b e' | SErr k => r = Err k | SUnspec => True end.
Proof. destruct s; cbn; [intros (a' & -> & ->); reflexivity | auto | auto]. Qed.

(* The token an attributed character stands for.  A quoting character,
   whatever its value (quote, escaping backslash, the $ of $'...', the dummy
   quote of an empty tilde expansion), becomes the mark [TQ]; origin Literal /
   SoftExpansion is the flag [expanded] of [TC], HardExpansion is [TH]. *)
Definition tok_of (c : attrchar) : tok :=
  if is_quoting c then TQ
  else match origin_of c with
       | HardExpansion => TH (value c) (is_quoted c)
       | Literal => TC (value c) (is_quoted c) false
       | SoftExpansion => TC (value c) (is_quoted c) true
       end.

Definition field_toks (f : field) : pfield := map tok_of f.
Definition phrase_toks (p : phrase) : list pfield := map field_toks (phrase_fields p).

(* a phrase stands for what the specification yields after the fields [pre] *)
Definition agree_from (pre : list pfield) : res phrase -> sres (list pfield) -> Prop :=
  refines (fun ph pfs => phrase_toks ph = glue pre pfs).
Notation agree := (agree_from []).

(* the tokens of a phrase, through each phrase operation *)
Lemma phrase_toks_append a b : phrase_toks (append a b) = glue (phrase_toks a) (phrase_toks b).
Proof. unfold phrase_toks. rewrite phrase_fields_append. apply glue_map. Qed.

Lemma tok_of_set_quoted c : tok_of (set_quoted c) = tok_quote (tok_of c).
Proof. unfold tok_of, set_quoted; cbn. destruct (is_quoting c), (origin_of c); reflexivity. Qed.

Lemma field_toks_quote_field f : field_toks (quote_field f) = quote_pfield (field_toks f).
Proof.
  unfold field_toks, quote_field, quote_pfield. cbn [map]. rewrite map_app, !map_map. cbn.
  f_equal. f_equal. apply map_ext, tok_of_set_quoted.
Qed.

Lemma phrase_toks_double_quote p : phrase_toks (double_quote p) = map quote_pfield (phrase_toks p).
Proof.
  unfold phrase_toks. rewrite phrase_fields_double_quote, !map_map. apply map_ext, field_toks_quote_field.
Qed.

Lemma tok_of_attribute_char c : tok_of (attribute_char c) = tok_expanded (tok_of c).
Proof. unfold tok_of, attribute_char. destruct c as [v [] q []]; reflexivity. Qed.

Lemma phrase_toks_attribute p : phrase_toks (attribute p) = map (map tok_expanded) (phrase_toks p).
Proof.
  unfold phrase_toks, attribute. rewrite phrase_fields_map, !map_map. apply map_ext. intros f.
  unfold field_toks. rewrite !map_map. apply map_ext, tok_of_attribute_char.
Qed.

Lemma field_toks_to_field s : field_toks (to_field s) = value_toks s.
Proof. unfold field_toks, to_field, value_toks. rewrite map_map. reflexivity. Qed.

Lemma phrase_toks_scalar s : phrase_toks (Field (to_field s)) = [value_toks s].
Proof. unfold phrase_toks. cbn. rewrite field_toks_to_field. reflexivity. Qed.

Lemma chars_of_field_toks f : chars_of (field_toks f) = remove_quotes_and_strip f.
Proof.
  unfold chars_of, field_toks, remove_quotes_and_strip, strip, skip_quotes.
  induction f as [|c f IH]; [reflexivity|]. cbn. unfold tok_of at 1.
  destruct (is_quoting c), (origin_of c); cbn; rewrite IH; reflexivity.
Qed.

Lemma chars_of_expanded pf : chars_of (map tok_expanded pf) = chars_of pf.
Proof.
  unfold chars_of. induction pf as [|t pf IH]; [reflexivity|]. cbn. rewrite IH. destruct t; reflexivity.
Qed.

Lemma field_toks_separator iv : field_toks (separator_list (option_map Scalar iv)) = star_separator iv.
Proof. destruct iv as [[|c s]|]; reflexivity. Qed.

Lemma field_toks_ifs_join p e iv :
  ifs_value e = Some iv ->
  field_toks (ifs_join p (ifs_var e)) = join_with (star_separator iv) (phrase_toks p).
Proof.
  intros H. rewrite (ifs_var_value _ _ H), ifs_join_spec.
  unfold field_toks. rewrite join_with_map. fold field_toks. rewrite field_toks_separator. reflexivity.
Qed.

(* the value an assignment switch stores *)
Lemma assigned_value ph e iv :
  ifs_value e = Some iv ->
  remove_quotes_and_strip (ifs_join (attribute ph) (ifs_var e))
  = chars_of (join_with (star_separator iv) (phrase_toks ph)).
Proof.
  intros Ei. rewrite <- chars_of_field_toks, (field_toks_ifs_join _ _ _ Ei), phrase_toks_attribute.
  replace (star_separator iv) with (map tok_expanded (star_separator iv)) at 1
    by (destruct iv as [[|c s]|]; reflexivity).
  rewrite <- join_with_map. apply chars_of_expanded.
Qed.

(* One step of the model (escapes applied, then pattern characters) and one
   step of the specification, in the same shape: a quoting character is
   dropped; another one is literal iff quoted or escaped, and an unquoted
   backslash that is not the last character escapes the next one. *)
Lemma to_pattern_escapes_cons q c r :
  to_pattern_chars (apply_escapes_go q (c :: r))
  = if is_quoting c then to_pattern_chars (apply_escapes_go false r)
    else let q1 := is_quoted c || q in
         let pc := if q1 then PLiteral (value c) else PNormal (value c) in
         match r with
         | [] => [pc]
         | _ :: _ => if N.eqb (value c) 92 && negb q1 then to_pattern_chars (apply_escapes_go true r)
                     else pc :: to_pattern_chars (apply_escapes_go false r)
         end.
Proof.
  destruct c as [v o [] []], q, r as [|d r]; try reflexivity;
    cbn [apply_escapes_go value is_quoting is_quoted origin_of negb andb orb];
    rewrite ?andb_false_r, ?andb_true_r; try reflexivity; destruct (N.eqb v 92); reflexivity.
Qed.

Lemma tok_pattern_tok_of_cons q c r :
  tok_pattern q (tok_of c :: r)
  = if is_quoting c then tok_pattern false r
    else let q1 := is_quoted c || q in
         let pc := if q1 then PLiteral (value c) else PNormal (value c) in
         match r with
         | [] => [pc]
         | _ :: _ => if N.eqb (value c) 92 && negb q1 then tok_pattern true r
                     else pc :: tok_pattern false r
         end.
Proof. unfold tok_of. destruct (is_quoting c); [reflexivity|]. destruct (origin_of c); reflexivity. Qed.

Lemma pattern_field_toks q f :
  to_pattern_chars (apply_escapes_go q f) = tok_pattern q (field_toks f).
Proof.
  revert q; induction f as [|c f IH]; intros q; [reflexivity|].
  change (field_toks (c :: f)) with (tok_of c :: field_toks f).
  rewrite to_pattern_escapes_cons, tok_pattern_tok_of_cons, !IH. destruct f; reflexivity.
Qed.

Lemma phrase_toks_into_phrase v :
  phrase_toks (into_phrase (to_mv v))
  = match v with PVUnset => [[]] | PVScalar s => [value_toks s] | PVList l => map value_toks l end.
Proof.
  destruct v; [reflexivity | apply phrase_toks_scalar |].
  unfold phrase_toks. cbn. rewrite map_map. apply map_ext, field_toks_to_field.
Qed.

Lemma finish_param_agree ws p v e :
  param_value e p = Some v ->
  agree (finish_param ws p (to_mv v) e) (param_plain p (negb ws) v e).
Proof.
  intros Hv. pose proof (star_value _ _ _ Hv) as Hs. unfold param_plain.
  destruct v as [|s|l];
    [rewrite (finish_param_not_star _ _ _ _ Hs); apply refines_ok, (phrase_toks_into_phrase PVUnset)
    |rewrite (finish_param_not_star _ _ _ _ Hs); apply refines_ok, (phrase_toks_into_phrase (PVScalar s))|].
  unfold finish_param.
  destruct p, ws; cbn [is_star negb andb]; try apply refines_ok, (phrase_toks_into_phrase (PVList l)).
  (* "$*": joined *)
  destruct (ifs_value e) as [iv|] eqn:Ei; [|exact I]. apply refines_ok.
  unfold phrase_toks at 1. cbn [phrase_fields map].
  rewrite (field_toks_ifs_join _ _ _ Ei), (phrase_toks_into_phrase (PVList l)). reflexivity.
Qed.

Lemma drop_newlines_cons c r :
  drop_newlines (c :: r) = if N.eqb c 10 then drop_newlines r else c :: r.
Proof.
  destruct (N.eqb_spec c 10) as [->|Hc]; [reflexivity|].
  (* the definition matches on the numeral 10: go through the binary digits of [c] *)
  destruct c as [|q]; [reflexivity|]. cbn.
  repeat (match goal with q : positive |- _ => destruct q; try reflexivity end); congruence.
Qed.

Lemma trim_end_newlines_eq s : trim_end_newlines s = strip_newlines s.
Proof.
  unfold trim_end_newlines. induction s as [|c r IH]; [reflexivity|].
  rewrite (strip_end_cons (fun c => N.eqb c 10) drop_newlines eq_refl drop_newlines_cons), IH.
  reflexivity.
Qed.

Scheme tunit_mut := Induction for tunit Sort Prop
with text_mut := Induction for text Sort Prop
with modifier_mut := Induction for modifier Sort Prop
with wunit_mut := Induction for wunit Sort Prop
with word_mut := Induction for word Sort Prop.
Combined Scheme ast_mutind from tunit_mut, text_mut, modifier_mut, wunit_mut, word_mut.

(* The model's flag [ws] (Env::will_split) is false exactly inside double
   quotes, the specification's [dq]: hence [negb ws].  The accumulator of the
   [_go] functions has no counterpart in the specification: [agree_from] puts
   its fields in front. *)
Definition tunit_agrees (u : tunit) : Prop :=
  forall ws e, agree (expand_tunit ws u e) (sem_tunit (negb ws) u e).
Definition text_agrees (t : text) : Prop :=
  forall ws e acc, agree_from (phrase_toks acc) (expand_text_go ws t acc e) (sem_text (negb ws) t e).
Definition wunit_agrees (u : wunit) : Prop :=
  forall ws e, agree (expand_wunit ws u e) (sem_wunit (negb ws) u e).
Definition word_agrees (w : word) : Prop :=
  forall ws e acc, agree_from (phrase_toks acc) (expand_word_go ws w acc e) (sem_word (negb ws) w e).
Definition modifier_agrees (m : modifier) : Prop :=
  match m with
  | MSwitch _ _ w | MTrim _ _ w => word_agrees w
  | _ => True
  end.

(* a text or word on its own: one empty field if it is empty, else its units
   appended to zero fields *)
Lemma top_agree {T} (go : T -> phrase -> env -> res phrase) (sem : T -> env -> sres (list pfield))
    is_empty t e :
  agree (go t zero_fields e) (sem t e) ->
  agree (expand_slice go is_empty t e) (top_or_empty sem is_empty t e).
Proof.
  unfold expand_slice, top_or_empty. destruct (is_empty t); [|auto]. intros _. apply refines_ok. reflexivity.
Qed.

(* a unit followed by the rest of the text or word: the accumulated phrase
   grows by [append] where the specification glues the two results *)
Lemma seq_agree acc r1 s1 (go : phrase -> env -> res phrase) (sem : env -> sres (list pfield)) :
  agree r1 s1 -> (forall acc' e', agree_from (phrase_toks acc') (go acc' e') (sem e')) ->
  agree_from (phrase_toks acc)
    (match r1 with Ok ph e' => go (append acc ph) e' | Err k => Err k end)
    (match s1 with
     | SOk a e' => match sem e' with
                   | SOk b e'' => SOk (glue a b) e'' | SErr k => SErr k | SUnspec => SUnspec
                   end
     | SErr k => SErr k
     | SUnspec => SUnspec
     end).
Proof.
  intros H1 H2. eapply refines_bind; [exact H1|]. intros ph a e1 Ha.
  eapply refines_post; [apply H2|]. intros ph2 b Hb. cbn in *.
  rewrite Hb, phrase_toks_append, Ha. apply glue_associative.
Qed.

Lemma param_agree p m : modifier_agrees m -> tunit_agrees (TParam p m).
Proof.
  intros Hm ws e. cbn [sem_tunit expand_tunit].
  destruct (param_value e p) as [v|] eqn:Hv; [|exact I].
  rewrite (resolve_param_value _ _ _ Hv).
  pose proof (finish_param_agree ws p v e Hv) as Hfin.
  pose proof (star_value _ _ _ Hv) as Hs.
  destruct m as [| |a colon w|s l w]; cbn [modifier_agrees] in Hm.
  - (* no modifier *)
    destruct v; cbn [to_mv] in *; try exact Hfin.
    destruct (nounset e); [reflexivity|exact Hfin].
  - (* length *)
    destruct v as [|s|l]; cbn [to_mv]; [destruct (nounset e); [reflexivity|] | | exact I];
      rewrite (finish_param_not_star _ _ _ _ Hs); apply refines_ok, phrase_toks_scalar.
  - (* switch: the decision taken is the entry of the POSIX table *)
    destruct (pstate_of v) as [st|] eqn:Hst; [|exact I].
    rewrite <- (switch_decide_posix_table a colon (to_mv v) st)
      by (rewrite value_state_to_mv; exact Hst).
    pose proof (top_agree _ _ word_is_empty w e (Hm ws e zero_fields)) as Hw.
    destruct (switch_decide a (value_condition_with colon (vacancy_of (to_mv v))));
      cbn [decision_outcome].
    + (* the parameter's own value *)
      destruct st; [exact Hfin| |]; destruct v as [|[|c s]|l]; try discriminate; exact Hfin.
    + (* the word *)
      eapply refines_map; [exact Hw|]. intros ph pfs Ha. cbn in *.
      rewrite phrase_toks_attribute, Ha. reflexivity.
    + (* assignment *)
      destruct p as [name|i| | |]; cbn [is_variable]; try reflexivity.
      eapply refines_bind; [exact Hw|]. intros ph pfs e' Ha. cbn in Ha. subst pfs.
      destruct (ifs_value e') as [iv|] eqn:Ei; [|exact I]. cbv zeta.
      rewrite (assigned_value _ _ _ Ei). apply refines_ok, phrase_toks_scalar.
    + (* error: the message word is expanded first *)
      destruct (word_is_empty w); [reflexivity|].
      eapply refines_bind; [exact (Hm true e zero_fields)|]. reflexivity.
  - (* trim *)
    destruct v as [|val|lst]; cbn [to_mv] in *;
      [destruct (nounset e); [reflexivity|exact Hfin] | | exact I].
    eapply refines_bind; [exact (top_agree _ _ word_is_empty w e (Hm ws e zero_fields))|].
    intros ph pfs e' Ha. cbn in Ha. subst pfs.
    destruct (ifs_value e') as [iv|] eqn:Ei; [|exact I].
    unfold apply_escapes. rewrite pattern_field_toks, (field_toks_ifs_join _ _ _ Ei).
    destruct (forallb pchar_supported _); [|exact I].
    rewrite (finish_param_not_star _ _ _ _ Hs). apply refines_ok, phrase_toks_scalar.
Qed.

Lemma expand_refines_sem_all :
  (forall u, tunit_agrees u) /\ (forall t, text_agrees t) /\ (forall m, modifier_agrees m)
  /\ (forall u, wunit_agrees u) /\ (forall w, word_agrees w).
Proof.
  apply ast_mutind.
  - (* TLit *) intros c ws e. apply refines_ok. reflexivity.
  - (* TBs *) intros c ws e. apply refines_ok. reflexivity.
  - (* TParam *) intros p m Hm. apply param_agree; exact Hm.
  - (* TSubst *) intros raw ws e. apply refines_ok. rewrite <- trim_end_newlines_eq. apply phrase_toks_scalar.
  - (* TArith *) intros t Ht v ws e. cbn [expand_tunit sem_tunit].
    eapply refines_map; [exact (top_agree _ _ text_is_empty t e (Ht true e zero_fields))|].
    intros. apply phrase_toks_scalar.
  - (* TNil *) intros ws e acc. apply refines_ok. symmetry. apply glue_nil_r.
  - (* TCons *) intros u Hu t Ht ws e acc.
    apply (seq_agree acc _ _ (expand_text_go ws t) (sem_text (negb ws) t) (Hu ws e) (fun acc' e' => Ht ws e' acc')).
  - (* MNone *) exact I.
  - (* MLength *) exact I.
  - (* MSwitch *) intros a colon w Hw. exact Hw.
  - (* MTrim *) intros s l w Hw. exact Hw.
  - (* WUnq *) intros u Hu ws e. apply Hu.
  - (* WSq *) intros s ws e. apply refines_ok.
    unfold phrase_toks, single_quote, field_toks. cbn [phrase_fields map].
    rewrite map_app, map_map. reflexivity.
  - (* WDq *) intros t Ht ws e. cbn [expand_wunit sem_wunit].
    eapply refines_map; [exact (top_agree _ _ text_is_empty t e (Ht false e zero_fields))|].
    intros ph pfs Ha. cbn in *. rewrite phrase_toks_double_quote, Ha. reflexivity.
  - (* WDsq *) intros s ws e. apply refines_ok.
    unfold phrase_toks, dollar_single_quote, field_toks. cbn [phrase_fields map].
    rewrite map_app, map_map. reflexivity.
  - (* WTilde *) intros home slash ws e. apply refines_ok.
    unfold phrase_toks, tilde_finish, strip_suffix_slash, field_toks. cbn [phrase_fields map glue].
    destruct (if slash then match rev home with 47%N :: r => rev r | _ => home end else home);
      [reflexivity|]. rewrite map_map. reflexivity.
  - (* WNil *) intros ws e acc. apply refines_ok. symmetry. apply glue_nil_r.
  - (* WCons *) intros u Hu w Hw ws e acc.
    apply (seq_agree acc _ _ (expand_word_go ws w) (sem_word (negb ws) w) (Hu ws e) (fun acc' e' => Hw ws e' acc')).
Qed.

(* field splitting commutes with [field_toks] *)
Section FinalStage.
  Variable is_ws : N -> bool.

  Lemma tok_class_tok_of ic c : tok_class is_ws ic (tok_of c) = spec_class is_ws ic c.
  Proof.
    unfold tok_class, tok_of, spec_class, protected.
    destruct c as [v o q g]; cbn. destruct g, o, q; cbn; reflexivity.
  Qed.

  Lemma split_field_toks ic f :
    split_spec (tok_class is_ws ic) (field_toks f)
    = Some (map field_toks (split (ifs_new is_ws ic) f)).
  Proof.
    (* the machine is right for every classification: take that of the tokens *)
    apply split_spec_iff. pose proof (machine_eq_spec (tok_class is_ws ic) (map tok_of f)) as H.
    rewrite map_map, (map_ext _ _ (tok_class_tok_of ic)), <- (map_ext _ _ (classify_attr_spec is_ws ic)) in H.
    rewrite (map_ext _ _ (slice_map tok_of f)), <- (map_map (slice f) (map tok_of)) in H. exact H.
  Qed.

  Lemma all_split_field_toks ic (fs : list field) :
    all_some (map (split_spec (tok_class is_ws ic)) (map field_toks fs))
    = Some (map (fun f => map field_toks (split (ifs_new is_ws ic) f)) fs).
  Proof.
    induction fs as [|f fs IH]; [reflexivity|]. cbn [map all_some].
    rewrite split_field_toks, IH. reflexivity.
  Qed.

  Lemma concat_split_strip ic (fs : list field) :
    map chars_of (concat (map (fun f => map field_toks (split (ifs_new is_ws ic) f)) fs))
    = map remove_quotes_and_strip (flat_map (split (ifs_new is_ws ic)) fs).
  Proof.
    induction fs as [|f fs IH]; [reflexivity|]. cbn [map concat flat_map].
    rewrite !map_app, IH. f_equal. rewrite map_map. apply map_ext, chars_of_field_toks.
  Qed.

  Lemma expand_word_multiple_refines w e :
    refines eq (expand_word_multiple is_ws w e) (spec_word_fields is_ws w e).
  Proof.
    destruct expand_refines_sem_all as (_ & _ & _ & _ & Hw).
    eapply refines_bind; [exact (top_agree _ _ word_is_empty w e (Hw w true e zero_fields))|].
    intros ph pfs e' Ha. cbn in Ha. subst pfs.
    destruct (ifs_value e') as [iv|] eqn:Ei; [|exact I].
    unfold phrase_toks. rewrite all_split_field_toks. apply refines_ok.
    rewrite (env_ifs_value is_ws _ _ Ei), concat_split_strip. reflexivity.
  Qed.

  Lemma expand_words_refines ws e :
    refines eq (expand_words is_ws ws e) (spec_words_fields is_ws ws e).
  Proof.
    revert e; induction ws as [|w ws IH]; intros e; [apply refines_ok; reflexivity|].
    eapply refines_bind; [apply expand_word_multiple_refines|]. intros fs ? e' <-.
    eapply refines_map; [apply IH|]. intros fs' ? <-. reflexivity.
  Qed.
End FinalStage.

(* a word or text in a context without field splitting: joined, quotes removed *)
Lemma single_refines r s :
  agree r s ->
  refines eq
    (match r with
     | Ok ph e' => Ok (remove_quotes_and_strip (ifs_join ph (ifs_var e'))) e'
     | Err k => Err k
     end)
    (match s with
     | SOk pfs e' =>
         match ifs_value e' with
         | Some iv => SOk (chars_of (join_with (star_separator iv) pfs)) e'
         | None => SUnspec
         end
     | SErr k => SErr k
     | SUnspec => SUnspec
     end).
Proof.
  intros H. eapply refines_bind; [exact H|]. intros ph pfs e' Ha. cbn in Ha.
  destruct (ifs_value e') as [iv|] eqn:Ei; [|exact I]. apply refines_ok.
  rewrite <- chars_of_field_toks, (field_toks_ifs_join _ _ _ Ei), Ha. reflexivity.
Qed.

Lemma expand_word_single_refines w e : refines eq (expand_word_single w e) (spec_word_single w e).
Proof.
  destruct expand_refines_sem_all as (_ & _ & _ & _ & Hw).
  exact (single_refines _ _ (top_agree _ _ word_is_empty w e (Hw w true e zero_fields))).
Qed.

Lemma expand_text_single_refines t e : refines eq (expand_text_single t e) (spec_text_single t e).
Proof.
  destruct expand_refines_sem_all as (_ & Ht & _).
  exact (single_refines _ _ (top_agree _ _ text_is_empty t e (Ht t true e zero_fields))).
Qed.
