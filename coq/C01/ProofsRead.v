(* C01 — the read built-in's assignment rule (ranges + rposition) equals the
   recursive specification. *)
From Yv Require Import Common.Base C01.Model C01.Spec C01.ProofsSplit.

Section ReadFacts.
  Context {A : Type}.
  Variable cls : A -> class.

  Notation isW := (isW cls).
  Notation dropW := (dropW cls).
  Notation spanN := (spanN cls).
  Notation eat_delim := (eat_delim cls).
  Notation FieldsS := (FieldsS cls).

  (* index of the last character that is not IFS white space *)
  Fixpoint last_nonW (l : list A) : option nat :=
    match l with
    | [] => None
    | c :: r =>
        match last_nonW r with
        | Some j => Some (S j)
        | None => if isW c then None else Some O
        end
    end.

  Lemma strip_trailing_W_cons c r :
    strip_trailing_W cls (c :: r)
    = match strip_trailing_W cls r with
      | [] => if isW c then [] else [c]
      | s => c :: s
      end.
  Proof. exact (strip_end_cons isW dropW eq_refl (fun _ _ => eq_refl) c r). Qed.

  Lemma strip_last_nonW l :
    strip_trailing_W cls l = match last_nonW l with
                             | Some j => firstn (S j) l
                             | None => []
                             end.
  Proof.
    induction l as [|c r IH]; [reflexivity|]. rewrite strip_trailing_W_cons, IH. cbn [last_nonW].
    destruct (last_nonW r) as [j|] eqn:E.
    - destruct r as [|d r']; [discriminate E|]. reflexivity.
    - destruct (isW c); reflexivity.
  Qed.

  Lemma last_nonW_head a l : isW a = false -> exists j, last_nonW (a :: l) = Some j.
  Proof. intros H. cbn. destruct (last_nonW l); [eauto|]. rewrite H. eauto. Qed.

  Lemma last_nonW_app pre suf j :
    last_nonW suf = Some j -> last_nonW (pre ++ suf) = Some (length pre + j).
  Proof.
    intros H. induction pre as [|c pre IH]; [exact H|]. cbn. rewrite IH. reflexivity.
  Qed.

  Definition head_nonW (l : list A) : Prop :=
    match l with [] => False | b :: _ => isW b = false end.

  (* the range [read] gives its last variable when fields are left over: from
     the start of a field to the last character of the text that is not IFS
     white space *)
  Lemma slice_to_last_nonW text s :
    head_nonW (skipn s text) ->
    exists p, last_nonW text = Some p
              /\ slice text (s, S p) = strip_trailing_W cls (skipn s text).
  Proof.
    intros Hh. destruct (skipn s text) as [|b suf] eqn:Es; [contradiction|].
    destruct (last_nonW_head b suf Hh) as [j Hj]. exists (s + j). split.
    - rewrite <- (firstn_skipn s text), Es, (last_nonW_app _ _ _ Hj), firstn_length_le; [reflexivity|].
      destruct (Nat.le_gt_cases s (length text)) as [L|L]; [exact L|].
      rewrite skipn_all2 in Es by lia. discriminate.
    - unfold slice. cbn [fst snd]. replace (S (s + j) - s) with (S j) by lia.
      rewrite Es, strip_last_nonW, Hj. reflexivity.
  Qed.

  (* what the last variable gets, given the fields that are left and their suffixes *)
  Definition last_of (ps : list (list A * list A)) : list A :=
    match ps with
    | [] => []
    | [(f, _)] => f
    | (_, suf) :: _ :: _ => strip_trailing_W cls suf
    end.

  Lemma read_values_FieldsS n : forall l ps,
    FieldsS l ps ->
    read_values cls n l
    = map (fun k => match nth_error ps k with Some p => fst p | None => [] end) (seq 0 n)
      ++ [last_of (skipn n ps)].
  Proof.
    induction n as [|n IH]; intros l ps H.
    - destruct H as [|a l f rest fs Hs Hf]; [reflexivity|].
      cbn [read_values seq map app skipn last_value last_of]. rewrite Hs. destruct Hf; reflexivity.
    - cbn [read_values seq]. rewrite <- seq_shift. cbn [map]. rewrite map_map.
      destruct H as [|a l f rest fs Hs Hf].
      + rewrite (IH [] [] (FieldsS_nil cls)), skipn_nil. cbn [app nth_error skipn]. do 2 f_equal.
        apply map_ext. intros [|k]; reflexivity.
      + rewrite Hs, (IH _ _ Hf). reflexivity.
  Qed.

  Lemma FieldsS_heads l ps :
    match l with [] => True | b :: _ => isW b = false end ->
    FieldsS l ps -> Forall (fun p => head_nonW (snd p)) ps.
  Proof.
    intros Hh H. induction H as [|a l f rest fs Hs Hf IH]; constructor.
    - exact Hh.
    - apply IH. apply eat_delim_head.
  Qed.
End ReadFacts.

Section ReadModel.
  Variables (i : ifs) (cls : attrchar -> class).
  Hypothesis Ecls : forall c, classify_attr i c = cls c.

  Lemma rposition_go_spec l : forall k best,
    rposition_go i l k best
    = match last_nonW cls l with
      | Some j => Some (k + j)
      | None => best
      end.
  Proof.
    induction l as [|c r IH]; intros k best; [reflexivity|].
    cbn [rposition_go last_nonW]. rewrite IH, Ecls.
    destruct (last_nonW cls r) as [j|].
    - f_equal. lia.
    - unfold isW. destruct (cls c); cbn; try reflexivity; f_equal; lia.
  Qed.

  (* the range of the last variable cuts out what the specification gives it *)
  Lemma last_range_spec text rs :
    Forall (fun p => head_nonW cls (snd p)) (outS text rs) ->
    exists r0,
      match rs with
      | [] => Some (0, 0)
      | [r] => Some r
      | r :: _ :: _ =>
          match rposition_non_ws i text with
          | Some p => Some (fst r, S p)
          | None => None
          end
      end = Some r0
      /\ slice text r0 = last_of cls (outS text rs).
  Proof.
    intros Hh. destruct rs as [|r [|r2 rest]]; [eexists; split; reflexivity ..|].
    (* fields are left over *)
    inversion Hh as [|x xs Hx _]; subst.
    destruct (slice_to_last_nonW cls text (fst r) Hx) as (p & Hp & Hsl).
    unfold rposition_non_ws. rewrite rposition_go_spec, Hp. eexists; split; [reflexivity|exact Hsl].
  Qed.

  Lemma read_assign_spec text n :
    read_assign i text n = Some (map remove_quotes_and_strip (read_spec cls n text)).
  Proof.
    pose proof (machine_eq_specS cls text) as HF.
    unfold read_spec. rewrite (read_values_FieldsS cls n _ _ HF).
    unfold read_assign, ranges. rewrite (map_ext _ _ Ecls).
    set (rs := ranges_go AfterIfsNonWhitespace 0 (map cls text)) in *.
    pose proof (FieldsS_heads cls _ _ (dropW_head cls text) HF) as Hh.
    rewrite <- (firstn_skipn n rs) in Hh. unfold outS in Hh. rewrite map_app in Hh.
    apply Forall_app in Hh as [_ Hh].
    destruct (last_range_spec text (skipn n rs) Hh) as (r0 & -> & Hr0).
    unfold outS in *. rewrite skipn_map, <- Hr0, map_app, !map_map. cbn [map]. do 2 f_equal.
    apply map_ext. intros k. rewrite nth_error_map. destruct (nth_error rs k); reflexivity.
  Qed.
End ReadModel.
