(* C01 — the Phrase algebra is concatenation of lists of fields. *)
From Yv Require Import Common.Base C01.Model C01.Spec.

Section Glue.
  Context {A : Type}.
  Implicit Types a b c : list (list A).

  (* [glue] by recursion on its first argument: only the last field of [a]
     meets [b].  With [glue [] b = b] (by computation) these are the equations
     every induction below runs on. *)
  Lemma glue_cons2 x y a b : glue (x :: y :: a) b = x :: glue (y :: a) b.
  Proof. destruct b; reflexivity. Qed.

  Lemma glue_single x b : glue [x] b = match b with [] => [x] | y :: r => (x ++ y) :: r end.
  Proof. destruct b; reflexivity. Qed.

  Lemma glue_nil_r a : glue a [] = a.
  Proof. destruct a; reflexivity. Qed.

  Lemma glue_nonempty x a b : glue (x :: a) b <> [].
  Proof. destruct a; [rewrite glue_single; destruct b | rewrite glue_cons2]; discriminate. Qed.

  Lemma glue_associative a b c : glue (glue a b) c = glue a (glue b c).
  Proof.
    induction a as [|x a IH]; [reflexivity|].
    destruct a as [|y a].
    - destruct b as [|y [|y' r]]; [reflexivity| |].
      + rewrite !glue_single. destruct c; [reflexivity|]. rewrite app_assoc. reflexivity.
      + rewrite glue_single, !glue_cons2, glue_single. reflexivity.
    - rewrite !glue_cons2, <- IH.
      destruct (glue (y :: a) b) as [|g [|g' gs]] eqn:E.
      + destruct (glue_nonempty _ _ _ E).
      + rewrite !glue_single. destruct c; reflexivity.
      + rewrite !glue_cons2. reflexivity.
  Qed.
End Glue.

Lemma glue_map {A B} (g : A -> B) (a b : list (list A)) :
  map (map g) (glue a b) = glue (map (map g) a) (map (map g) b).
Proof.
  induction a as [|x a IH]; [reflexivity|].
  destruct a as [|y a].
  - rewrite glue_single. destruct b; cbn; rewrite ?map_app; reflexivity.
  - cbn [map] in *. rewrite !glue_cons2. cbn [map]. rewrite IH. reflexivity.
Qed.

Lemma join_with_map {A B} (g : A -> B) (sep : list A) (l : list (list A)) :
  map g (join_with sep l) = join_with (map g sep) (map (map g) l).
Proof.
  destruct l as [|f r]; [reflexivity|]. cbn [join_with map]. rewrite map_app. f_equal.
  induction r as [|h r IH]; [reflexivity|]. cbn. rewrite !map_app, IH. reflexivity.
Qed.

(* left_last.append(x) is [glue] with a single field *)
Lemma append_to_last_glue (lf : list field) (x : field) (rest : list field) :
  lf <> [] -> append_to_last lf x ++ rest = glue lf (x :: rest).
Proof.
  induction lf as [|f lf IH]; [congruence|]. intros _.
  destruct lf as [|g lf]; [reflexivity|].
  rewrite (glue_cons2 f g). cbn [append_to_last app]. f_equal. apply IH. discriminate.
Qed.

Lemma phrase_fields_append (a b : phrase) :
  phrase_fields (append a b) = glue (phrase_fields a) (phrase_fields b).
Proof.
  destruct a as [l|l|[|f lf]], b as [r|r|[|rfst rr]]; cbn [append phrase_fields]; try reflexivity.
  all: rewrite <- append_to_last_glue by discriminate; rewrite ?app_nil_r; reflexivity.
Qed.

Lemma fold_join (sep : field) (rest : list field) (f : field) :
  fold_left (fun result g => result ++ sep ++ g) rest f = f ++ flat_map (fun g => sep ++ g) rest.
Proof.
  revert f; induction rest as [|g rest IH]; intros f; cbn.
  - rewrite app_nil_r; reflexivity.
  - rewrite IH, <- !app_assoc. reflexivity.
Qed.

Lemma ifs_join_spec (p : phrase) (iv : option varval) :
  ifs_join p iv = join_with (separator_list iv) (phrase_fields p).
Proof.
  destruct p as [c|f|[|f [|g rest]]]; cbn [ifs_join phrase_fields join_with flat_map];
    rewrite ?app_nil_r; try reflexivity.
  apply fold_join.
Qed.

Lemma phrase_fields_map g p : phrase_fields (phrase_map g p) = map (map g) (phrase_fields p).
Proof. destruct p; reflexivity. Qed.

Lemma phrase_fields_double_quote p :
  phrase_fields (double_quote p) = map quote_field (phrase_fields p).
Proof. destruct p; reflexivity. Qed.
