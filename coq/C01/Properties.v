(* C01 — the property theorems, proved from the lemmas of the Proofs* files;
   the driver pins the statements with [Check] and prints the assumptions on
   every run. *)
From Yv Require Import Common.Base C01.Model C01.Spec C01.Proofs.

(* ---- (a) field splitting ------------------------------------------------- *)

(* the machine is right for every classification; [classify_attr] is [spec_class] *)
Theorem ranges_satisfy_split_spec :
  forall (is_ws : N -> bool) (ic : str) (chars : field),
    SplitSpec (spec_class is_ws ic) chars (split (ifs_new is_ws ic) chars).
Proof.
  intros. unfold split, ranges. rewrite (map_ext _ _ (classify_attr_spec is_ws ic)). apply machine_eq_spec.
Qed.

Theorem ranges_eq_split_spec :
  forall (is_ws : N -> bool) (ic : str) (chars : field),
    split_spec (spec_class is_ws ic) chars = Some (split (ifs_new is_ws ic) chars).
Proof. intros. apply split_spec_iff, ranges_satisfy_split_spec. Qed.

Theorem split_spec_functional :
  forall (A : Type) (cls : A -> class) (l : list A) (fs1 fs2 : list (list A)),
    SplitSpec cls l fs1 -> SplitSpec cls l fs2 -> fs1 = fs2.
Proof. intros A cls l fs1 fs2 H1 H2. exact (Fields_fun cls _ _ H1 _ H2). Qed.

Theorem split_spec_fuel_sufficient :
  forall (A : Type) (cls : A -> class) (l : list A), exists fs, split_spec cls l = Some fs.
Proof. exact @split_spec_total. Qed.

Theorem split_spec_computes_relation :
  forall (A : Type) (cls : A -> class) (l : list A) (fs : list (list A)),
    split_spec cls l = Some fs <-> SplitSpec cls l fs.
Proof. exact @split_spec_iff. Qed.

Theorem split_no_loss :
  forall (is_ws : N -> bool) (ic : str) (chars : field),
    concat (split (ifs_new is_ws ic) chars) = filter (is_nonifs is_ws ic) chars
    /\ Forall (fun f => forallb (is_nonifs is_ws ic) f = true) (split (ifs_new is_ws ic) chars).
Proof.
  intros. pose proof (ranges_satisfy_split_spec is_ws ic chars) as H.
  split; [apply (SplitSpec_concat _ _ _ H) | apply (SplitSpec_all_nonifs _ _ _ H)].
Qed.

Theorem quoted_never_removed :
  forall (is_ws : N -> bool) (ic : str) (chars : field),
    filter protected (concat (split (ifs_new is_ws ic) chars)) = filter protected chars.
Proof.
  intros. rewrite (SplitSpec_concat _ _ _ (ranges_satisfy_split_spec is_ws ic chars)).
  apply filter_filter_imp, protected_nonifs.
Qed.

Theorem quoted_never_split :
  forall (is_ws : N -> bool) (ic : str) (chars : field),
    chars <> [] -> forallb protected chars = true -> split (ifs_new is_ws ic) chars = [chars].
Proof.
  intros is_ws ic chars Hne Hall.
  apply (split_spec_functional _ _ _ _ _ (ranges_satisfy_split_spec is_ws ic chars)), SplitSpec_single; [exact Hne|].
  rewrite forallb_forall in *. intros c Hc. apply protected_nonifs, Hall, Hc.
Qed.

Theorem empty_field_needs_delimiter :
  forall (is_ws : N -> bool) (ic : str) (chars : field),
    forallb (fun c => negb (isD (spec_class is_ws ic) c)) chars = true ->
    Forall (fun f => f <> []) (split (ifs_new is_ws ic) chars).
Proof.
  intros is_ws ic chars H. exact (SplitSpec_no_empty _ _ _ H (ranges_satisfy_split_spec is_ws ic chars)).
Qed.

Theorem split_no_panic :
  forall (is_ws : N -> bool) (ic : str) (chars : field),
    split_panics (ifs_new is_ws ic) chars = false.
Proof.
  intros. unfold split_panics, ranges.
  rewrite ranges_go_ok; [reflexivity | rewrite map_length; lia | exact I].
Qed.

Theorem split_oracle_accepts_model :
  forall (is_ws : N -> bool) (ic : str) (chars : field),
    split_oracle is_ws ic chars (split (ifs_new is_ws ic) chars) = true.
Proof.
  intros. unfold split_oracle. rewrite ranges_eq_split_spec. apply fields_eqb_eq. reflexivity.
Qed.

Theorem ifs_non_whitespaces_is_filter :
  forall (is_ws : N -> bool) (s : str), non_whitespaces is_ws s = filter (not_ws is_ws) s.
Proof. exact non_whitespaces_filter. Qed.

Theorem classify_attr_eq_spec :
  forall (is_ws : N -> bool) (ic : str) (c : attrchar),
    classify_attr (ifs_new is_ws ic) c = spec_class is_ws ic c.
Proof. exact classify_attr_spec. Qed.

(* ---- (b) the Phrase algebra ------------------------------------------------ *)

Theorem phrase_append_refines_concat :
  forall a b : phrase, phrase_fields (append a b) = glue (phrase_fields a) (phrase_fields b).
Proof. exact phrase_fields_append. Qed.

Theorem glue_assoc :
  forall (A : Type) (a b c : list (list A)), glue (glue a b) c = glue a (glue b c).
Proof. exact @glue_associative. Qed.

Theorem glue_unit :
  forall (A : Type) (a : list (list A)), glue [] a = a /\ glue a [] = a.
Proof. intros. split; [reflexivity | apply glue_nil_r]. Qed.

Theorem glue_field_count :
  forall (A : Type) (a b : list (list A)),
    a <> [] -> b <> [] -> S (length (glue a b)) = length a + length b.
Proof.
  intros A a b Ha Hb. induction a as [|x a IH]; [congruence|].
  destruct a as [|y a].
  - rewrite glue_single. destruct b; [congruence|]. cbn. lia.
  - rewrite glue_cons2. specialize (IH ltac:(discriminate)). cbn [length] in *. lia.
Qed.

Theorem glue_keeps_characters :
  forall (A : Type) (a b : list (list A)), concat (glue a b) = concat a ++ concat b.
Proof.
  intros A a b. induction a as [|x a IH]; [reflexivity|].
  destruct a as [|y a].
  - rewrite glue_single. destruct b; cbn; rewrite ?app_nil_r, <- ?app_assoc; reflexivity.
  - rewrite glue_cons2. cbn [concat] in *. rewrite IH, <- !app_assoc. reflexivity.
Qed.

Theorem phrase_append_assoc :
  forall a b c : phrase,
    phrase_fields (append (append a b) c) = phrase_fields (append a (append b c)).
Proof. intros. rewrite !phrase_append_refines_concat. apply glue_assoc. Qed.

Theorem zero_fields_unit :
  forall a : phrase,
    phrase_fields (append zero_fields a) = phrase_fields a
    /\ phrase_fields (append a zero_fields) = phrase_fields a.
Proof. intros. rewrite !phrase_append_refines_concat. apply glue_unit. Qed.

Theorem ifs_join_is_join_with :
  forall (p : phrase) (iv : option varval),
    ifs_join p iv = join_with (separator_list iv) (phrase_fields p).
Proof. exact ifs_join_spec. Qed.

(* ---- (c) the switch table and nounset ------------------------------------------ *)

Theorem param_forms_select :
  forall (a : action) (colon : bool) (v : option varval) (st : pstate),
    value_state v = Some st ->
    decision_outcome st (switch_decide a (value_condition_with colon (vacancy_of v)))
    = posix_table a colon st.
Proof. exact switch_decide_posix_table. Qed.

(* parameter expansion without a nested word: nounset error exactly for an
   unset parameter *)
Theorem nounset_error_iff :
  forall (ws : bool) (p : param) (m : modifier) (e : env),
    m = MNone \/ m = MLength ->
    (expand_tunit ws (TParam p m) e = Err EUnset <-> nounset e = true /\ resolve e p = None).
Proof.
  intros ws p m e [-> | ->]; cbn [expand_tunit]; destruct (resolve e p) as [v|]; try destruct (nounset e).
  (* the parameter is set or nounset is off: the result is that of [finish_param]; both sides fail *)
  all: try (split; [intros H; destruct (finish_param_not_err _ _ _ _ _ H) | intros [? ?]; discriminate]).
  (* unset under nounset: both sides hold *)
  all: split; auto.
Qed.

(* with [nounset_error_iff]: set -u never makes $@ $* $# an error, whatever
   the positional parameters are *)
Theorem special_never_unset :
  forall (e : env) (p : param), p = PAt \/ p = PStar \/ p = PNum -> resolve e p <> None.
Proof. intros e p [-> | [-> | ->]]; discriminate. Qed.

(* a trim on an unset parameter is a nounset error; the pattern is not expanded *)
Theorem nounset_trim_unset :
  forall (ws : bool) (p : param) (s : trim_side) (l : trim_length) (w : word) (e : env),
    resolve e p = None -> nounset e = true ->
    expand_tunit ws (TParam p (MTrim s l w)) e = Err EUnset.
Proof. intros ws p s l w e H1 H2. cbn [expand_tunit]. rewrite H1, H2. reflexivity. Qed.

(* a switch never raises the nounset error for its own parameter: if one
   comes out, it came out of the expansion of the nested word *)
Theorem switch_never_unset_error :
  forall (ws : bool) (p : param) (a : action) (colon : bool) (w : word) (e : env),
    expand_tunit ws (TParam p (MSwitch a colon w)) e = Err EUnset ->
    exists ws' e', expand_word ws' w e' = Err EUnset.
Proof.
  intros ws p a colon w e. cbn [expand_tunit].
  destruct (switch_decide a (value_condition_with colon (vacancy_of (resolve e p)))).
  - intros H. destruct (finish_param_not_err _ _ _ _ _ H).
  - fold (expand_word ws w e). destruct (expand_word ws w e) eqn:E; [discriminate|].
    intros [= ->]. eauto.
  - destruct (is_variable p); [|discriminate].
    fold (expand_word ws w e). destruct (expand_word ws w e) eqn:E; [discriminate|].
    intros [= ->]. eauto.
  - destruct (word_is_empty w) eqn:Ew; [discriminate|].
    destruct (expand_word_go true w zero_fields e) eqn:E; [discriminate|].
    intros [= ->]. exists true, e. unfold expand_word, expand_slice.
    rewrite Ew. exact E.
Qed.

(* ---- (d) read ------------------------------------------------------------------------ *)

Theorem read_assign_eq_spec :
  forall (is_ws : N -> bool) (ic : str) (text : field) (n : nat),
    read_assign (ifs_new is_ws ic) text n
    = Some (map remove_quotes_and_strip (read_spec (spec_class is_ws ic) n text)).
Proof. intros. apply read_assign_spec, classify_attr_spec. Qed.

Theorem read_no_panic :
  forall (is_ws : N -> bool) (ic : str) (text : field) (n : nat),
    read_assign (ifs_new is_ws ic) text n <> None.
Proof. intros. rewrite read_assign_eq_spec. discriminate. Qed.

Theorem read_oracle_accepts_model :
  forall (is_ws : N -> bool) (iv : option str) (text : field) (n : nat) (vs : list str),
    read_assign (read_ifs is_ws iv) text n = Some vs -> read_oracle is_ws iv text n vs = true.
Proof.
  intros is_ws iv text n vs. unfold read_ifs, read_oracle.
  destruct iv; rewrite read_assign_eq_spec; intros [= <-]; apply (list_eqb_spec _ str_eqb_eq); reflexivity.
Qed.

(* ---- (e) the whole word expansion ------------------------------------------------------ *)

Theorem expand_model_eq_spec :
  forall (is_ws : N -> bool) (w : word) (e : env),
    match spec_word_fields is_ws w e with
    | SOk fs e' => expand_word_multiple is_ws w e = Ok fs e'
    | SErr k => expand_word_multiple is_ws w e = Err k
    | SUnspec => True
    end.
Proof. intros. apply refines_eq, expand_word_multiple_refines. Qed.

Theorem expand_words_eq_spec :
  forall (is_ws : N -> bool) (ws : list word) (e : env),
    match spec_words_fields is_ws ws e with
    | SOk fs e' => expand_words is_ws ws e = Ok fs e'
    | SErr k => expand_words is_ws ws e = Err k
    | SUnspec => True
    end.
Proof. intros. apply refines_eq, expand_words_refines. Qed.

Theorem expand_word_single_eq_spec :
  forall (w : word) (e : env),
    match spec_word_single w e with
    | SOk v e' => expand_word_single w e = Ok v e'
    | SErr k => expand_word_single w e = Err k
    | SUnspec => True
    end.
Proof. intros. apply refines_eq, expand_word_single_refines. Qed.

Theorem expand_text_single_eq_spec :
  forall (t : text) (e : env),
    match spec_text_single t e with
    | SOk v e' => expand_text_single t e = Ok v e'
    | SErr k => expand_text_single t e = Err k
    | SUnspec => True
    end.
Proof. intros. apply refines_eq, expand_text_single_refines. Qed.

Theorem command_subst_newlines :
  forall s : str, trim_end_newlines s = strip_newlines s.
Proof. exact trim_end_newlines_eq. Qed.

Theorem spec_defined_on_core :
  forall (is_ws : N -> bool) (w : word) (e : env),
    core_word w = true -> scalar_env e = true -> spec_word_fields is_ws w e <> SUnspec.
Proof.
  intros is_ws w e Hc He. destruct core_defined_all as (_ & _ & _ & _ & Hw).
  assert (D : defined (spec_word_fields is_ws w e)); [|intros E; rewrite E in D; exact D].
  apply defined_bind; [apply top_defined, Hw; assumption|]. intros pfs e' He'.
  destruct (ifs_value_defined e' He') as [iv ->].
  pose proof (all_some_split is_ws (splitting_chars iv) pfs) as A.
  destruct (all_some _); [exact He'|congruence].
Qed.

(* the oracle never demands more than the theorems give: it accepts what the
   model computes, for every list of commands and every environment *)
Theorem words_oracle_accepts_model :
  forall (is_ws : N -> bool) (cmds : list (list word)) (e : env),
    words_oracle is_ws cmds e (fst (run_cmds is_ws cmds e))
                 (option_map kind_code (snd (run_cmds is_ws cmds e))) = 0%N.
Proof.
  intros is_ws cmds. induction cmds as [|ws cmds IH]; intros e; [reflexivity|].
  cbn [words_oracle run_cmds].
  pose proof (expand_words_eq_spec is_ws ws e) as H.
  destruct (spec_words_fields is_ws ws e) as [fs e'|k|]; [| |reflexivity]; rewrite H.
  - specialize (IH e'). destruct (run_cmds is_ws cmds e') as [o s]. cbn [fst snd] in *.
    rewrite (proj2 (list_eqb_spec _ str_eqb_eq fs fs) eq_refl). exact IH.
  - cbn [fst snd option_map]. rewrite N.eqb_refl, orb_true_r. reflexivity.
Qed.

(* ---- trim and length modifiers ---------------------------------------------------------------- *)

Theorem pmatch_eq_matches :
  forall (p : list pchar) (s : str), pmatch p s = true <-> Matches p s.
Proof. exact pmatch_iff. Qed.

Theorem trim_value_spec :
  forall (s : trim_side) (l : trim_length) (p : list pchar) (v : str),
    TrimSpec s l p v (trim_value s l p v).
Proof.
  intros s l p v. unfold TrimSpec, trim_value.
  destruct s;
    [pose proof (find_removed (fun k => firstn k v) p l (length v)) as H
    |pose proof (find_removed (fun k => skipn (length v - k) v) p l (length v)) as H];
    cbv beta zeta in *;
    (destruct (find _ _) as [k|];
     [right; exists k; destruct H as (H1 & H2 & H3); auto | left; split; [exact H|reflexivity]]).
Qed.

Theorem decimal_correct :
  forall n : N,
    undecimal (decimal n) = n /\ forallb is_digit (decimal n) = true /\ decimal n <> [].
Proof.
  intros n. destruct (N.eq_dec n 0) as [->|Hn]; [repeat split; discriminate|].
  unfold decimal. destruct (decimal_go_spec (S (N.to_nat (N.log2 n))) n []) as (D & H1 & H2).
  - rewrite Nat2N.inj_succ, N2Nat.id. pose proof (N.log2_spec n). lia.
  - rewrite H1, app_nil_r. exact H2.
Qed.

(* ---- here-document bodies ------------------------------------------------------------------ *)

(* here-documents (XCU 2.7.4), texts of literal characters and escapes: the
   value is the characters themselves with the backslash of every escape
   removed, as ONE string, whatever IFS is, and the environment is unchanged *)
Theorem heredoc_plain_text_value :
  forall (t : text) (s : str) (e : env),
    plain_value t = Some s -> expand_text_single t e = Ok s e.
Proof.
  intros t s e Hp. unfold expand_text_single, expand_text, expand_slice.
  destruct t as [| u t'].
  - cbn in Hp. injection Hp as <-. reflexivity.
  - cbn [text_is_empty].
    destruct (expand_text_go_plain true (TCons u t') s zero_fields [] e _ Hp eq_refl eq_refl)
      as (ph & f' & Hgo & Hacc & Hr).
    rewrite Hgo, (sole_field_ifs_join _ _ _ Hacc), Hr. reflexivity.
Qed.

(* a here-document with a quoted delimiter (all characters literal): no
   expansion at all *)
Theorem heredoc_quoted_delimiter_no_expansion :
  forall (s : str) (e : env), expand_text_single (literal_text s) e = Ok s e.
Proof. intros. apply heredoc_plain_text_value, plain_value_literal_text. Qed.

(* the specification never prescribes anything else for such a text: where it
   defines the result (it does not when IFS is an array) it gives the same
   string, so the oracle demands exactly this *)
Theorem heredoc_plain_text_spec_agrees :
  forall (t : text) (s : str) (e : env),
    plain_value t = Some s ->
    spec_text_single t e = SUnspec \/ spec_text_single t e = SOk s e.
Proof.
  intros t s e Hp. pose proof (expand_text_single_eq_spec t e) as H.
  rewrite (heredoc_plain_text_value t s e Hp) in H.
  destruct (spec_text_single t e) as [v e' | k |]; [right | discriminate | left; reflexivity].
  injection H as <- <-. reflexivity.
Qed.

Print Assumptions ranges_eq_split_spec.
Print Assumptions ranges_satisfy_split_spec.
Print Assumptions split_spec_functional.
Print Assumptions split_spec_fuel_sufficient.
Print Assumptions split_spec_computes_relation.
Print Assumptions split_no_loss.
Print Assumptions quoted_never_removed.
Print Assumptions quoted_never_split.
Print Assumptions empty_field_needs_delimiter.
Print Assumptions split_no_panic.
Print Assumptions split_oracle_accepts_model.
Print Assumptions ifs_non_whitespaces_is_filter.
Print Assumptions classify_attr_eq_spec.
Print Assumptions phrase_append_refines_concat.
Print Assumptions glue_assoc.
Print Assumptions glue_unit.
Print Assumptions glue_field_count.
Print Assumptions glue_keeps_characters.
Print Assumptions phrase_append_assoc.
Print Assumptions zero_fields_unit.
Print Assumptions ifs_join_is_join_with.
Print Assumptions param_forms_select.
Print Assumptions nounset_error_iff.
Print Assumptions special_never_unset.
Print Assumptions nounset_trim_unset.
Print Assumptions switch_never_unset_error.
Print Assumptions read_assign_eq_spec.
Print Assumptions read_no_panic.
Print Assumptions read_oracle_accepts_model.
Print Assumptions expand_model_eq_spec.
Print Assumptions expand_words_eq_spec.
Print Assumptions expand_word_single_eq_spec.
Print Assumptions expand_text_single_eq_spec.
Print Assumptions command_subst_newlines.
Print Assumptions spec_defined_on_core.
Print Assumptions words_oracle_accepts_model.
Print Assumptions pmatch_eq_matches.
Print Assumptions trim_value_spec.
Print Assumptions decimal_correct.
Print Assumptions heredoc_plain_text_value.
Print Assumptions heredoc_quoted_delimiter_no_expansion.
Print Assumptions heredoc_plain_text_spec_agrees.
