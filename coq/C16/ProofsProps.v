(* C16 — properties of the model on its own terms: lookup by context index,
   pop, read-only variables, the environment, the two operations that can
   panic; and the read-only API seen through the abstraction. *)
From Yv Require Import Common.Base C16.Model C16.Spec C16.ProofsBase C16.ProofsAbs.

Lemma sim_run ops : forall s a, Inv s -> Abs s a ->
  match run s ops, srun a ops with
  | Some s', Some a' => Inv s' /\ Abs s' a'
  | None, None => True
  | _, _ => False
  end.
Proof.
  induction ops as [|o ops IH]; intros s a HI HA; cbn [run srun]; [split; assumption|].
  pose proof (sim_step s a o HI HA) as H.
  destruct (step s o) as [[s1 r]|] eqn:E1; destruct (sstep a o) as [[a1 r']|] eqn:E2; try contradiction.
  - destruct H as [HA1 _]. apply IH; [eapply inv_step; eassumption|exact HA1].
  - exact I.
Qed.

Definition at_index (st : list vic) (i : nat) : option vic :=
  find (fun p : vic => Nat.eqb (snd p) i) st.

Lemma entry_at_index s n i :
  entry s n i = match at_index (stack_of s n) i with Some (v, _) => Some v | None => None end.
Proof. reflexivity. Qed.

Lemma at_index_some st i p : at_index st i = Some p -> In p st /\ snd p = i.
Proof.
  unfold at_index. intros H. apply find_some in H. destruct H as [H1 H2].
  apply Nat.eqb_eq in H2. split; assumption.
Qed.

Lemma at_index_ge cs b st i : stack_ok cs b st -> b <= i -> at_index st i = None.
Proof.
  intros Hok Hb. destruct (at_index st i) as [[v j]|] eqn:E; [|reflexivity].
  apply at_index_some in E. destruct E as [Hin Hj]. cbn in Hj. subst j.
  pose proof (stack_ok_lt _ _ _ _ _ Hok Hin). lia.
Qed.

Lemma at_index_head v i rest : at_index ((v, i) :: rest) i = Some (v, i).
Proof. unfold at_index. cbn. rewrite Nat.eqb_refl. reflexivity. Qed.

Lemma at_index_tail v j rest i : i <> j -> at_index ((v, j) :: rest) i = at_index rest i.
Proof.
  intros H. unfold at_index. cbn.
  replace (j =? i) with false by (symmetry; apply Nat.eqb_neq; lia). reflexivity.
Qed.

Lemma at_index_below t st i : i < t -> at_index (below t st) i = at_index st i.
Proof.
  intros Hi. induction st as [|[v j] rest IH]; [reflexivity|].
  destruct (Nat.le_gt_cases t j) as [Hj|Hj].
  - rewrite below_cons_ge by exact Hj. rewrite at_index_tail by lia. exact IH.
  - rewrite below_cons_lt by exact Hj. reflexivity.
Qed.

Lemma pop_entries s s' r :
  Inv s -> step s OPop = Some (s', r) ->
  ctxs s' = removelast (ctxs s) /\
  (forall n i, i < length (ctxs s') -> entry s' n i = entry s n i) /\
  (forall n i, length (ctxs s') <= i -> entry s' n i = None) /\
  positional_params s' = positional_params (mkVS (vars s) (removelast (ctxs s))).
Proof.
  intros HI Hstep. pose proof (inv_step _ _ _ _ HI Hstep) as [_ _ Hs'].
  destruct (pop_spec _ _ _ HI Hstep) as (_ & _ & Hc & Hst).
  split; [exact Hc|]. split; [|split].
  - intros n i Hi. rewrite Hc, removelast_length in Hi.
    rewrite !entry_at_index, Hst, at_index_below by exact Hi. reflexivity.
  - intros n i Hi. rewrite entry_at_index, (at_index_ge _ _ _ i (Hs' n) Hi). reflexivity.
  - unfold positional_params. rewrite Hc. reflexivity.
Qed.

Lemma first_ro_in u w i : In (w, i) u -> is_ro w = true -> first_ro u <> None.
Proof.
  induction u as [|[v j] u IH]; cbn; [intros []|].
  intros [[= -> ->]|Hin] Hro.
  - unfold is_ro in Hro. destruct (vro w); [discriminate|discriminate].
  - destruct (vro v); [discriminate|]. apply IH; assumption.
Qed.

Lemma at_index_app u l i : at_index (u ++ l) i =
  match at_index u i with Some p => Some p | None => at_index l i end.
Proof.
  unfold at_index. induction u as [|p u IH]; cbn; [reflexivity|].
  destruct (snd p =? i); [reflexivity|exact IH].
Qed.

Lemma gon_loop_carried cs b ci r st st1 :
  stack_ok cs b st -> ci < b ->
  gon_loop cs ci (Some r) st = Some st1 ->
  exists i' rest1, st1 = (r, i') :: rest1 /\ i' < b.
Proof.
  intros Hok Hci H. destruct (gon_loop_head _ _ _ _ _ H) as (w & j & rest1 & -> & _ & Hor & Hr & _).
  rewrite (Hr r eq_refl). exists j, rest1. split; [reflexivity|].
  destruct Hor as [->|Hin]; [exact Hci|].
  apply in_map_iff in Hin. destruct Hin as ([v j'] & <- & Hin). exact (stack_ok_lt _ _ _ _ _ Hok Hin).
Qed.

(* What becomes of a read-only entry (w, i) of a stack: it is still at index
   [i], or -- only if that context is volatile -- at a lower one, with the
   same attributes. *)
Definition ro_kept (cs : list ctx) (st1 : list vic) (i : nat) (w : var) : Prop :=
  exists i' w', i' <= i /\ at_index st1 i' = Some (w', i') /\ same_attrs w' w /\
                (nth_error cs i = Some CVolatile \/ i' = i).

Lemma ro_kept_same cs st1 i w : at_index st1 i = Some (w, i) -> ro_kept cs st1 i w.
Proof.
  intros H. exists i, w. split; [lia|]. split; [exact H|]. split; [apply same_attrs_refl|right; reflexivity].
Qed.

Lemma at_index_le_head cs b v j rest i p :
  stack_ok cs b ((v, j) :: rest) -> at_index ((v, j) :: rest) i = Some p -> i <= j.
Proof.
  cbn [stack_ok]. intros (_ & H2 & _) Hl. apply at_index_some in Hl.
  destruct Hl as [[<-|Hin] <-]; [cbn; lia|].
  destruct p as [w k]. pose proof (stack_ok_lt _ _ _ _ _ H2 Hin). cbn. lia.
Qed.

Lemma gon_loop_ro cs b ci removed st st1 i w :
  stack_ok cs b st -> carry_ok removed st -> ci < b ->
  (exists ps, nth_error cs ci = Some (CRegular ps)) ->
  gon_loop cs ci removed st = Some st1 ->
  at_index st i = Some (w, i) -> is_ro w = true -> ro_kept cs st1 i w.
Proof.
  intros Hok Hc Hci [ps0 Hreg]. revert b removed Hok Hc Hci st1.
  induction st as [|[v j] rest IH]; intros b removed Hok Hc Hci st1; cbn [gon_loop].
  - intros _ H; discriminate.
  - pose proof Hok as (H1 & H2 & _).
    destruct (j <? ci) eqn:Elt.
    + apply Nat.ltb_lt in Elt. intros [= <-] Hl Hro. apply ro_kept_same.
      rewrite at_index_tail by (pose proof (at_index_le_head _ _ _ _ _ _ _ Hok Hl); lia). exact Hl.
    + apply Nat.ltb_ge in Elt.
      destruct (nth_error cs j) as [[ps|]|] eqn:En; [| |discriminate].
      * intros [= <-] Hl Hro.
        destruct (Nat.eq_dec i j) as [->|Hne].
        -- rewrite at_index_head in Hl. injection Hl as ->.
           exists j, (or_var removed w). split; [lia|]. rewrite at_index_head.
           split; [reflexivity|]. split; [|right; reflexivity].
           destruct removed as [r|]; cbn; [|apply same_attrs_refl]. apply Hc. exact Hro.
        -- apply ro_kept_same. rewrite at_index_tail in Hl |- * by exact Hne. exact Hl.
      * intros Hloop Hl Hro.
        assert (Hb : stack_ok cs b rest) by (eapply stack_ok_weaken; [|exact H2]; lia).
        pose proof (carry_ok_next _ _ _ _ _ _ Hok Hc En) as Hc'.
        destruct (Nat.eq_dec i j) as [->|Hne].
        -- rewrite at_index_head in Hl. injection Hl as ->.
           assert (Hcij : ci < j).
           { (* ci is regular, j is volatile *)
             destruct (Nat.eq_dec ci j) as [Heq|]; [|lia].
             rewrite Heq in Hreg. rewrite Hreg in En. discriminate. }
           destruct (gon_loop_carried _ _ _ _ _ _ H2 Hcij Hloop) as (i' & rest1 & -> & Hi').
           exists i', (or_var removed w). split; [lia|]. rewrite at_index_head.
           split; [reflexivity|]. split; [|left; exact En].
           destruct removed as [r|]; cbn; [|apply same_attrs_refl]. apply Hc. exact Hro.
        -- rewrite at_index_tail in Hl by exact Hne.
           exact (IH b _ Hb Hc' Hci st1 Hloop Hl Hro).
Qed.

Lemma entry_some_at_index s n i w : entry s n i = Some w -> at_index (stack_of s n) i = Some (w, i).
Proof.
  rewrite entry_at_index. destruct (at_index (stack_of s n) i) as [[v j]|] eqn:E; [|discriminate].
  intros [= ->]. apply at_index_some in E. destruct E as [_ E]. cbn in E. subst j. reflexivity.
Qed.

Lemma gon_stack_ro cs sc st st1 i w ps0 cs0 :
  cs = CRegular ps0 :: cs0 ->
  stack_ok cs (length cs) st ->
  get_or_new_stack cs sc st = Some st1 ->
  at_index st i = Some (w, i) -> is_ro w = true -> ro_kept cs st1 i w.
Proof.
  intros Ecs Hok. destruct sc; cbn [get_or_new_stack].
  - intros Hg. refine (gon_loop_ro _ _ _ None _ _ _ _ Hok I _ _ Hg).
    + subst; cbn; lia.
    + subst; cbn; eauto.
  - destruct (topreg cs) as [ci|] eqn:Et; [|discriminate].
    destruct (topreg_spec _ _ Et) as (H1 & H2 & _).
    intros Hg. exact (gon_loop_ro _ _ _ None _ _ _ _ Hok I H1 H2 Hg).
  - rewrite gon_volatile_eq. destruct (top_is_volatile cs); [|discriminate].
    destruct st as [|[v j] rest]; [intros _ H; discriminate|].
    destruct (j =? length cs - 1) eqn:Ej; intros [= <-] Hl Hro; apply ro_kept_same; [exact Hl|].
    apply Nat.eqb_neq in Ej. pose proof (at_index_le_head _ _ _ _ _ _ _ Hok Hl).
    assert (j < length cs) by (cbn in Hok; tauto).
    rewrite at_index_tail by lia. exact Hl.
Qed.

Lemma readonly_entry_kept s o s' r n i w :
  Inv s -> step s o = Some (s', r) ->
  entry s n i = Some w -> is_ro w = true ->
  (o = OPop /\ S i = length (ctxs s)) \/
  exists i' w', i' <= i /\ entry s' n i' = Some w' /\ same_attrs w' w /\
                (nth_error (ctxs s) i = Some CVolatile \/ i' = i).
Proof.
  intros HI Hstep He Hro.
  assert (Hsame : entry s' n i = entry s n i ->
          exists i' w', i' <= i /\ entry s' n i' = Some w' /\ same_attrs w' w /\
                (nth_error (ctxs s) i = Some CVolatile \/ i' = i)).
  { intros H. exists i, w. split; [lia|]. split; [rewrite H; exact He|].
    split; [apply same_attrs_refl|right; reflexivity]. }
  pose proof HI as [Hk (ps0 & cs0 & Ecs) Hs].
  pose proof (entry_some_at_index _ _ _ _ He) as Hl.
  assert (Hilt : i < length (ctxs s)).
  { apply at_index_some in Hl. destruct Hl as [Hin _]. eapply stack_ok_lt; [apply Hs|exact Hin]. }
  destruct o as [c| |n' sc ms|n' sc|ps].
  - cbn [step] in Hstep. injection Hstep as <- <-. right. apply Hsame. reflexivity.
  - destruct (Nat.eq_dec (S i) (length (ctxs s))) as [Heq|Hne]; [left; split; [reflexivity|exact Heq]|].
    right. apply Hsame.
    destruct (pop_entries _ _ _ HI Hstep) as (Hc' & Hlow & _).
    apply Hlow. rewrite Hc', removelast_length. lia.
  - right. destruct (step_gon_inv _ _ _ _ _ _ Hstep) as (v & i0 & rest & Eg & -> & _).
    destruct (str_eq_dec n n') as [<-|Hne].
    + destruct (gon_stack_ro _ _ _ _ _ _ _ _ Ecs (Hs n) Eg Hl Hro) as (i' & w' & Hle & Hl' & Hsa & Hor).
      exists i'. rewrite entry_at_index, stack_of_with_same.
      destruct (Nat.eq_dec i' i0) as [->|Hne].
      * rewrite at_index_head in Hl'. injection Hl' as ->.
        exists (fst (mutate_all w' ms)). rewrite at_index_head. split; [exact Hle|]. split; [reflexivity|].
        split; [|exact Hor].
        eapply same_attrs_trans; [|exact Hsa].
        apply mutate_all_ro. rewrite (same_attrs_ro _ _ Hsa). exact Hro.
      * exists w'. rewrite at_index_tail by exact Hne. rewrite at_index_tail in Hl' by exact Hne.
        rewrite Hl'. auto.
    + apply Hsame. unfold entry. rewrite stack_of_with_other by exact Hne. reflexivity.
  - right. apply Hsame.
    destruct (step_unset_inv _ _ _ _ _ Hstep) as [->|(ci & _ & Ef & ->)]; [reflexivity|].
    destruct (str_eq_dec n n') as [<-|Hne].
    + rewrite !entry_at_index, stack_of_with_same. unfold below.
      pose proof (span_ge_app ci (stack_of s n)) as Happ.
      destruct (span_ge ci (stack_of s n)) as [u l]. cbn [fst snd] in *.
      rewrite <- Happ, at_index_app in Hl |- *.
      destruct (at_index u i) as [p|] eqn:Elu; [|reflexivity].
      exfalso. injection Hl as ->. apply at_index_some in Elu. destruct Elu as [Hin _].
      exact (first_ro_in _ _ _ Hin Hro Ef).
    + unfold entry. rewrite stack_of_with_other by exact Hne. reflexivity.
  - right. cbn [step] in Hstep. destruct (topreg (ctxs s)); [|discriminate].
    injection Hstep as <- <-. apply Hsame. reflexivity.
Qed.

Lemma in_vars_assoc s n st : Inv s -> (In (n, st) (vars s) <-> assoc n (vars s) = Some st).
Proof.
  intros [Hk _ _]. split; [apply in_assoc_nodup; exact Hk|apply assoc_in].
Qed.

Lemma in_env_c_strings s x :
  Inv s ->
  (In x (env_c_strings s) <-> exists n v, get s n = Some v /\ env_entry n v = Some x).
Proof.
  intros HI. unfold env_c_strings. rewrite in_flat_map. split.
  - intros ([n st] & Hin & Hx). cbn [fst snd] in Hx.
    destruct st as [|[v i] rest]; [destruct Hx|].
    destruct (env_entry n v) as [y|] eqn:Ee; [|destruct Hx].
    destruct Hx as [<-|[]].
    exists n, v. split; [|exact Ee].
    apply (in_vars_assoc _ _ _ HI) in Hin. unfold get, stack_of. rewrite Hin. reflexivity.
  - intros (n & v & Hg & Ee). unfold get in Hg.
    destruct (stack_of s n) as [|[v0 i] rest] eqn:Est; [discriminate|]. injection Hg as ->.
    exists (n, (v, i) :: rest). split.
    + apply (in_vars_assoc _ _ _ HI). unfold stack_of in Est.
      destruct (assoc n (vars s)); [f_equal; exact Est|discriminate].
    + cbn [fst snd]. rewrite Ee. left; reflexivity.
Qed.

Lemma has_char_false c (x : str) : has_char c x = false <-> ~ In c x.
Proof.
  unfold has_char. split.
  - intros H Hin. assert (existsb (N.eqb c) x = true); [|congruence].
    apply existsb_exists. exists c. split; [exact Hin|apply N.eqb_refl].
  - intros H. destruct (existsb (N.eqb c) x) eqn:E; [|reflexivity].
    apply existsb_exists in E. destruct E as (d & Hd & Hc). apply N.eqb_eq in Hc. subst d. contradiction.
Qed.

Lemma env_entry_some_iff n v x :
  env_entry n v = Some x <->
  vexp v = true /\ ~ In EQ n /\
  exists val, vval v = Some val /\ x = n ++ EQ :: value_string val /\ ~ In 0%N x.
Proof.
  unfold env_entry. split.
  - destruct (vexp v); cbn [negb orb]; [|discriminate].
    destruct (has_char EQ n) eqn:E1; [discriminate|].
    destruct (vval v) as [val|]; [|discriminate].
    destruct (has_char 0%N (n ++ EQ :: value_string val)) eqn:E2; [discriminate|].
    intros [= <-]. split; [reflexivity|]. split; [apply has_char_false; exact E1|].
    exists val. split; [reflexivity|]. split; [reflexivity|apply has_char_false; exact E2].
  - intros (He & Hn & val & Hv & -> & H0). apply has_char_false in Hn, H0.
    rewrite He, Hv, Hn, H0. reflexivity.
Qed.

Lemma env_string_name (n1 n2 v1 v2 : str) :
  ~ In EQ n1 -> ~ In EQ n2 -> n1 ++ EQ :: v1 = n2 ++ EQ :: v2 -> n1 = n2.
Proof.
  revert n2. induction n1 as [|c n1 IH]; intros [|d n2]; cbn; intros H1 H2 E.
  - reflexivity.
  - injection E as E _. exfalso. apply H2. left. symmetry. exact E.
  - injection E as E _. exfalso. apply H1. left. exact E.
  - injection E as -> E. f_equal. apply IH; [intuition|intuition|exact E].
Qed.

Lemma NoDup_app {A} (l1 l2 : list A) :
  NoDup l1 -> NoDup l2 -> (forall x, In x l1 -> ~ In x l2) -> NoDup (l1 ++ l2).
Proof.
  induction l1 as [|x l1 IH]; cbn; intros H1 H2 H; [exact H2|].
  inversion H1 as [|? ? Hn Hd]; subst. constructor.
  - rewrite in_app_iff. intros [Hi|Hi]; [exact (Hn Hi)|exact (H x (or_introl eq_refl) Hi)].
  - apply IH; [exact Hd|exact H2|]. intros y Hy. apply H. right; exact Hy.
Qed.

Lemma nodup_flat_map {A B} (f : A -> list B) (l : list A) :
  NoDup l ->
  (forall p, NoDup (f p)) ->
  (forall p q x, In p l -> In q l -> In x (f p) -> In x (f q) -> p = q) ->
  NoDup (flat_map f l).
Proof.
  induction l as [|p l IH]; cbn; intros Hd Hf Hinj; [constructor|].
  inversion Hd as [|? ? Hn Hd']; subst.
  apply NoDup_app; [apply Hf| |].
  - apply IH; [exact Hd'|exact Hf|]. intros p' q x Hp Hq. apply Hinj; right; assumption.
  - intros x Hx Hx'. apply in_flat_map in Hx'. destruct Hx' as (q & Hq & Hxq).
    assert (p = q) by (eapply Hinj; [left; reflexivity|right; exact Hq|exact Hx|exact Hxq]).
    subst q. exact (Hn Hq).
Qed.

Lemma env_c_strings_nodup s : Inv s -> NoDup (env_c_strings s).
Proof.
  intros HI. pose proof HI as [Hk _ _]. unfold env_c_strings. apply nodup_flat_map.
  - exact (NoDup_map_inv _ _ Hk).
  - intros [n st]. cbn [fst snd]. destruct st as [|[v i] rest]; [constructor|].
    destruct (env_entry n v); [|constructor]. constructor; [intros []|constructor].
  - intros [n1 st1] [n2 st2] x H1 H2. cbn [fst snd].
    destruct st1 as [|[v1 i1] r1]; [intros []|]. destruct st2 as [|[v2 i2] r2]; [intros _ []|].
    destruct (env_entry n1 v1) as [y1|] eqn:E1; [|intros []].
    destruct (env_entry n2 v2) as [y2|] eqn:E2; [|intros _ []].
    intros [<-|[]] [<-|[]].
    apply env_entry_some_iff in E1. apply env_entry_some_iff in E2.
    destruct E1 as (_ & Hn1 & val1 & _ & Ex1 & _). destruct E2 as (_ & Hn2 & val2 & _ & Ex2 & _).
    assert (n1 = n2).
    { apply (env_string_name n1 n2 (value_string val1) (value_string val2) Hn1 Hn2). congruence. }
    subst n2.
    apply (in_vars_assoc _ _ _ HI) in H1. apply (in_vars_assoc _ _ _ HI) in H2. congruence.
Qed.

Lemma get_sim s a n : Abs s a -> get s n = slookup a n.
Proof. intros [_ H]. unfold get. rewrite H, slookup_proj. reflexivity. Qed.

Lemma get_scoped_sim s a n sc :
  Inv s -> Abs s a -> get_scoped s n sc = Some (s_get_scoped a n sc).
Proof.
  intros HI HA. pose proof (abs_base_reg _ _ HI HA) as Hb. destruct HA as [Hc Hst].
  unfold get_scoped, s_get_scoped, in_scope. rewrite Hc, (split_scope_index sc a Hb), Hst.
  pose proof (split_scope_app sc a) as Happ.
  destruct (split_scope sc a) as [u l]. cbn [fst snd] in *.
  rewrite <- Happ at 1. rewrite proj_app, slookup_proj. f_equal.
  destruct (proj u n) as [|[v i] st]; cbn [map app shift fst snd].
  - destruct (proj l n) as [|[v i] st] eqn:Ep; [reflexivity|].
    pose proof (proj_head_lt _ _ _ _ _ Ep).
    replace (length l <=? i) with false by (symmetry; apply Nat.leb_gt; lia). reflexivity.
  - replace (length l <=? i + length l) with true by (symmetry; apply Nat.leb_le; lia). reflexivity.
Qed.

Lemma iter_get_scoped s sc :
  Inv s ->
  exists l, iter s sc = Some l /\ NoDup (map fst l) /\
            forall n v, In (n, v) l <-> get_scoped s n sc = Some (Some v).
Proof.
  intros HI. pose proof HI as [Hk _ _].
  unfold iter, get_scoped. destruct (index_of_context_total s sc HI) as [mn ->]. eexists; split; [reflexivity|]. split.
  - clear - Hk. induction (vars s) as [|[m st] l IH]; cbn; [constructor|].
    inversion Hk as [|? ? Hn Hd]; subst. specialize (IH Hd).
    assert (Hsub : forall x, In x (map fst (flat_map
              (fun p : name * list vic => match snd p with
                 | [] => [] | (v, i) :: _ => if mn <=? i then [(fst p, v)] else [] end) l)) ->
              In x (map fst l)).
    { clear. intros x. induction l as [|[k st'] l IH]; cbn; [trivial|].
      rewrite map_app, in_app_iff. intros [H|H]; [|right; exact (IH H)].
      destruct st' as [|[v i] r]; [destruct H|]. destruct (mn <=? i); [|destruct H].
      destruct H as [<-|[]]. left; reflexivity. }
    destruct st as [|[v i] r]; [exact IH|]. destruct (mn <=? i); [|exact IH].
    cbn. constructor; [|exact IH]. intros H. apply Hn. apply Hsub. exact H.
  - intros n v. rewrite in_flat_map. split.
    + intros ([m st] & Hin & Hx). cbn [fst snd] in Hx.
      destruct st as [|[v0 i] r]; [destruct Hx|].
      destruct (mn <=? i) eqn:E; [|destruct Hx]. destruct Hx as [[= -> ->]|[]].
      apply (in_vars_assoc _ _ _ HI) in Hin. unfold stack_of. rewrite Hin, E. reflexivity.
    + unfold stack_of. destruct (assoc n (vars s)) as [st|] eqn:Ea; [|discriminate].
      destruct st as [|[v0 i] r]; [discriminate|].
      destruct (mn <=? i) eqn:E; [|discriminate]. intros [= ->].
      exists (n, (v, i) :: r). split; [apply (in_vars_assoc _ _ _ HI); exact Ea|].
      cbn [fst snd]. rewrite E. left; reflexivity.
Qed.

Lemma params_sim s a : Inv s -> Abs s a -> positional_params s = s_params a.
Proof.
  intros HI HA. pose proof (abs_base_reg _ _ HI HA) as Hb. destruct HA as [Hc _].
  unfold positional_params. rewrite Hc, topreg_kinds.
  destruct (base_reg_s_topreg _ Hb) as [i Hf]. rewrite Hf.
  apply s_params_sim. exact Hf.
Qed.

Lemma span_ge_zero st : span_ge 0 st = (st, []).
Proof.
  induction st as [|[v j] rest IH]; cbn [span_ge]; [reflexivity|].
  cbn [Nat.leb]. rewrite IH. reflexivity.
Qed.

Lemma get_stack s n w : get s n = Some w -> exists i rest, stack_of s n = (w, i) :: rest.
Proof.
  unfold get. destruct (stack_of s n) as [|[v i] rest]; [discriminate|]. intros [= ->]. eauto.
Qed.

Lemma step_gon_get s n sc ms s' r :
  step s (OGetOrNew n sc ms) = Some (s', r) ->
  exists v w rs, mutate_all v ms = (w, rs) /\ get s' n = Some w /\ r = RMuts rs.
Proof.
  intros H. destruct (step_gon_inv _ _ _ _ _ _ H) as (v & j & rest & _ & -> & ->).
  exists v, (fst (mutate_all v ms)), (snd (mutate_all v ms)). split; [apply surjective_pairing|].
  unfold get. rewrite stack_of_with_same. auto.
Qed.

Lemma mutate_assign_facts x loc v w rs :
  mutate_all v [MAssign x loc] = (w, rs) -> is_err (RMuts rs) = false -> vval w = Some x.
Proof. cbn. destruct (vro v); intros [= <- <-]; cbn; [discriminate|reflexivity]. Qed.

Lemma mutate_readonly_facts v v0 w rs :
  mutate_all v0 (opt_assign v ++ [MReadOnly 0%N]) = (w, rs) -> is_err (RMuts rs) = false ->
  is_ro w = true /\ forall x, v = Some x -> vval w = Some x.
Proof.
  destruct v as [x|]; cbn [opt_assign app mutate_all mutate].
  - destruct (vro v0); cbn; intros [= <- <-] He; [discriminate|].
    split; [reflexivity|]. intros x' [= <-]. reflexivity.
  - intros [= <- <-] _. split; [reflexivity|discriminate].
Qed.

Lemma mutate_export_facts v v0 w rs :
  mutate_all v0 (opt_assign v ++ [MExport true]) = (w, rs) -> is_err (RMuts rs) = false ->
  vexp w = true /\ forall x, v = Some x -> vval w = Some x.
Proof.
  destruct v as [x|]; cbn [opt_assign app mutate_all mutate].
  - destruct (vro v0); cbn; intros [= <- <-] He; [discriminate|].
    split; [reflexivity|]. intros x' [= <-]. reflexivity.
  - intros [= <- <-] _. split; [reflexivity|discriminate].
Qed.

(* The only operations that panic in a state satisfying the invariant: popping
   the base context (impossible through the guards) and get_or_new with
   Scope::Volatile when the topmost context is not volatile (documented). *)
Lemma panic_sites s o :
  Inv s -> step s o = None ->
  (o = OPop /\ length (ctxs s) = 1) \/
  (exists n ms, o = OGetOrNew n SVolatile ms /\ top_is_volatile (ctxs s) = false).
Proof.
  intros HI Hstep. pose proof HI as [Hk (ps0 & cs0 & Ecs) Hs].
  destruct (topreg_some _ _ _ Ecs) as [tr Htr].
  destruct o as [c| |n sc ms|n sc|ps].
  - discriminate.
  - left. cbn [step] in Hstep. split; [reflexivity|]. rewrite Ecs in *. destruct cs0; [reflexivity|discriminate].
  - right. cbn [step] in Hstep.
    destruct (get_or_new_stack (ctxs s) sc (stack_of s n)) as [[|[v i] rest]|] eqn:E.
    + exfalso. exact (get_or_new_stack_nonempty _ _ _ _ E eq_refl).
    + destruct (mutate_all v ms); discriminate.
    + destruct sc; cbn [get_or_new_stack] in E.
      * exfalso. destruct (gon_loop_total (ctxs s) _ 0 None _ (Hs n) (le_n _)) as [st' E']. congruence.
      * exfalso. rewrite Htr in E.
        destruct (gon_loop_total (ctxs s) _ tr None _ (Hs n) (le_n _)) as [st' E']. congruence.
      * exists n, ms. split; [reflexivity|]. rewrite gon_volatile_eq in E.
        destruct (top_is_volatile (ctxs s)); [discriminate|reflexivity].
  - exfalso. cbn [step] in Hstep. destruct (assoc n (vars s)); [|discriminate].
    destruct (index_of_context_total s sc HI) as [ci Hi]. rewrite Hi in Hstep.
    destruct (span_ge ci l) as [u l']. destruct (first_ro u); discriminate.
  - exfalso. cbn [step] in Hstep. rewrite Htr in Hstep. discriminate.
Qed.

Lemma step_total s o :
  Inv s ->
  match o with
  | OPop => 2 <= length (ctxs s)
  | OGetOrNew _ SVolatile _ => top_is_volatile (ctxs s) = true
  | _ => True
  end ->
  exists s1 r, step s o = Some (s1, r).
Proof.
  intros HI H. destruct (step s o) as [[s1 r]|] eqn:E; [eauto|].
  exfalso. destruct (panic_sites s o HI E) as [[-> Hl]|(n & ms & -> & Hv)]; [lia|congruence].
Qed.

Lemma top_volatile_push cs : top_is_volatile (cs ++ [CVolatile]) = true.
Proof.
  unfold top_is_volatile. rewrite app_length. cbn [length].
  replace (length cs + 1 - 1) with (length cs) by lia.
  rewrite nth_error_app2 by lia. rewrite Nat.sub_diag. reflexivity.
Qed.
