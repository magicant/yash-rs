(* C16 — association lists, contexts, normalised per-name stacks and what each
   operation does to them; the invariant is inductive. *)
From Yv Require Import Common.Base C16.Model C16.Spec.

Lemma str_eqb_refl (a : str) : str_eqb a a = true.
Proof. apply str_eqb_eq; reflexivity. Qed.

Lemma str_eqb_neq (a b : str) : a <> b -> str_eqb a b = false.
Proof.
  intros H. destruct (str_eqb a b) eqn:E; [|reflexivity].
  apply str_eqb_eq in E. contradiction.
Qed.

Lemma str_eqb_sym (a b : str) : str_eqb a b = str_eqb b a.
Proof.
  destruct (str_eqb a b) eqn:E.
  - apply str_eqb_eq in E; subst. symmetry; apply str_eqb_refl.
  - destruct (str_eqb b a) eqn:E'; [|reflexivity].
    apply str_eqb_eq in E'; subst. rewrite str_eqb_refl in E. discriminate.
Qed.

Lemma str_eq_dec (a b : str) : {a = b} + {a <> b}.
Proof.
  destruct (str_eqb a b) eqn:E.
  - left; apply str_eqb_eq; exact E.
  - right; intros ->. rewrite str_eqb_refl in E. discriminate.
Qed.

(* induction that also hands over the hypothesis for the tail of the tail:
   an instruction with [ESkip] continues after the next instruction *)
Lemma list_ind2 {A} (P : list A -> Prop) :
  P [] -> (forall x l, P l -> (forall y l', l = y :: l' -> P l') -> P (x :: l)) -> forall l, P l.
Proof.
  intros H0 Hs l. enough (P l /\ forall y l', l = y :: l' -> P l') by tauto.
  induction l as [|x l [IH1 IH2]]; split; try discriminate; auto.
  intros y l' [= _ <-]. exact IH1.
Qed.

Section Assoc.
Context {A : Type}.
Implicit Types (l : list (name * A)).

Lemma assoc_set_same n x l : assoc n (set_assoc n x l) = Some x.
Proof.
  induction l as [|[m y] l IH]; cbn.
  - rewrite str_eqb_refl; reflexivity.
  - destruct (str_eqb m n) eqn:E; cbn.
    + rewrite str_eqb_refl; reflexivity.
    + rewrite E; exact IH.
Qed.

Lemma assoc_set_other n m x l : m <> n -> assoc m (set_assoc n x l) = assoc m l.
Proof.
  intros H. induction l as [|[k y] l IH]; cbn.
  - rewrite (str_eqb_neq n m) by congruence. reflexivity.
  - destruct (str_eqb k n) eqn:E; cbn.
    + apply str_eqb_eq in E; subst k.
      rewrite (str_eqb_neq n m) by congruence. reflexivity.
    + destruct (str_eqb k m); [reflexivity | exact IH].
Qed.

Lemma assoc_del_same n l : assoc n (del_assoc n l) = None.
Proof.
  unfold del_assoc.
  induction l as [|[m y] l IH]; cbn; [reflexivity|].
  destruct (str_eqb m n) eqn:E; cbn; [exact IH|].
  rewrite E; exact IH.
Qed.

Lemma assoc_del_other n m l : m <> n -> assoc m (del_assoc n l) = assoc m l.
Proof.
  unfold del_assoc.
  intros H. induction l as [|[k y] l IH]; cbn; [reflexivity|].
  destruct (str_eqb k n) eqn:E; cbn.
  - apply str_eqb_eq in E; subst k.
    rewrite (str_eqb_neq n m) by congruence. exact IH.
  - destruct (str_eqb k m); [reflexivity | exact IH].
Qed.

Lemma del_assoc_absent n l : assoc n l = None -> del_assoc n l = l.
Proof.
  unfold del_assoc.
  induction l as [|[m y] l IH]; cbn; [reflexivity|].
  destruct (str_eqb m n) eqn:E; [discriminate|].
  cbn. intros H; rewrite (IH H); reflexivity.
Qed.

Lemma set_assoc_keys_in n x l m :
  In m (map fst (set_assoc n x l)) <-> m = n \/ In m (map fst l).
Proof.
  induction l as [|[k y] l IH]; cbn.
  - split; [intros [<-|[]]|intros [->|[]]]; left; reflexivity.
  - destruct (str_eqb k n) eqn:E; cbn.
    + apply str_eqb_eq in E; subst k. split; [intros [<-|H]|intros [->|[<-|H]]]; auto.
    + rewrite IH. split; [intros [<-|[->|H]]|intros [->|[<-|H]]]; auto.
Qed.

Lemma assoc_none_notin n l : assoc n l = None <-> ~ In n (map fst l).
Proof.
  induction l as [|[k y] l IH]; cbn; [intuition|].
  destruct (str_eqb k n) eqn:E.
  - apply str_eqb_eq in E; subst. split; [discriminate | intros H; exfalso; apply H; left; reflexivity].
  - rewrite IH. split.
    + intros H [H1|H1]; [subst; rewrite str_eqb_refl in E; discriminate | exact (H H1)].
    + intros H H1; apply H; right; exact H1.
Qed.

Lemma set_assoc_nodup n x l : NoDup (map fst l) -> NoDup (map fst (set_assoc n x l)).
Proof.
  induction l as [|[k y] l IH]; cbn; intros H.
  - constructor; [intros []|constructor].
  - inversion H as [|? ? Hn Hd]; subst.
    destruct (str_eqb k n) eqn:E; cbn.
    + apply str_eqb_eq in E; subst k. constructor; assumption.
    + constructor; [|apply IH; exact Hd].
      rewrite set_assoc_keys_in. intros [->|H1]; [rewrite str_eqb_refl in E; discriminate | exact (Hn H1)].
Qed.

Lemma assoc_in n x l : assoc n l = Some x -> In (n, x) l.
Proof.
  induction l as [|[k y] l IH]; cbn; [discriminate|].
  destruct (str_eqb k n) eqn:E.
  - apply str_eqb_eq in E; subst. intros [= ->]; left; reflexivity.
  - intros H; right; exact (IH H).
Qed.

Lemma in_assoc_nodup n x l : NoDup (map fst l) -> In (n, x) l -> assoc n l = Some x.
Proof.
  induction l as [|[k y] l IH]; cbn; intros Hd; [intros []|].
  inversion Hd as [|? ? Hn Hd']; subst.
  intros [[= -> ->]|H].
  - rewrite str_eqb_refl; reflexivity.
  - destruct (str_eqb k n) eqn:E.
    + apply str_eqb_eq in E; subst. exfalso; apply Hn. apply (in_map fst) in H. exact H.
    + exact (IH Hd' H).
Qed.

Lemma assoc_app_some n l1 l2 :
  assoc n (l1 ++ l2) = match assoc n l1 with Some x => Some x | None => assoc n l2 end.
Proof.
  induction l1 as [|[m x] l1 IH]; cbn; [reflexivity|]. destruct (str_eqb m n); [reflexivity|exact IH].
Qed.

End Assoc.

Lemma stack_of_with_same s n st : stack_of (with_stack s n st) n = st.
Proof. unfold stack_of, with_stack; cbn. rewrite assoc_set_same. reflexivity. Qed.

Lemma stack_of_with_other s n m st : m <> n -> stack_of (with_stack s n st) m = stack_of s m.
Proof. intros H. unfold stack_of, with_stack; cbn. rewrite assoc_set_other by exact H. reflexivity. Qed.

Lemma topreg_app_regular cs ps : topreg (cs ++ [CRegular ps]) = Some (length cs).
Proof. induction cs as [|k cs IH]; cbn; [reflexivity|]. rewrite IH. reflexivity. Qed.

Lemma topreg_app_volatile cs : topreg (cs ++ [CVolatile]) = topreg cs.
Proof.
  induction cs as [|k cs IH]; cbn; [reflexivity|]. rewrite IH. reflexivity.
Qed.

Lemma topreg_none cs : topreg cs = None -> forall j, j < length cs -> nth_error cs j = Some CVolatile.
Proof.
  induction cs as [|k cs IH]; cbn; intros H j Hj; [lia|].
  destruct (topreg cs) eqn:E; [discriminate|].
  destruct k; cbn in H; [discriminate|].
  destruct j; [reflexivity|]. cbn. apply IH; [reflexivity|lia].
Qed.

Lemma topreg_spec cs i :
  topreg cs = Some i ->
  i < length cs /\ (exists ps, nth_error cs i = Some (CRegular ps)) /\
  forall j, i < j -> j < length cs -> nth_error cs j = Some CVolatile.
Proof.
  revert i. induction cs as [|k cs IH]; cbn; intros i H; [discriminate|].
  destruct (topreg cs) as [i0|] eqn:E.
  - injection H as <-. destruct (IH i0 eq_refl) as (H1 & H2 & H3).
    split; [lia|]. split; [exact H2|].
    intros j Hj Hl. destruct j; [lia|]. cbn. apply H3; lia.
  - destruct k as [ps|]; cbn in H; [|discriminate]. injection H as <-.
    split; [lia|]. split; [exists ps; reflexivity|].
    intros j Hj Hl. destruct j; [lia|]. cbn. apply (topreg_none _ E). lia.
Qed.

Lemma topreg_some cs ps rest : cs = CRegular ps :: rest -> exists i, topreg cs = Some i.
Proof.
  intros ->. cbn. destruct (topreg rest); eauto.
Qed.

Lemma topreg_ge cs j ps i : nth_error cs j = Some (CRegular ps) -> topreg cs = Some i -> j <= i.
Proof.
  intros Hj Ht. destruct (topreg_spec _ _ Ht) as (Hi & _ & Hv).
  destruct (Nat.le_gt_cases j i) as [H|H]; [exact H|].
  assert (Hlt : j < length cs) by (apply nth_error_Some; congruence).
  rewrite (Hv j H Hlt) in Hj. discriminate.
Qed.

Lemma topreg_exists cs j ps : nth_error cs j = Some (CRegular ps) -> exists i, topreg cs = Some i.
Proof.
  intros Hj. destruct (topreg cs) as [i|] eqn:E; [eauto|].
  assert (Hlt : j < length cs) by (apply nth_error_Some; congruence).
  rewrite (topreg_none _ E j Hlt) in Hj. discriminate.
Qed.

Lemma same_attrs_refl v : same_attrs v v.
Proof. repeat split. Qed.

Lemma same_attrs_trans u v w : same_attrs u v -> same_attrs v w -> same_attrs u w.
Proof. unfold same_attrs. intuition congruence. Qed.

Lemma same_attrs_ro v w : same_attrs v w -> is_ro v = is_ro w.
Proof. unfold same_attrs, is_ro. intros (_ & _ & ->). reflexivity. Qed.

Lemma stack_ok_weaken cs b b' st : b <= b' -> stack_ok cs b st -> stack_ok cs b' st.
Proof.
  destruct st as [|[v i] rest]; cbn; [trivial|].
  intros Hb (H1 & H2 & H3). split; [lia|]. split; assumption.
Qed.

Lemma stack_ok_ctx cs cs' b st :
  (forall i, i < b -> nth_error cs' i = Some CVolatile -> nth_error cs i = Some CVolatile) ->
  stack_ok cs b st -> stack_ok cs' b st.
Proof.
  revert b. induction st as [|[v i] rest IH]; cbn; intros b Hc; [trivial|].
  intros (H1 & H2 & H3). split; [exact H1|]. split.
  - apply IH; [|exact H2]. intros j Hj. apply Hc. lia.
  - destruct rest as [|[w j] rest']; [trivial|]. intros Hv. apply H3. apply Hc; assumption.
Qed.

Lemma stack_ok_tail cs b v i rest : stack_ok cs b ((v, i) :: rest) -> stack_ok cs b rest.
Proof. cbn. intros (H1 & H2 & _). eapply stack_ok_weaken; [|exact H2]. lia. Qed.

Lemma stack_ok_lt cs b st v i : stack_ok cs b st -> In (v, i) st -> i < b.
Proof.
  revert b. induction st as [|[w j] rest IH]; cbn; intros b H; [intros []|].
  destruct H as (H1 & H2 & _). intros [[= -> ->]|Hin]; [exact H1|].
  specialize (IH _ H2 Hin). lia.
Qed.

Lemma span_ge_app i st : fst (span_ge i st) ++ snd (span_ge i st) = st.
Proof.
  induction st as [|[v j] rest IH]; cbn; [reflexivity|].
  destruct (i <=? j); [|reflexivity].
  destruct (span_ge i rest) as [u l]; cbn in *. rewrite IH. reflexivity.
Qed.

(* The entries of a per-name stack below context index [t]: what `unset` keeps;
   on a normalised stack also what popping down to [t] contexts leaves. *)
Definition below (t : nat) (st : list vic) : list vic := snd (span_ge t st).

Lemma below_cons_ge t v j rest : t <= j -> below t ((v, j) :: rest) = below t rest.
Proof.
  intros H. unfold below. cbn [span_ge]. apply Nat.leb_le in H. rewrite H.
  destruct (span_ge t rest); reflexivity.
Qed.

Lemma below_cons_lt t v j rest : j < t -> below t ((v, j) :: rest) = (v, j) :: rest.
Proof. intros H. unfold below. cbn [span_ge]. apply Nat.leb_gt in H. rewrite H. reflexivity. Qed.

Lemma below_below t u st : t <= u -> below t (below u st) = below t st.
Proof.
  intros H. induction st as [|[v j] rest IH]; [reflexivity|].
  destruct (Nat.le_gt_cases u j) as [Hj|Hj].
  - rewrite (below_cons_ge u), (below_cons_ge t) by lia. exact IH.
  - rewrite (below_cons_lt u) by exact Hj. reflexivity.
Qed.

Lemma below_mono t u st st' : t <= u -> below u st' = below u st -> below t st' = below t st.
Proof. intros H E. rewrite <- (below_below t u st'), <- (below_below t u st), E by exact H. reflexivity. Qed.

Lemma below_all cs b t st : stack_ok cs b st -> b <= t -> below t st = st.
Proof.
  destruct st as [|[v j] rest]; [reflexivity|]. cbn. intros (Hj & _) Hb. apply below_cons_lt. lia.
Qed.

Lemma below_ok cs b t st : stack_ok cs b st -> stack_ok cs b (below t st).
Proof.
  revert b. induction st as [|[v j] rest IH]; intros b H; [exact H|].
  destruct (Nat.le_gt_cases t j) as [Hj|Hj].
  - rewrite below_cons_ge by exact Hj. cbn in H. destruct H as (H1 & H2 & _).
    eapply stack_ok_weaken; [|apply IH; exact H2]. lia.
  - rewrite below_cons_lt by exact Hj. exact H.
Qed.

Lemma mutate_ro v m : is_ro v = true -> same_attrs (fst (mutate v m)) v.
Proof.
  unfold is_ro. destruct m; cbn; destruct (vro v) eqn:E; try discriminate; intros _; cbn;
    unfold same_attrs; cbn; rewrite ?E; auto.
Qed.

Lemma mutate_all_ro v ms : is_ro v = true -> same_attrs (fst (mutate_all v ms)) v.
Proof.
  revert v. induction ms as [|m ms IH]; intros v H; cbn; [apply same_attrs_refl|].
  pose proof (mutate_ro v m H) as H1.
  destruct (mutate v m) as [v1 r] eqn:E1. cbn in H1.
  assert (H2 : is_ro v1 = true) by (rewrite (same_attrs_ro _ _ H1); exact H).
  specialize (IH v1 H2).
  destruct (mutate_all v1 ms) as [v2 rs] eqn:E2. cbn in *.
  eapply same_attrs_trans; eassumption.
Qed.

Lemma stack_ok_mutate cs b v i rest ms :
  stack_ok cs b ((v, i) :: rest) ->
  stack_ok cs b ((fst (mutate_all v ms), i) :: rest).
Proof.
  cbn. intros (H1 & H2 & H3). split; [exact H1|]. split; [exact H2|].
  destruct rest as [|[w j] rest']; [trivial|].
  intros Hv Hw. specialize (H3 Hv Hw).
  eapply same_attrs_trans; [|exact H3].
  apply mutate_all_ro. rewrite (same_attrs_ro _ _ H3). exact Hw.
Qed.

(* the variable carried by the loop is a copy of the next read-only entry *)
Definition carry_ok (removed : option var) (st : list vic) : Prop :=
  match removed, st with
  | Some r, (w, _) :: _ => is_ro w = true -> same_attrs r w
  | _, _ => True
  end.

Lemma carry_ok_next cs b removed v i rest :
  stack_ok cs b ((v, i) :: rest) -> carry_ok removed ((v, i) :: rest) ->
  nth_error cs i = Some CVolatile ->
  carry_ok (Some (or_var removed v)) rest.
Proof.
  cbn [stack_ok]. intros (_ & _ & H3) Hc En. unfold carry_ok.
  destruct rest as [|[w j] rest']; [trivial|].
  intros Hw. specialize (H3 En Hw). destruct removed as [r|]; cbn; [|exact H3].
  eapply same_attrs_trans; [|exact H3]. apply Hc. rewrite (same_attrs_ro _ _ H3). exact Hw.
Qed.

Lemma gon_loop_ok cs b ci removed st st' :
  stack_ok cs b st -> carry_ok removed st -> ci < b ->
  (exists ps, nth_error cs ci = Some (CRegular ps)) ->
  gon_loop cs ci removed st = Some st' ->
  stack_ok cs b st'.
Proof.
  intros Hst Hc Hci [ps Hreg]. revert b removed Hst Hc Hci st'.
  induction st as [|[v i] rest IH]; intros b removed Hst Hc Hci st'; cbn [gon_loop].
  - intros [= <-]. cbn. auto.
  - destruct (i <? ci) eqn:Elt.
    + apply Nat.ltb_lt in Elt. intros [= <-].
      cbn. split; [exact Hci|]. split.
      * cbn in Hst. destruct Hst as (H1 & H2 & H3). split; [exact Elt|]. split; assumption.
      * intros Hv. rewrite Hreg in Hv. discriminate.
    + apply Nat.ltb_ge in Elt.
      destruct (nth_error cs i) as [[ps'|]|] eqn:En; [| |discriminate].
      * intros [= <-]. cbn in Hst |- *. destruct Hst as (H1 & H2 & H3).
        split; [exact H1|]. split; [exact H2|].
        destruct rest as [|[w j] rest']; [trivial|]. intros Hv; rewrite En in Hv; discriminate.
      * intros Hloop.
        eapply (IH b (Some (or_var removed v))); [|exact (carry_ok_next _ _ _ _ _ _ Hst Hc En)|exact Hci|exact Hloop].
        exact (stack_ok_tail _ _ _ _ _ Hst).
Qed.

(* [gon_volatile] with its two panic sites (the `len() - 1` underflow and the
   `assert_eq!`) folded into the one test [top_is_volatile], the form in which
   [panic_free] names the documented domain of Scope::Volatile *)
Lemma gon_volatile_eq cs st :
  gon_volatile cs st =
  if top_is_volatile cs
  then Some match st with
            | (v, i) :: _ => if i =? length cs - 1 then st else (v, length cs - 1) :: st
            | [] => [(default_var, length cs - 1)]
            end
  else None.
Proof.
  unfold gon_volatile, top_is_volatile. destruct cs as [|k ks]; [reflexivity|].
  destruct (nth_error (k :: ks) (length (k :: ks) - 1)) as [[|]|]; try reflexivity.
  destruct st as [|[v i] rest]; [reflexivity|]. destruct (i =? _); reflexivity.
Qed.

Lemma top_volatile_length cs : top_is_volatile cs = true -> 0 < length cs.
Proof. destruct cs; [discriminate|cbn; lia]. Qed.

Lemma gon_volatile_ok cs st st' :
  stack_ok cs (length cs) st ->
  gon_volatile cs st = Some st' ->
  stack_ok cs (length cs) st'.
Proof.
  intros Hst. rewrite gon_volatile_eq. destruct (top_is_volatile cs) eqn:Ev; [|discriminate].
  pose proof (top_volatile_length _ Ev) as Hlen.
  destruct st as [|[v i] rest]; [intros [= <-]; cbn; split; [lia|auto]|].
  destruct (i =? length cs - 1) eqn:Ei; intros [= <-]; [exact Hst|].
  apply Nat.eqb_neq in Ei. cbn in Hst |- *. destruct Hst as (H1 & H2 & H3).
  split; [lia|]. split; [split; [lia|split; assumption]|]. intros _ _. apply same_attrs_refl.
Qed.

Lemma get_or_new_stack_ok cs sc st st' ps0 cs0 :
  cs = CRegular ps0 :: cs0 ->
  stack_ok cs (length cs) st ->
  get_or_new_stack cs sc st = Some st' ->
  stack_ok cs (length cs) st'.
Proof.
  intros Ecs Hst. destruct sc; cbn.
  - apply gon_loop_ok; [exact Hst|exact I| |].
    + subst; cbn; lia.
    + subst; cbn; eauto.
  - destruct (topreg cs) as [ci|] eqn:Et; [|discriminate].
    destruct (topreg_spec _ _ Et) as (H1 & H2 & _).
    apply gon_loop_ok; [exact Hst|exact I|exact H1|exact H2].
  - apply gon_volatile_ok; exact Hst.
Qed.

Lemma gon_loop_head cs ci removed st st1 :
  gon_loop cs ci removed st = Some st1 ->
  exists w j rest1, st1 = (w, j) :: rest1 /\ ci <= j /\ (j = ci \/ In j (map snd st)) /\
    (forall r, removed = Some r -> w = r) /\
    (forall ps0, nth_error cs ci = Some (CRegular ps0) -> exists ps, nth_error cs j = Some (CRegular ps)).
Proof.
  revert removed. induction st as [|[v0 j0] rest IH]; intros removed; cbn [gon_loop].
  - intros [= <-]. eexists _, ci, _. split; [reflexivity|]. split; [lia|]. split; [left; reflexivity|].
    split; [intros r ->; reflexivity|eauto].
  - destruct (j0 <? ci) eqn:E.
    + intros [= <-]. eexists _, ci, _. split; [reflexivity|]. split; [lia|]. split; [left; reflexivity|].
      split; [intros r ->; reflexivity|eauto].
    + apply Nat.ltb_ge in E. destruct (nth_error cs j0) as [[ps|]|] eqn:En; [| |discriminate].
      * intros [= <-]. eexists _, j0, _. split; [reflexivity|]. split; [exact E|].
        split; [right; left; reflexivity|]. split; [intros r ->; reflexivity|eauto].
      * intros H. destruct (IH _ H) as (w & j & rest1 & -> & Hj & Hor & Hr & Hreg).
        exists w, j, rest1. split; [reflexivity|]. split; [exact Hj|].
        split; [destruct Hor; [left|right; right]; assumption|]. split; [|exact Hreg].
        intros r ->. apply Hr. reflexivity.
Qed.

(* `self.contexts[i]` is in bounds for the indices of a normalised stack *)
Lemma gon_loop_total cs b ci removed st :
  stack_ok cs b st -> b <= length cs -> exists st', gon_loop cs ci removed st = Some st'.
Proof.
  revert b removed. induction st as [|[v i] rest IH]; intros b removed Hok Hb; cbn [gon_loop]; [eauto|].
  destruct (i <? ci); [eauto|].
  cbn in Hok. destruct Hok as (H1 & H2 & _).
  destruct (nth_error cs i) as [[ps|]|] eqn:En; [eauto| |].
  - apply (IH i); [exact H2|lia].
  - exfalso. apply nth_error_None in En. lia.
Qed.

Lemma get_or_new_stack_nonempty cs sc st st' :
  get_or_new_stack cs sc st = Some st' -> st' <> [].
Proof.
  assert (HL : forall ci, gon_loop cs ci None st = Some st' -> st' <> []).
  { intros ci H. destruct (gon_loop_head _ _ _ _ _ H) as (w & j & rest1 & -> & _). discriminate. }
  destruct sc; cbn.
  - apply HL.
  - destruct (topreg cs); [apply HL|discriminate].
  - rewrite gon_volatile_eq. destruct (top_is_volatile cs); [|discriminate].
    destruct st as [|[v i] rest]; [intros [= <-]; discriminate|].
    destruct (i =? _); intros [= <-]; discriminate.
Qed.

Lemma assoc_pop_vars len l n :
  NoDup (map fst l) ->
  assoc n (pop_vars len l) =
  match assoc n l with
  | Some st => if is_nil (pop_if_ge len st) then None else Some (pop_if_ge len st)
  | None => None
  end.
Proof.
  induction l as [|[m st] l IH]; cbn; intros Hd; [reflexivity|].
  inversion Hd as [|? ? Hn Hd']; subst.
  destruct (str_eqb m n) eqn:E.
  - apply str_eqb_eq in E; subst m.
    destruct (is_nil (pop_if_ge len st)) eqn:En; cbn.
    + rewrite (IH Hd').
      assert (Ha : assoc n l = None) by (apply assoc_none_notin; exact Hn).
      rewrite Ha. reflexivity.
    + rewrite str_eqb_refl. reflexivity.
  - destruct (is_nil (pop_if_ge len st)); cbn; [|rewrite E]; apply IH; exact Hd'.
Qed.

Lemma pop_vars_keys len l m : In m (map fst (pop_vars len l)) -> In m (map fst l).
Proof.
  induction l as [|[k st] l IH]; cbn; [trivial|].
  destruct (is_nil (pop_if_ge len st)); cbn; intuition.
Qed.

Lemma pop_vars_nodup len l : NoDup (map fst l) -> NoDup (map fst (pop_vars len l)).
Proof.
  induction l as [|[k st] l IH]; cbn; intros Hd; [constructor|].
  inversion Hd as [|? ? Hn Hd']; subst.
  destruct (is_nil (pop_if_ge len st)); cbn; [apply IH; exact Hd'|].
  constructor; [|apply IH; exact Hd'].
  intros H; apply Hn. eapply pop_vars_keys; exact H.
Qed.

Lemma stack_of_pop s len cs n :
  NoDup (map fst (vars s)) ->
  stack_of (mkVS (pop_vars len (vars s)) cs) n = pop_if_ge len (stack_of s n).
Proof.
  intros Hd. unfold stack_of; cbn. rewrite (assoc_pop_vars _ _ _ Hd).
  destruct (assoc n (vars s)) as [st|]; [|reflexivity].
  destruct (pop_if_ge len st); reflexivity.
Qed.

Lemma removelast_length {A} (l : list A) : length (removelast l) = length l - 1.
Proof.
  induction l as [|x l IH]; [reflexivity|].
  destruct l as [|y l]; [reflexivity|]. cbn [removelast length] in *. rewrite IH. lia.
Qed.

Lemma nth_error_removelast {A} (l : list A) i :
  i < length l - 1 -> nth_error (removelast l) i = nth_error l i.
Proof.
  revert i. induction l as [|x l IH]; intros i Hi; [reflexivity|].
  destruct l as [|y l]; [cbn in Hi; lia|].
  destruct i; [reflexivity|]. cbn [removelast nth_error].
  apply IH. cbn [length] in *. lia.
Qed.

Lemma pop_if_ge_ok cs len st :
  length cs = S len ->
  stack_ok cs (S len) st ->
  stack_ok (removelast cs) len (pop_if_ge len st).
Proof.
  intros Hl Hst.
  apply stack_ok_ctx with (cs := cs).
  { intros i Hi. rewrite nth_error_removelast by lia. trivial. }
  destruct st as [|[v i] rest]; cbn; [trivial|].
  cbn in Hst. destruct Hst as (H1 & H2 & H3).
  destruct (len <=? i) eqn:E.
  - apply Nat.leb_le in E. assert (i = len) by lia. subst i. exact H2.
  - apply Nat.leb_gt in E. cbn. split; [exact E|]. split; assumption.
Qed.

Lemma pop_if_ge_below cs len st : stack_ok cs (S len) st -> pop_if_ge len st = below len st.
Proof.
  destruct st as [|[v i] rest]; [reflexivity|]. cbn [stack_ok pop_if_ge]. intros (Hi & Hr & _).
  destruct (len <=? i) eqn:E.
  - apply Nat.leb_le in E. rewrite below_cons_ge by exact E.
    symmetry. apply (below_all cs i); [exact Hr|lia].
  - apply Nat.leb_gt in E. symmetry. apply below_cons_lt. exact E.
Qed.

Lemma set_nth_length {A} i (x : A) l : length (set_nth i x l) = length l.
Proof. revert i; induction l as [|y l IH]; intros [|i]; cbn; auto. Qed.

Lemma nth_error_set_nth_same {A} i (x : A) l : i < length l -> nth_error (set_nth i x l) i = Some x.
Proof.
  revert i; induction l as [|y l IH]; intros [|i]; cbn; intros H; try lia; [reflexivity|].
  apply IH; lia.
Qed.

Lemma nth_error_set_nth_other {A} i j (x : A) l : i <> j -> nth_error (set_nth i x l) j = nth_error l j.
Proof.
  revert i j; induction l as [|y l IH]; intros [|i] [|j]; cbn; intros H; try reflexivity; try lia.
  apply IH; lia.
Qed.

Lemma set_nth_app1 {A} i (x y : A) l : i < length l -> set_nth i x (l ++ [y]) = set_nth i x l ++ [y].
Proof.
  revert i. induction l as [|z l IH]; intros [|i] H; cbn in *; try lia; [reflexivity|].
  rewrite IH by lia. reflexivity.
Qed.

Lemma set_nth_app_last {A} (x y : A) l : set_nth (length l) x (l ++ [y]) = l ++ [x].
Proof. induction l as [|z l IH]; cbn; [reflexivity|]. rewrite IH. reflexivity. Qed.

Lemma inv_init : Inv init.
Proof.
  constructor; cbn.
  - constructor.
  - eauto.
  - intros n. exact I.
Qed.

Lemma inv_ctxs_nonempty s : Inv s -> ctxs s <> [].
Proof. intros [_ (ps & rest & E) _]. rewrite E. discriminate. Qed.

Lemma index_of_context_total s sc : Inv s -> exists ci, index_of_context sc (ctxs s) = Some ci.
Proof.
  intros [_ (ps & rest & E) _]. destruct (topreg_some _ _ _ E) as [i Hi].
  destruct sc; cbn; rewrite ?Hi; cbn; eauto.
Qed.

Lemma with_stack_inv s n st :
  Inv s -> stack_ok (ctxs s) (length (ctxs s)) st -> Inv (with_stack s n st).
Proof.
  intros [Hk Hb Hs] Hst. constructor; cbn.
  - apply set_assoc_nodup; exact Hk.
  - exact Hb.
  - intros m. destruct (str_eq_dec m n) as [->|Hne].
    + rewrite stack_of_with_same. exact Hst.
    + rewrite stack_of_with_other by exact Hne. apply Hs.
Qed.

Lemma stack_of_assoc s n st : assoc n (vars s) = Some st -> stack_of s n = st.
Proof. unfold stack_of. intros ->. reflexivity. Qed.

Lemma step_pop s :
  step s OPop =
  if length (ctxs s) <? 2 then None
  else Some (mkVS (pop_vars (length (ctxs s) - 1) (vars s)) (removelast (ctxs s)), RUnit).
Proof.
  cbn [step]. destruct (ctxs s) as [|c1 [|c2 cs]] eqn:E; try reflexivity.
  rewrite <- E. rewrite removelast_length.
  replace (length (ctxs s) <? 2) with false; [reflexivity|].
  symmetry; apply Nat.ltb_ge. rewrite E; cbn; lia.
Qed.

Lemma pop_spec s s' r :
  Inv s -> step s OPop = Some (s', r) ->
  r = RUnit /\ 2 <= length (ctxs s) /\ ctxs s' = removelast (ctxs s) /\
  forall n, stack_of s' n = below (length (ctxs s) - 1) (stack_of s n).
Proof.
  intros [Hk _ Hs]. rewrite step_pop. destruct (length (ctxs s) <? 2) eqn:El; [discriminate|].
  apply Nat.ltb_ge in El. intros [= <- <-]. repeat split; [exact El|].
  intros n. rewrite stack_of_pop by exact Hk. apply (pop_if_ge_below (ctxs s)).
  replace (S (length (ctxs s) - 1)) with (length (ctxs s)) by lia. apply Hs.
Qed.

Lemma step_gon_inv s n sc ms s' r :
  step s (OGetOrNew n sc ms) = Some (s', r) ->
  exists v j rest, get_or_new_stack (ctxs s) sc (stack_of s n) = Some ((v, j) :: rest) /\
    s' = with_stack s n ((fst (mutate_all v ms), j) :: rest) /\ r = RMuts (snd (mutate_all v ms)).
Proof.
  cbn [step]. destruct (get_or_new_stack _ _ _) as [[|[v j] rest]|]; try discriminate.
  destruct (mutate_all v ms) as [v' rs] eqn:Em. intros [= <- <-].
  exists v, j, rest. rewrite Em. repeat split.
Qed.

(* [step_unset_inv] forgets the result of the step: enough for the invariant
   and the frame lemmas.  The simulation needs the result too. *)
Lemma step_unset_inv s n sc s' r :
  step s (OUnset n sc) = Some (s', r) ->
  s' = s \/
  exists ci, index_of_context sc (ctxs s) = Some ci /\
             first_ro (fst (span_ge ci (stack_of s n))) = None /\
             s' = with_stack s n (below ci (stack_of s n)).
Proof.
  cbn [step]. unfold below, stack_of.
  destruct (assoc n (vars s)) as [st|]; [|intros [= <- _]; left; reflexivity].
  destruct (index_of_context sc (ctxs s)) as [ci|]; [|discriminate].
  destruct (span_ge ci st) as [u l] eqn:Es.
  destruct (first_ro u) eqn:E; intros [= <- _]; [left; reflexivity|].
  right. exists ci. rewrite Es. auto.
Qed.

Lemma step_unset_total s n sc ci :
  index_of_context sc (ctxs s) = Some ci ->
  let u := fst (span_ge ci (stack_of s n)) in
  exists s', step s (OUnset n sc)
             = Some (s', match first_ro u with
                         | Some r => RUnsetErr r
                         | None => RUnset (match u with (v, _) :: _ => Some v | [] => None end)
                         end) /\
    ctxs s' = ctxs s /\
    stack_of s' n = match first_ro u with Some _ => stack_of s n | None => below ci (stack_of s n) end /\
    forall m, m <> n -> stack_of s' m = stack_of s m.
Proof.
  intros Hci. cbn [step]. destruct (assoc n (vars s)) as [st|] eqn:Ea.
  - rewrite Hci, (stack_of_assoc _ _ _ Ea). unfold below.
    destruct (span_ge ci st) as [u l]. cbn [fst snd]. destruct (first_ro u).
    + exists s. repeat split. exact (stack_of_assoc _ _ _ Ea).
    + exists (with_stack s n l). repeat split; [apply stack_of_with_same|].
      intros m Hm. apply stack_of_with_other. exact Hm.
  - assert (Hnil : stack_of s n = []) by (unfold stack_of; rewrite Ea; reflexivity).
    rewrite Hnil. exists s. repeat split. exact Hnil.
Qed.

Theorem inv_step s o s' r : Inv s -> step s o = Some (s', r) -> Inv s'.
Proof.
  intros HI. pose proof HI as [Hk Hb Hs]. destruct Hb as (ps0 & cs0 & Ecs).
  destruct o as [c| |n sc ms|n sc|ps].
  - cbn [step]. intros [= <- <-]. constructor; cbn.
    + exact Hk.
    + rewrite Ecs. cbn. eauto.
    + intros n. change (stack_of (mkVS (vars s) (ctxs s ++ [c])) n) with (stack_of s n).
      rewrite app_length; cbn.
      apply stack_ok_weaken with (b := length (ctxs s)); [lia|].
      apply stack_ok_ctx with (cs := ctxs s); [|apply Hs].
      intros i Hi. rewrite nth_error_app1 by exact Hi. trivial.
  - rewrite step_pop. destruct (length (ctxs s) <? 2) eqn:El; [discriminate|].
    apply Nat.ltb_ge in El. intros [= <- <-]. constructor; cbn [vars ctxs].
    + apply pop_vars_nodup; exact Hk.
    + rewrite Ecs in *. destruct cs0; [cbn in El; lia|]. cbn [removelast]. eauto.
    + intros n. rewrite stack_of_pop by exact Hk. rewrite removelast_length.
      apply pop_if_ge_ok; [lia|].
      replace (S (length (ctxs s) - 1)) with (length (ctxs s)) by lia. apply Hs.
  - intros H. destruct (step_gon_inv _ _ _ _ _ _ H) as (v & j & rest & Eg & -> & _).
    apply with_stack_inv; [exact HI|]. apply stack_ok_mutate.
    exact (get_or_new_stack_ok _ _ _ _ _ _ Ecs (Hs n) Eg).
  - intros H. destruct (step_unset_inv _ _ _ _ _ H) as [->|(ci & _ & _ & ->)]; [exact HI|].
    apply with_stack_inv; [exact HI|]. apply below_ok. apply Hs.
  - cbn [step]. destruct (topreg (ctxs s)) as [i|] eqn:Et; [|discriminate].
    intros [= <- <-].
    destruct (topreg_spec _ _ Et) as (Hi & (ps' & Hn) & _).
    constructor; cbn [vars ctxs].
    + exact Hk.
    + rewrite Ecs. destruct i; cbn; eauto.
    + intros n. change (stack_of (mkVS (vars s) _) n) with (stack_of s n).
      rewrite set_nth_length.
      apply stack_ok_ctx with (cs := ctxs s); [|apply Hs].
      intros j Hj. destruct (Nat.eq_dec i j) as [<-|Hne].
      * rewrite nth_error_set_nth_same by exact Hi. discriminate.
      * rewrite nth_error_set_nth_other by exact Hne. trivial.
Qed.

Lemma inv_run ops : forall s s', Inv s -> run s ops = Some s' -> Inv s'.
Proof.
  induction ops as [|o ops IH]; cbn; intros s s' HI.
  - intros [= <-]; exact HI.
  - destruct (step s o) as [[s1 r]|] eqn:E; [|discriminate].
    apply IH. eapply inv_step; eassumption.
Qed.

(* what runs after an operation: an error is ignored, ends the script, or
   skips one instruction *)
Definition next_instrs (m : errmode) (err : bool) (l : list instr) : option (list instr) :=
  if err then match m with EIgnore => Some l | EFatal => None | ESkip => Some (tl l) end else Some l.

Lemma irun_op St stp ov oe o m l (st : St) :
  irun St stp ov oe (IOp o m :: l) st =
  match stp st o with
  | None => ([], Panicked, st)
  | Some (st1, r) => match next_instrs m (is_err r) l with
                     | Some l' => irun St stp ov oe l' st1
                     | None => ([], Exited, st1)
                     end
  end.
Proof.
  cbn [irun]. destruct (stp st o) as [[st1 r]|]; [|reflexivity].
  unfold next_instrs. destruct (is_err r); [|reflexivity]. destruct m; try reflexivity.
  destruct l; reflexivity.
Qed.

Lemma next_instrs_cases m err l l' :
  next_instrs m err l = Some l' -> l' = l \/ (m = ESkip /\ exists i, l = i :: l').
Proof.
  unfold next_instrs. destruct err; [|intros [= <-]; auto].
  destruct m; [intros [= <-]; auto|discriminate|].
  destruct l as [|i l0]; intros [= <-]; [left; reflexivity|right; eauto].
Qed.
