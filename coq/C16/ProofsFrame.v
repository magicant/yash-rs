(* C16 — frame lemmas: every operation leaves alone what lies [below] the
   context index it aims at; from that, the lifetime of temporary assignments,
   locals and positional parameters under the caller rules ([Model.compile]);
   and the scope chosen by the built-ins, seen after the return of a function:
   get_or_new with Scope::Global (readonly, export, typeset -g, plain
   assignments, for) finds or makes the variable in a regular context of the
   caller, where it outlives the call. *)
From Yv Require Import Common.Base C16.Model C16.Spec C16.ProofsBase C16.ProofsProps.

(* [touch_index]: the lowest context index an operation can modify.  With
   Scope::Volatile get_or_new writes to the topmost context (`context_index =
   len() - 1` in get_or_new_impl), while for unset and the lookups that scope
   starts right above the topmost regular context. *)
Definition gon_index (sc : scope) (cs : list ctx) : option nat :=
  match sc with
  | SVolatile => Some (length cs - 1)
  | _ => index_of_context sc cs
  end.

Definition touch_index (s : vset) (o : op) : option nat :=
  match o with
  | OPush _ => Some (length (ctxs s))
  | OPop => Some (length (ctxs s) - 1)
  | OSetParams _ => topreg (ctxs s)
  | OGetOrNew _ sc _ => gon_index sc (ctxs s)
  | OUnset _ sc => index_of_context sc (ctxs s)
  end.

Definition op_name (o : op) : option name :=
  match o with
  | OGetOrNew n _ _ | OUnset n _ => Some n
  | _ => None
  end.

Lemma gon_loop_keeps_below cs ci removed st st1 :
  gon_loop cs ci removed st = Some st1 -> below ci st1 = below ci st.
Proof.
  revert removed. induction st as [|[v j] rest IH]; intros removed; cbn [gon_loop].
  - intros [= <-]. apply below_cons_ge. lia.
  - destruct (j <? ci) eqn:E.
    + intros [= <-]. apply below_cons_ge. lia.
    + apply Nat.ltb_ge in E. rewrite (below_cons_ge ci v) by exact E.
      destruct (nth_error cs j) as [[ps|]|]; [| |discriminate].
      * intros [= <-]. apply below_cons_ge. exact E.
      * apply IH.
Qed.

Lemma gon_stack_below cs sc st v j rest1 t :
  get_or_new_stack cs sc st = Some ((v, j) :: rest1) -> gon_index sc cs = Some t ->
  t <= j /\ below t rest1 = below t st.
Proof.
  destruct sc; cbn [get_or_new_stack gon_index index_of_context].
  - intros _ [= <-]. split; [lia|]. unfold below. rewrite !span_ge_zero. reflexivity.
  - destruct (topreg cs) as [ci|]; [|discriminate]. intros H [= <-].
    destruct (gon_loop_head _ _ _ _ _ H) as (w & j' & rest' & [= <- <- <-] & Hj & _).
    split; [exact Hj|].
    rewrite <- (gon_loop_keeps_below _ _ _ _ _ H). symmetry. apply below_cons_ge. exact Hj.
  - rewrite gon_volatile_eq. destruct (top_is_volatile cs); [|discriminate].
    destruct st as [|[v0 j0] rest].
    + intros [= <- <- <-] [= <-]. split; [lia|reflexivity].
    + destruct (j0 =? length cs - 1) eqn:Ej.
      * apply Nat.eqb_eq in Ej. intros [= <- <- <-] [= <-]. split; [lia|].
        symmetry. apply below_cons_ge. lia.
      * intros [= <- <- <-] [= <-]. split; [lia|reflexivity].
Qed.

Lemma firstn_firstn_le {A} (l : list A) i j : i <= j -> firstn i (firstn j l) = firstn i l.
Proof. intros H. rewrite firstn_firstn, Nat.min_l by exact H. reflexivity. Qed.

Lemma firstn_cut {A} (l l' : list A) i j : i <= j -> firstn j l' = firstn j l -> firstn i l' = firstn i l.
Proof.
  intros H E. rewrite <- (firstn_firstn_le l' i j H), <- (firstn_firstn_le l i j H), E. reflexivity.
Qed.

Lemma firstn_set_nth {A} i t (x : A) l : t <= i -> firstn t (set_nth i x l) = firstn t l.
Proof.
  revert i t. induction l as [|y l IH]; intros [|i] [|t] H; cbn; try reflexivity; try lia.
  f_equal. apply IH. lia.
Qed.

Lemma firstn_app_le {A} (l l2 : list A) t : t <= length l -> firstn t (l ++ l2) = firstn t l.
Proof.
  intros H. rewrite firstn_app. replace (t - length l) with 0 by lia.
  cbn. apply app_nil_r.
Qed.

Lemma nth_error_firstn_lt {A} (l : list A) i j : i < j -> nth_error (firstn j l) i = nth_error l i.
Proof.
  revert i j. induction l as [|x l IH]; intros [|i] [|j] H; cbn; try reflexivity; try lia.
  apply IH. lia.
Qed.

Lemma step_touch s o s' r t :
  Inv s -> step s o = Some (s', r) -> touch_index s o = Some t ->
  firstn t (ctxs s') = firstn t (ctxs s) /\
  forall m, below t (stack_of s' m) = below t (stack_of s m).
Proof.
  intros HI Hstep Ht. destruct o as [c| |n sc ms|n sc|ps]; cbn [touch_index] in Ht.
  - cbn [step] in Hstep. injection Hstep as <- <-. injection Ht as <-. cbn [ctxs].
    split; [apply firstn_app_le; lia|]. reflexivity.
  - destruct (pop_spec _ _ _ HI Hstep) as (_ & Hlen & Hc & Hst). injection Ht as <-.
    split; [rewrite Hc; apply firstn_removelast; lia|].
    intros m. rewrite Hst. apply below_below. lia.
  - destruct (step_gon_inv _ _ _ _ _ _ Hstep) as (v & j & rest & Eg & -> & _).
    destruct (gon_stack_below _ _ _ _ _ _ _ Eg Ht) as [Hj Hlow].
    split; [reflexivity|]. intros m. destruct (str_eq_dec m n) as [->|Hne].
    + rewrite stack_of_with_same, below_cons_ge by exact Hj. exact Hlow.
    + rewrite stack_of_with_other by exact Hne. reflexivity.
  - destruct (step_unset_inv _ _ _ _ _ Hstep) as [->|(ci & Hci & _ & ->)]; [auto|].
    rewrite Hci in Ht. injection Ht as ->.
    split; [reflexivity|]. intros m. destruct (str_eq_dec m n) as [->|Hne].
    + rewrite stack_of_with_same. apply below_below. lia.
    + rewrite stack_of_with_other by exact Hne. reflexivity.
  - cbn [step] in Hstep. rewrite Ht in Hstep. injection Hstep as <- <-. cbn [ctxs].
    split; [apply firstn_set_nth; lia|]. reflexivity.
Qed.

Lemma step_named s o s' r m :
  step s o = Some (s', r) -> op_name o = Some m ->
  ctxs s' = ctxs s /\ forall n, n <> m -> stack_of s' n = stack_of s n.
Proof.
  intros Hstep Hn. destruct o as [c| |n' sc ms|n' sc|ps]; cbn in Hn; try discriminate;
    injection Hn as ->.
  - destruct (step_gon_inv _ _ _ _ _ _ Hstep) as (v & j & rest & _ & -> & _).
    split; [reflexivity|]. intros n Hne. apply stack_of_with_other. exact Hne.
  - destruct (step_unset_inv _ _ _ _ _ Hstep) as [->|(ci & _ & _ & ->)]; [auto|].
    split; [reflexivity|]. intros n Hne. apply stack_of_with_other. exact Hne.
Qed.

Lemma get_of_stack s s' n : stack_of s' n = stack_of s n -> get s' n = get s n.
Proof. unfold get. intros ->. reflexivity. Qed.

Lemma temp_step s n v s1 r :
  step s (OGetOrNew n SVolatile [MAssign v (Some 0%N); MExport true]) = Some (s1, r) ->
  is_err r = false ->
  (exists w, get s1 n = Some w /\ vval w = Some v /\ vexp w = true) /\
  (forall m, m <> n -> get s1 m = get s m).
Proof.
  intros Es Er. destruct (step_gon_get _ _ _ _ _ _ Es) as (v0 & w & rs & Hm & Hg & ->).
  destruct (mutate_export_facts (Some v) v0 w rs Hm Er) as [He Hv]. split.
  - exists w. auto.
  - intros m Hne. apply get_of_stack. apply (step_named _ _ _ _ n Es eq_refl). exact Hne.
Qed.

Section Lifetime.
Variable ov oe : vset -> pobs.
Notation mrun := (irun vset step ov oe).

Lemma irun_obs i l s t e s' :
  i = IObsVars \/ i = IObsEnv -> mrun (i :: l) s = (t, e, s') -> exists t0, mrun l s = (t0, e, s').
Proof.
  intros [-> | ->]; cbn [irun]; destruct (mrun l s) as [[t0 e0] s0]; intros [= _ <- <-]; eauto.
Qed.

Lemma irun_push c l s : mrun (IOp (OPush c) EIgnore :: l) s = mrun l (mkVS (vars s) (ctxs s ++ [c])).
Proof. reflexivity. Qed.

Lemma irun_fatal o l s t s' :
  mrun (IOp o EFatal :: l) s = (t, Finished, s') ->
  exists s1 r, step s o = Some (s1, r) /\ is_err r = false /\ mrun l s1 = (t, Finished, s').
Proof.
  cbn [irun]. destruct (step s o) as [[s1 r]|]; [|discriminate].
  destruct (is_err r) eqn:E; [discriminate|]. eauto.
Qed.

Lemma irun_ignore o l s s1 r : step s o = Some (s1, r) -> mrun (IOp o EIgnore :: l) s = mrun l s1.
Proof. cbn [irun]. intros ->. destruct (is_err r); reflexivity. Qed.

Lemma irun_pop l s t s' :
  Inv s -> mrun (IOp OPop EIgnore :: l) s = (t, Finished, s') ->
  exists s1, Inv s1 /\ ctxs s1 = removelast (ctxs s) /\
             (forall m, stack_of s1 m = below (length (ctxs s) - 1) (stack_of s m)) /\
             mrun l s1 = (t, Finished, s').
Proof.
  intros HI. cbn [irun]. destruct (step s OPop) as [[s1 r]|] eqn:Es; [|discriminate].
  destruct (pop_spec _ _ _ HI Es) as (-> & Hlen & Hc & Hst). cbn [is_err]. intros H.
  exists s1. split; [exact (inv_step _ _ _ _ HI Es)|]. auto.
Qed.

(* the two pops that end a function call *)
Lemma call_exit k s t s' :
  Inv s -> length (ctxs s) = k + 2 ->
  mrun [IOp OPop EIgnore; IOp OPop EIgnore] s = (t, Finished, s') ->
  ctxs s' = firstn k (ctxs s) /\ forall m, stack_of s' m = below k (stack_of s m).
Proof.
  intros HI Hlen H.
  destruct (irun_pop _ _ _ _ HI H) as (s1 & HI1 & Hc1 & Hst1 & H1).
  destruct (irun_pop _ _ _ _ HI1 H1) as (s2 & _ & Hc2 & Hst2 & H2).
  cbn [irun] in H2. injection H2 as _ ->.
  assert (Hl1 : length (ctxs s1) = S k) by (rewrite Hc1, removelast_length; lia).
  split.
  - rewrite Hc2, removelast_firstn_len, Hl1, Hc1, removelast_firstn_len. cbn [pred].
    apply firstn_firstn_le. lia.
  - intros m. rewrite Hst2, Hst1, Hl1, Hlen. replace (S k - 1) with k by lia.
    apply below_below. lia.
Qed.

Lemma irun_assign n x loc l s t s' :
  mrun (IOp (OGetOrNew n SGlobal [MAssign x loc]) EFatal :: l) s = (t, Finished, s') ->
  exists s1, ctxs s1 = ctxs s /\ (exists w, get s1 n = Some w /\ vval w = Some x) /\
             mrun l s1 = (t, Finished, s').
Proof.
  intros H. destruct (irun_fatal _ _ _ _ _ H) as (s1 & r & Es & Er & H1).
  destruct (step_gon_get _ _ _ _ _ _ Es) as (v0 & w & rs & Hm & Hg & ->).
  exists s1. split; [apply (step_named _ _ _ _ n Es eq_refl)|]. split; [|exact H1].
  exists w. split; [exact Hg|exact (mutate_assign_facts _ _ _ _ _ Hm Er)].
Qed.

(* The temporary assignments of a command, made in its volatile context.
   Unless one of them fails (the shell exits) all are made: nothing below that
   context changes, every temporary is visible and exported with the value
   assigned last, every other name is as before. *)
Lemma temps_run temps : forall l s t e s',
  Inv s -> top_is_volatile (ctxs s) = true ->
  mrun (temp_volatile temps ++ l) s = (t, e, s') ->
  (e = Exited /\ t = []) \/
  exists s1, mrun l s1 = (t, e, s') /\ Inv s1 /\ ctxs s1 = ctxs s /\
    (forall m, below (length (ctxs s) - 1) (stack_of s1 m) = below (length (ctxs s) - 1) (stack_of s m)) /\
    (forall n v, last_temp n temps = Some v ->
                 exists w, get s1 n = Some w /\ vval w = Some v /\ vexp w = true) /\
    (forall n, last_temp n temps = None -> get s1 n = get s n).
Proof.
  induction temps as [|[n v] temps IH]; intros l s t e s' HI Hv; cbn [temp_volatile map app fst snd].
  - intros H. right. exists s. split; [exact H|]. split; [exact HI|]. split; [reflexivity|].
    split; [reflexivity|]. split; [intros n v; discriminate|]. auto.
  - rewrite irun_op.
    destruct (step_total s (OGetOrNew n SVolatile [MAssign v (Some 0%N); MExport true]) HI Hv) as (s1 & r & Es).
    rewrite Es. destruct (is_err r) eqn:Er; cbn [next_instrs]; [intros [= <- <- _]; left; auto|].
    intros H. destruct (temp_step _ _ _ _ _ Es Er) as [(w & Hw1 & Hw2 & Hw3) Hother].
    destruct (step_named _ _ _ _ n Es eq_refl) as [Hc _].
    destruct (step_touch _ _ _ _ _ HI Es eq_refl) as [_ Hlow].
    pose proof (inv_step _ _ _ _ HI Es) as HI1.
    destruct (IH l s1 t e s' HI1 ltac:(rewrite Hc; exact Hv) H)
      as [A|(s2 & Hrun & HI2 & Hc2 & Hlow2 & Hsome & Hnone)]; [left; exact A|].
    right. exists s2. split; [exact Hrun|]. split; [exact HI2|]. split; [congruence|].
    split; [intros m; rewrite Hc in Hlow2; rewrite Hlow2; apply Hlow|].
    unfold last_temp in *. cbn [rev]. split.
    + intros m x. rewrite assoc_app_some. destruct (assoc m (rev temps)) as [y|] eqn:Ea.
      * intros [= <-]. apply Hsome. exact Ea.
      * cbn [assoc]. destruct (str_eqb n m) eqn:Enm; [|discriminate]. intros [= <-].
        apply str_eqb_eq in Enm. subst m. rewrite (Hnone n Ea). eauto.
    + intros m. rewrite assoc_app_some. destruct (assoc m (rev temps)) eqn:Ea; [discriminate|].
      cbn [assoc]. destruct (str_eqb n m) eqn:Enm; [discriminate|]. intros _.
      rewrite (Hnone m Ea). apply Hother. intros ->. rewrite str_eqb_refl in Enm. discriminate.
Qed.

(* the volatile context of a command and its temporary assignments: nothing
   of the state before lies in the new context *)
Lemma temps_enter temps l s t s' :
  Inv s ->
  mrun (IOp (OPush CVolatile) EIgnore :: temp_volatile temps ++ l) s = (t, Finished, s') ->
  exists s1, Inv s1 /\ ctxs s1 = ctxs s ++ [CVolatile] /\
    (forall m, below (length (ctxs s)) (stack_of s1 m) = stack_of s m) /\
    mrun l s1 = (t, Finished, s').
Proof.
  intros HI. rewrite irun_push. intros H.
  destruct (temps_run temps _ _ _ _ _ (inv_step s (OPush CVolatile) _ _ HI eq_refl) (top_volatile_push _) H)
    as [[E _]|(s1 & Hrun & HI1 & Hc1 & Hlow & _)]; [discriminate|].
  exists s1. split; [exact HI1|]. split; [exact Hc1|]. split; [|exact Hrun].
  intros m. cbn [ctxs] in Hlow. rewrite app_length, Nat.add_sub in Hlow. rewrite Hlow.
  destruct HI as [_ _ Hs]. apply (below_all (ctxs s) (length (ctxs s))); [apply Hs|lia].
Qed.

Lemma obs_bracket_restores temps i s t s' :
  Inv s -> i = IObsVars \/ i = IObsEnv ->
  mrun (IOp (OPush CVolatile) EIgnore :: temp_volatile temps ++ [i; IOp OPop EIgnore]) s
    = (t, Finished, s') ->
  ctxs s' = ctxs s /\ forall n, stack_of s' n = stack_of s n.
Proof.
  intros HI Hi H.
  destruct (temps_enter temps _ s t s' HI H) as (s1 & HI1 & Hc1 & Hlow & Hrun).
  destruct (irun_obs _ _ _ _ _ _ Hi Hrun) as [t0 Hpop].
  destruct (irun_pop _ _ _ _ HI1 Hpop) as (s2 & _ & Hc2 & Hst & Hend).
  cbn [irun] in Hend. injection Hend as _ ->.
  rewrite Hc1 in Hc2, Hst. rewrite removelast_last in Hc2. split; [exact Hc2|].
  intros n. rewrite Hst, app_length, Nat.add_sub. apply Hlow.
Qed.

(* the state while a function body runs above the caller's [k] contexts: the
   volatile context of the temporaries at index k, the function's regular
   context at index k+1, and [d] more contexts *)
Definition above (k d : nat) (s : vset) : Prop :=
  length (ctxs s) = k + 2 + d /\ exists ps, nth_error (ctxs s) (S k) = Some (CRegular ps).

Definition keeps (k : nat) (n : name) (s s' : vset) : Prop :=
  firstn (S k) (ctxs s') = firstn (S k) (ctxs s) /\
  below (S k) (stack_of s' n) = below (S k) (stack_of s n).

Lemma keeps_refl k n s : keeps k n s s.
Proof. split; reflexivity. Qed.

Lemma keeps_trans k n s1 s2 s3 : keeps k n s1 s2 -> keeps k n s2 s3 -> keeps k n s1 s3.
Proof. intros [A1 B1] [A2 B2]. split; congruence. Qed.

Definition op_safe (n : name) (o : op) : bool :=
  match o with
  | OGetOrNew m SGlobal _ => negb (str_eqb m n)
  | OUnset m SGlobal => negb (str_eqb m n)
  | _ => true
  end.

Definition dstep (d : nat) (o : op) : nat :=
  match o with OPush _ => S d | OPop => pred d | _ => d end.

Lemma body_step k d n s o s' r :
  Inv s -> above k d s -> op_safe n o = true ->
  (o = OPop -> 0 < d) ->
  step s o = Some (s', r) ->
  keeps k n s s' /\ above k (dstep d o) s'.
Proof.
  intros HI [Hlen [ps Hreg]] Hsafe Hpop Hstep.
  destruct (topreg_exists _ _ _ Hreg) as [tr Htr].
  pose proof (topreg_ge _ _ _ _ Hreg Htr) as Htr_ge.
  (* what every case needs from a touch index t >= k+1 *)
  assert (Hgen : forall t, touch_index s o = Some t -> S k <= t ->
            keeps k n s s' /\
            (S (S k) <= t -> nth_error (ctxs s') (S k) = nth_error (ctxs s) (S k))).
  { intros t Ht Hge. destruct (step_touch _ _ _ _ _ HI Hstep Ht) as (Hf & Hlow).
    split; [split|].
    - eapply firstn_cut; [|exact Hf]. exact Hge.
    - eapply below_mono; [exact Hge|apply Hlow].
    - intros Hge2.
      rewrite <- (nth_error_firstn_lt (ctxs s') (S k) t) by lia.
      rewrite <- (nth_error_firstn_lt (ctxs s) (S k) t) by lia. rewrite Hf. reflexivity. }
  (* an operation on a name keeps the contexts, and the other names *)
  assert (Hnamed : forall m, op_name o = Some m -> above k d s' /\ (m <> n -> keeps k n s s')).
  { intros m Hm. destruct (step_named _ _ _ _ m Hstep Hm) as [Hc Hst]. split.
    - split; [rewrite Hc; exact Hlen|exists ps; rewrite Hc; exact Hreg].
    - intros Hne. split; [rewrite Hc|rewrite Hst by congruence]; reflexivity. }
  destruct o as [c| |m sc ms|m sc|ps']; cbn [dstep].
  - destruct (Hgen (length (ctxs s)) eq_refl ltac:(lia)) as [Hk Hn].
    split; [exact Hk|]. split.
    + cbn [step] in Hstep. injection Hstep as <- <-. cbn [ctxs]. rewrite app_length. cbn. lia.
    + exists ps. rewrite Hn by lia. exact Hreg.
  - specialize (Hpop eq_refl).
    destruct (Hgen (length (ctxs s) - 1) eq_refl ltac:(lia)) as [Hk Hn].
    split; [exact Hk|]. split.
    + destruct (pop_spec _ _ _ HI Hstep) as (_ & _ & Hc & _). rewrite Hc, removelast_length. lia.
    + exists ps. rewrite Hn by lia. exact Hreg.
  - destruct (Hnamed m eq_refl) as [Hab Hother]. split; [|exact Hab].
    destruct (str_eq_dec m n) as [->|Hne]; [|exact (Hother Hne)].
    destruct sc; cbn [op_safe] in Hsafe.
    + rewrite str_eqb_refl in Hsafe. discriminate.
    + apply (Hgen tr); [cbn; exact Htr|lia].
    + apply (Hgen (length (ctxs s) - 1)); [reflexivity|lia].
  - destruct (Hnamed m eq_refl) as [Hab Hother]. split; [|exact Hab].
    destruct (str_eq_dec m n) as [->|Hne]; [|exact (Hother Hne)].
    destruct sc; cbn [op_safe] in Hsafe.
    + rewrite str_eqb_refl in Hsafe. discriminate.
    + apply (Hgen tr); [cbn; exact Htr|lia].
    + apply (Hgen (S tr)); [cbn; rewrite Htr; reflexivity|lia].
  - destruct (Hgen tr Htr ltac:(lia)) as [Hk Hn].
    split; [exact Hk|].
    cbn [step] in Hstep. rewrite Htr in Hstep. injection Hstep as <- <-. unfold above. cbn [ctxs] in *.
    split; [rewrite set_nth_length; exact Hlen|].
    destruct (Nat.eq_dec tr (S k)) as [->|Hne].
    + exists ps'. apply nth_error_set_nth_same. lia.
    + exists ps. rewrite nth_error_set_nth_other by exact Hne. exact Hreg.
Qed.

Definition neutral (o : op) : bool :=
  match o with OPush _ | OPop => false | _ => true end.

(* A block of instructions in a function body that runs to its end above the
   caller's [k] contexts: it leaves as many contexts as it found (so never
   pops the function's own), keeps what [keeps] says and hands over to what
   follows. *)
Definition keeps_inside (k : nat) (n : name) (l0 : list instr) : Prop :=
  forall l s d t s', Inv s -> above k d s -> mrun (l0 ++ l) s = (t, Finished, s') ->
  exists s1 t1, Inv s1 /\ keeps k n s s1 /\ above k d s1 /\ mrun l s1 = (t1, Finished, s').

Lemma keeps_inside_nil k n : keeps_inside k n [].
Proof.
  intros l s d t s' HI Hab H. exists s, t. split; [exact HI|]. split; [apply keeps_refl|]. auto.
Qed.

Lemma keeps_inside_app k n l1 l2 : keeps_inside k n l1 -> keeps_inside k n l2 -> keeps_inside k n (l1 ++ l2).
Proof.
  intros H1 H2 l s d t s' HI Hab H. rewrite <- app_assoc in H.
  destruct (H1 _ _ _ _ _ HI Hab H) as (s1 & t1 & HI1 & K1 & Hab1 & R1).
  destruct (H2 _ _ _ _ _ HI1 Hab1 R1) as (s2 & t2 & HI2 & K2 & Hab2 & R2).
  exists s2, t2. split; [exact HI2|]. split; [exact (keeps_trans _ _ _ _ _ K1 K2)|]. auto.
Qed.

Lemma keeps_inside_obs k n i : i = IObsVars \/ i = IObsEnv -> keeps_inside k n [i].
Proof.
  intros Hi l s d t s' HI Hab H. destruct (irun_obs _ _ _ _ _ _ Hi H) as [t0 H0].
  exists s, t0. split; [exact HI|]. split; [apply keeps_refl|]. auto.
Qed.

(* one safe operation after which the script goes on: the state it leads to
   and the instructions that run next *)
Lemma keeps_inside_step k n o m l s d t s' :
  Inv s -> above k d s -> op_safe n o = true -> (o = OPop -> 0 < d) ->
  mrun (IOp o m :: l) s = (t, Finished, s') ->
  exists s1 r l1, Inv s1 /\ keeps k n s s1 /\ above k (dstep d o) s1 /\
    next_instrs m (is_err r) l = Some l1 /\ mrun l1 s1 = (t, Finished, s').
Proof.
  intros HI Hab Hs Hp H. rewrite irun_op in H.
  destruct (step s o) as [[s1 r]|] eqn:Es; [|discriminate].
  destruct (body_step k d n s o s1 r HI Hab Hs Hp Es) as [K Hab1].
  destruct (next_instrs m (is_err r) l) as [l1|] eqn:En; [|discriminate].
  exists s1, r, l1. split; [exact (inv_step _ _ _ _ HI Es)|]. auto.
Qed.

Lemma neutral_dstep o d : neutral o = true -> (o = OPop -> 0 < d) /\ dstep d o = d.
Proof. destruct o; try discriminate; intros _; (split; [discriminate|reflexivity]). Qed.

Lemma keeps_inside_op k n o m : op_safe n o = true -> neutral o = true -> m <> ESkip -> keeps_inside k n [IOp o m].
Proof.
  intros Hs Hn Hm l s d t s' HI Hab H. destruct (neutral_dstep o d Hn) as [Hp Hd].
  destruct (keeps_inside_step k n o m l s d t s' HI Hab Hs Hp H) as (s1 & r & l1 & HI1 & K & Hab1 & En & R).
  rewrite Hd in Hab1.
  destruct (next_instrs_cases _ _ _ _ En) as [->|[E _]]; [|congruence].
  exists s1, t. auto.
Qed.

(* an operation whose error skips the instruction [i] *)
Lemma keeps_inside_skip k n o i :
  op_safe n o = true -> neutral o = true -> keeps_inside k n [i] -> keeps_inside k n [IOp o ESkip; i].
Proof.
  intros Hs Hn Hi l s d t s' HI Hab H. destruct (neutral_dstep o d Hn) as [Hp Hd].
  destruct (keeps_inside_step k n o ESkip (i :: l) s d t s' HI Hab Hs Hp H) as (s1 & r & l1 & HI1 & K & Hab1 & En & R).
  rewrite Hd in Hab1.
  destruct (next_instrs_cases _ _ _ _ En) as [->|(_ & i' & [= <- <-])].
  - destruct (Hi l s1 d t s' HI1 Hab1 R) as (s2 & t2 & HI2 & K2 & Hab2 & R2).
    exists s2, t2. split; [exact HI2|]. split; [exact (keeps_trans _ _ _ _ _ K K2)|]. auto.
  - exists s1, t. auto.
Qed.

Lemma keeps_inside_bracket k n c mid :
  keeps_inside k n mid -> keeps_inside k n (IOp (OPush c) EIgnore :: mid ++ [IOp OPop EIgnore]).
Proof.
  intros Hmid l s d t s' HI Hab H. cbn [app] in H. rewrite <- app_assoc in H.
  destruct (keeps_inside_step k n (OPush c) EIgnore _ s d t s' HI Hab eq_refl ltac:(intros E; discriminate E) H)
    as (s1 & r1 & l1 & HI1 & K1 & Hab1 & En1 & R1).
  destruct (next_instrs_cases _ _ _ _ En1) as [->|[E _]]; [|discriminate E].
  destruct (Hmid _ s1 _ t s' HI1 Hab1 R1) as (s2 & t2 & HI2 & K2 & Hab2 & R2).
  destruct (keeps_inside_step k n OPop EIgnore l s2 (S d) t2 s' HI2 Hab2 eq_refl ltac:(intros _; apply Nat.lt_0_succ) R2)
    as (s3 & r3 & l3 & HI3 & K3 & Hab3 & En3 & R3).
  destruct (next_instrs_cases _ _ _ _ En3) as [->|[E _]]; [|discriminate E].
  exists s3, t2. split; [exact HI3|].
  split; [exact (keeps_trans _ _ _ _ _ (keeps_trans _ _ _ _ _ K1 K2) K3)|]. split; [exact Hab3|exact R3].
Qed.

Lemma keeps_inside_temp_volatile k n temps : keeps_inside k n (temp_volatile temps).
Proof.
  induction temps as [|[m v] temps IH]; [apply keeps_inside_nil|].
  apply (keeps_inside_app k n [_] (temp_volatile temps)); [|exact IH]. apply keeps_inside_op; [reflexivity|reflexivity|discriminate].
Qed.

Lemma keeps_inside_temp_global k n temps :
  forallb (fun p => negb (str_eqb (fst p) n)) temps = true -> keeps_inside k n (temp_global temps).
Proof.
  induction temps as [|[m v] temps IH]; [intros _; apply keeps_inside_nil|].
  cbn [forallb fst]. rewrite andb_true_iff. intros [Hm Ht].
  apply (keeps_inside_app k n [_] (temp_global temps)); [|exact (IH Ht)]. apply keeps_inside_op; [exact Hm|reflexivity|discriminate].
Qed.

(* the volatile context of a command with its temporary assignments *)
Lemma keeps_inside_temps k n temps mid :
  keeps_inside k n mid ->
  keeps_inside k n (IOp (OPush CVolatile) EIgnore :: temp_volatile temps ++ mid ++ [IOp OPop EIgnore]).
Proof. intros H. rewrite app_assoc. apply keeps_inside_bracket, keeps_inside_app; [apply keeps_inside_temp_volatile|exact H]. Qed.

Section CmdInd.
  Variable P : cmd -> Prop.
  Hypothesis H_assign : forall a, P (CAssign a).
  Hypothesis H_probe : forall t, P (CProbe t).
  Hypothesis H_special : forall t, P (CSpecial t).
  Hypothesis H_call : forall t body a, Forall P body -> P (CCall t body a).
  Hypothesis H_typeset : forall t g x r n v, P (CTypeset t g x r n v).
  Hypothesis H_export : forall n v, P (CExport n v).
  Hypothesis H_readonly : forall n v, P (CReadonly n v).
  Hypothesis H_unset : forall n, P (CUnset n).
  Hypothesis H_setparams : forall ps, P (CSetParams ps).
  Hypothesis H_exec : forall t, P (CExec t).
  Hypothesis H_read : forall t n l, P (CRead t n l).
  Hypothesis H_for : forall n vals body, Forall P body -> P (CFor n vals body).
  Hypothesis H_return : P CReturn.

  Fixpoint cmd_ind' (c : cmd) : P c :=
    let all := fix all (l : list cmd) : Forall P l :=
                 match l with
                 | [] => Forall_nil P
                 | c :: l => Forall_cons c (cmd_ind' c) (all l)
                 end in
    match c with
    | CAssign a => H_assign a
    | CProbe t => H_probe t
    | CSpecial t => H_special t
    | CCall t body a => H_call t body a (all body)
    | CTypeset t g x r n v => H_typeset t g x r n v
    | CExport n v => H_export n v
    | CReadonly n v => H_readonly n v
    | CUnset n => H_unset n
    | CSetParams ps => H_setparams ps
    | CExec t => H_exec t
    | CRead t n l => H_read t n l
    | CFor n vals body => H_for n vals body (all body)
    | CReturn => H_return
    end.
End CmdInd.

Lemma compile_call t body a :
  compile (CCall t body a) =
  IOp (OPush CVolatile) EIgnore :: temp_volatile t
  ++ IOp (OPush (CRegular a)) EIgnore :: flat_map compile (cut_return body)
  ++ [IOp OPop EIgnore; IOp OPop EIgnore].
Proof.
  cbn [compile]. do 4 f_equal.
  induction body as [|c body IH]; [reflexivity|].
  destruct c; cbn [cut_return flat_map]; first [apply f_equal; exact IH|reflexivity].
Qed.

Lemma forallb_cut_return (f : cmd -> bool) body :
  forallb f body = true -> forallb f (cut_return body) = true.
Proof.
  induction body as [|c body IH]; [reflexivity|]. cbn [forallb]. rewrite andb_true_iff. intros [H1 H2].
  destruct c; cbn [cut_return forallb]; rewrite ?H1, ?(IH H2); reflexivity.
Qed.

Lemma Forall_cut_return (P : cmd -> Prop) body : Forall P body -> Forall P (cut_return body).
Proof.
  induction 1 as [|c body Hc _ IH]; [constructor|].
  destruct c; cbn [cut_return]; constructor; assumption.
Qed.

Lemma keeps_inside_flat_map k n body :
  Forall (fun c => cmd_safe n c = true -> keeps_inside k n (compile c)) body ->
  forallb (cmd_safe n) body = true -> keeps_inside k n (flat_map compile body).
Proof.
  induction 1 as [|c body Hc _ IH]; cbn [forallb flat_map]; [intros _; apply keeps_inside_nil|].
  rewrite andb_true_iff. intros [H1 H2]. apply keeps_inside_app; [apply Hc; exact H1|apply IH; exact H2].
Qed.

Lemma compile_keeps k n c : cmd_safe n c = true -> keeps_inside k n (compile c).
Proof.
  induction c as [a|t|t|t body a IH|t g x r m v|m v|m v|m|ps|t|t m ln|m vals body IH|] using cmd_ind';
    try rewrite compile_call; cbn [cmd_safe compile]; intros Hs.
  - apply keeps_inside_temp_global; exact Hs.
  - apply (keeps_inside_temps k n t [IObsVars]). apply keeps_inside_obs. left; reflexivity.
  - apply keeps_inside_temp_global; exact Hs.
  - (* call: the bracket of the function's context inside that of the temporaries *)
    change [IOp OPop EIgnore; IOp OPop EIgnore] with ([IOp OPop EIgnore] ++ [IOp OPop EIgnore]).
    rewrite (app_assoc (flat_map compile (cut_return body))).
    apply (keeps_inside_temps k n t (_ :: _ ++ _)). apply keeps_inside_bracket.
    apply keeps_inside_flat_map; [apply Forall_cut_return; exact IH|apply forallb_cut_return; exact Hs].
  - set (sc := if g then SGlobal else SLocal).
    assert (Hop : forall ms, op_safe n (OGetOrNew m sc ms) = true).
    { intros ms. subst sc. destruct g; [|reflexivity]. cbn [op_safe]. cbn [andb] in Hs. exact Hs. }
    destruct v as [val|].
    + apply (keeps_inside_temps k n t [_; _]). apply keeps_inside_skip; [apply Hop|reflexivity|].
      apply keeps_inside_op; [apply Hop|reflexivity|discriminate].
    + apply (keeps_inside_temps k n t [_]). apply keeps_inside_op; [apply Hop|reflexivity|discriminate].
  - apply keeps_inside_op; [cbn [op_safe]; exact Hs|reflexivity|discriminate].
  - apply keeps_inside_op; [cbn [op_safe]; exact Hs|reflexivity|discriminate].
  - apply keeps_inside_op; [cbn [op_safe]; exact Hs|reflexivity|discriminate].
  - apply keeps_inside_op; [reflexivity|reflexivity|discriminate].
  - apply (keeps_inside_temps k n t [IObsEnv]). apply keeps_inside_obs. right; reflexivity.
  - apply (keeps_inside_temps k n t [_]). apply keeps_inside_op; [cbn [op_safe]; exact Hs|reflexivity|discriminate].
  - apply andb_true_iff in Hs. destruct Hs as [Hm Hb].
    induction vals as [|v vals IHv]; cbn [flat_map]; [apply keeps_inside_nil|].
    apply keeps_inside_app; [|exact IHv].
    apply (keeps_inside_app k n [_]); [|apply keeps_inside_flat_map; assumption].
    apply keeps_inside_op; [cbn [op_safe]; exact Hm|reflexivity|discriminate].
  - apply keeps_inside_nil.
Qed.

Lemma script_keeps k n body :
  forallb (cmd_safe n) body = true -> keeps_inside k n (flat_map compile body).
Proof.
  intros H. apply keeps_inside_flat_map; [|exact H].
  apply Forall_forall. intros c _. apply compile_keeps.
Qed.

End Lifetime.

Lemma cut_return_app pre post : cut_return pre = pre -> cut_return (pre ++ CReturn :: post) = pre.
Proof.
  induction pre as [|c pre IH]; [reflexivity|].
  destruct c; cbn [cut_return app]; try discriminate; intros [= H]; rewrite (IH H); reflexivity.
Qed.

(* `[temps] f args` where the body of f is the single instruction [i] *)
Definition call_one (temps : list (name * value)) (args : list str) (i : instr) : list instr :=
  IOp (OPush CVolatile) EIgnore :: temp_volatile temps
  ++ IOp (OPush (CRegular args)) EIgnore :: i :: [IOp OPop EIgnore; IOp OPop EIgnore].

(* the variable of [n] is [w] and lives in a regular context among the first
   [k]: below a call made when there were [k] contexts *)
Definition landed (k : nat) (s : vset) (n : name) (w : var) : Prop :=
  exists j rest ps, stack_of s n = (w, j) :: rest /\ j < k /\ nth_error (ctxs s) j = Some (CRegular ps).

Lemma landed_get k s n w s' :
  landed k s n w -> stack_of s' n = below k (stack_of s n) -> get s' n = Some w.
Proof.
  intros (j & rest & ps & E & Hj & _) H. unfold get. rewrite H, E, below_cons_lt by exact Hj. reflexivity.
Qed.

(* get_or_new(n, Global) while a call is in progress: [s1] is the state after
   the temporary assignments (its top context is their volatile one), [ext]
   the contexts pushed since, none of which has the name.  The variable is
   found or made in a regular context of the caller. *)
Lemma gon_global_lands s1 cs ext n ms s4 r :
  Inv s1 -> ctxs s1 = cs ++ [CVolatile] -> cs <> [] ->
  step (mkVS (vars s1) (ctxs s1 ++ ext)) (OGetOrNew n SGlobal ms) = Some (s4, r) ->
  exists v0, landed (length cs) s4 n (fst (mutate_all v0 ms)) /\ r = RMuts (snd (mutate_all v0 ms)).
Proof.
  intros [_ (ps0 & cs0 & Ecs) Hs] Hc Hne Es.
  destruct (step_gon_inv _ _ _ _ _ _ Es) as (v0 & j & rest & Hg & -> & ->).
  exists v0. split; [|reflexivity]. exists j, rest. rewrite stack_of_with_same.
  change (gon_loop (ctxs s1 ++ ext) 0 None (stack_of s1 n) = Some ((v0, j) :: rest)) in Hg.
  destruct (gon_loop_head _ _ _ _ _ Hg) as (w' & j' & rest' & [= <- <- <-] & _ & Hor & _ & Hreg).
  destruct (Hreg ps0) as [ps Hps]; [rewrite Ecs; reflexivity|].
  exists ps. split; [reflexivity|]. split; [|exact Hps].
  destruct Hor as [->|Hin]; [destruct cs; [contradiction Hne; reflexivity|apply Nat.lt_0_succ]|].
  apply in_map_iff in Hin. destruct Hin as ([v j'] & Hj' & Hin). cbn in Hj'. subst j'.
  pose proof (stack_ok_lt _ _ _ _ _ (Hs n) Hin) as Hlt. rewrite Hc, app_length in Hlt. cbn in Hlt.
  assert (j <> length cs).
  { intros ->. rewrite Hc, <- app_assoc, nth_error_app2, Nat.sub_diag in Hps by apply le_n. discriminate. }
  lia.
Qed.

(* ... and once it is there, get_or_new(n, Global) finds it again *)
Lemma landed_gon k s n w ms :
  landed k s n w ->
  exists s', step s (OGetOrNew n SGlobal ms) = Some (s', RMuts (snd (mutate_all w ms))) /\
             ctxs s' = ctxs s /\ landed k s' n (fst (mutate_all w ms)).
Proof.
  intros (j & rest & ps & E & Hj & Hps). exists (with_stack s n ((fst (mutate_all w ms), j) :: rest)).
  split; [|split; [reflexivity|]].
  - cbn [step get_or_new_stack]. rewrite E. cbn [gon_loop or_var Nat.ltb Nat.leb]. rewrite Hps.
    destruct (mutate_all w ms); reflexivity.
  - exists j, rest, ps. rewrite stack_of_with_same. auto.
Qed.

Lemma unset_global_empties s n s' r :
  step s (OUnset n SGlobal) = Some (s', r) -> is_err r = false -> stack_of s' n = [].
Proof.
  cbn [step index_of_context]. destruct (assoc n (vars s)) as [st|] eqn:Ea.
  - rewrite span_ge_zero. destruct (first_ro st).
    + intros [= <- <-]. cbn. discriminate.
    + intros [= <- <-] _. apply stack_of_with_same.
  - intros [= <- <-] _. unfold stack_of. rewrite Ea. reflexivity.
Qed.

Section Scope.
Variable ov oe : vset -> pobs.
Notation mrun := (irun vset step ov oe).

(* a call whose body is one operation on a name: the temporaries, the
   function's context, the operation (accepted, or the shell would exit), the
   return -- which leaves of every stack what lies below the call *)
Lemma call_one_run temps args o n s t s' :
  Inv s -> op_name o = Some n ->
  mrun (call_one temps args (IOp o EFatal)) s = (t, Finished, s') ->
  exists s1 s3 r, Inv s1 /\ ctxs s1 = ctxs s ++ [CVolatile] /\
    step (mkVS (vars s1) (ctxs s1 ++ [CRegular args])) o = Some (s3, r) /\ is_err r = false /\
    forall m, stack_of s' m = below (length (ctxs s)) (stack_of s3 m).
Proof.
  intros HI Hn H. unfold call_one in H.
  destruct (temps_enter ov oe temps _ s t s' HI H) as (s1 & HI1 & Hc1 & _ & Hrun).
  rewrite irun_push in Hrun.
  destruct (irun_fatal ov oe _ _ _ _ _ Hrun) as (s3 & r3 & Es3 & Er & Hrun3).
  pose proof (inv_step _ _ _ _ (inv_step s1 (OPush (CRegular args)) _ _ HI1 eq_refl) Es3) as HI3.
  destruct (step_named _ _ _ _ n Es3 Hn) as [Hc3 _].
  destruct (call_exit ov oe (length (ctxs s)) _ _ _ HI3
              ltac:(rewrite Hc3; cbn [ctxs]; rewrite Hc1, !app_length; cbn; lia) Hrun3) as [_ Hst].
  exists s1, s3, r3. auto.
Qed.

(* get_or_new(n, Global) + mutations inside a function: the variable that was
   mutated lies below the function's contexts and is the visible one after
   the return; [P] is whatever the accepted mutations establish *)
Lemma global_gon_in_function temps n ms args (P : var -> Prop) :
  (forall v0 w rs, mutate_all v0 ms = (w, rs) -> is_err (RMuts rs) = false -> P w) ->
  forall s t s', Inv s ->
  mrun (call_one temps args (IOp (OGetOrNew n SGlobal ms) EFatal)) s = (t, Finished, s') ->
  exists w, get s' n = Some w /\ P w.
Proof.
  intros HP s t s' HI H.
  destruct (call_one_run temps args (OGetOrNew n SGlobal ms) n s t s' HI eq_refl H)
    as (s1 & s3 & r & HI1 & Hc1 & Es3 & Er & Hst).
  destruct (gon_global_lands s1 (ctxs s) [CRegular args] n ms s3 r HI1 Hc1 (inv_ctxs_nonempty _ HI) Es3)
    as (v0 & Hl & ->).
  exists (fst (mutate_all v0 ms)). split; [exact (landed_get _ _ _ _ _ Hl (Hst n))|].
  exact (HP _ _ _ (surjective_pairing _) Er).
Qed.

(* the pop of typeset's volatile context, then the two of the call *)
Lemma three_pops s3 k t s' :
  Inv s3 -> length (ctxs s3) = k + 3 ->
  mrun [IOp OPop EIgnore; IOp OPop EIgnore; IOp OPop EIgnore] s3 = (t, Finished, s') ->
  forall m, stack_of s' m = below k (stack_of s3 m).
Proof.
  intros HI3 Hl3 H.
  destruct (irun_pop ov oe _ _ _ _ HI3 H) as (s4 & HI4 & Hc4 & Hst4 & H4).
  destruct (call_exit ov oe k s4 _ _ HI4 ltac:(rewrite Hc4, removelast_length; lia) H4) as [_ Hst].
  intros m. rewrite Hst, Hst4. apply below_below. lia.
Qed.

End Scope.

(* a function whose body is `typeset -g [-x] [-r] n[=v]` (no temporary
   assignments before typeset itself) *)
Lemma compile_call_typeset_g temps x r n v args :
  compile (CCall temps [CTypeset [] true x r n v] args)
  = IOp (OPush CVolatile) EIgnore :: temp_volatile temps
    ++ IOp (OPush (CRegular args)) EIgnore :: IOp (OPush CVolatile) EIgnore
       :: match v with
          | Some val => [IOp (OGetOrNew n SGlobal [MAssign val (Some 0%N)]) ESkip]
          | None => []
          end
       ++ [IOp (OGetOrNew n SGlobal ((if r then [MReadOnly 0%N] else []) ++ (if x then [MExport true] else [])))
               EIgnore;
           IOp OPop EIgnore; IOp OPop EIgnore; IOp OPop EIgnore].
Proof. destruct v; reflexivity. Qed.

Lemma attrs_facts (x r : bool) w w2 rs :
  mutate_all w ((if r then [MReadOnly 0%N] else []) ++ (if x then [MExport true] else [])) = (w2, rs) ->
  vval w2 = vval w /\ (r = true -> is_ro w2 = true) /\ (x = true -> vexp w2 = true).
Proof.
  destruct r, x; cbn; intros [= <- <-]; unfold is_ro; cbn; repeat split; auto; discriminate.
Qed.
