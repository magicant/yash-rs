(* C16 — the abstraction relation between the per-name stacks of the model and
   the stack of maps of the specification, and the simulation theorem. *)
From Yv Require Import Common.Base C16.Model C16.Spec C16.ProofsBase.

Lemma abs_init : Abs init sinit.
Proof. split; [reflexivity|]. intros n. reflexivity. Qed.

Lemma kinds_cons c rest : kinds (c :: rest) = kinds rest ++ [sk c].
Proof. reflexivity. Qed.

Lemma kinds_length a : length (kinds a) = length a.
Proof. unfold kinds. rewrite rev_length, map_length. reflexivity. Qed.

Lemma kinds_app pre a : kinds (pre ++ a) = kinds a ++ kinds pre.
Proof. unfold kinds. rewrite map_app, rev_app_distr. reflexivity. Qed.

Lemma kinds_nth pre c rest : nth_error (kinds (pre ++ c :: rest)) (length rest) = Some (sk c).
Proof.
  rewrite kinds_app, kinds_cons, <- app_assoc.
  rewrite nth_error_app2 by (rewrite kinds_length; lia).
  rewrite kinds_length, Nat.sub_diag. reflexivity.
Qed.

Lemma kinds_nth0 c rest : nth_error (kinds (c :: rest)) (length rest) = Some (sk c).
Proof. exact (kinds_nth [] c rest). Qed.

Lemma topreg_kinds_cons c rest :
  topreg (kinds (c :: rest)) = if is_regular (sk c) then Some (length rest) else topreg (kinds rest).
Proof.
  rewrite kinds_cons. destruct (sk c) as [ps|]; cbn [is_regular].
  - rewrite topreg_app_regular, kinds_length. reflexivity.
  - apply topreg_app_volatile.
Qed.

Lemma proj_lt a n v i : In (v, i) (proj a n) -> i < length a.
Proof.
  induction a as [|c rest IH]; cbn; [intros []|].
  destruct (assoc n (sv c)).
  - intros [[= -> <-]|H]; [lia|]. specialize (IH H). lia.
  - intros H. specialize (IH H). lia.
Qed.

Lemma proj_head_lt a n v i st : proj a n = (v, i) :: st -> i < length a.
Proof. intros H. apply (proj_lt a n v i). rewrite H. left; reflexivity. Qed.

Lemma slookup_proj a n :
  slookup a n = match proj a n with (v, _) :: _ => Some v | [] => None end.
Proof.
  induction a as [|c rest IH]; cbn; [reflexivity|].
  destruct (assoc n (sv c)); [reflexivity|exact IH].
Qed.

Definition shift (k : nat) (p : vic) : vic := (fst p, snd p + k).

Lemma proj_app u l n : proj (u ++ l) n = map (shift (length l)) (proj u n) ++ proj l n.
Proof.
  induction u as [|c rest IH]; cbn; [reflexivity|].
  destruct (assoc n (sv c)); cbn.
  - rewrite IH, app_length. reflexivity.
  - exact IH.
Qed.

(* [inv_base] and [topreg] on the stack of maps, which has the innermost context
   first while indices count from the base. *)
Fixpoint base_reg (a : sstate) : Prop :=
  match a with
  | [] => False
  | c :: rest => match rest with
                 | [] => is_regular (sk c) = true
                 | _ :: _ => base_reg rest
                 end
  end.

Fixpoint s_topreg (a : sstate) : option nat :=
  match a with
  | [] => None
  | c :: rest => if is_regular (sk c) then Some (length rest) else s_topreg rest
  end.

Lemma topreg_kinds a : topreg (kinds a) = s_topreg a.
Proof.
  induction a as [|c rest IH]; [reflexivity|].
  rewrite topreg_kinds_cons. cbn [s_topreg]. rewrite IH. reflexivity.
Qed.

Lemma s_topreg_lt a ci : s_topreg a = Some ci -> ci < length a.
Proof.
  revert ci. induction a as [|c rest IH]; cbn; intros ci; [discriminate|].
  destruct (is_regular (sk c)).
  - intros [= <-]. lia.
  - intros H. specialize (IH _ H). lia.
Qed.

Lemma base_reg_s_topreg a : base_reg a -> exists ci, s_topreg a = Some ci.
Proof.
  induction a as [|c rest IH]; cbn; [intros []|].
  destruct (is_regular (sk c)) eqn:E; [eauto|].
  destruct rest as [|c2 rest2]; [intros H; rewrite H in E; discriminate|].
  exact IH.
Qed.

Lemma is_regular_inv k : is_regular k = true -> exists ps, k = CRegular ps.
Proof. destruct k; [eauto|discriminate]. Qed.

Lemma is_volatile_inv k : is_regular k = false -> k = CVolatile.
Proof. destruct k; [discriminate|reflexivity]. Qed.

Lemma s_gon_sk local carried n a : map sk (s_gon local carried n a) = map sk a.
Proof.
  revert carried. induction a as [|c rest IH]; intros carried; cbn; [reflexivity|].
  destruct (is_regular (sk c)); destruct (assoc n (sv c)); cbn; try rewrite IH; try reflexivity.
  destruct (local || is_nil rest); cbn; [|rewrite IH]; reflexivity.
Qed.

Lemma s_gon_length local carried n a : length (s_gon local carried n a) = length a.
Proof. rewrite <- (map_length sk), s_gon_sk. apply map_length. Qed.

Lemma s_gon_other local carried n m a : m <> n -> proj (s_gon local carried n a) m = proj a m.
Proof.
  intros Hne. revert carried. induction a as [|c rest IH]; intros carried; cbn; [reflexivity|].
  destruct (is_regular (sk c)); destruct (assoc n (sv c)) eqn:Ea; cbn.
  - rewrite assoc_set_other by exact Hne. reflexivity.
  - destruct (local || is_nil rest); cbn.
    + rewrite assoc_set_other by exact Hne. reflexivity.
    + rewrite s_gon_length, IH. reflexivity.
  - rewrite assoc_del_other by exact Hne. rewrite s_gon_length, IH. reflexivity.
  - rewrite s_gon_length, IH. reflexivity.
Qed.

Lemma gon_loop_below cs ci removed st :
  (forall v i rest, st = (v, i) :: rest -> i < ci) ->
  gon_loop cs ci removed st = Some ((or_var removed default_var, ci) :: st).
Proof.
  destruct st as [|[v i] rest]; cbn [gon_loop]; intros H; [reflexivity|].
  specialize (H v i rest eq_refl). apply Nat.ltb_lt in H. rewrite H. reflexivity.
Qed.

(* the loop of the Global | Local branch on the contexts [a] that are left,
   [pre] being those already passed: Local aims at the innermost regular
   context, Global at the base *)
Lemma gon_loop_proj (local : bool) n a : forall pre carried (ci : nat),
  base_reg a -> (if local then s_topreg a = Some ci else ci = 0) ->
  gon_loop (kinds (pre ++ a)) ci carried (proj a n) = Some (proj (s_gon local carried n a) n).
Proof.
  induction a as [|c rest IH]; intros pre carried ci Hb Hci; [destruct Hb|].
  cbn [s_gon proj s_topreg] in *.
  assert (Hle : (length rest <? ci) = false).
  { apply Nat.ltb_ge. destruct local; [|lia].
    destruct (is_regular (sk c)); [injection Hci as <-; lia|apply s_topreg_lt in Hci; lia]. }
  assert (Hb' : is_regular (sk c) = false -> base_reg rest).
  { intros Er. destruct rest; [cbn in Hb; congruence|exact Hb]. }
  assert (IH' : forall carried', base_reg rest -> (if local then s_topreg rest = Some ci else ci = 0) ->
            gon_loop (kinds (pre ++ c :: rest)) ci carried' (proj rest n)
            = Some (proj (s_gon local carried' n rest) n)).
  { intros carried'. replace (pre ++ c :: rest) with ((pre ++ [c]) ++ rest) by (rewrite <- app_assoc; reflexivity).
    apply IH. }
  destruct (is_regular (sk c)) eqn:Er; destruct (assoc n (sv c)) as [v|] eqn:Ea.
  - cbn [gon_loop]. rewrite Hle, kinds_nth. destruct (is_regular_inv _ Er) as [ps ->].
    cbn [proj sv]. rewrite assoc_set_same. reflexivity.
  - destruct (local || is_nil rest) eqn:El.
    + (* the context aimed at *)
      assert (ci = length rest) as ->.
      { destruct local; [injection Hci as <-; reflexivity|]. destruct rest; [exact Hci|discriminate]. }
      cbn [proj sv]. rewrite assoc_set_same.
      apply gon_loop_below. intros v i st H. eapply proj_head_lt; exact H.
    + cbn [proj]. rewrite Ea. apply orb_false_iff in El. destruct El as [-> El].
      apply IH'; [destruct rest; [discriminate|exact Hb]|exact Hci].
  - cbn [gon_loop]. rewrite Hle, kinds_nth, (is_volatile_inv _ Er).
    cbn [proj sv]. rewrite assoc_del_same. apply IH'; [exact (Hb' eq_refl)|exact Hci].
  - cbn [proj]. rewrite Ea. apply IH'; [exact (Hb' eq_refl)|exact Hci].
Qed.

Lemma s_gon_volatile_sim n a :
  gon_volatile (kinds a) (proj a n) = option_map (fun a1 => proj a1 n) (s_gon_volatile n a).
Proof.
  destruct a as [|c rest]; [reflexivity|].
  rewrite gon_volatile_eq. unfold top_is_volatile. rewrite kinds_length.
  replace (length (c :: rest) - 1) with (length rest) by (cbn [length]; lia).
  rewrite kinds_nth0. cbn [s_gon_volatile].
  destruct (is_regular (sk c)) eqn:Er.
  - destruct (is_regular_inv _ Er) as [ps ->]. reflexivity.
  - rewrite (is_volatile_inv _ Er). cbn [proj].
    destruct (assoc n (sv c)) as [v|] eqn:Ea.
    + rewrite Nat.eqb_refl. cbn. rewrite Ea. reflexivity.
    + cbn [option_map proj sv]. rewrite assoc_set_same. rewrite slookup_proj.
      destruct (proj rest n) as [|[v i] st] eqn:Ep; [reflexivity|].
      pose proof (proj_head_lt _ _ _ _ _ Ep) as Hlt.
      replace (i =? length rest) with false by (symmetry; apply Nat.eqb_neq; lia).
      reflexivity.
Qed.

Lemma s_gon_volatile_other n m a a1 :
  m <> n -> s_gon_volatile n a = Some a1 -> proj a1 m = proj a m /\ map sk a1 = map sk a.
Proof.
  intros Hne. destruct a as [|c rest]; cbn; [discriminate|].
  destruct (is_regular (sk c)); [discriminate|].
  destruct (assoc n (sv c)); intros [= <-]; [split; reflexivity|].
  cbn. rewrite assoc_set_other by exact Hne. split; reflexivity.
Qed.

Lemma s_update_proj n v' a v i st :
  proj a n = (v, i) :: st -> proj (s_update n v' a) n = (v', i) :: st.
Proof.
  induction a as [|c rest IH]; cbn; [discriminate|].
  destruct (assoc n (sv c)) eqn:Ea; cbn.
  - rewrite assoc_set_same. intros [= _ <- <-]. reflexivity.
  - rewrite Ea. exact IH.
Qed.

Lemma s_update_sk n v' a : map sk (s_update n v' a) = map sk a.
Proof.
  induction a as [|c rest IH]; cbn; [reflexivity|].
  destruct (assoc n (sv c)); cbn; [|rewrite IH]; reflexivity.
Qed.

Lemma s_update_length n v' a : length (s_update n v' a) = length a.
Proof. rewrite <- (map_length sk), s_update_sk. apply map_length. Qed.

Lemma s_update_other n m v' a : m <> n -> proj (s_update n v' a) m = proj a m.
Proof.
  intros Hne. induction a as [|c rest IH]; cbn; [reflexivity|].
  destruct (assoc n (sv c)) eqn:Ea; cbn.
  - rewrite assoc_set_other by exact Hne. reflexivity.
  - rewrite s_update_length, IH. reflexivity.
Qed.

Lemma split_scope_app sc a : fst (split_scope sc a) ++ snd (split_scope sc a) = a.
Proof.
  destruct sc; [destruct a; cbn; [reflexivity|rewrite app_nil_r; reflexivity]| |];
    (induction a as [|c rest IH]; cbn [split_scope]; [reflexivity|];
     destruct (is_regular (sk c)); [reflexivity|];
     destruct (split_scope _ rest) as [u l]; cbn in *; rewrite IH; reflexivity).
Qed.

Lemma split_scope_index sc a :
  base_reg a -> index_of_context sc (kinds a) = Some (length (snd (split_scope sc a))).
Proof.
  intros Hb. destruct sc; cbn [index_of_context]; [destruct a; reflexivity| |]; rewrite topreg_kinds.
  - induction a as [|c rest IH]; [destruct Hb|]. cbn [s_topreg split_scope].
    destruct (is_regular (sk c)) eqn:Er; [reflexivity|].
    assert (Hb' : base_reg rest) by (destruct rest; [cbn in Hb; rewrite Hb in Er; discriminate|exact Hb]).
    rewrite (IH Hb'). destruct (split_scope SLocal rest); reflexivity.
  - induction a as [|c rest IH]; [destruct Hb|]. cbn [s_topreg split_scope].
    destruct (is_regular (sk c)) eqn:Er; [reflexivity|].
    assert (Hb' : base_reg rest) by (destruct rest; [cbn in Hb; rewrite Hb in Er; discriminate|exact Hb]).
    specialize (IH Hb'). destruct (s_topreg rest); [|discriminate].
    cbn [option_map] in *. rewrite IH. destruct (split_scope SVolatile rest); reflexivity.
Qed.

Lemma span_ge_split i (u l : list vic) :
  (forall p, In p u -> i <= snd p) ->
  (forall p, In p l -> snd p < i) ->
  span_ge i (u ++ l) = (u, l).
Proof.
  intros Hu Hl. induction u as [|[v j] u IH]; cbn [app span_ge].
  - destruct l as [|[v j] l]; [reflexivity|]. cbn [span_ge].
    specialize (Hl (v, j) (or_introl eq_refl)). cbn in Hl.
    replace (i <=? j) with false by (symmetry; apply Nat.leb_gt; lia). reflexivity.
  - pose proof (Hu (v, j) (or_introl eq_refl)) as H. cbn in H.
    apply Nat.leb_le in H. rewrite H. rewrite IH; [reflexivity|].
    intros p Hp. apply Hu. right; exact Hp.
Qed.

Lemma span_ge_proj i u l n :
  i = length l ->
  span_ge i (proj (u ++ l) n) = (map (shift (length l)) (proj u n), proj l n).
Proof.
  intros ->. rewrite proj_app. apply span_ge_split.
  - intros p Hp. apply in_map_iff in Hp. destruct Hp as ([v j] & <- & _). cbn. lia.
  - intros [v j] Hp. cbn. eapply proj_lt; exact Hp.
Qed.

Lemma first_ro_shift k st : first_ro (map (shift k) st) = first_ro st.
Proof.
  induction st as [|[v i] st IH]; cbn; [reflexivity|].
  destruct (vro v); [reflexivity|exact IH].
Qed.

Lemma s_first_ro_proj n u : s_first_ro n u = first_ro (proj u n).
Proof.
  induction u as [|c rest IH]; cbn; [reflexivity|].
  destruct (assoc n (sv c)) as [v|]; cbn; [|exact IH].
  destruct (vro v); [reflexivity|exact IH].
Qed.

Lemma proj_del_same n u : proj (map (s_del n) u) n = [].
Proof.
  induction u as [|c rest IH]; cbn; [reflexivity|].
  rewrite assoc_del_same. exact IH.
Qed.

Lemma proj_del_other n m u : m <> n -> proj (map (s_del n) u) m = proj u m.
Proof.
  intros Hne. induction u as [|c rest IH]; cbn; [reflexivity|].
  rewrite assoc_del_other by exact Hne. rewrite map_length, IH. reflexivity.
Qed.

Lemma map_sk_del n u : map sk (map (s_del n) u) = map sk u.
Proof. induction u as [|c rest IH]; cbn; [|rewrite IH]; reflexivity. Qed.

Lemma s_set_params_sim ps a i :
  s_topreg a = Some i ->
  exists a', s_set_params ps a = Some a' /\
             kinds a' = set_nth i (CRegular ps) (kinds a) /\
             (forall n, proj a' n = proj a n).
Proof.
  revert i. induction a as [|c rest IH]; intros i; cbn [s_topreg s_set_params]; [discriminate|].
  destruct (is_regular (sk c)) eqn:Er.
  - intros [= <-]. eexists; split; [reflexivity|]. split.
    + rewrite !kinds_cons, <- (kinds_length rest). symmetry. apply set_nth_app_last.
    + intros n. reflexivity.
  - intros Hf. destruct (IH _ Hf) as (a' & E1 & E2 & E3). rewrite E1.
    eexists; split; [reflexivity|]. split.
    + rewrite !kinds_cons, E2. symmetry. apply set_nth_app1.
      rewrite kinds_length. exact (s_topreg_lt _ _ Hf).
    + intros n. cbn [proj]. rewrite E3.
      assert (Hl : length a' = length rest).
      { rewrite <- (kinds_length a'), E2, set_nth_length, kinds_length. reflexivity. }
      rewrite Hl. reflexivity.
Qed.

Lemma s_params_sim a i :
  s_topreg a = Some i ->
  match nth_error (kinds a) i with Some (CRegular ps) => Some ps | _ => None end = s_params a.
Proof.
  revert i. induction a as [|c rest IH]; intros i; cbn [s_topreg s_params]; [discriminate|].
  destruct (is_regular (sk c)) eqn:Er.
  - intros [= <-]. rewrite kinds_nth0. destruct (sk c); [reflexivity|discriminate].
  - intros Hf. rewrite (is_volatile_inv _ Er). rewrite <- (IH _ Hf).
    rewrite kinds_cons. rewrite nth_error_app1; [reflexivity|].
    rewrite kinds_length. eapply s_topreg_lt; exact Hf.
Qed.

Lemma base_reg_kinds a k ks : kinds a = k :: ks -> is_regular k = true -> base_reg a.
Proof.
  revert k ks. induction a as [|c rest IH]; intros k ks; [discriminate|].
  rewrite kinds_cons. destruct rest as [|c2 rest2].
  - cbn. intros [= <- <-]. trivial.
  - intros E Hk. cbn [base_reg].
    destruct (kinds (c2 :: rest2)) as [|k' ks'] eqn:Ek.
    { apply (f_equal (@length _)) in Ek. rewrite kinds_length in Ek. discriminate. }
    cbn in E. injection E as <- _. eapply IH; [reflexivity|exact Hk].
Qed.

Lemma abs_base_reg s a : Inv s -> Abs s a -> base_reg a.
Proof.
  intros [_ (ps & rest & Hb) _] [Hc _]. rewrite Hc in Hb.
  eapply base_reg_kinds; [exact Hb|reflexivity].
Qed.

Lemma pop_if_ge_proj c rest n : pop_if_ge (length rest) (proj (c :: rest) n) = proj rest n.
Proof.
  cbn [proj]. destruct (assoc n (sv c)) as [v|]; cbn [pop_if_ge].
  - rewrite Nat.leb_refl. reflexivity.
  - destruct (proj rest n) as [|[v i] st] eqn:Ep; [reflexivity|].
    pose proof (proj_head_lt _ _ _ _ _ Ep) as Hlt. cbn [pop_if_ge].
    replace (length rest <=? i) with false by (symmetry; apply Nat.leb_gt; lia). reflexivity.
Qed.

Lemma gon_sim n sc a :
  base_reg a ->
  get_or_new_stack (kinds a) sc (proj a n) = option_map (fun a1 => proj a1 n) (s_get_or_new n sc a).
Proof.
  intros Hb. destruct sc; cbn [get_or_new_stack s_get_or_new option_map].
  - apply (gon_loop_proj false n a [] None 0 Hb eq_refl).
  - rewrite topreg_kinds. destruct (base_reg_s_topreg _ Hb) as [ci Hf]. rewrite Hf.
    apply (gon_loop_proj true n a [] None ci Hb Hf).
  - apply s_gon_volatile_sim.
Qed.

Lemma gon_frame n sc a a1 :
  s_get_or_new n sc a = Some a1 ->
  map sk a1 = map sk a /\ forall m, m <> n -> proj a1 m = proj a m.
Proof.
  destruct sc; cbn [s_get_or_new].
  - intros [= <-]. split; [apply s_gon_sk|]. intros m Hm. apply s_gon_other; exact Hm.
  - intros [= <-]. split; [apply s_gon_sk|]. intros m Hm. apply s_gon_other; exact Hm.
  - intros H. split.
    + destruct a as [|c rest]; cbn in H; [discriminate|].
      destruct (is_regular (sk c)); [discriminate|].
      destruct (assoc n (sv c)); injection H as <-; reflexivity.
    + intros m Hm. apply (s_gon_volatile_other n m a a1 Hm H).
Qed.

Lemma kinds_of_sk a a' : map sk a' = map sk a -> kinds a' = kinds a.
Proof. unfold kinds. intros ->. reflexivity. Qed.

Theorem sim_step s a o :
  Inv s -> Abs s a ->
  match step s o, sstep a o with
  | Some (s', r), Some (a', r') => Abs s' a' /\ r = r'
  | None, None => True
  | _, _ => False
  end.
Proof.
  intros HI HA. pose proof (abs_base_reg _ _ HI HA) as Hb.
  destruct HA as [Hc Hst].
  destruct o as [c| |n sc ms|n sc|ps].
  - cbn [step sstep]. split; [|reflexivity]. split; cbn [ctxs].
    + rewrite Hc. reflexivity.
    + intros n. change (stack_of (mkVS (vars s) (ctxs s ++ [c])) n) with (stack_of s n).
      rewrite Hst. reflexivity.
  - rewrite step_pop. rewrite Hc, kinds_length. cbn [sstep].
    destruct a as [|c [|c2 rest2]]; [reflexivity|reflexivity|].
    cbn [length]. replace (S (S (length rest2)) <? 2) with false by (symmetry; apply Nat.ltb_ge; lia).
    split; [|reflexivity]. split; cbn [ctxs].
    + rewrite kinds_cons. apply removelast_last.
    + intros n. rewrite stack_of_pop by (destruct HI; assumption).
      rewrite Hst.
      replace (S (S (length rest2)) - 1) with (length (c2 :: rest2)) by (cbn [length]; lia).
      apply pop_if_ge_proj.
  - cbn [step sstep]. rewrite Hc, Hst, (gon_sim n sc a Hb).
    destruct (s_get_or_new n sc a) as [a1|] eqn:Eg; cbn [option_map]; [|exact I].
    destruct (gon_frame _ _ _ _ Eg) as [Hsk Hother].
    destruct (proj a1 n) as [|[v i] rest] eqn:Ep.
    { exfalso. pose proof (gon_sim n sc a Hb) as H. rewrite Eg in H. cbn in H.
      apply get_or_new_stack_nonempty in H. apply H. exact Ep. }
    rewrite slookup_proj, Ep.
    destruct (mutate_all v ms) as [v' rs] eqn:Em.
    split; [|reflexivity]. split; cbn [with_stack ctxs].
    + rewrite Hc. symmetry. apply kinds_of_sk. rewrite s_update_sk. exact Hsk.
    + intros m. destruct (str_eq_dec m n) as [->|Hne].
      * rewrite stack_of_with_same. symmetry. eapply s_update_proj. exact Ep.
      * rewrite stack_of_with_other by exact Hne.
        rewrite s_update_other by exact Hne. rewrite Hother by exact Hne. apply Hst.
  - pose proof (split_scope_app sc a) as Happ.
    pose proof (split_scope_index sc a Hb) as Hidx. rewrite <- Hc in Hidx.
    destruct (step_unset_total s n sc _ Hidx) as (s' & -> & Hc' & Hn & Hm).
    cbn [sstep]. destruct (split_scope sc a) as [u l]. cbn [fst snd] in *.
    assert (Hspan : span_ge (length l) (proj a n) = (map (shift (length l)) (proj u n), proj l n)).
    { rewrite <- Happ. apply span_ge_proj. reflexivity. }
    unfold below in Hn. rewrite Hst, Hspan in Hn |- *. cbn [fst snd] in Hn |- *.
    rewrite first_ro_shift in Hn |- *. rewrite s_first_ro_proj.
    destruct (first_ro (proj u n)) as [r|].
    + split; [|reflexivity]. split; [congruence|].
      intros m. destruct (str_eq_dec m n) as [->|Hne]; [exact Hn|].
      rewrite Hm by exact Hne. apply Hst.
    + split.
      * split.
        { rewrite Hc', Hc. symmetry. apply kinds_of_sk.
          rewrite map_app, map_sk_del, <- map_app, Happ. reflexivity. }
        intros m. destruct (str_eq_dec m n) as [->|Hne].
        -- rewrite Hn, proj_app, proj_del_same. reflexivity.
        -- rewrite Hm, Hst, <- Happ, !proj_app, proj_del_other by exact Hne. reflexivity.
      * rewrite slookup_proj. destruct (proj u n) as [|[v i] st']; reflexivity.
  - cbn [step sstep]. rewrite Hc, topreg_kinds.
    destruct (base_reg_s_topreg _ Hb) as [i Hf]. rewrite Hf.
    destruct (s_set_params_sim ps a i Hf) as (a' & E1 & E2 & E3). rewrite E1.
    split; [|reflexivity]. split; cbn [ctxs].
    + symmetry; exact E2.
    + intros n. change (stack_of (mkVS (vars s) _) n) with (stack_of s n).
      rewrite E3. apply Hst.
Qed.
