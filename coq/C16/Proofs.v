(* C16 — gathers the lemma files; the concrete states and scripts used as
   non-vacuity examples. *)
From Yv Require Export Common.Base C16.Model C16.Spec C16.ProofsBase C16.ProofsAbs C16.ProofsProps
  C16.ProofsFrame C16.Run C16.ProofsOracle C16.ProofsPanic C16.ProofsEnv.

Definition A : name := [97%N].

(* a read-only global, a function context with a local of the same name, and a
   temporary (volatile) copy on top *)
Definition ex_ops : list op :=
  [ OGetOrNew A SGlobal [MAssign (Scalar [49%N]) (Some 1%N); MReadOnly 2%N];
    OPush CVolatile;
    OGetOrNew A SVolatile [MExport true];
    OPush (CRegular [[112%N]]);
    OGetOrNew A SLocal [MAssign (Scalar [50%N]) (Some 3%N); MExport true];
    OPush CVolatile;
    OGetOrNew A SVolatile [MAssign (Scalar [51%N]) None] ].

Definition ex_state : vset :=
  match run init ex_ops with Some s => s | None => init end.

(* the state a history leads to from [init], or [init] if it panics *)
Lemma inv_run_or_init ops : Inv (match run init ops with Some s => s | None => init end).
Proof.
  destruct (run init ops) as [s|] eqn:E; [exact (inv_run ops init s ProofsBase.inv_init E)|].
  exact ProofsBase.inv_init.
Qed.

Lemma ex_state_run : run init ex_ops = Some ex_state.
Proof. vm_compute. reflexivity. Qed.

Lemma ex_state_inv : Inv ex_state.
Proof. exact (inv_run_or_init ex_ops). Qed.

Definition B : name := [98%N].
Definition FIVE : value := Scalar [53%N].

(* f() { typeset b=2; set -- z; vars; }   a=1 b=1; set -- p; a=5 f q  *)
Definition ex_body : list cmd :=
  [ CTypeset [] false false false B (Some (Scalar [50%N]));
    CSetParams [[122%N]];
    CProbe [] ].

Definition ex_pre : list cmd :=
  [ CAssign [(A, Scalar [49%N]); (B, Scalar [49%N])]; CSetParams [[112%N]] ].

Definition ex_pre_state : vset :=
  match run_script [A; B] ex_pre with (_, _, s) => s end.

Lemma ex_pre_inv : Inv ex_pre_state.
Proof.
  assert (H : run init [OGetOrNew A SGlobal [MAssign (Scalar [49%N]) (Some 0%N)];
                        OGetOrNew B SGlobal [MAssign (Scalar [49%N]) (Some 0%N)];
                        OSetParams [[112%N]]] = Some ex_pre_state) by (vm_compute; reflexivity).
  exact (inv_run _ _ _ ProofsBase.inv_init H).
Qed.

Definition ex_script : list cmd :=
  ex_pre ++ [CCall [(A, FIVE)] ex_body [[113%N]]; CExec [(B, FIVE)]; CProbe []].

(* `readonly a` without a value, hidden by nothing *)
Definition ex_valueless : vset :=
  match run init [OGetOrNew A SGlobal [MReadOnly 9%N]] with Some s => s | None => init end.

(* an exported array *)
Definition ex_array : vset :=
  match run init [OGetOrNew A SGlobal [MAssign (Array [[49%N]; []; [50%N]]) None; MExport true]] with
  | Some s => s | None => init end.

(* what `VariableSet::init` does for LINENO: a variable with the quirk and no value *)
Definition LINENO : name := [76; 73; 78; 69; 78; 79]%N.
Definition ex_lineno : vset :=
  match run init [OGetOrNew LINENO SGlobal [MSetQuirk true]; OGetOrNew LINENO SGlobal [MExport true]] with
  | Some s => s | None => init end.

