(* C16 — the property theorems, each with what it claims in terms of yash-rs;
   the lemmas they rest on are in Proofs*.v.  The driver checks the statements
   with [Check] and prints the assumptions on every run. *)
From Yv Require Import Common.Base C16.Model C16.Spec C16.Proofs.

(* The invariant of the variable set (normalised per-name stacks, base context
   regular, volatile copies of read-only variables are copies) holds initially
   and is preserved by every operation that does not panic. *)
Theorem inv_init : Inv init.
Proof. exact ProofsBase.inv_init. Qed.

Theorem inv_preserved : forall s o s' r, Inv s -> step s o = Some (s', r) -> Inv s'.
Proof. exact inv_step. Qed.

(* Every operation commutes with the abstraction to the stack of maps, returns
   what the specification returns, and panics exactly where the specification
   is undefined (pop of the base context, Scope::Volatile without a volatile
   context on top). *)
Theorem abs_commutes : forall s a o, Inv s -> Abs s a ->
  match step s o, sstep a o with
  | Some (s', r), Some (a', r') => Abs s' a' /\ r = r'
  | None, None => True
  | _, _ => False
  end.
Proof. exact sim_step. Qed.

Theorem abs_commutes_run : forall ops,
  match run init ops, srun sinit ops with
  | Some s', Some a' => Inv s' /\ Abs s' a'
  | None, None => True
  | _, _ => False
  end.
Proof. intros ops. exact (sim_run ops init sinit ProofsBase.inv_init abs_init). Qed.

Example abs_commutes_nonvacuous : exists a, srun sinit ex_ops = Some a /\ Abs ex_state a.
Proof.
  pose proof (sim_run ex_ops init sinit ProofsBase.inv_init abs_init) as H. rewrite ex_state_run in H.
  destruct (srun sinit ex_ops) as [a|]; [|contradiction].
  exists a. split; [reflexivity|tauto].
Qed.

(* get(n) is the variable of the innermost context that has n. *)
Theorem lookup_innermost : forall s n v, Inv s ->
  (get s n = Some v <->
   exists i, entry s n i = Some v /\ forall j, i < j -> entry s n j = None).
Proof.
  intros s n v [_ _ Hs]. specialize (Hs n). unfold get.
  setoid_rewrite entry_at_index.
  destruct (stack_of s n) as [|[v0 i0] rest] eqn:E.
  - split; [discriminate|]. intros (i & H & _). discriminate.
  - cbn in Hs. destruct Hs as (H1 & H2 & _). split.
    + intros [= ->]. exists i0. rewrite at_index_head. split; [reflexivity|].
      intros j Hj. rewrite at_index_tail by lia.
      rewrite (at_index_ge _ _ _ j H2) by lia. reflexivity.
    + intros (i & Hi & Hall).
      destruct (Nat.eq_dec i i0) as [->|Hne].
      * rewrite at_index_head in Hi. exact Hi.
      * rewrite at_index_tail in Hi by exact Hne.
        destruct (at_index rest i) as [[w k]|] eqn:El; [|discriminate].
        apply at_index_some in El. destruct El as [Hin Hk]. cbn in Hk; subst k.
        pose proof (stack_ok_lt _ _ _ _ _ H2 Hin) as Hlt.
        specialize (Hall i0 Hlt). rewrite at_index_head in Hall. discriminate.
Qed.

Example lookup_nonvacuous :
  Inv ex_state /\ exists v, get ex_state A = Some v /\ vval v = Some (Scalar [51%N]).
Proof. split; [exact ex_state_inv|]. vm_compute. eexists; split; reflexivity. Qed.

Theorem lookup_none : forall s n, Inv s -> (get s n = None <-> forall i, entry s n i = None).
Proof.
  intros s n _. unfold get. setoid_rewrite entry_at_index.
  destruct (stack_of s n) as [|[v0 i0] rest].
  - split; [intros _ i; reflexivity|reflexivity].
  - split; [discriminate|]. intros H. specialize (H i0). rewrite at_index_head in H. discriminate.
Qed.

Theorem lookup_is_spec_lookup : forall s a n, Abs s a -> get s n = slookup a n.
Proof. exact get_sim. Qed.

Theorem scoped_lookup_is_spec : forall s a n sc, Inv s -> Abs s a ->
  get_scoped s n sc = Some (s_get_scoped a n sc).
Proof. exact get_scoped_sim. Qed.

Theorem iter_is_scoped_lookup : forall s sc, Inv s ->
  exists l, iter s sc = Some l /\ NoDup (map fst l) /\
            forall n v, In (n, v) l <-> get_scoped s n sc = Some (Some v).
Proof. exact iter_get_scoped. Qed.

Theorem positional_params_spec : forall s a, Inv s -> Abs s a -> positional_params s = s_params a.
Proof. exact params_sim. Qed.

(* A read-only variable keeps its value, its assignment location and its
   read-only location (only the export flag may change) under every operation,
   until its context is popped; one that lives in a regular context stays in
   that context, a temporary (volatile) copy may migrate to a lower context. *)
Theorem readonly_never_changes : forall s o s' r n i w,
  Inv s -> step s o = Some (s', r) ->
  entry s n i = Some w -> is_ro w = true ->
  (o = OPop /\ S i = length (ctxs s)) \/
  exists i' w', i' <= i /\ entry s' n i' = Some w' /\ same_attrs w' w /\
                (nth_error (ctxs s) i = Some CVolatile \/ i' = i).
Proof. exact readonly_entry_kept. Qed.

Example readonly_nonvacuous :
  Inv ex_state /\
  (exists w, entry ex_state A 0 = Some w /\ is_ro w = true) /\
  (exists w, entry ex_state A 1 = Some w /\ is_ro w = true /\ vexp w = true).
Proof. split; [exact ex_state_inv|]. vm_compute. split; eexists; repeat split. Qed.

(* A visible read-only variable refuses unset and assignment -- whether or not
   it has a value (`readonly v` without assignment). *)
Theorem readonly_refuses_unset : forall s n w loc,
  get s n = Some w -> vro w = Some loc ->
  step s (OUnset n SGlobal) = Some (s, RUnsetErr loc).
Proof.
  intros s n w loc Hg Hro. destruct (get_stack _ _ _ Hg) as (i & rest & Hst).
  cbn [step]. unfold stack_of in Hst. destruct (assoc n (vars s)) as [st|]; [|discriminate]. subst st.
  cbn [index_of_context]. rewrite span_ge_zero. cbn [first_ro]. rewrite Hro. reflexivity.
Qed.

Theorem readonly_refuses_assign : forall s n w loc x l,
  Inv s -> get s n = Some w -> vro w = Some loc ->
  exists s', step s (OGetOrNew n SGlobal [MAssign x l]) = Some (s', RMuts [AErr loc]).
Proof.
  intros s n w loc x l [_ _ Hs] Hg Hro. destruct (get_stack _ _ _ Hg) as (i & rest & Hst).
  destruct (gon_loop_total (ctxs s) _ 0 None _ (Hs n) (le_n _)) as [st1 E].
  cbn [step get_or_new_stack]. rewrite E.
  (* the visible variable is the one delivered: found in a regular context, or carried *)
  rewrite Hst in E. cbn [gon_loop Nat.ltb Nat.leb] in E.
  assert (Hw : exists j rest1, st1 = (w, j) :: rest1).
  { destruct (nth_error (ctxs s) i) as [[ps|]|]; [injection E as <-; eauto| |discriminate].
    destruct (gon_loop_head _ _ _ _ _ E) as (w' & j & rest1 & -> & _ & _ & Hr & _).
    rewrite (Hr w eq_refl). eauto. }
  destruct Hw as (j & rest1 & ->). cbn [mutate_all mutate]. rewrite Hro. eauto.
Qed.

Example readonly_valueless_nonvacuous :
  Inv ex_valueless /\
  exists w, get ex_valueless A = Some w /\ vval w = None /\ vro w = Some 9%N.
Proof. split; [apply inv_run_or_init|]. vm_compute. eexists; repeat split. Qed.

(* A read-only variable of the base context keeps its value for ever. *)
Theorem readonly_global_forever : forall ops s s' n w,
  Inv s -> run s ops = Some s' ->
  entry s n 0 = Some w -> is_ro w = true ->
  exists w', entry s' n 0 = Some w' /\ same_attrs w' w.
Proof.
  induction ops as [|o ops IH]; intros s s' n w HI; cbn [run].
  - intros [= <-] He _. exists w. split; [exact He|apply same_attrs_refl].
  - destruct (step s o) as [[s1 r]|] eqn:Es; [|discriminate].
    intros Hrun He Hro.
    destruct (readonly_entry_kept _ _ _ _ _ _ _ HI Es He Hro) as [[-> Hlen]|(i' & w' & Hle & He' & Hsa & _)].
    + exfalso. rewrite step_pop in Es. rewrite <- Hlen in Es. cbn in Es. discriminate.
    + assert (i' = 0) by lia. subst i'.
      assert (Hro' : is_ro w' = true) by (rewrite (same_attrs_ro _ _ Hsa); exact Hro).
      destruct (IH s1 s' n w' (inv_step _ _ _ _ HI Es) Hrun He' Hro') as (w'' & H1 & H2).
      exists w''. split; [exact H1|]. eapply same_attrs_trans; eassumption.
Qed.

(* Popping a context discards exactly the variables (and the positional
   parameters) of the topmost context. *)
Theorem pop_discards_exactly_top : forall s s' r,
  Inv s -> step s OPop = Some (s', r) ->
  ctxs s' = removelast (ctxs s) /\
  (forall n i, i < length (ctxs s') -> entry s' n i = entry s n i) /\
  (forall n i, length (ctxs s') <= i -> entry s' n i = None) /\
  positional_params s' = positional_params (mkVS (vars s) (removelast (ctxs s))).
Proof. exact pop_entries. Qed.

Example pop_nonvacuous : Inv ex_state /\ exists s' r, step ex_state OPop = Some (s', r).
Proof. split; [exact ex_state_inv|]. vm_compute. eauto. Qed.

(* The environment of an executed program is exactly the visible exported
   variables with their current values. *)
Theorem env_is_exported_visible : forall s x, Inv s ->
  (In x (env_c_strings s) <-> exists n v, get s n = Some v /\ env_entry n v = Some x).
Proof. exact in_env_c_strings. Qed.

Theorem env_entry_meaning : forall n v x,
  env_entry n v = Some x <->
  vexp v = true /\ ~ In EQ n /\
  exists val, vval v = Some val /\ x = n ++ EQ :: value_string val /\ ~ In 0%N x.
Proof. exact env_entry_some_iff. Qed.

Theorem env_no_duplicates : forall s, Inv s -> NoDup (env_c_strings s).
Proof. exact env_c_strings_nodup. Qed.

Example env_nonvacuous : Inv ex_state /\ env_c_strings ex_state = [[97; 61; 51]%N].
Proof. split; [exact ex_state_inv|reflexivity]. Qed.

(* Array values are passed as their items joined with ':' (and the join loses
   nothing when no item contains ':'). *)
Theorem env_array_joined : forall s n v l,
  Inv s -> get s n = Some v -> vval v = Some (Array l) -> vexp v = true ->
  ~ In EQ n -> ~ In 0%N (n ++ EQ :: join_colon l) ->
  In (n ++ EQ :: join_colon l) (env_c_strings s).
Proof.
  intros s n v l HI Hg Hv He Hn H0. apply (in_env_c_strings s _ HI). exists n, v. split; [exact Hg|].
  apply env_entry_some_iff. split; [exact He|]. split; [exact Hn|].
  exists (Array l). split; [exact Hv|]. split; [reflexivity|exact H0].
Qed.

Theorem join_colon_recovers_items : forall l,
  l <> [] -> Forall (fun x => ~ In COLON x) l -> split_on COLON [] (join_colon l) = l.
Proof.
  induction l as [|x l IH]; [congruence|]. intros _ Hf.
  inversion Hf as [|? ? Hx Hl]; subst.
  destruct l as [|y l].
  - cbn [join_colon]. rewrite <- (app_nil_r x) at 1. rewrite split_on_app_nocolon by exact Hx.
    cbn [split_on]. rewrite app_nil_r, rev_involutive. reflexivity.
  - change (join_colon (x :: y :: l)) with (x ++ COLON :: join_colon (y :: l)).
    rewrite split_on_app_nocolon by exact Hx.
    cbn [split_on]. rewrite N.eqb_refl, app_nil_r, rev_involutive.
    f_equal. apply IH; [discriminate|exact Hl].
Qed.

Example env_array_nonvacuous :
  Inv ex_array /\ env_c_strings ex_array = [[97; 61; 49; 58; 58; 50]%N].
Proof. split; [apply inv_run_or_init|vm_compute; reflexivity]. Qed.

(* Script level: in every script of the command language, every environment an
   executed program receives is the environment of a state that satisfies the
   invariant, i.e. exactly the visible exported variables at that point ... *)
Theorem script_env_is_exported_visible : forall names cs,
  match run_script names cs with (t, _, _) => Forall (env_ok names) t end.
Proof.
  intros names cs. unfold run_script. destruct (irun _ _ _ _ _ init) as [[t e] s'] eqn:E.
  exact (irun_env_ok names _ init t e s' ProofsBase.inv_init E).
Qed.

(* ... and that state includes the temporary assignments of the command itself:
   unless one of them fails (the shell exits), each is visible and exported
   with the value assigned last, and every other name is as before. *)
Theorem exec_env_has_temporaries : forall ov oe temps l s t e s',
  Inv s -> irun vset step ov oe (compile (CExec temps) ++ l) s = (t, e, s') ->
  (e = Exited /\ t = []) \/
  exists s1 t', t = oe s1 :: t' /\ Inv s1 /\
    (forall n v, last_temp n temps = Some v ->
                 exists w, get s1 n = Some w /\ vval w = Some v /\ vexp w = true) /\
    (forall n, last_temp n temps = None -> get s1 n = get s n).
Proof.
  intros ov oe temps l s t e s' HI. cbn [compile app]. rewrite <- app_assoc, irun_push. intros H.
  destruct (temps_run ov oe temps _ _ t e s' (inv_step s (OPush CVolatile) _ _ HI eq_refl)
              (top_volatile_push _) H) as [A|(s1 & Hrun & HI1 & _ & _ & Hsome & Hnone)]; [left; exact A|].
  right. cbn [app] in Hrun.
  change (irun vset step ov oe (IObsEnv :: IOp OPop EIgnore :: l) s1)
    with (let '(t0, e0, s0') := irun vset step ov oe (IOp OPop EIgnore :: l) s1 in (oe s1 :: t0, e0, s0'))
    in Hrun.
  destruct (irun vset step ov oe (IOp OPop EIgnore :: l) s1) as [[t0 e0] s0'] eqn:E.
  injection Hrun as <- <- <-. exists s1, t0. auto.
Qed.

Example exec_env_nonvacuous :
  Inv ex_pre_state /\
  exists t s', irun vset step (m_obs_vars [A; B]) (m_obs_env [A; B])
                 (compile (CExec [(A, FIVE); (A, Scalar [54%N])]) ++ []) ex_pre_state = (t, Finished, s').
Proof. split; [exact ex_pre_inv|]. vm_compute. eauto. Qed.

(* The quirk (LINENO) is only a flag on the variable: setting it changes no
   stored field, so every theorem above holds for quirk variables as well
   ([inv_preserved], [abs_commutes], ... quantify over all mutations including
   set_quirk), and the environment entry of a variable does not depend on it.
   LINENO as `VariableSet::init` makes it (quirk, no value) yields no entry
   even when exported ([quirk_lineno]); a quirk variable that has been given a
   value is passed like any other, as in env_c_strings, which does not look
   at the quirk.  What `Variable::expand` yields is not modelled. *)
Theorem quirk_is_only_a_flag : forall v q,
  let v' := fst (mutate v (MSetQuirk q)) in
  vval v' = vval v /\ vloc v' = vloc v /\ vexp v' = vexp v /\ vro v' = vro v /\ vquirk v' = q.
Proof. cbn. auto. Qed.

Theorem quirk_does_not_change_environment : forall n v q,
  env_entry n (fst (mutate v (MSetQuirk q))) = env_entry n v.
Proof. reflexivity. Qed.

Example quirk_lineno :
  Inv ex_lineno /\
  (exists w, get ex_lineno LINENO = Some w /\ vval w = None /\ vquirk w = true /\ vexp w = true) /\
  env_c_strings ex_lineno = [].
Proof.
  split; [apply inv_run_or_init|split; [vm_compute; eexists; repeat split|vm_compute; reflexivity]].
Qed.

(* In the statements about commands [compile] stands for the caller rules of
   yash-semantics simple_command*.rs and the built-ins, [irun] runs the
   compiled instructions, and the observers [ov], [oe] are universally
   quantified: what a probe reports has no effect on the state.

   Assignments prefixed to a regular built-in that only looks at the variables,
   or to an external utility, do not outlive it: the whole variable set is as
   before. *)
Theorem temp_assign_lifetime_regular : forall ov oe temps s t s',
  Inv s -> irun vset step ov oe (compile (CProbe temps)) s = (t, Finished, s') ->
  ctxs s' = ctxs s /\ forall n, stack_of s' n = stack_of s n.
Proof.
  intros ov oe temps s t s' HI. exact (obs_bracket_restores ov oe temps IObsVars s t s' HI (or_introl eq_refl)).
Qed.

Theorem temp_assign_lifetime_external : forall ov oe temps s t s',
  Inv s -> irun vset step ov oe (compile (CExec temps)) s = (t, Finished, s') ->
  ctxs s' = ctxs s /\ forall n, stack_of s' n = stack_of s n.
Proof.
  intros ov oe temps s t s' HI. exact (obs_bracket_restores ov oe temps IObsEnv s t s' HI (or_intror eq_refl)).
Qed.

Example temp_assign_lifetime_regular_nonvacuous :
  Inv ex_pre_state /\
  exists t s', irun vset step (m_obs_vars [A; B]) (m_obs_env [A; B])
                 (compile (CProbe [(A, FIVE)])) ex_pre_state = (t, Finished, s').
Proof. split; [exact ex_pre_inv|]. vm_compute. eauto. Qed.

(* Assignments prefixed to a special built-in (or to no command) persist. *)
Theorem temp_assign_special_persists : forall ov oe n v s t s',
  irun vset step ov oe (compile (CSpecial [(n, v)])) s = (t, Finished, s') ->
  exists w, get s' n = Some w /\ vval w = Some v.
Proof.
  intros ov oe n v s t s' H. destruct (irun_assign ov oe _ _ _ _ _ _ _ H) as (s1 & _ & Hw & Hend).
  cbn [irun] in Hend. injection Hend as _ <-. exact Hw.
Qed.

Example temp_assign_special_nonvacuous :
  exists t s', irun vset step (m_obs_vars [A; B]) (m_obs_env [A; B])
                 (compile (CSpecial [(A, FIVE)])) ex_pre_state = (t, Finished, s').
Proof. vm_compute. eauto. Qed.

(* Function call: whatever the body does -- nested calls, typeset, unset,
   set --, temporary assignments -- as long as it does not assign, export,
   make read-only or unset the name [n] with global scope ([cmd_safe n]), after
   the return [n] is exactly as before the call (so temporaries and locals
   vanish), and so are all contexts with their positional parameters. *)
Theorem temp_assign_lifetime_function : forall ov oe temps body args n s t s',
  Inv s -> forallb (cmd_safe n) body = true ->
  irun vset step ov oe (compile (CCall temps body args)) s = (t, Finished, s') ->
  ctxs s' = ctxs s /\ stack_of s' n = stack_of s n.
Proof.
  intros ov oe temps body args n s t s' HI Hsafe. rewrite compile_call. intros H.
  apply (forallb_cut_return (cmd_safe n)) in Hsafe.
  destruct (temps_enter ov oe temps _ s t s' HI H) as (s1 & HI1 & Hc1 & Hlow1 & Hrun1).
  set (k := length (ctxs s)) in *.
  assert (Hl1 : length (ctxs s1) = S k) by (rewrite Hc1, app_length; cbn; lia).
  (* push the function's regular context *)
  rewrite irun_push in Hrun1.
  set (s2 := mkVS (vars s1) (ctxs s1 ++ [CRegular args])) in Hrun1.
  assert (HI2 : Inv s2) by exact (inv_step s1 (OPush (CRegular args)) _ _ HI1 eq_refl).
  assert (Hab2 : above k 0 s2).
  { split; cbn [s2 ctxs].
    - rewrite app_length, Hl1. cbn. lia.
    - exists args. rewrite nth_error_app2, Hl1, Nat.sub_diag by lia. reflexivity. }
  destruct (script_keeps ov oe k n _ Hsafe _ s2 0 _ s' HI2 Hab2 Hrun1)
    as (s3 & t3 & HI3 & [Hf3 Hk3] & [Hlen3 _] & Hrun3).
  rewrite Nat.add_0_r in Hlen3.
  destruct (call_exit ov oe k _ _ _ HI3 Hlen3 Hrun3) as [Hc' Hst']. split.
  - rewrite Hc', (firstn_cut _ _ k (S k) ltac:(lia) Hf3). cbn [s2 ctxs].
    rewrite firstn_app_le, Hc1, firstn_app_le by lia. apply firstn_all.
  - rewrite Hst', (below_mono k (S k) _ _ ltac:(lia) Hk3). apply Hlow1.
Qed.

Example temp_assign_lifetime_function_nonvacuous :
  Inv ex_pre_state /\ forallb (cmd_safe B) ex_body = true /\
  exists t s', irun vset step (m_obs_vars [A; B]) (m_obs_env [A; B])
                 (compile (CCall [(A, FIVE)] ex_body [[113%N]])) ex_pre_state = (t, Finished, s').
Proof. split; [exact ex_pre_inv|]. split; [reflexivity|]. vm_compute. eauto. Qed.

(* `return`: the rest of the body does not run and the call ends exactly like a
   call whose body stops there -- so all the theorems about calls (contexts,
   temporaries, locals, positional parameters popped at every level of
   nesting) apply to functions left by `return`. *)
Theorem return_ends_the_call : forall t pre post a,
  cut_return pre = pre ->
  compile (CCall t (pre ++ CReturn :: post) a) = compile (CCall t pre a).
Proof. intros t pre post a H. rewrite !compile_call, (cut_return_app _ _ H), H. reflexivity. Qed.

(* `for`: the variable is assigned in the enclosing scope (no context is
   pushed) and keeps the last value after the loop. *)
Theorem for_variable_persists : forall ov oe n vals v s t s',
  irun vset step ov oe (compile (CFor n (vals ++ [v]) [])) s = (t, Finished, s') ->
  ctxs s' = ctxs s /\ exists w, get s' n = Some w /\ vval w = Some (Scalar v).
Proof.
  intros ov oe n vals v. cbn [compile flat_map].
  induction vals as [|u vals IH]; intros s t s' H; cbn [app flat_map] in H;
    destruct (irun_assign ov oe _ _ _ _ _ _ _ H) as (s1 & Hc & Hw & Hrun).
  - cbn [irun] in Hrun. injection Hrun as _ <-. auto.
  - destruct (IH s1 t s' Hrun) as [Hc' Hw']. split; [congruence|exact Hw'].
Qed.

(* A plain assignment `n=v` in a function body (Scope::Global, whatever the
   temporary assignments before the call) is still in force after the return. *)
Theorem globals_assigned_inside_persist : forall ov oe temps n v args s t s',
  Inv s ->
  irun vset step ov oe (compile (CCall temps [CAssign [(n, v)]] args)) s = (t, Finished, s') ->
  exists w, get s' n = Some w /\ vval w = Some v.
Proof.
  intros ov oe temps n v args. exact (global_gon_in_function ov oe temps n _ args _ (mutate_assign_facts v _)).
Qed.

Example globals_assigned_inside_nonvacuous :
  Inv ex_pre_state /\
  exists t s', irun vset step (m_obs_vars [A; B]) (m_obs_env [A; B])
                 (compile (CCall [(A, Scalar [55%N])] [CAssign [(A, FIVE)]] [])) ex_pre_state
               = (t, Finished, s').
Proof. split; [exact ex_pre_inv|]. vm_compute. eauto. Qed.

(* `readonly NAME[=VALUE]` executed inside a function (at any depth: [s] is any
   state satisfying the invariant; with or without temporary assignments before the call):
   after the return the name is still a variable, read-only, with the value
   given.  (readonly.rs forces Scope::Global: the visible variable or a new
   one in the base context is marked, never a new local.) *)
Theorem readonly_in_function_persists : forall ov oe temps n v args s t s',
  Inv s ->
  irun vset step ov oe (compile (CCall temps [CReadonly n v] args)) s = (t, Finished, s') ->
  exists w, get s' n = Some w /\ is_ro w = true /\ forall x, v = Some x -> vval w = Some x.
Proof.
  intros ov oe temps n v args. exact (global_gon_in_function ov oe temps n _ args _ (mutate_readonly_facts v)).
Qed.

(* `export NAME[=VALUE]` inside a function: the same with the export flag. *)
Theorem export_in_function_persists : forall ov oe temps n v args s t s',
  Inv s ->
  irun vset step ov oe (compile (CCall temps [CExport n v] args)) s = (t, Finished, s') ->
  exists w, get s' n = Some w /\ vexp w = true /\ forall x, v = Some x -> vval w = Some x.
Proof.
  intros ov oe temps n v args. exact (global_gon_in_function ov oe temps n _ args _ (mutate_export_facts v)).
Qed.

(* `typeset [-x] [-r] NAME[=VALUE]` (no -g) inside a function, whatever the
   options, the temporary assignments before the function and before typeset:
   after the return the name is exactly as before the call. *)
Theorem typeset_local_vanishes_at_return : forall ov oe temps tt x r n v args s t s',
  Inv s ->
  irun vset step ov oe (compile (CCall temps [CTypeset tt false x r n v] args)) s = (t, Finished, s') ->
  ctxs s' = ctxs s /\ stack_of s' n = stack_of s n /\ get s' n = get s n.
Proof.
  intros ov oe temps tt x r n v args s t s' HI H.
  destruct (temp_assign_lifetime_function ov oe temps [CTypeset tt false x r n v] args n s t s' HI eq_refl H) as [A B].
  exact (conj A (conj B (get_of_stack _ _ _ B))).
Qed.

(* `typeset -g [-x] [-r] NAME[=VALUE]` inside a function (no temporary
   assignment before typeset itself): like readonly/export it acts on the
   visible variable or a new one in the base context; after the return the
   variable is there; with -r it is read-only; unless it was read-only already
   (then the assignment is refused and the attributes are skipped) it has the
   value given and, with -x, the export flag. *)
Theorem typeset_global_in_function_persists : forall ov oe temps x r n v args s t s',
  Inv s ->
  irun vset step ov oe (compile (CCall temps [CTypeset [] true x r n v] args)) s = (t, Finished, s') ->
  exists w, get s' n = Some w /\ (r = true -> is_ro w = true) /\
    (is_ro w = true \/ ((forall val, v = Some val -> vval w = Some val) /\ (x = true -> vexp w = true))).
Proof.
  intros ov oe temps x r n v args s t s' HI H. rewrite compile_call_typeset_g in H.
  destruct (temps_enter ov oe temps _ s t s' HI H) as (s1 & HI1 & Hc1 & _ & Hrun).
  set (k := length (ctxs s)) in *.
  rewrite !irun_push in Hrun. cbn [vars ctxs] in Hrun. rewrite <- app_assoc in Hrun. cbn [app] in Hrun.
  pose proof (inv_step _ (OPush CVolatile) _ _ (inv_step s1 (OPush (CRegular args)) _ _ HI1 eq_refl) eq_refl)
    as HI3. cbn [vars ctxs] in HI3. rewrite <- app_assoc in HI3. cbn [app] in HI3.
  set (s3 := mkVS (vars s1) (ctxs s1 ++ [CRegular args; CVolatile])) in *.
  assert (Hl3 : length (ctxs s3) = k + 3).
  { cbn [s3 ctxs]. rewrite app_length, Hc1, app_length. cbn. fold k. lia. }
  (* where get_or_new(n, Global) finds or makes the variable *)
  pose proof (fun ms s4 r4 => gon_global_lands s1 (ctxs s) [CRegular args; CVolatile] n ms s4 r4
                                HI1 Hc1 (inv_ctxs_nonempty _ HI)) as Hland.
  fold s3 k in Hland.
  (* the three pops show a variable that lies there *)
  assert (Hpops : forall s4 w t4, Inv s4 -> ctxs s4 = ctxs s3 -> landed k s4 n w ->
            irun vset step ov oe [IOp OPop EIgnore; IOp OPop EIgnore; IOp OPop EIgnore] s4 = (t4, Finished, s') ->
            get s' n = Some w).
  { intros s4 w t4 HI4 Hc4 Hl4 H4. apply (landed_get k s4 n w s' Hl4).
    apply (three_pops ov oe s4 k t4 s' HI4); [rewrite Hc4; exact Hl3|exact H4]. }
  destruct v as [val|]; cbn [app] in Hrun; rewrite irun_op in Hrun;
    (destruct (step s3 _) as [[s4 r4]|] eqn:Es4; [|discriminate]);
    pose proof (inv_step _ _ _ _ HI3 Es4) as HI4;
    destruct (step_named _ _ _ _ n Es4 eq_refl) as [Hc4 _];
    destruct (Hland _ _ _ Es4) as (v0 & Hl4 & ->).
  - (* with a value: the assignment first *)
    cbn [mutate_all mutate fst snd] in Hl4, Hrun.
    destruct (vro v0) eqn:Ero; cbn [fst snd is_err existsb orb next_instrs tl] in Hl4, Hrun.
    + (* read-only: the attributes are skipped *)
      exists v0. split; [exact (Hpops s4 v0 t HI4 Hc4 Hl4 Hrun)|].
      unfold is_ro. rewrite Ero. split; [reflexivity|left; reflexivity].
    + destruct (landed_gon k s4 n _ ((if r then [MReadOnly 0%N] else []) ++ (if x then [MExport true] else []))
                  Hl4) as (s5 & Es5 & Hc5 & Hl5).
      match type of Hl4 with landed _ _ _ ?w1 =>
        destruct (attrs_facts x r w1 _ _ (surjective_pairing _)) as (A & B & C) end.
      rewrite (irun_ignore ov oe _ _ _ _ _ Es5) in Hrun.
      eexists. split; [exact (Hpops s5 _ t (inv_step _ _ _ _ HI4 Es5) ltac:(congruence) Hl5 Hrun)|].
      split; [exact B|]. right. split; [|exact C]. intros val' [= <-]. rewrite A. reflexivity.
  - (* without a value *)
    destruct (attrs_facts x r v0 _ _ (surjective_pairing _)) as (A & B & C).
    eexists. split; [|split; [exact B|right; split; [discriminate|exact C]]].
    apply (Hpops s4 _ t HI4 Hc4 Hl4). destruct (is_err _) in Hrun; exact Hrun.
Qed.

(* `unset NAME` inside a function (unset/semantics.rs: Scope::Global) removes
   the variable from EVERY context, the caller's locals and the global too:
   nothing is revealed, inside or after the return. *)
Theorem unset_in_function_removes_everywhere : forall ov oe temps n args s t s',
  Inv s ->
  irun vset step ov oe (compile (CCall temps [CUnset n] args)) s = (t, Finished, s') ->
  get s' n = None.
Proof.
  intros ov oe temps n args s t s' HI H.
  destruct (call_one_run ov oe temps args (OUnset n SGlobal) n s t s' HI eq_refl H)
    as (s1 & s3 & r & _ & _ & Es3 & Er & Hst).
  unfold get. rewrite Hst, (unset_global_empties _ _ _ _ Es3 Er). reflexivity.
Qed.

(* The variable of a `for` loop run inside a function is not local to it. *)
Theorem for_variable_in_function_persists : forall ov oe temps n v args s t s',
  Inv s ->
  irun vset step ov oe (compile (CCall temps [CFor n [v] []] args)) s = (t, Finished, s') ->
  exists w, get s' n = Some w /\ vval w = Some (Scalar v).
Proof.
  intros ov oe temps n v args.
  exact (global_gon_in_function ov oe temps n _ args _ (mutate_assign_facts (Scalar v) _)).
Qed.

Example scope_theorems_nonvacuous :
  Inv ex_pre_state /\
  (exists t s', irun vset step (m_obs_vars [A; B]) (m_obs_env [A; B])
                 (compile (CCall [(A, Scalar [55%N])] [CReadonly A (Some FIVE)] [])) ex_pre_state
               = (t, Finished, s')) /\
  (exists t s', irun vset step (m_obs_vars [A; B]) (m_obs_env [A; B])
                 (compile (CCall [(A, Scalar [55%N])] [CExport A None] [])) ex_pre_state
               = (t, Finished, s')) /\
  (exists t s', irun vset step (m_obs_vars [A; B]) (m_obs_env [A; B])
                 (compile (CCall [(A, Scalar [55%N])] [CTypeset [] false true true A (Some FIVE)] [])) ex_pre_state
               = (t, Finished, s')).
Proof. split; [exact ex_pre_inv|]. repeat split; vm_compute; eauto. Qed.

Example scope_theorems_nonvacuous2 :
  Inv ex_pre_state /\
  (exists t s', irun vset step (m_obs_vars [A; B]) (m_obs_env [A; B])
                 (compile (CCall [(A, Scalar [55%N])] [CTypeset [] true true true A (Some FIVE)] [])) ex_pre_state
               = (t, Finished, s')) /\
  (exists t s', irun vset step (m_obs_vars [A; B]) (m_obs_env [A; B])
                 (compile (CCall [(A, Scalar [55%N])] [CUnset A] [])) ex_pre_state
               = (t, Finished, s')) /\
  (exists t s', irun vset step (m_obs_vars [A; B]) (m_obs_env [A; B])
                 (compile (CCall [(A, Scalar [55%N])] [CFor A [[49%N]] []] [])) ex_pre_state
               = (t, Finished, s')).
Proof. split; [exact ex_pre_inv|]. repeat split; vm_compute; eauto. Qed.

(* Why a built-in that takes Scope::Local for Scope::Global shows nothing at
   top level: while the base context is the only regular one the two scopes
   are the same operation ... *)
Theorem local_scope_is_global_at_top_level : forall s n ms,
  topreg (ctxs s) = Some 0 ->
  step s (OGetOrNew n SLocal ms) = step s (OGetOrNew n SGlobal ms).
Proof. intros s n ms H. cbn [step get_or_new_stack]. rewrite H. reflexivity. Qed.

(* ... and inside a function they are not: on a name the function has no
   variable for, Local creates it in the function's context, Global in the
   base context. *)
Theorem local_scope_differs_in_function :
  exists s n ms, Inv s /\ topreg (ctxs s) = Some 1 /\
    step s (OGetOrNew n SLocal ms) <> step s (OGetOrNew n SGlobal ms).
Proof.
  exists (mkVS [] [CRegular []; CRegular []]), [97%N], [MReadOnly 0%N].
  split; [|split; [reflexivity|vm_compute; discriminate]].
  exact (inv_step init (OPush (CRegular [])) _ _ ProofsBase.inv_init eq_refl).
Qed.

(* The unconditional statement "an assignment prefixed to a regular built-in
   does not outlive it" is FALSE of the model when the built-in itself declares
   the same variable (typeset; the same mechanism applies to read): the
   temporary variable migrates to the permanent context, exported.
   Full statement that is refuted:
     forall temps g x r n v s t s', Inv s ->
       irun .. (compile (CTypeset temps g x r n v)) s = (t, Finished, s') ->
       forall m, In m (map fst temps) -> get s' m = get s m. *)
Theorem temp_assign_lifetime_typeset_refuted :
  exists temps n t s',
    irun vset step (m_obs_vars [[97%N]]) (m_obs_env [[97%N]])
         (compile (CTypeset temps false false false n None)) init = (t, Finished, s') /\
    In n (map fst temps) /\ get init n = None /\
    exists w, get s' n = Some w /\ vval w = Some (Scalar [53%N]) /\ vexp w = true.
Proof.
  exists [(A, FIVE)], A. vm_compute. eexists _, _. split; [reflexivity|].
  split; [left; reflexivity|]. split; [reflexivity|]. eexists. repeat split.
Qed.

(* The same for `read` (POSIX regular built-in): after `a=5 read a` the
   variable holds the line read AND is exported although the script never
   exported it. *)
Theorem temp_assign_lifetime_read_refuted :
  exists temps n line t s',
    irun vset step (m_obs_vars [[97%N]]) (m_obs_env [[97%N]]) (compile (CRead temps n line)) init
      = (t, Finished, s') /\
    In n (map fst temps) /\ get init n = None /\
    exists w, get s' n = Some w /\ vval w = Some (Scalar line) /\ vexp w = true.
Proof.
  exists [(A, FIVE)], A, [55%N]. vm_compute. eexists _, _. split; [reflexivity|].
  split; [left; reflexivity|]. split; [reflexivity|]. eexists. repeat split.
Qed.

(* Scripts: the model and the stack of maps show the same observations at
   every probe (environments compared as duplicate-free sets). *)
Theorem script_abs_commutes : forall names,
  (forall n, In n names -> ~ In EQ n) -> NoDup names -> forall cs,
  match run_script names cs, srun_script names cs with
  | (tm, em, _), (ts, es, _) => em = es /\ Forall2 (pobs_equiv) tm ts
  end.
Proof. exact script_sim. Qed.

Example script_nonvacuous :
  ((forall n, In n [A; B] -> ~ In EQ n) /\ NoDup [A; B]) /\
  exists tm s', run_script [A; B] ex_script = (tm, Finished, s') /\ length tm = 3.
Proof.
  split; [split|vm_compute; eauto].
  - intros n [<-|[<-|[]]] [H|[]]; discriminate.
  - constructor; [intros [H|[]]; discriminate|]. constructor; [intros []|constructor].
Qed.

(* In a state satisfying the invariant the only operations that panic are the
   pop of the base context (not expressible through the guards) and
   get_or_new with Scope::Volatile when the topmost context is not volatile
   (documented): `self.contexts[..]` is always in bounds, the `expect`s on the
   regular context never fail. *)
Theorem panic_free : forall s o,
  Inv s -> step s o = None ->
  (o = OPop /\ length (ctxs s) = 1) \/
  (exists n ms, o = OGetOrNew n SVolatile ms /\ top_is_volatile (ctxs s) = false).
Proof. exact panic_sites. Qed.

Theorem reads_never_panic : forall s n sc,
  Inv s ->
  (exists x, get_scoped s n sc = Some x) /\ (exists l, iter s sc = Some l) /\
  (exists ps, positional_params s = Some ps).
Proof.
  intros s n sc HI. pose proof HI as [_ (ps0 & cs0 & Ecs) _].
  destruct (topreg_some _ _ _ Ecs) as [tr Htr].
  destruct (index_of_context_total s sc HI) as [ci Hi].
  split; [unfold get_scoped; rewrite Hi; eauto|].
  split; [unfold iter; rewrite Hi; eauto|].
  unfold positional_params. rewrite Htr.
  destruct (topreg_spec _ _ Htr) as (_ & (ps & Hn) & _). rewrite Hn. eauto.
Qed.

(* The caller rules never reach either panic: every script of the command
   language runs without a panic of the variable set. *)
Theorem callers_never_panic : forall names cs,
  match run_script names cs with (_, e, _) => e <> Panicked end.
Proof.
  intros names cs. unfold run_script.
  destruct (irun vset step (m_obs_vars names) (m_obs_env names) (compile_script cs) init)
    as [[t e] s'] eqn:E.
  intros ->. apply (script_no_panic (m_obs_vars names) (m_obs_env names) cs init ProofsBase.inv_init).
  exists t, s'. exact E.
Qed.

(* No false alarms on operation histories ([CaseOps]): whatever the model
   shows after an operation passes every clause of the oracle (given that the
   names in play cover the variables of the set), so a verdict 2..8 can only
   come from an implementation that differs from the model. *)
Theorem oracle_sound : forall names s a r,
  Inv s -> Abs s a -> (forall n, stack_of s n <> [] -> In n names) ->
  oracle names a r (observe names s r) = true.
Proof.
  intros names s a r HI HA Hcov. unfold oracle.
  assert (H : forallb (fun b => b) (oracle_clauses names a r (observe names s r)) = true).
  { unfold oracle_clauses, observe. cbn [o_res o_get o_scoped o_iter o_env o_params forallb].
    rewrite result_eqb_refl. cbn [andb].
    (* 2 *)
    assert (E2 : list_eqb (option_eqb var_eqb) (map (get s) names) (map (slookup a) names) = true).
    { apply list_eqb_map.
      - intros o. apply option_eqb_refl. apply var_eqb_refl.
      - intros n _. apply get_sim. exact HA. }
    rewrite E2. cbn [andb].
    (* 3 *)
    match goal with |- list_eqb ?e (map ?f names) (map ?g names) && _ = true =>
      assert (E3 : list_eqb e (map f names) (map g names) = true) end.
    { apply list_eqb_map.
      - intros [[x y] z]. rewrite !(option_eqb_refl var_eqb _ var_eqb_refl). reflexivity.
      - intros n _. rewrite !(get_scoped_sim s a n _ HI HA). reflexivity. }
    rewrite E3. cbn [andb].
    (* 4 *)
    destruct (iter_get_scoped s SGlobal HI) as (lg & Eg & Ndg & Hg).
    destruct (iter_get_scoped s SLocal HI) as (ll & El & Ndl & Hl).
    destruct (iter_get_scoped s SVolatile HI) as (lv & Ev & Ndv & Hv).
    rewrite Eg, El, Ev. cbn [unwrap].
    rewrite (exactly_iter names s a SGlobal lg HI HA Hcov Ndg Hg),
            (exactly_iter names s a SLocal ll HI HA Hcov Ndl Hl),
            (exactly_iter names s a SVolatile lv HI HA Hcov Ndv Hv).
    cbn [andb].
    (* 5 *)
    rewrite (same_strings_env names s a HI HA Hcov). cbn [andb].
    (* 6 *)
    rewrite (params_sim s a HI HA). destruct (s_params a) as [ps|] eqn:Ep; cbn [unwrap option_eqb].
    - rewrite (list_eqb_refl str_eqb ps str_eqb_refl). reflexivity.
    - exfalso. pose proof (abs_base_reg _ _ HI HA) as Hb.
      destruct (base_reg_s_topreg _ Hb) as [i Hf].
      pose proof (s_params_sim a i Hf) as Hs. rewrite Ep in Hs.
      rewrite <- topreg_kinds in Hf. destruct (topreg_spec _ _ Hf) as (_ & (ps & Hn) & _).
      rewrite Hn in Hs. discriminate. }
  revert H. generalize (oracle_clauses names a r (observe names s r)). intros l.
  generalize 0%N. induction l as [|b l IH]; intros k; cbn; [reflexivity|].
  destruct b; cbn; [apply IH|discriminate].
Qed.

Example oracle_sound_nonvacuous :
  Inv ex_state /\ (exists a, srun sinit ex_ops = Some a /\ Abs ex_state a) /\
  (forall n, stack_of ex_state n <> [] -> In n [A]).
Proof.
  split; [exact ex_state_inv|]. split; [exact abs_commutes_nonvacuous|].
  intros n H. left.
  assert (Hv : map fst (vars ex_state) = [A]) by (vm_compute; reflexivity).
  unfold stack_of in H. destruct (assoc n (vars ex_state)) as [st|] eqn:E; [|contradiction H; reflexivity].
  apply assoc_in in E. apply (in_map fst) in E. cbn [fst] in E. rewrite Hv in E.
  destruct E as [<-|[]]. reflexivity.
Qed.

(* No false alarms on scripts ([CaseScript]): a shell that shows what the
   model shows gets verdict 0. *)
Theorem script_oracle_sound : forall names cs,
  (forall n, In n names -> ~ In EQ n) -> NoDup names ->
  match run_script names cs with
  | (tm, em, _) => em <> Panicked -> run_script_case names cs tm false = 0%N
  end.
Proof.
  intros names cs Hne Hnd. pose proof (script_sim names Hne Hnd cs) as H.
  unfold run_script_case.
  destruct (run_script names cs) as [[tm em] s'] eqn:Em.
  destruct (srun_script names cs) as [[ts es] a'] eqn:Es.
  destruct H as [<- H]. intros Hp.
  assert (E1 : list_eqb pobs_eqb tm ts = true) by (apply trace_eqb_of_equiv; exact H).
  assert (E2 : list_eqb pobs_eqb tm tm = true).
  { apply trace_eqb_of_equiv. clear - H. induction H as [|x y tm ts Hxy _ IH]; constructor; [|exact IH].
    exact (pobs_equiv_trans _ _ _ Hxy (pobs_equiv_sym _ _ Hxy)). }
  destruct em; try congruence; rewrite E1; cbn; rewrite E2; reflexivity.
Qed.

Print Assumptions inv_init.
Print Assumptions inv_preserved.
Print Assumptions abs_commutes.
Print Assumptions abs_commutes_run.
Print Assumptions lookup_innermost.
Print Assumptions lookup_none.
Print Assumptions lookup_is_spec_lookup.
Print Assumptions scoped_lookup_is_spec.
Print Assumptions iter_is_scoped_lookup.
Print Assumptions positional_params_spec.
Print Assumptions readonly_never_changes.
Print Assumptions readonly_global_forever.
Print Assumptions pop_discards_exactly_top.
Print Assumptions env_is_exported_visible.
Print Assumptions env_entry_meaning.
Print Assumptions env_no_duplicates.
Print Assumptions temp_assign_lifetime_regular.
Print Assumptions temp_assign_lifetime_external.
Print Assumptions temp_assign_special_persists.
Print Assumptions temp_assign_lifetime_function.
Print Assumptions globals_assigned_inside_persist.
Print Assumptions temp_assign_lifetime_typeset_refuted.
Print Assumptions temp_assign_lifetime_read_refuted.
Print Assumptions script_abs_commutes.
Print Assumptions oracle_sound.
Print Assumptions script_oracle_sound.
Print Assumptions panic_free.
Print Assumptions reads_never_panic.
Print Assumptions callers_never_panic.
Print Assumptions readonly_refuses_unset.
Print Assumptions readonly_refuses_assign.
Print Assumptions env_array_joined.
Print Assumptions join_colon_recovers_items.
Print Assumptions script_env_is_exported_visible.
Print Assumptions exec_env_has_temporaries.
Print Assumptions quirk_is_only_a_flag.
Print Assumptions quirk_does_not_change_environment.
Print Assumptions return_ends_the_call.
Print Assumptions for_variable_persists.
Print Assumptions readonly_in_function_persists.
Print Assumptions export_in_function_persists.
Print Assumptions typeset_local_vanishes_at_return.
Print Assumptions local_scope_is_global_at_top_level.
Print Assumptions local_scope_differs_in_function.
Print Assumptions typeset_global_in_function_persists.
Print Assumptions unset_in_function_removes_everywhere.
Print Assumptions for_variable_in_function_persists.
