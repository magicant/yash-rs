(* C16 — the environment of executed programs at the script level, and array
   values in the environment. *)
From Yv Require Import Common.Base C16.Model C16.Spec C16.ProofsBase C16.ProofsProps.

Lemma split_on_app_nocolon c acc (y x : str) :
  ~ In c y -> split_on c acc (y ++ x) = split_on c (rev y ++ acc) x.
Proof.
  revert acc. induction y as [|d y IH]; intros acc H; cbn [app split_on rev]; [reflexivity|].
  destruct (N.eqb d c) eqn:E.
  - apply N.eqb_eq in E. subst d. exfalso. apply H. left; reflexivity.
  - rewrite IH by (intros Hin; apply H; right; exact Hin). rewrite <- app_assoc. reflexivity.
Qed.

Lemma notin_existsb_false c (x : str) : ~ In c x -> existsb (N.eqb c) x = false.
Proof. exact (proj2 (has_char_false c x)). Qed.

Section ScriptEnv.
Variable names : list name.
Notation mrun := (irun vset step (m_obs_vars names) (m_obs_env names)).

Lemma irun_env_ok l : forall s t e s',
  Inv s -> mrun l s = (t, e, s') -> Forall (env_ok names) t.
Proof.
  induction l as [|i l IH IHskip] using list_ind2; intros s t e s' HI H.
  { cbn in H. injection H as <- _ _. constructor. }
  destruct i as [o m| |]; [rewrite irun_op in H|cbn [irun] in H..].
  - destruct (step s o) as [[s1 r]|] eqn:Es; [|injection H as <- _ _; constructor].
    pose proof (inv_step _ _ _ _ HI Es) as HI1.
    destruct (next_instrs m (is_err r) l) as [l1|] eqn:En; [|injection H as <- _ _; constructor].
    destruct (next_instrs_cases _ _ _ _ En) as [->|(_ & i2 & ->)].
    + exact (IH s1 t e s' HI1 H).
    + exact (IHskip i2 l1 eq_refl s1 t e s' HI1 H).
  - destruct (mrun l s) as [[t0 e0] s0] eqn:E. injection H as <- _ _.
    constructor; [exact I|]. exact (IH s t0 e0 s0 HI E).
  - destruct (mrun l s) as [[t0 e0] s0] eqn:E. injection H as <- _ _.
    constructor; [|exact (IH s t0 e0 s0 HI E)].
    exists s. split; [exact HI|]. split; [reflexivity|]. intros x. apply in_env_c_strings. exact HI.
Qed.

End ScriptEnv.
