(* C16 — scripts: running the compiled instructions on the model and on the
   stack of maps gives the same observations; oracle soundness: what the model
   shows always passes the oracle, so the check can only raise an alarm when
   the implementation differs from the model or from the specification. *)
From Yv Require Import Common.Base C16.Model C16.Spec C16.Run
  C16.ProofsBase C16.ProofsAbs C16.ProofsProps.

Lemma is_prefix_spec (p x : str) : is_prefix p x = true <-> exists r, x = p ++ r.
Proof.
  unfold is_prefix. rewrite str_eqb_eq. split.
  - intros H. exists (skipn (length p) x). rewrite H at 1. symmetry. apply firstn_skipn.
  - intros [r ->]. rewrite firstn_app, Nat.sub_diag, firstn_all. cbn. rewrite app_nil_r. reflexivity.
Qed.

Lemma prefix_name (n n' val r : str) :
  ~ In EQ n -> ~ In EQ n' -> n ++ EQ :: val = (n' ++ [EQ]) ++ r -> n = n'.
Proof.
  intros H1 H2 E. rewrite <- app_assoc in E. cbn in E.
  eapply env_string_name; eassumption.
Qed.

Section ScriptSim.
Variable names : list name.
Hypothesis names_noeq : forall n, In n names -> ~ In EQ n.
Hypothesis names_nodup : NoDup names.

Lemma s_env_in a z :
  In z (s_env names a) <-> exists n v, In n names /\ slookup a n = Some v /\ env_entry n v = Some z.
Proof.
  unfold s_env. rewrite in_flat_map. split.
  - intros (n & Hn & Hz). destruct (slookup a n) as [v|] eqn:E; [|destruct Hz].
    destruct (env_entry n v) as [y|] eqn:Ee; [|destruct Hz]. destruct Hz as [<-|[]]. eauto.
  - intros (n & v & Hn & Hl & He). exists n. split; [exact Hn|]. rewrite Hl, He. left; reflexivity.
Qed.

Lemma s_env_nodup a : NoDup (s_env names a).
Proof.
  unfold s_env. apply nodup_flat_map; [exact names_nodup| |].
  - intros n. destruct (slookup a n) as [v|]; [|constructor].
    destruct (env_entry n v); [|constructor]. constructor; [intros []|constructor].
  - intros n1 n2 x _ _.
    destruct (slookup a n1) as [v1|]; [|intros []]. destruct (slookup a n2) as [v2|]; [|intros _ []].
    destruct (env_entry n1 v1) as [y1|] eqn:E1; [|intros []].
    destruct (env_entry n2 v2) as [y2|] eqn:E2; [|intros _ []].
    intros [<-|[]] [<-|[]].
    apply env_entry_some_iff in E1. apply env_entry_some_iff in E2.
    destruct E1 as (_ & Hn1 & val1 & _ & Ex1 & _). destruct E2 as (_ & Hn2 & val2 & _ & Ex2 & _).
    apply (env_string_name n1 n2 (value_string val1) (value_string val2) Hn1 Hn2). congruence.
Qed.

Lemma env_sim s a z :
  Inv s -> Abs s a ->
  (In z (env_of_names names (env_c_strings s)) <-> In z (s_env names a)).
Proof.
  intros HI HA. unfold env_of_names. rewrite filter_In, s_env_in, (in_env_c_strings s z HI). split.
  - intros [(n & v & Hg & He) Hp]. apply existsb_exists in Hp. destruct Hp as (n' & Hn' & Hp).
    apply is_prefix_spec in Hp. destruct Hp as [r Hr].
    pose proof He as He'. apply env_entry_some_iff in He'.
    destruct He' as (_ & Hnoeq & val & _ & Hz & _).
    assert (n = n') by (eapply (prefix_name n n' (value_string val) r); [exact Hnoeq|apply names_noeq; exact Hn'|congruence]).
    subst n'. exists n, v. split; [exact Hn'|]. split; [|exact He].
    rewrite <- (get_sim s a n HA). exact Hg.
  - intros (n & v & Hn & Hl & He). split.
    + exists n, v. split; [|exact He]. rewrite (get_sim s a n HA). exact Hl.
    + apply existsb_exists. exists n. split; [exact Hn|]. apply is_prefix_spec.
      apply env_entry_some_iff in He. destruct He as (_ & _ & val & _ & -> & _).
      exists (value_string val). rewrite <- app_assoc. reflexivity.
Qed.

Lemma obs_vars_sim s a : Inv s -> Abs s a -> pobs_equiv (m_obs_vars names s) (s_obs_vars names a).
Proof.
  intros HI HA. unfold m_obs_vars, s_obs_vars, pobs_equiv. split.
  - apply map_ext. intros n. rewrite (get_sim s a n HA). reflexivity.
  - rewrite (params_sim s a HI HA). reflexivity.
Qed.

Lemma obs_env_sim s a : Inv s -> Abs s a -> pobs_equiv (m_obs_env names s) (s_obs_env names a).
Proof.
  intros HI HA. unfold m_obs_env, s_obs_env, pobs_equiv. split; [|split].
  - intros z. apply env_sim; assumption.
  - apply NoDup_filter. apply env_c_strings_nodup. exact HI.
  - apply s_env_nodup.
Qed.

Lemma irun_sim l : forall s a, Inv s -> Abs s a ->
  match irun vset step (m_obs_vars names) (m_obs_env names) l s,
        irun sstate sstep (s_obs_vars names) (s_obs_env names) l a with
  | (tm, em, s'), (ts, es, a') =>
      em = es /\ Forall2 pobs_equiv tm ts /\ (em <> Panicked -> Inv s' /\ Abs s' a')
  end.
Proof.
  induction l as [|i l IH IHskip] using list_ind2; intros s a HI HA; [cbn; auto|].
  destruct i as [o m| |]; [rewrite !irun_op|cbn [irun]..].
  - pose proof (sim_step s a o HI HA) as Hsim.
    destruct (step s o) as [[s1 r]|] eqn:Es; destruct (sstep a o) as [[a1 r']|] eqn:Ea; try contradiction.
    + destruct Hsim as [HA1 <-]. pose proof (inv_step _ _ _ _ HI Es) as HI1.
      destruct (next_instrs m (is_err r) l) as [l1|] eqn:En; [|split; [reflexivity|]; split; [constructor|]; auto].
      destruct (next_instrs_cases _ _ _ _ En) as [->|(_ & i2 & ->)].
      * apply IH; assumption.
      * apply (IHskip i2 l1 eq_refl); assumption.
    + split; [reflexivity|]. split; [constructor|]. intros H; congruence.
  - specialize (IH s a HI HA).
    destruct (irun vset step _ _ l s) as [[tm em] s'].
    destruct (irun sstate sstep _ _ l a) as [[ts es] a'].
    destruct IH as (A & B & C). split; [exact A|]. split; [|exact C].
    constructor; [apply obs_vars_sim; assumption|exact B].
  - specialize (IH s a HI HA).
    destruct (irun vset step _ _ l s) as [[tm em] s'].
    destruct (irun sstate sstep _ _ l a) as [[ts es] a'].
    destruct IH as (A & B & C). split; [exact A|]. split; [|exact C].
    constructor; [apply obs_env_sim; assumption|exact B].
Qed.

Lemma script_sim cs :
  match run_script names cs, srun_script names cs with
  | (tm, em, _), (ts, es, _) => em = es /\ Forall2 pobs_equiv tm ts
  end.
Proof.
  unfold run_script, srun_script.
  pose proof (irun_sim (compile_script cs) init sinit inv_init abs_init) as H.
  destruct (irun vset step _ _ _ init) as [[tm em] s'].
  destruct (irun sstate sstep _ _ _ sinit) as [[ts es] a']. tauto.
Qed.

End ScriptSim.

Lemma list_eqb_refl {A} (eqb : A -> A -> bool) (l : list A) :
  (forall x, eqb x x = true) -> list_eqb eqb l l = true.
Proof. intros H. induction l as [|x l IH]; cbn; [reflexivity|]. rewrite H, IH. reflexivity. Qed.

Lemma option_eqb_refl {A} (eqb : A -> A -> bool) (o : option A) :
  (forall x, eqb x x = true) -> option_eqb eqb o o = true.
Proof. intros H. destruct o; cbn; auto. Qed.

Lemma value_eqb_refl v : value_eqb v v = true.
Proof.
  destruct v; cbn; [apply str_eqb_refl|]. apply list_eqb_refl. apply str_eqb_refl.
Qed.

Lemma var_eqb_refl v : var_eqb v v = true.
Proof.
  unfold var_eqb.
  rewrite (option_eqb_refl value_eqb _ value_eqb_refl), !(option_eqb_refl N.eqb _ N.eqb_refl).
  destruct (vexp v), (vquirk v); reflexivity.
Qed.

Lemma mres_eqb_refl m : mres_eqb m m = true.
Proof.
  destruct m; cbn; [|apply N.eqb_refl|reflexivity].
  rewrite (option_eqb_refl value_eqb _ value_eqb_refl), (option_eqb_refl N.eqb _ N.eqb_refl). reflexivity.
Qed.

Lemma result_eqb_refl r : result_eqb r r = true.
Proof.
  destruct r; cbn; [reflexivity| | |apply N.eqb_refl].
  - apply list_eqb_refl. apply mres_eqb_refl.
  - apply option_eqb_refl. apply var_eqb_refl.
Qed.

Lemma nv_eqb_refl p : nv_eqb p p = true.
Proof. unfold nv_eqb. rewrite str_eqb_refl, var_eqb_refl. reflexivity. Qed.

Lemma existsb_in {A} (eqb : A -> A -> bool) (x : A) (l : list A) :
  (forall y, eqb y y = true) -> In x l -> existsb (eqb x) l = true.
Proof. intros H Hin. apply existsb_exists. exists x. split; [exact Hin|apply H]. Qed.

Lemma nodupb_str (l : list str) : NoDup l -> nodupb str_eqb l = true.
Proof.
  induction 1 as [|x l Hn Hd IH]; cbn; [reflexivity|]. rewrite IH, andb_true_r.
  apply negb_true_iff. destruct (existsb (str_eqb x) l) eqn:E; [|reflexivity].
  apply existsb_exists in E. destruct E as (y & Hy & Hxy). apply str_eqb_eq in Hxy. subst y.
  contradiction.
Qed.

Lemma list_eqb_map {A B} (eqb : B -> B -> bool) (f g : A -> B) (l : list A) :
  (forall x, eqb x x = true) -> (forall x, In x l -> f x = g x) ->
  list_eqb eqb (map f l) (map g l) = true.
Proof.
  intros Hr H. induction l as [|x l IH]; cbn; [reflexivity|].
  rewrite (H x (or_introl eq_refl)), Hr. cbn. apply IH. intros y Hy. apply H. right; exact Hy.
Qed.

Definition covers (names : list name) (s : vset) : Prop :=
  forall n, stack_of s n <> [] -> In n names.

Section OracleSound.
Variable names : list name.

Lemma exactly_iter s a sc l :
  Inv s -> Abs s a -> covers names s -> NoDup (map fst l) ->
  (forall n v, In (n, v) l <-> get_scoped s n sc = Some (Some v)) ->
  exactly names (fun n => s_get_scoped a n sc) l = true.
Proof.
  intros HI HA Hcov Hnd Hin. unfold exactly. rewrite !andb_true_iff. split; [split|].
  - apply nodupb_str. exact Hnd.
  - apply forallb_forall. intros [n v] Hp. cbn [fst snd].
    pose proof (proj1 (Hin n v) Hp) as Hg. rewrite (get_scoped_sim s a n sc HI HA) in Hg.
    injection Hg as Hg. rewrite Hg. cbn. rewrite var_eqb_refl, andb_true_r.
    apply existsb_in; [apply str_eqb_refl|]. apply Hcov.
    pose proof (proj1 (Hin n v) Hp) as Hg'. unfold get_scoped in Hg'.
    destruct (index_of_context sc (ctxs s)); [|discriminate].
    destruct (stack_of s n); [discriminate|discriminate].
  - apply forallb_forall. intros n Hn.
    destruct (s_get_scoped a n sc) as [v|] eqn:E; [|reflexivity].
    apply existsb_in; [apply nv_eqb_refl|]. apply Hin.
    rewrite (get_scoped_sim s a n sc HI HA), E. reflexivity.
Qed.

Lemma same_strings_env s a :
  Inv s -> Abs s a -> covers names s -> same_strings (env_c_strings s) (s_env names a) = true.
Proof.
  intros HI HA Hcov. unfold same_strings. rewrite !andb_true_iff. split; [split|].
  - apply nodupb_str. apply env_c_strings_nodup. exact HI.
  - apply forallb_forall. intros x Hx. apply existsb_in; [apply str_eqb_refl|].
    apply (in_env_c_strings s x HI) in Hx. destruct Hx as (n & v & Hg & He).
    apply s_env_in. exists n, v. split; [|split; [|exact He]].
    + apply Hcov. unfold get in Hg. destruct (stack_of s n); [discriminate|discriminate].
    + rewrite <- (get_sim s a n HA). exact Hg.
  - apply forallb_forall. intros x Hx. apply existsb_in; [apply str_eqb_refl|].
    apply s_env_in in Hx. destruct Hx as (n & v & _ & Hl & He).
    apply (in_env_c_strings s x HI). exists n, v. split; [|exact He].
    rewrite (get_sim s a n HA). exact Hl.
Qed.

End OracleSound.

Lemma same_strings_set_equiv (e e' : list str) :
  (forall z, In z e <-> In z e') -> NoDup e -> NoDup e' -> same_strings_set e e' = true.
Proof.
  intros H Hd Hd'. unfold same_strings_set. rewrite !andb_true_iff. split; [split|].
  - apply forallb_forall. intros x Hx. apply existsb_in; [apply str_eqb_refl|]. apply H; exact Hx.
  - apply forallb_forall. intros x Hx. apply existsb_in; [apply str_eqb_refl|]. apply H; exact Hx.
  - apply Nat.eqb_eq. apply Nat.le_antisymm; apply NoDup_incl_length; try assumption;
      intros x Hx; apply H; exact Hx.
Qed.

Lemma view_eqb_refl x : view_eqb x x = true.
Proof.
  destruct x as [[v e] r]. cbn. rewrite (option_eqb_refl value_eqb _ value_eqb_refl).
  destruct e, r; reflexivity.
Qed.

Lemma pobs_eqb_of_equiv x y : pobs_equiv x y -> pobs_eqb x y = true.
Proof.
  destruct x as [vs ps|e], y as [vs' ps'|e']; cbn; try contradiction.
  - intros [-> ->]. rewrite (list_eqb_refl _ vs' (fun o => option_eqb_refl view_eqb o view_eqb_refl)).
    rewrite (list_eqb_refl str_eqb ps' str_eqb_refl). reflexivity.
  - intros (H & Hd & Hd'). apply same_strings_set_equiv; assumption.
Qed.

Lemma trace_eqb_of_equiv tm ts : Forall2 pobs_equiv tm ts -> list_eqb pobs_eqb tm ts = true.
Proof.
  induction 1 as [|x y tm ts Hxy _ IH]; cbn; [reflexivity|].
  rewrite (pobs_eqb_of_equiv _ _ Hxy), IH. reflexivity.
Qed.

Lemma pobs_equiv_sym x y : pobs_equiv x y -> pobs_equiv y x.
Proof.
  destruct x as [vs ps|e], y as [vs' ps'|e']; cbn; try contradiction.
  - intros [-> ->]. split; reflexivity.
  - intros (H & Hd & Hd'). split; [intros z; symmetry; apply H|auto].
Qed.

Lemma pobs_equiv_trans x y z : pobs_equiv x y -> pobs_equiv y z -> pobs_equiv x z.
Proof.
  destruct x as [vs ps|e], y as [vs' ps'|e'], z as [vs2 ps2|e2]; cbn; try contradiction.
  - intros [-> ->] [-> ->]. split; reflexivity.
  - intros (H & Hd & _) (H' & _ & Hd'). split; [intros z; rewrite H; apply H'|auto].
Qed.

(* not symmetry of [pobs_eqb]: equivalent traces also compare equal with the
   arguments the other way round *)
Lemma pobs_eqb_sym_trace tm ts : Forall2 pobs_equiv tm ts -> list_eqb pobs_eqb ts tm = true.
Proof.
  intros H. apply trace_eqb_of_equiv. induction H; constructor; [apply pobs_equiv_sym|]; assumption.
Qed.

