(* C16 — the caller rules never reach either panic of the variable set: in
   the instructions [Model.compile] emits every pop finds the context its push
   made, and Scope::Volatile is used only directly under the push of a
   volatile context. *)
From Yv Require Import Common.Base C16.Model C16.Spec C16.ProofsBase C16.ProofsProps C16.ProofsFrame.

Section NoPanic.
Variable ov oe : vset -> pobs.
Notation mrun := (irun vset step ov oe).

Definition panics (l : list instr) (s : vset) : Prop := exists t s', mrun l s = (t, Panicked, s').

Definition shape (s : vset) : list bool := map is_regular (ctxs s).

(* a run that panics does not do so inside the block [l0]: the panic lies in
   what follows, reached in a state whose contexts are of the same kinds *)
Definition no_panic_inside (l0 : list instr) : Prop :=
  forall l s, Inv s -> panics (l0 ++ l) s -> exists s1, Inv s1 /\ shape s1 = shape s /\ panics l s1.

Lemma panics_nil s : ~ panics [] s.
Proof. intros (t & s' & H). cbn in H. discriminate. Qed.

Lemma no_panic_nil : no_panic_inside [].
Proof. intros l s HI Hp. eauto. Qed.

Lemma no_panic_app l1 l2 : no_panic_inside l1 -> no_panic_inside l2 -> no_panic_inside (l1 ++ l2).
Proof.
  intros H1 H2 l s HI Hp. rewrite <- app_assoc in Hp.
  destruct (H1 _ _ HI Hp) as (s1 & HI1 & Hs1 & Hp1).
  destruct (H2 _ _ HI1 Hp1) as (s2 & HI2 & Hs2 & Hp2).
  exists s2. split; [exact HI2|]. split; [congruence|exact Hp2].
Qed.

Lemma no_panic_obs i : i = IObsVars \/ i = IObsEnv -> no_panic_inside [i].
Proof.
  intros Hi l s HI (t & s' & H). destruct (irun_obs ov oe _ _ _ _ _ _ Hi H) as [t0 H0].
  exists s. split; [exact HI|]. split; [reflexivity|]. exists t0, s'. exact H0.
Qed.

(* an operation that does not panic passes the panic on to what follows *)
Lemma panics_op o m l s s1 r :
  step s o = Some (s1, r) -> panics (IOp o m :: l) s ->
  panics l s1 \/ (m = ESkip /\ exists i l', l = i :: l' /\ panics l' s1).
Proof.
  intros Es (t & s' & H). rewrite irun_op, Es in H.
  destruct (next_instrs m (is_err r) l) as [l1|] eqn:En; [|discriminate].
  destruct (next_instrs_cases _ _ _ _ En) as [->|(-> & i & ->)].
  - left. exists t, s'. exact H.
  - right. split; [reflexivity|]. exists i, l1. split; [reflexivity|]. exists t, s'. exact H.
Qed.

Lemma shape_same s s1 : ctxs s1 = ctxs s -> shape s1 = shape s.
Proof. unfold shape. intros ->. reflexivity. Qed.

Lemma shape_set_nth cs i ps ps' :
  nth_error cs i = Some (CRegular ps') ->
  map is_regular (set_nth i (CRegular ps) cs) = map is_regular cs.
Proof.
  revert i. induction cs as [|k cs IH]; intros [|i] H; cbn in *; try discriminate.
  - injection H as ->. reflexivity.
  - f_equal. apply IH. exact H.
Qed.

Lemma map_removelast {A B} (f : A -> B) l : map f (removelast l) = removelast (map f l).
Proof. induction l as [|x [|y l] IH]; cbn in *; try reflexivity. f_equal. exact IH. Qed.

(* the operations that neither push nor pop nor ask for a volatile context on top *)
Definition plain (o : op) : Prop :=
  match o with
  | OGetOrNew _ SGlobal _ | OGetOrNew _ SLocal _ | OUnset _ _ | OSetParams _ => True
  | _ => False
  end.

Lemma plain_step o s :
  Inv s -> plain o -> exists s1 r, step s o = Some (s1, r) /\ Inv s1 /\ shape s1 = shape s.
Proof.
  intros HI Ho.
  assert (Ht : exists s1 r, step s o = Some (s1, r)).
  { apply step_total; [exact HI|]. destruct o as [| |n sc ms| |]; try exact I; try contradiction.
    destruct sc; [exact I|exact I|contradiction]. }
  destruct Ht as (s1 & r & Es). exists s1, r. split; [exact Es|]. split; [eapply inv_step; eassumption|].
  destruct o as [| |n sc ms|n sc|ps]; try contradiction.
  - apply shape_same. apply (step_named _ _ _ _ n Es eq_refl).
  - apply shape_same. apply (step_named _ _ _ _ n Es eq_refl).
  - cbn [step] in Es. destruct (topreg (ctxs s)) as [i|] eqn:Et; [|discriminate].
    injection Es as <- <-. destruct (topreg_spec _ _ Et) as (_ & (ps' & Hn) & _).
    exact (shape_set_nth _ _ _ _ Hn).
Qed.

Lemma no_panic_plain o m : plain o -> m <> ESkip -> no_panic_inside [IOp o m].
Proof.
  intros Ho Hm l s HI Hp. destruct (plain_step o s HI Ho) as (s1 & r & Es & HI1 & Hs1).
  destruct (panics_op _ _ _ _ _ _ Es Hp) as [H|[H _]]; [eauto|congruence].
Qed.

(* an operation whose error skips the instruction [i] *)
Lemma no_panic_skip o i : plain o -> no_panic_inside [i] -> no_panic_inside [IOp o ESkip; i].
Proof.
  intros Ho Hi l s HI Hp. destruct (plain_step o s HI Ho) as (s1 & r & Es & HI1 & Hs1).
  destruct (panics_op _ _ _ _ _ _ Es Hp) as [H|[_ (i' & l' & [= <- <-] & H)]]; [|eauto].
  destruct (Hi l s1 HI1 H) as (s2 & HI2 & Hs2 & Hp2).
  exists s2. split; [exact HI2|]. split; [congruence|exact Hp2].
Qed.

Lemma no_panic_temp_global temps : no_panic_inside (temp_global temps).
Proof.
  induction temps as [|[n v] temps IH]; [exact no_panic_nil|].
  apply (no_panic_app [_] (temp_global temps)); [|exact IH]. apply no_panic_plain; [exact I|discriminate].
Qed.

Lemma panics_temp_volatile temps l s :
  Inv s -> top_is_volatile (ctxs s) = true -> panics (temp_volatile temps ++ l) s ->
  exists s1, Inv s1 /\ ctxs s1 = ctxs s /\ panics l s1.
Proof.
  intros HI Hv (t & s' & H).
  destruct (temps_run ov oe temps l s t Panicked s' HI Hv H) as [[E _]|(s1 & Hrun & HI1 & Hc1 & _)]; [discriminate|].
  exists s1. split; [exact HI1|]. split; [exact Hc1|]. exists t, s'. exact Hrun.
Qed.

(* push a context, make temporary assignments (in a volatile context only), run
   [mid], pop: the pop finds the context that was pushed *)
Lemma no_panic_bracket c temps (mid : list instr) :
  temps = [] \/ c = CVolatile -> no_panic_inside mid ->
  no_panic_inside (IOp (OPush c) EIgnore :: temp_volatile temps ++ mid ++ [IOp OPop EIgnore]).
Proof.
  intros Hc Hmid l s HI Hp. cbn [app] in Hp. rewrite <- !app_assoc in Hp.
  set (s0 := mkVS (vars s) (ctxs s ++ [c])).
  assert (Es0 : step s (OPush c) = Some (s0, RUnit)) by reflexivity.
  pose proof (inv_step _ _ _ _ HI Es0) as HI0.
  destruct (panics_op _ _ _ _ _ _ Es0 Hp) as [H|[H _]]; [|discriminate].
  assert (H1 : exists s1, Inv s1 /\ ctxs s1 = ctxs s0 /\ panics (mid ++ [IOp OPop EIgnore] ++ l) s1).
  { destruct Hc as [-> | ->]; [exists s0; auto|].
    exact (panics_temp_volatile temps _ s0 HI0 (top_volatile_push _) H). }
  destruct H1 as (s1 & HI1 & Hc1 & Hp1).
  destruct (Hmid _ s1 HI1 Hp1) as (s2 & HI2 & Hs2 & Hp2).
  assert (Hsh : shape s2 = shape s ++ [is_regular c]) by (rewrite Hs2, (shape_same _ _ Hc1); apply map_app).
  assert (Hlen2 : 2 <= length (ctxs s2)).
  { apply (f_equal (@length _)) in Hsh. unfold shape in Hsh. rewrite app_length, !map_length in Hsh.
    pose proof (inv_ctxs_nonempty _ HI). destruct (ctxs s); [congruence|cbn in Hsh; lia]. }
  destruct (step_total s2 OPop HI2 Hlen2) as (s3 & r & Es3).
  destruct (panics_op _ _ _ _ _ _ Es3 Hp2) as [H3|[H3 _]]; [|discriminate].
  exists s3. split; [eapply inv_step; eassumption|]. split; [|exact H3].
  destruct (pop_spec _ _ _ HI2 Es3) as (_ & _ & Hc3 & _).
  unfold shape in *. rewrite Hc3, map_removelast, Hsh. apply removelast_last.
Qed.

Lemma no_panic_flat_map body :
  Forall (fun c => no_panic_inside (compile c)) body -> no_panic_inside (flat_map compile body).
Proof.
  induction 1 as [|c body Hc _ IH]; cbn [flat_map]; [exact no_panic_nil|].
  apply no_panic_app; assumption.
Qed.

Lemma compile_no_panic c : no_panic_inside (compile c).
Proof.
  induction c as [a|t|t|t body a IH|t g x r m v|m v|m v|m|ps|t|t m ln|m vals body IH|] using ProofsFrame.cmd_ind';
    try rewrite compile_call; cbn [compile].
  - apply no_panic_temp_global.
  - apply (no_panic_bracket CVolatile t [IObsVars] (or_intror eq_refl)). apply no_panic_obs. left; reflexivity.
  - apply no_panic_temp_global.
  - (* call: the bracket of the function's context inside that of the temporaries *)
    change [IOp OPop EIgnore; IOp OPop EIgnore] with ([IOp OPop EIgnore] ++ [IOp OPop EIgnore]).
    rewrite (app_assoc (flat_map compile (cut_return body))).
    apply (no_panic_bracket CVolatile t (_ :: _ ++ _) (or_intror eq_refl)).
    apply (no_panic_bracket (CRegular a) [] _ (or_introl eq_refl)).
    apply no_panic_flat_map, Forall_cut_return, IH.
  - set (sc := if g then SGlobal else SLocal).
    assert (Hsc : forall ms, plain (OGetOrNew m sc ms)) by (intros ms; subst sc; destruct g; exact I).
    destruct v as [val|].
    + apply (no_panic_bracket CVolatile t [_; _] (or_intror eq_refl)).
      apply no_panic_skip; [apply Hsc|]. apply no_panic_plain; [apply Hsc|discriminate].
    + apply (no_panic_bracket CVolatile t [_] (or_intror eq_refl)).
      apply no_panic_plain; [apply Hsc|discriminate].
  - apply no_panic_plain; [exact I|discriminate].
  - apply no_panic_plain; [exact I|discriminate].
  - apply no_panic_plain; [exact I|discriminate].
  - apply no_panic_plain; [exact I|discriminate].
  - apply (no_panic_bracket CVolatile t [IObsEnv] (or_intror eq_refl)). apply no_panic_obs. right; reflexivity.
  - apply (no_panic_bracket CVolatile t [_] (or_intror eq_refl)). apply no_panic_plain; [exact I|discriminate].
  - induction vals as [|v vals IHv]; cbn [flat_map]; [exact no_panic_nil|].
    apply no_panic_app; [|exact IHv].
    apply (no_panic_app [_]); [apply no_panic_plain; [exact I|discriminate]|apply no_panic_flat_map; exact IH].
  - exact no_panic_nil.
Qed.

Lemma script_no_panic cs s : Inv s -> ~ panics (compile_script cs) s.
Proof.
  intros HI Hp.
  assert (H : no_panic_inside (compile_script cs)).
  { apply no_panic_flat_map. apply Forall_forall. intros c _. apply compile_no_panic. }
  destruct (H [] s HI ltac:(rewrite app_nil_r; exact Hp)) as (s1 & _ & _ & Hn).
  exact (panics_nil _ Hn).
Qed.

End NoPanic.
