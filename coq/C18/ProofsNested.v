(* C18 — nested read-eval loops (`eval`, `.`): a loop on a source of its own
   leaves standard input to its commands; scripts without nested loops. *)
From Yv Require Import Common.Base C18.Model C18.Spec C18.Run.
From Yv Require Import C18.ProofsSim C18.Proofs.
Local Open Scope N_scope.

Lemma level0_is_spec_lemma parser fuel pf src d :
  nspec_run parser 0 fuel pf src d = spec_run parser fuel pf src d.
Proof. reflexivity. Qed.

Lemma nmodel_of_nspec_of parser lvl fuel pf script data f :
  nmodel_of parser lvl fuel pf script data f = nspec_of parser lvl fuel pf script data f.
Proof.
  unfold nmodel_of, nspec_of. destruct f; cbn [shared]; rewrite nested_refines_spec_lemma;
    unfold abs_dev, abs_src; cbn [concat]; rewrite ?app_nil_r, ?concat_chunk; reflexivity.
Qed.

(* A loop on a source of its own never touches standard input while it
   parses. *)

Lemma at_pull parser fuel pf lvl : op_pull (byte_ops_at parser fuel pf lvl) = byte_pull.
Proof. destruct lvl; reflexivity. Qed.

(* pulling a line from a source of its own leaves standard input [d] at [off]:
   stated as the invariant [parse_phase_keeps] asks for *)
Lemma pull_own parser fuel pf lvl (d : dev) (off : N) : forall s1 d1 off1,
  d1 = d /\ off1 = off /\ s1 <> SrcStdin ->
  let '(l, s2, d2, n) := op_pull (byte_ops_at parser fuel pf lvl) s1 d1 in
  d2 = d /\ off1 + n = off /\ s2 <> SrcStdin.
Proof.
  intros s1 d1 off1 [-> [-> H]]. rewrite at_pull.
  destruct s1 as [|o|ls|p]; cbn [byte_pull].
  - now destruct H.
  - destruct (next_line o) as [l o']. repeat split; try discriminate; apply N.add_0_r.
  - destruct ls; repeat split; try discriminate; apply N.add_0_r.
  - destruct (next_line p) as [l p']. repeat split; try discriminate; apply N.add_0_r.
Qed.

Lemma nested_parse_leaves_stdin_lemma parser fuel0 pf0 lvl pf sts pend fed s (d : dev) off eof ph fed' s' d' off' eof' :
  s <> SrcStdin ->
  parse_phase (byte_ops_at parser fuel0 pf0 lvl) parser pf sts pend fed s d off eof
    = (ph, (fed', s', d', off', eof')) ->
  d' = d /\ off' = off /\ s' <> SrcStdin.
Proof.
  intros Ho E.
  pose proof (parse_phase_keeps _ parser (fun s1 d1 off1 _ => d1 = d /\ off1 = off /\ s1 <> SrcStdin)
                (pull_own parser fuel0 pf0 lvl d off)
                pf sts pend fed s d off eof (conj eq_refl (conj eq_refl Ho))) as Hx.
  rewrite E in Hx. exact Hx.
Qed.

Lemma mkX_eta {I} (x : xstate (I:=I)) : mkX (x_sh x) (x_in x) (x_off x) (x_evs x) = x.
Proof. destruct x; reflexivity. Qed.

(* [iter_inl] with the input and the position after the parse phase replaced
   by those before it *)
Lemma nested_iteration_lemma parser fuel0 pf0 lvl pf (m m' : mstate (I:=dev) (SRC:=source)) :
  m_src m <> SrcStdin ->
  iterx (byte_ops_at parser fuel0 pf0 lvl) parser pf m = inl m' ->
  exists c p fed' src' eof',
    parse_phase (byte_ops_at parser fuel0 pf0 lvl) parser pf
      ((if m_pend m then m_hist m else []) ++ [s_ps (x_sh (m_x m))]) (m_pend m) (m_fed m)
      (m_src m) (x_in (m_x m)) (x_off (m_x m)) (m_eof m)
    = (PhDone (PComplete c p), (fed', src', x_in (m_x m), x_off (m_x m), eof')) /\
    exec (byte_ops_at parser fuel0 pf0 lvl) c (m_x m) = (m_x m', false) /\
    m_src m' = src' /\ src' <> SrcStdin.
Proof.
  intros Ho H.
  assert (Hi : iter (byte_ops_at parser fuel0 pf0 lvl) parser pf m = inl m') by (rewrite iter_iterx, H; reflexivity).
  destruct (iter_inl _ _ _ _ _ Hi) as (c & p & fed' & src' & d' & off' & eof' & x2 & fd & Ep & _ & Ex & ->).
  destruct (nested_parse_leaves_stdin_lemma _ _ _ _ _ _ _ _ _ _ _ _ _ _ _ _ _ _ Ho Ep) as [-> [-> Ho']].
  rewrite mkX_eta in Ex. exists c, p, fed', src', eof'. cbn [m_x m_src]. auto.
Qed.

Lemma iterx_n_own parser fuel0 pf0 lvl pf (k : nat) : forall (m m' : mstate (I:=dev) (SRC:=source)),
  m_src m <> SrcStdin ->
  iterx_n (byte_ops_at parser fuel0 pf0 lvl) parser k pf m = inl m' -> m_src m' <> SrcStdin.
Proof.
  induction k as [|k IH]; intros m m' Ho; cbn [iterx_n].
  - intros E. inversion E; subst. exact Ho.
  - destruct (iterx _ parser pf m) as [m1|r] eqn:Ei; [|discriminate].
    destruct (nested_iteration_lemma _ _ _ _ _ _ _ Ho Ei) as [c [p [fed' [src' [eof' [_ [_ [Hs Ho']]]]]]]].
    intros E. eapply IH; [|exact E]. rewrite Hs. exact Ho'.
Qed.

Lemma byte_src_own s : byte_src s <> SrcStdin.
Proof. destruct s; discriminate. Qed.

(* Scripts without eval / dot run alike at every level: everything proved
   about [model_run] holds for the nested model on them. *)

Fixpoint nest_free (c : cmd) : bool :=
  match c with
  | CNest _ => false
  | CSeq a b | CAnd a b | COr a b => nest_free a && nest_free b
  | CNot a | CSub a => nest_free a
  | CIf a b c => nest_free a && nest_free b && nest_free c
  | _ => true
  end.

Definition parser_nest_free (parser : list pstate -> list line -> pres) : Prop :=
  forall sts fed c p, parser sts fed = PComplete c p -> nest_free c = true.

Lemma nest_free_leaves c : nest_free c = leaves (fun c => match c with CNest _ => false | _ => true end) c.
Proof. induction c; cbn [nest_free leaves]; rewrite ?IHc, ?IHc1, ?IHc2, ?IHc3; reflexivity. Qed.

