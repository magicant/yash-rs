(* C18 — facts about the line-level machine (the reference semantics).
   Properties.v carries them to the byte-level model through the refinement. *)
From Yv Require Import Common.Base C18.Model C18.Spec C18.ProofsBytes C18.ProofsSim.
Local Open Scope N_scope.

Definition no_empty (ls : list line) : Prop := Forall (fun l => l <> []) ls.

Lemma split_lines_no_empty (x : list N) : no_empty (split_lines x).
Proof.
  induction x as [|b x IH]; cbn [split_lines]; [constructor|].
  destruct (N.eqb b NL).
  - constructor; [discriminate | exact IH].
  - destruct (split_lines x) as [|l ls].
    + constructor; [discriminate | constructor].
    + inversion IH; subst. constructor; [discriminate | assumption].
Qed.

Section Decides.
  Context (parser : list pstate -> list line -> pres).

  (* once the end of input has been seen, nothing more is taken *)
  Lemma pull_loop_decides (fuel : nat) : forall sts fed i off eof r fed' s' i' off' eof',
    no_empty i ->
    pull_loop line_ops parser fuel sts fed LShared i off eof
      = (PhDone r, (fed', s', i', off', eof')) ->
    exists k, (1 <= k <= S (length (if eof then [] else i)))%nat /\
      parser sts (fed ++ firstn k (feedable (if eof then [] else i))) = r /\ r <> PNeedMore /\
      (forall j, (1 <= j < k)%nat ->
         parser sts (fed ++ firstn j (feedable (if eof then [] else i))) = PNeedMore) /\
      fed' = fed ++ firstn k (feedable (if eof then [] else i)) /\ s' = LShared /\
      i' = (if eof then i else skipn k i) /\
      off' = (if eof then off else off + nlen (concat (firstn k i))) /\
      eof' = eof || Nat.eqb k (S (length i)).
  Proof.
    induction fuel as [|f IH]; intros sts fed ls off eof r fed' s' ls' off' eof' Hne H; [discriminate|].
    apply pull_loop_answer in H. destruct eof; [|destruct ls as [|l rest]]; cbn [orb].
    1-2: (* the end of input was seen before, or nothing is left: it is fed *)
      cbn in H; destruct H as [(Hp & Hr & [= -> -> -> -> ->]) | (_ & [=] & _)];
      exists 1%nat; cbn; rewrite N.add_0_r; repeat split; auto; lia.
    inversion Hne as [|? ? Hl Hrest]; subst. destruct l as [|b l]; [contradiction|].
    cbn [op_pull line_ops line_pull orb] in H.
    destruct H as [(Hp & Hr & [= -> -> -> -> ->]) | (E & _ & H)].
    - exists 1%nat. cbn [feedable app firstn skipn length concat]. rewrite app_nil_r.
      repeat split; auto; lia.
    - apply IH in H; [|assumption]. cbn [orb] in H.
      destruct H as [k [Hk [Hp [Hr [Hmin [Hfed [Hs [Hls [Hoff Heof]]]]]]]]].
      exists (S k). cbn [feedable app firstn skipn length concat].
      rewrite <- app_assoc in Hp, Hfed. cbn [app] in Hp, Hfed.
      repeat split; try lia; try assumption.
      + intros j Hj. destruct j as [|j]; [lia|]. cbn [firstn].
        destruct j as [|j]; [exact E|].
        specialize (Hmin (S j) ltac:(lia)). rewrite <- app_assoc in Hmin. exact Hmin.
      + rewrite Hoff. unfold nlen. cbn [length]. rewrite app_length. lia.
  Qed.
End Decides.

(* [rest] is [i] without its first lines, [n] their length in bytes: what every
   operation of [line_ops] does to the input, `read -d` apart *)
Definition pops (i rest : list line) (n : N) : Prop :=
  exists j, rest = skipn j i /\ n = nlen (concat (firstn j i)).

Lemma pops_refl i : pops i i 0.
Proof. exists 0%nat. split; reflexivity. Qed.

Lemma skipn_add {A} (j k : nat) (l : list A) : skipn k (skipn j l) = skipn (j + k) l.
Proof.
  revert l; induction j as [|j IH]; intros l; [reflexivity|].
  destruct l as [|a l]; cbn [skipn plus]; [now destruct k | apply IH].
Qed.

Lemma firstn_add {A} (j k : nat) (l : list A) :
  firstn (j + k) l = firstn j l ++ firstn k (skipn j l).
Proof.
  revert l; induction j as [|j IH]; intros l; [reflexivity|].
  destruct l as [|a l]; cbn [skipn firstn plus app]; [now destruct k | now rewrite IH].
Qed.

Lemma pops_trans i r1 n1 r2 n2 : pops i r1 n1 -> pops r1 r2 n2 -> pops i r2 (n1 + n2).
Proof.
  intros [j [-> ->]] [k [-> ->]]. exists (j + k)%nat. split.
  - apply skipn_add.
  - rewrite firstn_add, concat_app, nlen_app. reflexivity.
Qed.

Lemma pops_cons l i : pops (l :: i) i (nlen l).
Proof. exists 1%nat. split; [reflexivity|]. cbn. now rewrite app_nil_r. Qed.

Lemma pops_length i rest n : pops i rest n -> (length rest <= length i)%nat.
Proof. intros [j [-> _]]. rewrite skipn_length. lia. Qed.

Lemma line_pull_pops (s : lsource) (i : list line) :
  let '(_, _, rest, n) := line_pull s i in pops i rest n.
Proof.
  destruct s as [|ls]; cbn [line_pull].
  - destruct i as [|l i]; [apply pops_refl | apply pops_cons].
  - destruct ls; apply pops_refl.
Qed.

Lemma line_read_pops (raw : bool) (i : list line) :
  let '(_, _, rest, n) := line_read_nl raw i in pops i rest n.
Proof.
  induction i as [|l i IH]; cbn [line_read_nl]; [apply pops_refl|].
  destruct (scan_line raw l) as [cs e]. destruct e; try apply pops_cons.
  destruct (line_read_nl raw i) as [[[cs' f] r] n].
  eapply pops_trans; [apply pops_cons | exact IH].
Qed.

Lemma line_slurp_pops (i : list line) :
  let '(_, rest, n) := line_slurp i in pops i rest n.
Proof.
  unfold line_slurp. exists (length i). rewrite skipn_all, firstn_all. split; reflexivity.
Qed.

Definition nl_simple (c : cmd) : bool :=
  match c with CRead _ d _ => N.eqb d NL | _ => true end.

Lemma nl_cmd_leaves c : nl_cmd c = leaves nl_simple c.
Proof. induction c; cbn [nl_cmd leaves]; rewrite ?IHc, ?IHc1, ?IHc2, ?IHc3; reflexivity. Qed.

Section Aligned.
  Context (parser : list pstate -> list line -> pres) (L0 : list line).
  Hypothesis parser_reads_lines : reads_lines parser.

  (* the input is a suffix of the original lines and the position is the
     length of what was taken *)
  Definition at_boundary (i : list line) (off : N) : Prop := pops L0 i off.

  Definition is_boundary (off : N) : Prop := exists j, off = nlen (concat (firstn j L0)).

  Definition ev_ok (e : event) : Prop := event_kind e = 3 \/ is_boundary (event_off e).

  Definition x_ok (x : xstate (I:=list line)) : Prop :=
    at_boundary (x_in x) (x_off x) /\ Forall ev_ok (x_evs x).

  Lemma at_boundary_is i off : at_boundary i off -> is_boundary off.
  Proof. intros [j [_ ->]]. now exists j. Qed.

  Lemma x_ok_emit k a x : x_ok x -> x_ok (emit k a (x_off x) x).
  Proof.
    intros [H1 H2]. split; [exact H1|]. cbn. apply Forall_app. split; [exact H2|].
    constructor; [|constructor]. right. cbn. eapply at_boundary_is; exact H1.
  Qed.

  Lemma x_ok_emit_here a x : x_ok x -> x_ok (emit 3 a 0 x).
  Proof.
    intros [H1 H2]. split; [exact H1|]. cbn. apply Forall_app. split; [exact H2|].
    constructor; [|constructor]. left. reflexivity.
  Qed.

  Lemma exec_ok (c : cmd) : forall x, nl_cmd c = true -> x_ok x -> x_ok (fst (exec line_ops c x)).
  Proof.
    intros x Hnl. rewrite nl_cmd_leaves in Hnl. revert x Hnl.
    apply (exec_keeps line_ops nl_simple (fun x y => x_ok x -> x_ok y)); auto.
    intros [] x Hnl; try exact I; cbn [exec]; intros Hx; try exact Hx.
    - exact (x_ok_emit _ _ _ Hx).
    - exact (x_ok_emit _ _ _ Hx).
    - cbn [op_read line_ops]. unfold line_read. cbn [nl_simple] in Hnl. rewrite Hnl.
      pose proof (line_read_pops raw (x_in x)) as Hp.
      destruct (line_read_nl raw (x_in x)) as [[[cs f] r] n].
      destruct Hx as [H1 H2].
      destruct (existsb (fun c => N.eqb (fst c) 0) cs); cbn [fst];
        (split; [|exact H2]); cbn; eapply pops_trans; eassumption.
    - cbn [op_slurp line_ops]. pose proof (line_slurp_pops (x_in x)) as Hp.
      destruct (line_slurp (x_in x)) as [[ct r] n]. cbn [fst].
      pose proof (x_ok_emit 2 [ct] x Hx) as [H1 H2]. destruct Hx as [G1 G2].
      split; [|exact H2]. cbn. eapply pops_trans; eassumption.
    - exact (x_ok_emit_here _ _ Hx).
    - destruct n; exact Hx.
  Qed.

  Lemma parse_phase_ok (pf : nat) sts pend fed src i off eof :
    at_boundary i off ->
    let '(_, (_, _, i', off', _)) := parse_phase line_ops parser pf sts pend fed src i off eof in
    at_boundary i' off'.
  Proof.
    apply (parse_phase_keeps line_ops parser (fun _ i off _ => at_boundary i off)).
    intros s j o H. cbn [op_pull line_ops]. pose proof (line_pull_pops s j) as Hp.
    destruct (line_pull s j) as [[[l s'] j'] n]. eapply pops_trans; eassumption.
  Qed.

  Definition f_ok (r : final) : Prop := is_boundary (f_off r) /\ Forall ev_ok (f_evs r).

  Lemma finish_ok t n x : x_ok x -> f_ok (finish t n x).
  Proof. intros [H1 H2]. split; [eapply at_boundary_is; exact H1 | exact H2]. Qed.

  Lemma iter_ok (pf : nat) (m : mstate) :
    x_ok (m_x m) ->
    match iter line_ops parser pf m with
    | inl m' => x_ok (m_x m')
    | inr r => f_ok r
    end.
  Proof.
    intros [H1 H2]. unfold iter.
    set (sts := (if m_pend m then m_hist m else []) ++ [s_ps (x_sh (m_x m))]).
    pose proof (parse_phase_ok pf sts (m_pend m) (m_fed m) (m_src m) _ _ (m_eof m) H1) as Hp.
    destruct (parse_phase line_ops parser pf sts (m_pend m) (m_fed m) (m_src m) (x_in (m_x m))
                (x_off (m_x m)) (m_eof m)) as [ph [[[[g' s'] i'] off'] eof']] eqn:Eph.
    assert (Hx : x_ok (mkX (x_sh (m_x m)) i' off' (x_evs (m_x m)))) by (split; assumption).
    destruct ph as [r| |]; try (now apply finish_ok).
    destruct r; try (now apply finish_ok).
    destruct (parse_phase_from_parser _ _ _ _ _ _ _ _ _ _ _ _ Eph) as [fd Hfd].
    pose proof (parser_reads_lines _ _ _ _ Hfd) as Hnl.
    pose proof (exec_ok c _ Hnl Hx) as Hc.
    destruct (exec line_ops c _) as [x2 ex]. cbn [fst] in Hc.
    destruct ex; [now apply finish_ok | exact Hc].
  Qed.

  Lemma loop_ok (fuel pf : nat) : forall m, x_ok (m_x m) -> f_ok (loop line_ops parser fuel pf m).
  Proof.
    induction fuel as [|f IH]; intros m H; cbn [loop]; [now apply finish_ok|].
    pose proof (iter_ok pf m H) as Hi.
    destruct (iter line_ops parser pf m) as [m'|r]; [now apply IH | exact Hi].
  Qed.
End Aligned.

Lemma run_ok parser fuel pf src (L0 : list line) :
  reads_lines parser ->
  f_ok L0 (run line_ops parser fuel pf src L0).
Proof.
  intros Hrl. unfold run. apply loop_ok; [exact Hrl|]. split; [apply pops_refl | constructor].
Qed.

Lemma mem_boundaries_from (ls : list line) : forall p j,
  mem_N (p + nlen (concat (firstn j ls))) (boundaries_from p ls) = true.
Proof.
  induction ls as [|l ls IH]; intros p j; cbn [boundaries_from].
  - rewrite firstn_nil. cbn [concat]. unfold mem_N. cbn. rewrite N.add_0_r, N.eqb_refl. reflexivity.
  - destruct j as [|j].
    + cbn [firstn concat]. unfold mem_N. cbn [existsb]. rewrite N.add_0_r, N.eqb_refl. reflexivity.
    + cbn [firstn concat]. rewrite nlen_app, N.add_assoc. unfold mem_N in *. cbn [existsb].
      rewrite IH. apply orb_true_r.
Qed.

Lemma is_boundary_mem (x : list N) (off : N) :
  is_boundary (split_lines x) off -> mem_N off (boundaries x) = true.
Proof. intros [j ->]. unfold boundaries. apply (mem_boundaries_from _ 0 j). Qed.

Lemma line_aligned_sound (x : list N) (r : final) :
  f_ok (split_lines x) r -> line_aligned x (obs_of_final r) = true.
Proof.
  intros [H1 H2]. unfold line_aligned, obs_of_final. apply andb_true_iff. split.
  - now apply is_boundary_mem.
  - apply forallb_forall. intros e He. rewrite Forall_forall in H2. specialize (H2 e He).
    destruct H2 as [H|H].
    + rewrite H. reflexivity.
    + apply orb_true_iff. right. now apply is_boundary_mem.
Qed.

(* Well-formed inputs: exactly the lists of lines of some byte string. *)

Definition wf (i : list line) : Prop := split_lines (concat i) = i.

Lemma wf_split (x : list N) : wf (split_lines x).
Proof. unfold wf. now rewrite concat_split_lines. Qed.

Lemma wf_nil : wf [].
Proof. reflexivity. Qed.

Lemma wf_no_empty (i : list line) : wf i -> no_empty i.
Proof. intros H. rewrite <- H. apply split_lines_no_empty. Qed.

Lemma wf_skipn (j : nat) (i : list line) : wf i -> wf (skipn j i).
Proof. intros H. unfold wf. rewrite <- H. apply split_lines_skipn. Qed.

Lemma Forall_skipn {A} (P : A -> Prop) (j : nat) : forall l, Forall P l -> Forall P (skipn j l).
Proof.
  induction j as [|j IH]; intros l H; [exact H|]. destruct l; [constructor|].
  inversion H; subst. cbn [skipn]. now apply IH.
Qed.

Lemma pops_wf i rest n : pops i rest n -> wf i -> wf rest.
Proof. intros [j [-> _]]. apply wf_skipn. Qed.

Lemma line_read_wf (raw : bool) (d : N) (i : list line) :
  wf i ->
  let '(_, _, rest, _) := line_read raw d i in
  wf rest /\ (length rest <= length i)%nat.
Proof.
  intros Hwf. unfold line_read. destruct (N.eqb d NL).
  - pose proof (line_read_pops raw i) as Hp.
    destruct (line_read_nl raw i) as [[[cs f] r] n].
    split; [eapply pops_wf; eassumption | eapply pops_length; eassumption].
  - pose proof (flat_read_rest raw d (concat i) false) as Hs.
    destruct (flat_read raw d false (concat i)) as [[[cs f] rest] m].
    destruct Hs as [[p Hp] _]. split; [apply wf_split|].
    assert (E : length i = length (split_lines (concat i))) by (unfold wf in Hwf; now rewrite Hwf).
    rewrite E, Hp. apply split_lines_suffix_len.
Qed.

Section Lengths.
  Context (parser : list pstate -> list line -> pres).

  (* whatever the delimiters: well-formedness is kept, the number of lines
     does not grow *)
  Lemma exec_wf (c : cmd) : forall x, wf (x_in x) ->
    wf (x_in (fst (exec line_ops c x))) /\
    (length (x_in (fst (exec line_ops c x))) <= length (x_in x))%nat.
  Proof.
    intros x. generalize (leaves_true c). revert x.
    apply (exec_keeps line_ops (fun _ => true)
             (fun x y => wf (x_in x) -> wf (x_in y) /\ (length (x_in y) <= length (x_in x))%nat)); auto.
    - intros x y z H1 H2 Hx. destruct (H1 Hx) as [Hy L1]. destruct (H2 Hy) as [Hz L2]. split; [exact Hz|lia].
    - intros [] x _; try exact I; cbn [exec]; intros Hwf; try (cbn; split; [exact Hwf | lia]).
      + cbn [op_read line_ops]. pose proof (line_read_wf raw d (x_in x) Hwf) as Hp.
        destruct (line_read raw d (x_in x)) as [[[cs f] r] n].
        destruct (existsb (fun c => N.eqb (fst c) 0) cs); exact Hp.
      + cbn [op_slurp line_ops]. unfold line_slurp. cbn. split; [apply wf_nil | lia].
      + destruct n; cbn; (split; [exact Hwf | lia]).
  Qed.

  (* reads of whole lines only: the number of lines does not grow, well-formed
     or not *)
  Lemma exec_len (c : cmd) : forall x, nl_cmd c = true ->
    (length (x_in (fst (exec line_ops c x))) <= length (x_in x))%nat.
  Proof.
    intros x Hnl. rewrite nl_cmd_leaves in Hnl. revert x Hnl.
    apply (exec_keeps line_ops nl_simple (fun x y => (length (x_in y) <= length (x_in x))%nat)); auto.
    - intros x y z H1 H2. lia.
    - (* a slurp leaves nothing, the commands that do not read leave the input alone *)
      intros [] x Hnl; try exact I; cbn [exec]; try (cbn; lia).
      + cbn [op_read line_ops]. unfold line_read. cbn [nl_simple] in Hnl. rewrite Hnl.
        pose proof (line_read_pops raw (x_in x)) as Hp.
        destruct (line_read_nl raw (x_in x)) as [[[cs f] r] n]. apply pops_length in Hp.
        destruct (existsb (fun c => N.eqb (fst c) 0) cs); exact Hp.
      + destruct n; cbn; lia.
  Qed.

  Lemma parse_phase_wf (pf : nat) sts pend fed src i off eof : wf i ->
    let '(_, (_, _, i', _, _)) := parse_phase line_ops parser pf sts pend fed src i off eof in wf i'.
  Proof.
    apply (parse_phase_keeps line_ops parser (fun _ j _ _ => wf j)).
    intros s j o H. cbn [op_pull line_ops]. pose proof (line_pull_pops s j) as Hp.
    destruct (line_pull s j) as [[[l s'] j'] n]. exact (pops_wf _ _ _ Hp H).
  Qed.
End Lengths.

(* Prefix independence: what is done while the input still ends with LB
   does not depend on LB. *)

Section Swap.
  Context (parser : list pstate -> list line -> pres) (LB LB' : list line).
  Hypothesis parser_reads_lines : reads_lines parser.
  Hypothesis LB_nonempty : LB <> [].

  Definition swap (X X' : list line) : Prop := exists Y, X = Y ++ LB /\ X' = Y ++ LB'.

  (* nothing of [LB] has been taken yet: the input only loses lines at the
     front, so comparing lengths is enough *)
  Definition still_in_input (X : list line) : Prop := (length LB <= length X)%nat.

  Lemma LB_pos : (1 <= length LB)%nat.
  Proof. destruct LB; [contradiction | cbn; lia]. Qed.

  Lemma line_read_shrinks (raw : bool) (l : line) (i : list line) :
    let '(_, _, r, _) := line_read_nl raw (l :: i) in (length r <= length i)%nat.
  Proof.
    pose proof (line_read_pops raw i) as Hp.
    cbn [line_read_nl]. destruct (scan_line raw l) as [cs e]. destruct e; try lia.
    destruct (line_read_nl raw i) as [[[cs' f] r] n]. eapply pops_length; exact Hp.
  Qed.

  Lemma read_swap (raw : bool) : forall X X', swap X X' ->
    still_in_input (res_in (line_read_nl raw X)) ->
    let '(c, f, r, n) := line_read_nl raw X in
    let '(c', f', r', n') := line_read_nl raw X' in
    c = c' /\ f = f' /\ n = n' /\ swap r r'.
  Proof.
    intros X X' [Y [-> ->]]. induction Y as [|y Y IH]; cbn [app].
    - (* the line comes out of [LB]: the input becomes shorter than [LB] *)
      pose proof LB_pos as Hpos. destruct LB as [|l rest] eqn:ELB; [contradiction|].
      pose proof (line_read_shrinks raw l rest) as Hs.
      destruct (line_read_nl raw (l :: rest)) as [[[c f] r] n].
      intros Hk. exfalso. unfold still_in_input, res_in in Hk. rewrite ELB in Hk. cbn [length fst snd] in Hk. lia.
    - cbn [line_read_nl]. destruct (scan_line raw y) as [cs e]. destruct e.
      + intros _. repeat split. now exists Y.
      + intros _. repeat split. now exists Y.
      + destruct (line_read_nl raw (Y ++ LB)) as [[[c f] r] n].
        destruct (line_read_nl raw (Y ++ LB')) as [[[c' f'] r'] n'].
        intros Hk. destruct (IH Hk) as [-> [-> [-> Hsw]]]. repeat split. exact Hsw.
  Qed.

  Definition both_shared (s s' : lsource) : Prop := s = LShared /\ s' = LShared.

  Lemma still_in_input_back (s : lsource) (i : list line) : still_in_input (res_in (op_pull line_ops s i)) -> still_in_input i.
  Proof.
    cbn [op_pull line_ops]. pose proof (line_pull_pops s i) as Hp.
    destruct (line_pull s i) as [[[l t] j] n]. apply pops_length in Hp. unfold still_in_input, res_in. cbn [fst snd]. lia.
  Qed.

  (* as long as [LB] survives the two sides pull the same line *)
  Lemma pull_swap s1 s2 i1 i2 : both_shared s1 s2 -> swap i1 i2 ->
    still_in_input (res_in (op_pull line_ops s1 i1)) ->
    let '(l1, t1, j1, n1) := op_pull line_ops s1 i1 in
    let '(l2, t2, j2, n2) := op_pull line_ops s2 i2 in
    l1 = l2 /\ n1 = n2 /\ both_shared t1 t2 /\ swap j1 j2.
  Proof.
    intros [-> ->] [Y [-> ->]]. cbn [op_pull line_ops]. destruct Y as [|y Y]; cbn [app line_pull].
    - (* the next line comes out of LB: the input becomes shorter than LB *)
      pose proof LB_pos as Hpos. destruct LB as [|l rest] eqn:ELB; [contradiction|]. cbn [line_pull].
      intros Hk. exfalso. unfold still_in_input, res_in in Hk. rewrite ELB in Hk. cbn [length fst snd] in Hk. lia.
    - intros _. repeat split. now exists Y.
  Qed.

  (* as long as [LB] survives, the iterations do the same on both sides: the
     input only shrinks, reads take the same lines, a slurp leaves nothing *)
  Lemma iter_n_swap (k pf : nat) m m' n :
    RM swap both_shared m m' -> iter_n line_ops parser k pf m = inl n -> still_in_input (x_in (m_x n)) ->
    exists n', iter_n line_ops parser k pf m' = inl n' /\ RM swap both_shared n n'.
  Proof.
    apply (iter_n_rel line_ops line_ops swap both_shared parser nl_simple) with (intact := fun _ i => still_in_input i).
    - intros sts fed c p H. rewrite <- nl_cmd_leaves. exact (parser_reads_lines _ _ _ _ H).
    - exact still_in_input_back.
    - intros _ c y Hc Hk. rewrite <- nl_cmd_leaves in Hc. pose proof (exec_len c y Hc). unfold still_in_input in *. lia.
    - exact pull_swap.
    - intros _ raw d v i1 i2 Hd Hsw. cbn [op_read line_ops]. unfold line_read. cbn [nl_simple] in Hd. rewrite Hd.
      exact (read_swap raw i1 i2 Hsw).
    - intros _ i1 i2 _ Hk. exfalso. unfold still_in_input in Hk. cbn in Hk. pose proof LB_pos. lia.
    - (* nested loops are not entered at level 0 *)
      intros _ s y y' _ Hy _. split; [now apply RX_with_status | reflexivity].
  Qed.
End Swap.

(* earlier_lines_take_effect at line level *)
Theorem prefix_independence_lines parser (LA LB LB' : list line) (k pf : nat) (n : mstate) :
  reads_lines parser ->
  LB <> [] ->
  iter_n line_ops parser k pf (init LShared (LA ++ LB)) = inl n ->
  x_in (m_x n) = LB ->
  exists n', iter_n line_ops parser k pf (init LShared (LA ++ LB')) = inl n' /\
    x_in (m_x n') = LB' /\ x_sh (m_x n') = x_sh (m_x n) /\ x_off (m_x n') = x_off (m_x n) /\
    x_evs (m_x n') = x_evs (m_x n) /\ m_eof n' = m_eof n /\ m_src n' = LShared /\
    m_pend n' = m_pend n /\ m_fed n' = m_fed n /\ m_hist n' = m_hist n.
Proof.
  intros Hrl Hne H Hin.
  assert (HS : RM (swap LB LB') both_shared (init LShared (LA ++ LB)) (init LShared (LA ++ LB'))).
  { unfold init. repeat split. now exists LA. }
  assert (Hk : still_in_input LB (x_in (m_x n))) by (unfold still_in_input; rewrite Hin; lia).
  destruct (iter_n_swap parser LB LB' Hrl Hne k pf _ _ n HS H Hk)
    as [n' [H' [[H1 [H2 [H3 H4]]] [[H5 H6] [H7 [H8 [H9 H10]]]]]]].
  exists n'. split; [exact H'|]. destruct H4 as [Y [HY HY']]. rewrite Hin in HY.
  apply (app_inv_tail LB [] Y) in HY. subst Y. cbn [app] in HY'. repeat split; congruence.
Qed.

(* The same when the script has a source of its own (-c string, script
   file): only the parse phase touches the script lines. *)

Section SwapSep.
  Context (parser : list pstate -> list line -> pres) (LB LB' : list line).
  Hypothesis LB_nonempty : LB <> [].

  Definition own_lines (s : lsource) : list line :=
    match s with LShared => [] | LLines l => l end.

  Definition still_in_source (s : lsource) : Prop := (length LB <= length (own_lines s))%nat.

  Definition swap_s (s s' : lsource) : Prop :=
    exists Y, s = LLines (Y ++ LB) /\ s' = LLines (Y ++ LB').

  Lemma still_in_source_back (s : lsource) (i : list line) : still_in_source (pull_src (op_pull line_ops s i)) -> still_in_source s.
  Proof.
    cbn [op_pull line_ops]. destruct s as [|X]; cbn [line_pull].
    - destruct i; auto.
    - destruct X as [|l X]; [auto|]. unfold still_in_source. cbn. lia.
  Qed.

  Lemma pull_swap_s s1 s2 (i1 i2 : list line) : swap_s s1 s2 -> i1 = i2 ->
    still_in_source (pull_src (op_pull line_ops s1 i1)) ->
    let '(l1, t1, j1, n1) := op_pull line_ops s1 i1 in
    let '(l2, t2, j2, n2) := op_pull line_ops s2 i2 in
    l1 = l2 /\ n1 = n2 /\ swap_s t1 t2 /\ j1 = j2.
  Proof.
    intros [Y [-> ->]] <-. cbn [op_pull line_ops]. destruct Y as [|y Y]; cbn [app line_pull].
    - pose proof (LB_pos LB LB_nonempty) as Hpos. destruct LB as [|l rest] eqn:ELB; [contradiction|]. cbn [line_pull].
      intros Hk. exfalso. unfold still_in_source, pull_src in Hk. rewrite ELB in Hk. cbn [own_lines length fst snd] in Hk. lia.
    - intros _. repeat split. now exists Y.
  Qed.

  (* the commands do not touch the script source, and see the same input *)
  Lemma iter_n_swap_sep (k pf : nat) m m' n :
    RM eq swap_s m m' -> iter_n line_ops parser k pf m = inl n -> still_in_source (m_src n) ->
    exists n', iter_n line_ops parser k pf m' = inl n' /\ RM eq swap_s n n'.
  Proof.
    apply (iter_n_rel line_ops line_ops eq swap_s parser (fun _ => true)) with (intact := fun s _ => still_in_source s).
    - intros sts fed c p _. apply leaves_true.
    - exact still_in_source_back.
    - auto.
    - exact pull_swap_s.
    - intros _ raw d v i1 i2 _ <- _. destruct (op_read line_ops raw d i1) as [[[c f] j] m0]. auto.
    - intros _ i1 i2 <- _. destruct (op_slurp line_ops i1) as [[c j] m0]. auto.
    - intros _ s y y' _ Hy _. split; [now apply RX_with_status | reflexivity].
  Qed.
End SwapSep.

(* earlier_lines_take_effect_separate at line level *)
Theorem prefix_independence_lines_sep parser (LA LB LB' i : list line) (k pf : nat) (n : mstate) :
  LB <> [] ->
  iter_n line_ops parser k pf (init (LLines (LA ++ LB)) i) = inl n ->
  m_src n = LLines LB ->
  exists n', iter_n line_ops parser k pf (init (LLines (LA ++ LB')) i) = inl n' /\
    m_src n' = LLines LB' /\ m_x n' = m_x n /\ m_eof n' = m_eof n /\
    m_pend n' = m_pend n /\ m_fed n' = m_fed n /\ m_hist n' = m_hist n.
Proof.
  intros Hne H Hsrc.
  assert (HS : RM eq (swap_s LB LB') (init (LLines (LA ++ LB)) i) (init (LLines (LA ++ LB')) i)).
  { unfold init. repeat split. now exists LA. }
  assert (Hk : still_in_source LB (m_src n)) by (unfold still_in_source; rewrite Hsrc; cbn; lia).
  destruct (iter_n_swap_sep parser LB LB' Hne k pf _ _ n HS H Hk)
    as [n' [H' [[H1 [H2 [H3 H4]]] [[Y [HY HY']] [H5 [H6 [H7 H8]]]]]]].
  exists n'. split; [exact H'|]. rewrite Hsrc in HY. inversion HY as [HY1].
  apply (app_inv_tail LB [] Y) in HY1. subst Y. cbn [app] in HY'. destruct (m_x n), (m_x n'). cbn in *. repeat split; congruence.
Qed.

(* The fuel [pf * K + 1] never runs out: an iteration that starts with an empty
   line buffer lowers [m_measure] (it pulls a line or sees the end of input,
   and at the end of input no command comes, [ends_at_eof]); between two such,
   fewer than [K] iterations run on pending text ([pend_depth]). *)

Section Fuel.
  Context (parser : list pstate -> list line -> pres) (K : nat).
  Hypothesis parser_ends : ends_at_eof parser.
  Hypothesis parser_depth : pend_depth parser K.
  Hypothesis K_pos : (1 <= K)%nat.

  (* lines the script source can still deliver *)
  Definition src_size (s : lsource) (i : list line) : nat :=
    match s with LShared => length i | LLines ls => length ls end.

  Definition measure (s : lsource) (i : list line) (eof : bool) : nat :=
    (src_size s i + if eof then 0 else 1)%nat.

  Lemma pull_measure (s : lsource) (i : list line) :
    let '(l, s', i', _) := line_pull s i in
    (measure s' i' (match l with [] => true | _ => false end) < measure s i false)%nat.
  Proof.
    unfold measure. destruct s as [|ls]; cbn [line_pull].
    - destruct i as [|l i]; cbn [src_size length]; [lia|]. destruct l; lia.
    - destruct ls as [|l ls]; cbn [src_size length]; [lia|]. destruct l; lia.
  Qed.

  Lemma pull_loop_measure (fuel : nat) st fed s i off eof :
    let '(_, (_, s', i', _, eof')) := pull_loop line_ops parser fuel st fed s i off eof in
    (measure s' i' eof' <= measure s i eof)%nat.
  Proof.
    apply (pull_loop_keeps line_ops parser (fun s' i' _ e' => (measure s' i' e' <= measure s i eof)%nat));
      [|lia].
    intros s1 i1 o H. cbn [op_pull line_ops]. pose proof (pull_measure s1 i1) as Hm.
    destruct (line_pull s1 i1) as [[[l s'] i'] n]. lia.
  Qed.

  Lemma pull_loop_measure_strict (f : nat) st fed s i off :
    let '(_, (_, s', i', _, eof')) := pull_loop line_ops parser (S f) st fed s i off false in
    (measure s' i' eof' < measure s i false)%nat.
  Proof.
    rewrite pull_loop_S. cbn [op_pull line_ops orb]. pose proof (pull_measure s i) as Hm.
    destruct (line_pull s i) as [[[l s'] i'] n]. destruct (asks_more _); [|lia]. destruct l as [|b l]; [lia|].
    pose proof (pull_loop_measure f st (fed ++ [b :: l]) s' i' (off + n) false) as Hle.
    destruct (pull_loop line_ops parser f st (fed ++ [b :: l]) s' i' (off + n) false)
      as [ph [[[[g2 s2] i2] o2] e2]]. lia.
  Qed.

  Lemma pull_loop_fuel (fuel : nat) : forall st fed s i off eof,
    (measure s i eof < fuel + (if eof then 0 else 1))%nat -> (1 <= fuel)%nat ->
    fst (pull_loop line_ops parser fuel st fed s i off eof) <> PhOutOfFuel.
  Proof.
    induction fuel as [|f IH]; intros st fed s i off eof Hm Hf; [lia|]. rewrite pull_loop_S.
    destruct eof.
    - cbn [orb]. destruct (asks_more _); discriminate.
    - cbn [op_pull line_ops orb]. pose proof (pull_measure s i) as Hp.
      destruct (line_pull s i) as [[[l s'] i'] n]. destruct (asks_more _); [|discriminate].
      destruct l as [|b l]; [discriminate|]. apply IH; unfold measure in *; lia.
  Qed.

  Lemma measure_in_le (s : lsource) (i i' : list line) (eof : bool) :
    (length i' <= length i)%nat -> (measure s i' eof <= measure s i eof)%nat.
  Proof. intros H. unfold measure. destruct s; cbn [src_size]; lia. Qed.

  Definition m_measure (m : mstate (I:=list line) (SRC:=lsource)) : nat :=
    measure (m_src m) (x_in (m_x m)) (m_eof m).

  (* while text is pending, the number of commands parsed out of it
     ([m_hist]) grows and stays below [K] *)
  Definition potential (m : mstate (I:=list line) (SRC:=lsource)) : nat :=
    (m_measure m * K + if m_pend m then K - length (m_hist m) else 0)%nat.

  Definition m_inv (m : mstate (I:=list line) (SRC:=lsource)) : Prop :=
    wf (x_in (m_x m)) /\ (m_pend m = true -> (1 <= length (m_hist m) < K)%nat).

  Lemma parse_phase_progress (pf : nat) sts pend fed s i off eof :
    (measure s i eof < S pf)%nat ->
    let '(ph, (_, s', i', _, eof')) := parse_phase line_ops parser (S pf) sts pend fed s i off eof in
    (measure s' i' eof' <= measure s i eof)%nat /\
    (pend = false -> eof = false -> (measure s' i' eof' < measure s i eof)%nat) /\
    ph <> PhOutOfFuel /\
    (pend = false -> eof = true -> forall st c p, sts = [st] -> ph <> PhDone (PComplete c p)).
  Proof.
    intros Hpf. rewrite parse_phase_eq.
    pose proof (pull_loop_measure (S pf) sts (if pend then fed else []) s i off eof) as Hle.
    pose proof (pull_loop_fuel (S pf) sts (if pend then fed else []) s i off eof) as Hfu.
    destruct pend; cbn [andb].
    - destruct (asks_more (parser sts fed)); cbn [negb]; [|repeat split; try lia; discriminate].
      destruct (pull_loop line_ops parser (S pf) sts fed s i off eof) as [ph [[[[g' s'] i'] off'] eof']].
      cbn [fst] in Hfu. repeat split; try lia; try discriminate. apply Hfu; destruct eof; lia.
    - destruct eof.
      + (* the end of input was seen: the parser is asked once more, on nothing *)
        rewrite pull_loop_S. cbn [orb app]. destruct (asks_more (parser sts [[]]));
          repeat split; try lia; try discriminate.
        intros _ _ st c p -> [= Hc]. specialize (parser_ends st). rewrite Hc in parser_ends. contradiction.
      + pose proof (pull_loop_measure_strict pf sts [] s i off) as Hst.
        destruct (pull_loop line_ops parser (S pf) sts [] s i off false) as [ph [[[[g' s'] i'] off'] eof']].
        cbn [fst] in Hfu. repeat split; try lia; try discriminate. apply Hfu; lia.
  Qed.

  Lemma iter_progress (pf : nat) (m : mstate) :
    m_inv m -> (m_measure m < pf)%nat ->
    match iter line_ops parser pf m with
    | inl m' => (potential m' < potential m)%nat /\ (m_measure m' <= m_measure m)%nat /\ m_inv m'
    | inr r => f_tag r <> FOutOfFuel
    end.
  Proof.
    intros [Hwf Hinv] Hpf. unfold iter.
    set (sts := (if m_pend m then m_hist m else []) ++ [s_ps (x_sh (m_x m))]).
    destruct pf as [|pf]; [lia|].
    pose proof (parse_phase_wf parser (S pf) sts (m_pend m) (m_fed m) (m_src m) (x_in (m_x m))
                  (x_off (m_x m)) (m_eof m) Hwf) as Hwf'.
    pose proof (parse_phase_progress pf sts (m_pend m) (m_fed m) (m_src m) (x_in (m_x m))
                  (x_off (m_x m)) (m_eof m) Hpf) as Hph.
    destruct (parse_phase line_ops parser (S pf) sts (m_pend m) (m_fed m) (m_src m) (x_in (m_x m))
                (x_off (m_x m)) (m_eof m)) as [ph [[[[g' s'] i'] off'] eof']] eqn:Eph.
    destruct Hph as [Hle [Hlt [Hoof Hend]]].
    destruct ph as [r| |]; try discriminate; [|contradiction].
    destruct r; try discriminate.
    destruct (parse_phase_from_parser _ _ _ _ _ _ _ _ _ _ _ _ Eph) as [fd Hfd].
    pose proof (exec_wf c (mkX (x_sh (m_x m)) i' off' (x_evs (m_x m))) Hwf') as [Hwf2 Hl2].
    destruct (exec line_ops c (mkX (x_sh (m_x m)) i' off' (x_evs (m_x m)))) as [x2 ex].
    cbn [fst x_in] in *. destruct ex; [discriminate|].
    pose proof (measure_in_le s' _ _ eof' Hl2) as Hm2.
    assert (Hsts : (length sts = (if m_pend m then length (m_hist m) else 0) + 1)%nat).
    { subst sts. rewrite app_length. destruct (m_pend m); cbn; lia. }
    unfold potential, m_measure in *. cbn [m_x m_src m_eof m_pend m_hist].
    assert (Hinv' : m_inv (mkM x2 s' eof' pend (if pend then g' else []) (if pend then sts else []))).
    { split; [exact Hwf2|]. cbn [m_pend m_hist]. intros ->. specialize (parser_depth _ _ _ Hfd). lia. }
    split; [|split; [lia | exact Hinv']].
    set (M := measure (m_src m) (x_in (m_x m)) (m_eof m)) in *.
    set (M2 := measure s' (x_in x2) eof') in *.
    assert (HM : (M2 * K <= M * K)%nat) by (apply Nat.mul_le_mono_r; lia).
    destruct (m_pend m) eqn:Epe.
    - specialize (Hinv eq_refl). destruct pend.
      + specialize (parser_depth _ _ _ Hfd). lia.
      + lia.
    - destruct (m_eof m) eqn:Ee.
      + exfalso. eapply Hend; reflexivity.
      + specialize (Hlt eq_refl eq_refl).
        assert (HM' : (M2 * K + K <= M * K)%nat).
        { replace (M2 * K + K)%nat with ((S M2) * K)%nat by lia. apply Nat.mul_le_mono_r. lia. }
        destruct pend.
        * specialize (parser_depth _ _ _ Hfd). lia.
        * lia.
  Qed.

  Lemma loop_fuel (fuel pf : nat) : forall m,
    m_inv m -> (potential m < fuel)%nat -> (m_measure m < pf)%nat ->
    f_tag (loop line_ops parser fuel pf m) <> FOutOfFuel.
  Proof.
    induction fuel as [|f IH]; intros m Hinv Hf Hpf; [lia|]. cbn [loop].
    pose proof (iter_progress pf m Hinv Hpf) as Hi.
    destruct (iter line_ops parser pf m) as [m'|r]; [|exact Hi].
    destruct Hi as [Hp [Hm Hinv']]. apply IH; [assumption | lia | lia].
  Qed.

  Lemma run_fuel (fuel pf : nat) (s : lsource) (i : list line) :
    wf i -> (src_size s i + 2 <= pf)%nat -> (pf * K + 1 <= fuel)%nat ->
    f_tag (run line_ops parser fuel pf s i) <> FOutOfFuel.
  Proof.
    intros Hwf Hpf Hf. unfold run. apply loop_fuel.
    - split; [exact Hwf | discriminate].
    - unfold potential, m_measure, init, measure. cbn [m_x m_src m_eof m_pend x_in].
      assert ((src_size s i + 1) * K <= pf * K)%nat by (apply Nat.mul_le_mono_r; lia). lia.
    - unfold m_measure, init, measure. cbn. lia.
  Qed.
End Fuel.

Section LineByLine.
  Context (parser : list pstate -> list line -> pres).

  Lemma parse_phase_takes (pf : nat) sts pend fed0 i off eof r fed' s' i' off' eof' :
    no_empty i ->
    parse_phase line_ops parser pf sts pend fed0 LShared i off eof
      = (PhDone r, (fed', s', i', off', eof')) ->
    exists k,
      decides parser sts (if pend then fed0 else []) (if pend then 0 else 1)%nat
              (if eof then [] else i) k r /\
      fed' = (if pend then fed0 else []) ++ firstn k (feedable (if eof then [] else i)) /\
      s' = LShared /\
      i' = (if eof then i else skipn k i) /\
      off' = (if eof then off else off + nlen (concat (firstn k i))) /\
      eof' = eof || Nat.eqb k (S (length i)).
  Proof.
    intros Hne H. rewrite parse_phase_eq in H.
    destruct pend; cbn [andb] in H.
    - destruct (asks_more (parser sts fed0)) eqn:Ep; cbn [negb] in H.
      2: { (* the pending text suffices: nothing is pulled *)
        injection H as <- <- <- <- <- <-. exists 0%nat. cbn [firstn]. rewrite app_nil_r.
        split; [|destruct eof; cbn [orb Nat.eqb]; rewrite ?N.add_0_r; repeat split].
        unfold decides. cbn [firstn]. rewrite app_nil_r.
        repeat split; try lia. exact (asks_more_false _ Ep). }
      apply asks_more_true in Ep.
      destruct (pull_loop_decides parser pf sts fed0 i off eof r fed' s' i' off' eof' Hne H) as [k [Hk [Hp [Hr [Hmin [Hfed [Hs [Hi [Ho He]]]]]]]]].
      exists k. split; [|repeat split; assumption].
      unfold decides. repeat split; try assumption; try lia.
      intros j Hj. destruct j as [|j]; [cbn [firstn]; rewrite app_nil_r; exact Ep|].
      apply Hmin. lia.
    - destruct (pull_loop_decides parser pf sts [] i off eof r fed' s' i' off' eof' Hne H) as [k [Hk [Hp [Hr [Hmin [Hfed [Hs [Hi [Ho He]]]]]]]]].
      exists k. split; [|repeat split; assumption].
      unfold decides. repeat split; try assumption; lia.
  Qed.

  Lemma loop_line_by_line (fuel pf : nat) : forall m,
    m_src m = LShared -> wf (x_in (m_x m)) ->
    f_tag (loop line_ops parser fuel pf m) <> FOutOfFuel ->
    f_tag (loop line_ops parser fuel pf m) <> FStuck ->
    line_by_line parser (m_x m) (m_eof m) (m_pend m) (m_fed m) (m_hist m)
      (loop line_ops parser fuel pf m).
  Proof.
    induction fuel as [|f IH]; intros m Hsrc Hwf Hof Hst; cbn [loop] in *.
    - exfalso. apply Hof. reflexivity.
    - unfold iter in *. rewrite Hsrc in *. destruct (m_x m) as [sh i off evs] eqn:Ex.
      cbn [x_sh x_in x_off x_evs] in *.
      set (x := mkX sh i off evs) in *.
      change ((if m_pend m then m_hist m else []) ++ [s_ps sh])
        with (step_sts x (m_pend m) (m_hist m)) in *.
      pose proof (parse_phase_takes pf (step_sts x (m_pend m) (m_hist m)) (m_pend m) (m_fed m)
                    i off (m_eof m)) as Ht.
      destruct (parse_phase line_ops parser pf (step_sts x (m_pend m) (m_hist m)) (m_pend m)
                  (m_fed m) LShared i off (m_eof m)) as [ph [[[[g' s'] i'] off'] eof']].
      destruct ph as [r| |]; [| exfalso; apply Hst; reflexivity | exfalso; apply Hof; reflexivity].
      destruct (Ht r g' s' i' off' eof' (wf_no_empty _ Hwf) eq_refl)
        as [k [Hdec [Hg [-> [Hi [Ho He]]]]]].
      assert (Hph : phase_takes parser x (m_eof m) (m_pend m) (m_fed m) (m_hist m) k r) by exact Hdec.
      assert (Hx' : mkX sh i' off' evs = after_phase x (m_eof m) k).
      { unfold after_phase, take_lines, x. cbn [x_sh x_in x_off x_evs]. subst i' off'.
        destruct (m_eof m); reflexivity. }
      assert (Hwf' : wf i').
      { subst i'. destruct (m_eof m); [exact Hwf | now apply wf_skipn]. }
      rewrite Hx' in *.
      destruct r.
      + exfalso. destruct Hdec as [_ [_ [Hr _]]]. now apply Hr.
      + pose proof (exec_wf c (after_phase x (m_eof m) k)) as Hwf2.
        rewrite <- Hx' in Hwf2 at 1. specialize (Hwf2 Hwf'). destruct Hwf2 as [Hwf2 _].
        destruct (exec line_ops c (after_phase x (m_eof m) k)) as [x2 ex] eqn:Ec.
        cbn [fst] in Hwf2. destruct ex.
        * eapply LBL_exit; eassumption.
        * eapply LBL_step; [exact Hph | exact Ec |].
          assert (Hfed : (if pend then g' else []) = (if pend then fed_after x (m_eof m) (m_pend m) (m_fed m) k else []))
            by (unfold fed_after; now rewrite Hg).
          assert (Heof : eof' = eof_after x (m_eof m) k) by (unfold eof_after; exact He).
          rewrite <- Hfed, <- Heof.
          apply (IH (mkM x2 LShared eof' pend (if pend then g' else [])
                         (if pend then step_sts x (m_pend m) (m_hist m) else []))); try assumption.
          reflexivity.
      + exact (LBL_syntax parser x (m_eof m) (m_pend m) (m_fed m) (m_hist m) k Hph).
      + assert (Es : x_status (after_phase x (m_eof m) k) = x_status x)
          by (unfold after_phase; destruct (m_eof m); reflexivity).
        rewrite Es. exact (LBL_end parser x (m_eof m) (m_pend m) (m_fed m) (m_hist m) k Hph).
      + exact (LBL_unknown parser x (m_eof m) (m_pend m) (m_fed m) (m_hist m) k Hph).
  Qed.
End LineByLine.
