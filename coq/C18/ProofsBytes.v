(* C18 — byte-at-a-time readers over chunked descriptors = line operations.
   Every reader is first flattened ([scan_flat]: on [concat d], one chunk),
   then compared with the line operation on [split_lines (concat d)]. *)
From Yv Require Import Common.Base C18.Model C18.Spec.
Local Open Scope N_scope.

Section ScanFacts.
  Context {S : Type} (step : S -> N -> S * bool).

  Lemma scan_chunk_app (s : S) (c r : list N) :
    scan_chunk step s (c ++ r) =
    match scan_chunk step s c with
    | (s', Some rest) => (s', Some (rest ++ r))
    | (s', None) => scan_chunk step s' r
    end.
  Proof.
    revert s; induction c as [|b c IH]; intros s; cbn [app scan_chunk]; [reflexivity|].
    destruct (step s b) as [s' stop]; destruct stop; [reflexivity | apply IH].
  Qed.

  (* Chunking is invisible to a byte-at-a-time reader.  What is left of the
     descriptor is known up to [concat] only: it may contain empty chunks. *)
  Lemma scan_flat (s : S) (d : dev) :
    match scan_chunk step s (concat d) with
    | (s', Some rest) => exists d', scan step s d = (s', true, d') /\ concat d' = rest
    | (s', None) => exists d', scan step s d = (s', false, d') /\ concat d' = []
    end.
  Proof.
    revert s; induction d as [|c d IH]; intros s; cbn [concat scan].
    - cbn. exists []. split; reflexivity.
    - rewrite scan_chunk_app. destruct (scan_chunk step s c) as [s1 [rest|]].
      + exists (rest :: d). split; reflexivity.
      + apply IH.
  Qed.
End ScanFacts.

Lemma read_byte_flat (d : dev) :
  match concat d with
  | [] => exists d', read_byte d = (None, d') /\ concat d' = []
  | b :: r => exists d', read_byte d = (Some b, d') /\ concat d' = r
  end.
Proof.
  induction d as [|c d IH]; cbn [concat read_byte].
  - exists []. split; reflexivity.
  - destruct c as [|b c]; cbn [app].
    + exact IH.
    + exists (c :: d). split; reflexivity.
Qed.

(* the first line of a byte string, the rest, whether a newline ended it *)
Fixpoint first_line (x : list N) : line * list N * bool :=
  match x with
  | [] => ([], [], false)
  | b :: r =>
      if N.eqb b NL then ([b], r, true)
      else let '(l, r', f) := first_line r in (b :: l, r', f)
  end.

Lemma first_line_app (x : list N) :
  let '(l, r, _) := first_line x in x = l ++ r.
Proof.
  induction x as [|b x IH]; cbn [first_line]; [reflexivity|].
  destruct (N.eqb b NL); [reflexivity|].
  destruct (first_line x) as [[l r] f]. cbn. now rewrite IH.
Qed.

Lemma first_line_not_found (x : list N) :
  let '(_, r, f) := first_line x in f = false -> r = [].
Proof.
  induction x as [|b x IH]; cbn [first_line]; [reflexivity|].
  destruct (N.eqb b NL); [discriminate|].
  destruct (first_line x) as [[l r] f]. exact IH.
Qed.

Lemma split_lines_first (x : list N) :
  split_lines x =
  match x with
  | [] => []
  | _ => let '(l, r, _) := first_line x in l :: split_lines r
  end.
Proof.
  induction x as [|b x IH]; [reflexivity|].
  cbn [split_lines first_line]. destruct (N.eqb b NL); [reflexivity|].
  rewrite IH. destruct x as [|c x]; [reflexivity|].
  destruct (first_line (c :: x)) as [[l r] f]. reflexivity.
Qed.

Lemma concat_split_lines (x : list N) : concat (split_lines x) = x.
Proof.
  induction x as [|b x IH]; [reflexivity|].
  cbn [split_lines]. destruct (N.eqb b NL).
  - cbn. now rewrite IH.
  - destruct (split_lines x) as [|l ls]; cbn in *; now rewrite <- IH.
Qed.

Lemma split_lines_nil (x : list N) : split_lines x = [] -> x = [].
Proof. intros H. rewrite <- (concat_split_lines x), H. reflexivity. Qed.

Lemma split_lines_inj (x y : list N) : split_lines x = split_lines y -> x = y.
Proof. intros H. rewrite <- (concat_split_lines x), <- (concat_split_lines y), H. reflexivity. Qed.

(* Cutting a text after a newline cuts its list of lines there (elsewhere the
   last line of the first part and the first line of the second are one line). *)

Lemma split_lines_snoc_nonempty (y : list N) : split_lines (y ++ [NL]) <> [].
Proof. intros H. apply split_lines_nil in H. destruct y; discriminate. Qed.

Lemma split_lines_app_NL (y B : list N) :
  split_lines ((y ++ [NL]) ++ B) = split_lines (y ++ [NL]) ++ split_lines B.
Proof.
  induction y as [|b y IH]; [reflexivity|].
  cbn [app split_lines]. destruct (N.eqb b NL).
  - cbn [app]. now rewrite IH.
  - rewrite IH. pose proof (split_lines_snoc_nonempty y) as Hne.
    destruct (split_lines (y ++ [NL])) as [|l ls]; [contradiction | reflexivity].
Qed.

Lemma split_lines_app_nl (A B : list N) :
  nl_terminated A -> split_lines (A ++ B) = split_lines A ++ split_lines B.
Proof. intros [->|[y ->]]; [reflexivity | apply split_lines_app_NL]. Qed.

Lemma split_lines_length (x : list N) : (length (split_lines x) <= length x)%nat.
Proof.
  induction x as [|b x IH]; cbn [split_lines length]; [lia|].
  destruct (N.eqb b NL); cbn [length]; [lia|].
  destruct (split_lines x); cbn [length] in *; lia.
Qed.

Lemma split_lines_cons_len (b : N) (y : list N) :
  (length (split_lines y) <= length (split_lines (b :: y)))%nat.
Proof.
  cbn [split_lines]. destruct (N.eqb b NL); cbn [length]; [lia|].
  destruct (split_lines y); cbn [length]; lia.
Qed.

Lemma split_lines_suffix_len (p r : list N) :
  (length (split_lines r) <= length (split_lines (p ++ r)))%nat.
Proof.
  induction p as [|b p IH]; cbn [app]; [lia|].
  pose proof (split_lines_cons_len b (p ++ r)). lia.
Qed.

Lemma split_lines_skipn (j : nat) : forall x,
  split_lines (concat (skipn j (split_lines x))) = skipn j (split_lines x).
Proof.
  induction j as [|j IH]; intros x.
  - cbn [skipn]. now rewrite concat_split_lines.
  - destruct x as [|b x]; [reflexivity|].
    rewrite (split_lines_first (b :: x)).
    destruct (first_line (b :: x)) as [[l r] f]. cbn [skipn]. apply IH.
Qed.

Lemma nlen_app {A} (a b : list A) : nlen (a ++ b) = nlen a + nlen b.
Proof. unfold nlen. rewrite app_length. lia. Qed.

Lemma nlen_cons {A} (a : A) (b : list A) : nlen (a :: b) = 1 + nlen b.
Proof. unfold nlen. cbn [length]. lia. Qed.

Lemma nl_flat (x : list N) (acc : list N) :
  scan_chunk nl_step acc x =
  let '(l, r, f) := first_line x in (acc ++ l, if f then Some r else None).
Proof.
  revert acc; induction x as [|b x IH]; intros acc; cbn [scan_chunk first_line].
  - now rewrite app_nil_r.
  - unfold nl_step at 1. destruct (N.eqb b NL); [reflexivity|].
    rewrite IH. destruct (first_line x) as [[l r] f]. now rewrite <- app_assoc.
Qed.

Lemma next_line_flat (d : dev) :
  let '(l, r, _) := first_line (concat d) in
  exists d', next_line d = (l, d') /\ concat d' = r.
Proof.
  unfold next_line. pose proof (scan_flat nl_step [] d) as H.
  rewrite nl_flat in H. pose proof (first_line_not_found (concat d)) as Hnf.
  destruct (first_line (concat d)) as [[l r] f]. cbn [app] in H.
  destruct f.
  - destruct H as [d' [-> <-]]. exists d'. split; reflexivity.
  - destruct H as [d' [-> Hc]]. exists d'. split; [reflexivity|]. now rewrite Hnf.
Qed.

Lemma next_line_lines (d : dev) :
  match split_lines (concat d) with
  | [] => exists d', next_line d = ([], d') /\ split_lines (concat d') = []
  | l :: ls => exists d', next_line d = (l, d') /\ split_lines (concat d') = ls
  end.
Proof.
  pose proof (next_line_flat d) as H. rewrite split_lines_first.
  destruct (concat d) as [|b x] eqn:E.
  - cbn in H. destruct H as [d' [H1 H2]]. exists d'. now rewrite H2.
  - destruct (first_line (b :: x)) as [[l r] f]. destruct H as [d' [H1 H2]].
    exists d'. now rewrite H2.
Qed.

(* The read built-in with delimiter newline takes whole lines: [line_read_nl]
   unfolded by the first byte (two bytes after a backslash) of the text. *)

Lemma line_read_at_nl (raw : bool) (r : list N) :
  line_read_nl raw (split_lines (NL :: r)) = ([], true, split_lines r, 1).
Proof. reflexivity. Qed.

Lemma line_read_plain (raw : bool) (b : N) (r : list N) :
  N.eqb b NL = false -> negb raw && N.eqb b BSL = false ->
  line_read_nl raw (split_lines (b :: r)) =
  let '(cs, f, ls, m) := line_read_nl raw (split_lines r) in ((b, false) :: cs, f, ls, 1 + m).
Proof.
  intros Hnl Hbs. cbn [split_lines]. rewrite Hnl.
  destruct (split_lines r) as [|l ls].
  - cbn [line_read_nl scan_line]. rewrite Hnl, Hbs. reflexivity.
  - cbn [line_read_nl]. cbn [scan_line]. rewrite Hnl, Hbs.
    destruct (scan_line raw l) as [cs e]. rewrite nlen_cons.
    destruct e; try reflexivity.
    destruct (line_read_nl raw ls) as [[[cs' f] r'] m]. cbn [app]. f_equal. lia.
Qed.

Lemma line_read_bs_end (r : list N) :
  line_read_nl false (split_lines [BSL]) = ([], false, [], 1).
Proof. reflexivity. Qed.

Lemma line_read_bs_nl (r : list N) :
  line_read_nl false (split_lines (BSL :: NL :: r)) =
  let '(cs, f, ls, m) := line_read_nl false (split_lines r) in (cs, f, ls, 2 + m).
Proof.
  change (split_lines (BSL :: NL :: r)) with ([BSL; NL] :: split_lines r).
  cbn [line_read_nl]. change (scan_line false [BSL; NL]) with (@nil (N * bool), LCont).
  destruct (line_read_nl false (split_lines r)) as [[[cs f] ls] m]. reflexivity.
Qed.

Lemma line_read_bs_char (c : N) (r : list N) :
  N.eqb c NL = false ->
  line_read_nl false (split_lines (BSL :: c :: r)) =
  let '(cs, f, ls, m) := line_read_nl false (split_lines r) in ((c, true) :: cs, f, ls, 2 + m).
Proof.
  intros Hc.
  assert (E : split_lines (BSL :: c :: r) =
              match split_lines r with
              | [] => [[BSL; c]]
              | l :: ls => (BSL :: c :: l) :: ls
              end).
  { cbn [split_lines]. change (N.eqb BSL NL) with false. cbv iota. rewrite Hc.
    destruct (split_lines r); reflexivity. }
  rewrite E. destruct (split_lines r) as [|l ls].
  - cbn [line_read_nl scan_line]. change (N.eqb BSL NL) with false. cbn [negb andb].
    change (N.eqb BSL BSL) with true. cbv iota. rewrite Hc. reflexivity.
  - cbn [line_read_nl]. cbn [scan_line]. change (N.eqb BSL NL) with false.
    change (negb false && N.eqb BSL BSL) with true. cbv iota. rewrite Hc.
    destruct (scan_line false l) as [cs e]. rewrite !nlen_cons.
    destruct e; try (f_equal; lia).
    destruct (line_read_nl false ls) as [[[cs' f] r'] m]. cbn [app]. f_equal. lia.
Qed.

(* what [read_text] observes of a final scanner state *)
Definition read_view (res : (list (N * bool) * bool * N) * option (list N))
  : list (N * bool) * bool * list line * N :=
  let '((acc, _, n), o) := res in
  match o with
  | Some rest => (acc, true, split_lines rest, n)
  | None => (acc, false, [], n)
  end.

(* by induction on a bound of the length: a backslash takes two bytes at once *)
Lemma read_flat_aux (raw : bool) (len : nat) :
  forall (x : list N) acc n, (length x <= len)%nat ->
  read_view (scan_chunk (read_step raw NL) (acc, false, n) x) =
  let '(cs, f, ls, m) := line_read_nl raw (split_lines x) in (acc ++ cs, f, ls, n + m).
Proof.
  induction len as [|len IH]; intros x acc n Hlen.
  - destruct x; [|cbn in Hlen; lia]. cbn. now rewrite app_nil_r, N.add_0_r.
  - destruct x as [|b r].
    { cbn. now rewrite app_nil_r, N.add_0_r. }
    cbn [length] in Hlen. cbn [scan_chunk]. unfold read_step at 1.
    destruct (N.eqb b NL) eqn:Hnl.
    { apply N.eqb_eq in Hnl. subst b. rewrite line_read_at_nl. cbn.
      now rewrite app_nil_r. }
    destruct (negb raw && N.eqb b BSL) eqn:Hbs.
    + (* backslash in non-raw mode *)
      apply andb_true_iff in Hbs. destruct Hbs as [Hraw Hb].
      apply negb_true_iff in Hraw. subst raw. apply N.eqb_eq in Hb. subst b.
      destruct r as [|c r2].
      * cbn. now rewrite app_nil_r.
      * cbn [scan_chunk]. unfold read_step at 1. destruct (N.eqb c NL) eqn:Hc.
        -- apply N.eqb_eq in Hc. subst c. rewrite line_read_bs_nl.
           rewrite IH by (cbn [length] in Hlen; lia).
           destruct (line_read_nl false (split_lines r2)) as [[[cs f] ls] m]. f_equal. lia.
        -- rewrite line_read_bs_char by exact Hc.
           rewrite IH by (cbn [length] in Hlen; lia).
           destruct (line_read_nl false (split_lines r2)) as [[[cs f] ls] m].
           rewrite <- app_assoc. cbn [app]. f_equal. lia.
    + rewrite line_read_plain by assumption.
      rewrite IH by lia.
      destruct (line_read_nl raw (split_lines r)) as [[[cs f] ls] m].
      rewrite <- app_assoc. cbn [app]. f_equal. lia.
Qed.

(* any delimiter: the scanner computes [flat_read] *)
Definition read_view2 (res : (list (N * bool) * bool * N) * option (list N))
  : list (N * bool) * option (list N) * N :=
  let '((acc, _, n), o) := res in (acc, o, n).

Lemma read_flat_d (raw : bool) (d : N) : forall (x : list N) acc esc n,
  read_view2 (scan_chunk (read_step raw d) (acc, esc, n) x) =
  let '(cs, f, rest, m) := flat_read raw d esc x in
  (acc ++ cs, if f then Some rest else None, n + m).
Proof.
  induction x as [|b r IH]; intros acc esc n; cbn [scan_chunk flat_read].
  - cbn. now rewrite app_nil_r, N.add_0_r.
  - unfold read_step at 1. destruct esc.
    + destruct (N.eqb b NL).
      * rewrite IH. destruct (flat_read raw d false r) as [[[cs f] rest] m]. f_equal. lia.
      * rewrite IH. destruct (flat_read raw d false r) as [[[cs f] rest] m].
        rewrite <- app_assoc. cbn [app]. f_equal. lia.
    + destruct (N.eqb b d).
      * cbn. now rewrite app_nil_r.
      * destruct (negb raw && N.eqb b BSL).
        -- rewrite IH. destruct (flat_read raw d true r) as [[[cs f] rest] m]. f_equal. lia.
        -- rewrite IH. destruct (flat_read raw d false r) as [[[cs f] rest] m].
           rewrite <- app_assoc. cbn [app]. f_equal. lia.
Qed.

Lemma flat_read_rest (raw : bool) (d : N) : forall x esc,
  let '(_, f, rest, _) := flat_read raw d esc x in
  (exists p, x = p ++ rest) /\ (f = false -> rest = []).
Proof.
  induction x as [|b r IH]; intros esc; cbn [flat_read]; [split; [exists []|]; reflexivity|].
  destruct esc.
  - specialize (IH false). destruct (flat_read raw d false r) as [[[cs f] rest] m].
    destruct IH as [[p ->] Hn]. destruct (N.eqb b NL); (split; [exists (b :: p); reflexivity | exact Hn]).
  - destruct (N.eqb b d); [split; [exists [b]; reflexivity | discriminate]|].
    destruct (negb raw && N.eqb b BSL).
    + specialize (IH true). destruct (flat_read raw d true r) as [[[cs f] rest] m].
      destruct IH as [[p ->] Hn]. split; [exists (b :: p); reflexivity | exact Hn].
    + specialize (IH false). destruct (flat_read raw d false r) as [[[cs f] rest] m].
      destruct IH as [[p ->] Hn]. split; [exists (b :: p); reflexivity | exact Hn].
Qed.

Lemma read_text_lines (raw : bool) (d : N) (dv : dev) :
  let '(cs, f, ls, m) := line_read raw d (split_lines (concat dv)) in
  exists d', read_text raw d dv = (cs, f, d', m) /\ split_lines (concat d') = ls.
Proof.
  unfold read_text, line_read.
  pose proof (scan_flat (read_step raw d) ([], false, 0) dv) as H.
  destruct (N.eqb d NL) eqn:Ed.
  - apply N.eqb_eq in Ed. subst d.
    pose proof (read_flat_aux raw (length (concat dv)) (concat dv) [] 0 (le_n _)) as Hv.
    destruct (line_read_nl raw (split_lines (concat dv))) as [[[cs f] ls] m].
    cbn [app] in Hv. rewrite N.add_0_l in Hv.
    destruct (scan_chunk (read_step raw NL) ([], false, 0) (concat dv)) as [[[acc esc] n] [rest|]];
      cbn [read_view] in Hv; inversion Hv; subst; destruct H as [d' [-> Hc]]; exists d'.
    + split; [reflexivity | now rewrite Hc].
    + split; [reflexivity | now rewrite Hc].
  - rewrite concat_split_lines.
    pose proof (read_flat_d raw d (concat dv) [] false 0) as Hv.
    pose proof (flat_read_rest raw d (concat dv) false) as Hnf.
    destruct (flat_read raw d false (concat dv)) as [[[cs f] rest] m]. destruct Hnf as [_ Hnf].
    cbn [app] in Hv. rewrite N.add_0_l in Hv.
    destruct (scan_chunk (read_step raw d) ([], false, 0) (concat dv)) as [[[acc esc] n] o].
    cbn [read_view2] in Hv. inversion Hv; subst. destruct f.
    + destruct H as [d' [-> Hc]]. exists d'. split; [reflexivity | now rewrite Hc].
    + destruct H as [d' [-> Hc]]. exists d'. split; [reflexivity|]. now rewrite Hc, Hnf.
Qed.

Lemma slurp_flat (x acc : list N) :
  scan_chunk slurp_step acc x = (acc ++ x, None).
Proof.
  revert acc; induction x as [|b x IH]; intros acc; cbn [scan_chunk].
  - now rewrite app_nil_r.
  - unfold slurp_step at 1. rewrite IH, <- app_assoc. reflexivity.
Qed.

Lemma slurp_all_flat (d : dev) :
  exists d', slurp_all d = (concat d, d', nlen (concat d)) /\ concat d' = [].
Proof.
  unfold slurp_all. pose proof (scan_flat slurp_step [] d) as H.
  rewrite slurp_flat in H. cbn [app] in H. destruct H as [d' [-> Hc]].
  exists d'. split; [reflexivity | exact Hc].
Qed.

(* The simulation relation between the byte machine and the line machine: the
   line side holds the lines of what the byte side holds, on standard input
   and on the script source; [pull_refines], [read_refines], [slurp_refines]
   are the three hypotheses of ProofsSim's Section Sim for it. *)

Definition lines_of_dev (d : dev) (ls : list line) : Prop := ls = abs_dev d.

Definition lines_of_src (s : source) (t : lsource) : Prop := t = abs_src s.

Lemma pull_refines (s : source) (s' : lsource) (d : dev) (ls : list line) :
  lines_of_src s s' -> lines_of_dev d ls ->
  let '(l1, s1, d1, n1) := byte_pull s d in
  let '(l2, s2, ls2, n2) := line_pull s' ls in
  l1 = l2 /\ n1 = n2 /\ lines_of_src s1 s2 /\ lines_of_dev d1 ls2.
Proof.
  unfold lines_of_src, lines_of_dev, abs_dev. intros -> ->.
  destruct s as [|d0|ls0|d0]; cbn [abs_src byte_pull line_pull].
  - pose proof (next_line_lines d) as H.
    destruct (split_lines (concat d)) as [|l ls]; destruct H as [d' [-> Hd]];
      repeat split; now rewrite Hd.
  - pose proof (next_line_lines d0) as H.
    destruct (split_lines (concat d0)) as [|l ls]; destruct H as [d' [-> Hd]];
      repeat split; cbn [abs_src]; now rewrite Hd.
  - destruct ls0 as [|l ls0]; repeat split.
  - pose proof (next_line_lines d0) as H.
    destruct (split_lines (concat d0)) as [|l ls]; destruct H as [d' [-> Hd]];
      repeat split; cbn [abs_src]; now rewrite Hd.
Qed.

Lemma read_refines (raw : bool) (dl : N) (d : dev) (ls : list line) :
  lines_of_dev d ls ->
  let '(c1, f1, d1, n1) := read_text raw dl d in
  let '(c2, f2, ls2, n2) := line_read raw dl ls in
  c1 = c2 /\ f1 = f2 /\ n1 = n2 /\ lines_of_dev d1 ls2.
Proof.
  unfold lines_of_dev, abs_dev. intros ->. pose proof (read_text_lines raw dl d) as H.
  destruct (line_read raw dl (split_lines (concat d))) as [[[cs f] ls] m].
  destruct H as [d' [-> Hd]]. repeat split. now rewrite Hd.
Qed.

Lemma slurp_refines (d : dev) (ls : list line) :
  lines_of_dev d ls ->
  let '(c1, d1, n1) := slurp_all d in
  let '(c2, ls2, n2) := line_slurp ls in
  c1 = c2 /\ n1 = n2 /\ lines_of_dev d1 ls2.
Proof.
  unfold lines_of_dev, abs_dev. intros ->. destruct (slurp_all_flat d) as [d' [-> Hd]].
  unfold line_slurp. rewrite concat_split_lines. repeat split. now rewrite Hd.
Qed.
