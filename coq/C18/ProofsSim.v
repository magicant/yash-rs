(* C18 — the read-eval machine whatever its input operations are: what the
   parse phase keeps, how [iter] and [loop] are [iterx] and [loopx] seen from
   outside; and two instances whose input operations are related behave
   identically (simulation), always or as long as side 1 has not touched
   what the two sides differ in. *)
From Yv Require Import Common.Base C18.Model C18.Spec.
Local Open Scope N_scope.

(* the commands all of whose simple commands satisfy [P]; simple = every
   constructor of [cmd] that [exec] does not recurse through, [CNest] included *)
Fixpoint leaves (P : cmd -> bool) (c : cmd) : bool :=
  match c with
  | CSeq a b | CAnd a b | COr a b => leaves P a && leaves P b
  | CNot a | CSub a => leaves P a
  | CIf a b c => leaves P a && leaves P b && leaves P c
  | _ => P c
  end.

Lemma leaves_true c : leaves (fun _ => true) c = true.
Proof. induction c; cbn [leaves]; rewrite ?IHc, ?IHc1, ?IHc2, ?IHc3; auto. Qed.

Definition asks_more (r : pres) : bool := match r with PNeedMore => true | _ => false end.

Lemma asks_more_true r : asks_more r = true -> r = PNeedMore.
Proof. destruct r; (reflexivity || discriminate). Qed.

Lemma asks_more_false r : asks_more r = false -> r <> PNeedMore.
Proof. intros H ->. discriminate. Qed.

Section Machine.
  Context {I SRC : Type} (ops : input_ops I SRC) (parser : list pstate -> list line -> pres).

  (* one round of the pull loop, by whether the parser asks for more *)
  Lemma pull_loop_S (fuel : nat) sts fed s i off eof :
    pull_loop ops parser (S fuel) sts fed s i off eof =
    let '(ln, s', i', n) := if eof then ([], s, i, 0) else op_pull ops s i in
    let eof' := eof || match ln with [] => true | _ => false end in
    if asks_more (parser sts (fed ++ [ln])) then
      if eof' then (PhStuck, (fed ++ [ln], s', i', off + n, eof'))
      else pull_loop ops parser fuel sts (fed ++ [ln]) s' i' (off + n) eof'
    else (PhDone (parser sts (fed ++ [ln])), (fed ++ [ln], s', i', off + n, eof')).
  Proof.
    cbn [pull_loop]. destruct (if eof then ([], s, i, 0) else op_pull ops s i) as [[[ln s'] i'] n].
    destruct (parser sts (fed ++ [ln])); reflexivity.
  Qed.

  (* the parse phase is the pull loop started from the pending text, unless
     that text suffices *)
  Lemma parse_phase_eq (pf : nat) sts pend fed s i off eof :
    parse_phase ops parser pf sts pend fed s i off eof =
    if pend && negb (asks_more (parser sts fed)) then (PhDone (parser sts fed), (fed, s, i, off, eof))
    else pull_loop ops parser pf sts (if pend then fed else []) s i off eof.
  Proof. unfold parse_phase. destruct pend; [|reflexivity]. destruct (parser sts fed); reflexivity. Qed.

  (* A property of the script source, the input, the position and "the end of
     input has been seen" that one [op_pull] keeps holds after the pull loop,
     hence after the parse phase. *)
  Section Kept.
    Variable Inv : SRC -> I -> N -> bool -> Prop.
    Hypothesis Inv_pull : forall s i off, Inv s i off false ->
      let '(l, s', i', n) := op_pull ops s i in
      Inv s' i' (off + n) (match l with [] => true | _ => false end).

    Lemma pull_loop_keeps (fuel : nat) : forall sts fed s i off eof, Inv s i off eof ->
      let '(_, (_, s', i', off', eof')) := pull_loop ops parser fuel sts fed s i off eof in
      Inv s' i' off' eof'.
    Proof.
      induction fuel as [|f IH]; intros sts fed s i off eof H; [exact H|]. rewrite pull_loop_S.
      destruct eof.
      - cbn [orb]. rewrite N.add_0_r. destruct (asks_more _); exact H.
      - pose proof (Inv_pull s i off H) as Hp. destruct (op_pull ops s i) as [[[l s'] i'] n]. cbn [orb].
        destruct (asks_more _); [|exact Hp]. destruct l; [exact Hp | apply IH; exact Hp].
    Qed.

    Lemma parse_phase_keeps (pf : nat) sts pend fed s i off eof : Inv s i off eof ->
      let '(_, (_, s', i', off', eof')) := parse_phase ops parser pf sts pend fed s i off eof in
      Inv s' i' off' eof'.
    Proof.
      intros H. rewrite parse_phase_eq. destruct (pend && _); [exact H | now apply pull_loop_keeps].
    Qed.
  End Kept.

  (* A relation between the state before a command and the state after it
     that is transitive, does not look at the shell part of the state, and
     holds of the simple commands, holds of every command. *)
  Section Exec.
    Variable P : cmd -> bool.
    Variable R : xstate (I:=I) -> xstate (I:=I) -> Prop.
    Hypothesis R_trans : forall x y z, R x y -> R y z -> R x z.
    Hypothesis R_sh : forall x y sh, R x y -> R x (mkX sh (x_in y) (x_off y) (x_evs y)).
    Hypothesis R_simple : forall c x, P c = true ->
      match c with
      | CSeq _ _ | CAnd _ _ | COr _ _ | CNot _ | CIf _ _ _ | CSub _ => True
      | _ => R x (fst (exec ops c x))
      end.

    Lemma exec_keeps (c : cmd) : forall x, leaves P c = true -> R x (fst (exec ops c x)).
    Proof.
      induction c; intros x HP; cbn [leaves] in HP;
        repeat match goal with H : _ && _ = true |- _ => apply andb_true_iff in H; destruct H end;
        try exact (R_simple _ x HP); cbn [exec].
      - pose proof (IHc1 x ltac:(assumption)) as Hx. destruct (exec ops c1 x) as [x1 e]. cbn [fst] in Hx.
        destruct e; [exact Hx|]. apply (R_trans _ _ _ Hx). now apply IHc2.
      - pose proof (IHc1 x ltac:(assumption)) as Hx. destruct (exec ops c1 x) as [x1 e]. cbn [fst] in Hx.
        destruct e; [exact Hx|]. destruct (N.eqb (x_status x1) 0); [|exact Hx].
        apply (R_trans _ _ _ Hx). now apply IHc2.
      - pose proof (IHc1 x ltac:(assumption)) as Hx. destruct (exec ops c1 x) as [x1 e]. cbn [fst] in Hx.
        destruct e; [exact Hx|]. destruct (N.eqb (x_status x1) 0); [exact Hx|].
        apply (R_trans _ _ _ Hx). now apply IHc2.
      - pose proof (IHc x HP) as Hx. destruct (exec ops c x) as [x1 e]. cbn [fst] in Hx.
        destruct e; [exact Hx|]. exact (R_sh _ _ _ Hx).
      - pose proof (IHc1 x ltac:(assumption)) as Hx. destruct (exec ops c1 x) as [x1 e]. cbn [fst] in Hx.
        destruct e; [exact Hx|]. apply (R_trans _ _ _ Hx).
        destruct (N.eqb (x_status x1) 0); [now apply IHc2 | now apply IHc3].
      - pose proof (IHc x HP) as Hx. destruct (exec ops c x) as [x1 e]. cbn [fst] in Hx.
        exact (R_sh _ _ _ Hx).
    Qed.
  End Exec.

  (* A pull loop that ends with an answer: either the parser answers on the
     line just pulled, or it asks for more, that line was not the end of
     input, and the rest of the loop gives the answer. *)
  Lemma pull_loop_answer (fuel : nat) sts fed s i off eof r st :
    pull_loop ops parser (S fuel) sts fed s i off eof = (PhDone r, st) ->
    let '(ln, s', i', n) := if eof then ([], s, i, 0) else op_pull ops s i in
    let eof' := eof || match ln with [] => true | _ => false end in
    (parser sts (fed ++ [ln]) = r /\ r <> PNeedMore /\ st = (fed ++ [ln], s', i', off + n, eof'))
    \/ (parser sts (fed ++ [ln]) = PNeedMore /\ eof' = false /\
        pull_loop ops parser fuel sts (fed ++ [ln]) s' i' (off + n) eof' = (PhDone r, st)).
  Proof.
    rewrite pull_loop_S. destruct (if eof then ([], s, i, 0) else op_pull ops s i) as [[[ln s'] i'] n].
    destruct (asks_more (parser sts (fed ++ [ln]))) eqn:E.
    - apply asks_more_true in E. destruct (eof || match ln with [] => true | _ => false end); [discriminate|].
      intros H. right. auto.
    - intros [= <- <-]. left. repeat split. exact (asks_more_false _ E).
  Qed.

  (* What the parse phase answers is an answer of the parser on some lines:
     this is how a hypothesis on the parser's answers ([parser_P] below,
     [reads_lines], [pend_depth]) reaches the command an iteration runs. *)
  Lemma pull_loop_from_parser (fuel : nat) : forall sts fed s i off eof r st,
    pull_loop ops parser fuel sts fed s i off eof = (PhDone r, st) -> exists fed', parser sts fed' = r.
  Proof.
    induction fuel as [|f IH]; intros sts fed s i off eof r st H; [discriminate|].
    apply pull_loop_answer in H.
    destruct (if eof then ([], s, i, 0) else op_pull ops s i) as [[[ln s'] i'] n].
    destruct H as [[E _]|[_ [_ H]]]; [eexists; exact E|eapply IH; exact H].
  Qed.

  Lemma parse_phase_from_parser pf sts pend fed s i off eof r st :
    parse_phase ops parser pf sts pend fed s i off eof = (PhDone r, st) -> exists fed', parser sts fed' = r.
  Proof.
    rewrite parse_phase_eq. destruct (pend && _); [|apply pull_loop_from_parser].
    intros [= <- _]. eexists. reflexivity.
  Qed.

  (* [iter] and [loop] return of the final state what [finish] keeps *)
  Lemma iter_iterx (pf : nat) (m : mstate) :
    iter ops parser pf m =
    match iterx ops parser pf m with
    | inl m' => inl m'
    | inr (t, x) => inr (finish t (x_status x) x)
    end.
  Proof.
    unfold iter, iterx.
    destruct (parse_phase ops parser pf _ (m_pend m) (m_fed m) (m_src m) (x_in (m_x m)) (x_off (m_x m)) (m_eof m))
      as [ph [[[[g s] i] o] e]].
    destruct ph as [[]| |]; try reflexivity. destruct (exec ops c _) as [x2 []]; reflexivity.
  Qed.

  (* an iteration after which the loop goes on parsed a command and ran it;
     [fd]: lines on which the parser gave that command *)
  Lemma iter_inl (pf : nat) (m m' : mstate) :
    iter ops parser pf m = inl m' ->
    let sts := (if m_pend m then m_hist m else []) ++ [s_ps (x_sh (m_x m))] in
    exists c p fed' src' i' off' eof' x2 fd,
      parse_phase ops parser pf sts (m_pend m) (m_fed m) (m_src m) (x_in (m_x m)) (x_off (m_x m)) (m_eof m)
        = (PhDone (PComplete c p), (fed', src', i', off', eof')) /\
      parser sts fd = PComplete c p /\
      exec ops c (mkX (x_sh (m_x m)) i' off' (x_evs (m_x m))) = (x2, false) /\
      m' = mkM x2 src' eof' p (if p then fed' else []) (if p then sts else []).
  Proof.
    unfold iter.
    destruct (parse_phase ops parser pf _ (m_pend m) (m_fed m) (m_src m) (x_in (m_x m)) (x_off (m_x m)) (m_eof m))
      as [ph [[[[g s] i] o] e]] eqn:Eph.
    destruct ph as [[]| |]; try discriminate.
    destruct (parse_phase_from_parser _ _ _ _ _ _ _ _ _ _ Eph) as [fd Hfd].
    destruct (exec ops c _) as [x2 []] eqn:Ex; [discriminate|]. intros [= <-].
    exists c, pend, g, s, i, o, e, x2, fd. auto.
  Qed.

  Lemma loop_loopx (fuel pf : nat) : forall m,
    loop ops parser fuel pf m = let (t, x) := loopx ops parser fuel pf m in finish t (x_status x) x.
  Proof.
    induction fuel as [|f IH]; intros m; cbn [loop loopx]; [reflexivity|].
    rewrite iter_iterx. destruct (iterx ops parser pf m) as [m'|[t x]]; [apply IH|reflexivity].
  Qed.

  (* [k] iterations, then one that ends the loop *)
  Lemma loopx_iterx_n (k : nat) : forall fuel pf m mk r,
    iterx_n ops parser k pf m = inl mk -> iterx ops parser pf mk = inr r -> (k < fuel)%nat ->
    loopx ops parser fuel pf m = r.
  Proof.
    induction k as [|k IH]; intros fuel pf m mk r; cbn [iterx_n].
    - intros E Hr Hf. inversion E; subst. destruct fuel; [lia|]. cbn [loopx]. now rewrite Hr.
    - destruct (iterx ops parser pf m) as [m1|r1] eqn:Ei; [|discriminate].
      intros E Hr Hf. destruct fuel; [lia|]. cbn [loopx]. rewrite Ei. eapply IH; try eassumption. lia.
  Qed.
End Machine.

(* what an operation leaves: the input and, for a pull, the script source *)
Definition res_in {A I : Type} (r : A * I * N) : I := snd (fst r).
Definition pull_src {L S I : Type} (r : L * S * I * N) : S := snd (fst (fst r)).

Section Sim.
  Context {I1 S1 I2 S2 : Type}
          (ops1 : input_ops I1 S1) (ops2 : input_ops I2 S2)
          (RI : I1 -> I2 -> Prop) (RS : S1 -> S2 -> Prop)
          (parser : list pstate -> list line -> pres).

  (* the simple commands the parser can yield: [nest_sim], [read_rel] and
     [nest_rel] are asked for these only *)
  Variable P : cmd -> bool.
  Hypothesis parser_P : forall sts fed c p, parser sts fed = PComplete c p -> leaves P c = true.

  Hypothesis pull_sim : forall s1 s2 i1 i2, RS s1 s2 -> RI i1 i2 ->
    let '(l1, t1, j1, n1) := op_pull ops1 s1 i1 in
    let '(l2, t2, j2, n2) := op_pull ops2 s2 i2 in
    l1 = l2 /\ n1 = n2 /\ RS t1 t2 /\ RI j1 j2.
  Hypothesis read_sim : forall raw d i1 i2, RI i1 i2 ->
    let '(c1, f1, j1, n1) := op_read ops1 raw d i1 in
    let '(c2, f2, j2, n2) := op_read ops2 raw d i2 in
    c1 = c2 /\ f1 = f2 /\ n1 = n2 /\ RI j1 j2.
  Hypothesis slurp_sim : forall i1 i2, RI i1 i2 ->
    let '(c1, j1, n1) := op_slurp ops1 i1 in
    let '(c2, j2, n2) := op_slurp ops2 i2 in
    c1 = c2 /\ n1 = n2 /\ RI j1 j2.

  Definition RX (x1 : xstate (I:=I1)) (x2 : xstate (I:=I2)) : Prop :=
    x_sh x1 = x_sh x2 /\ x_off x1 = x_off x2 /\ x_evs x1 = x_evs x2 /\ RI (x_in x1) (x_in x2).

  (* nested loops of the two instances are related (closed by induction on
     the nesting level in Proofs.v) *)
  Hypothesis nest_sim : forall s x1 x2, P (CNest s) = true -> RX x1 x2 ->
    RX (fst (op_nest ops1 s x1)) (fst (op_nest ops2 s x2)) /\
    snd (op_nest ops1 s x1) = snd (op_nest ops2 s x2).

  Lemma RX_intro sh off evs i1 i2 : RI i1 i2 -> RX (mkX sh i1 off evs) (mkX sh i2 off evs).
  Proof. intros H. repeat split; assumption. Qed.

  Lemma RX_status x1 x2 : RX x1 x2 -> x_status x1 = x_status x2.
  Proof. intros [H _]. unfold x_status. now rewrite H. Qed.

  Lemma RX_with_status n x1 x2 : RX x1 x2 -> RX (with_status n x1) (with_status n x2).
  Proof.
    intros [H1 [H2 [H3 H4]]]. unfold with_status. repeat split; cbn; try assumption.
    now rewrite H1.
  Qed.

  Lemma RX_emit k a o x1 x2 : RX x1 x2 -> RX (emit k a o x1) (emit k a o x2).
  Proof.
    intros H. pose proof (RX_status _ _ H) as Hs. destruct H as [H1 [H2 [H3 H4]]].
    unfold emit. repeat split; cbn; try assumption. now rewrite H3, Hs.
  Qed.

  (* the commands that leave the input alone do the same to related states *)
  Lemma exec_pure_sim (c : cmd) x1 x2 :
    match c with
    | CNop | CStatus _ | CProbe _ | CShow _ | CHere _ | CAlias _ _ | CUnalias _ | CPortable _ | CExit _ => True
    | _ => False
    end ->
    RX x1 x2 ->
    RX (fst (exec ops1 c x1)) (fst (exec ops2 c x2)) /\ snd (exec ops1 c x1) = snd (exec ops2 c x2).
  Proof.
    intros Hc HR. pose proof HR as [H1 [H2 [H3 H4]]].
    destruct c; try contradiction; cbn [exec fst snd]; (split; [|try destruct n; reflexivity]).
    - assumption.
    - now apply RX_with_status.
    - apply RX_with_status. rewrite H2. now apply RX_emit.
    - apply RX_with_status. rewrite H1, H2. now apply RX_emit.
    - apply RX_with_status. now apply RX_emit.
    - rewrite H1, H2, H3. repeat split; assumption.
    - rewrite H1, H2, H3. repeat split; assumption.
    - rewrite H1, H2, H3. repeat split; assumption.
    - destruct n; cbn [fst]; [now apply RX_with_status | assumption].
  Qed.

  Definition RM (m1 : mstate (I:=I1) (SRC:=S1)) (m2 : mstate (I:=I2) (SRC:=S2)) : Prop :=
    RX (m_x m1) (m_x m2) /\ RS (m_src m1) (m_src m2) /\ m_eof m1 = m_eof m2 /\
    m_pend m1 = m_pend m2 /\ m_fed m1 = m_fed m2 /\ m_hist m1 = m_hist m2.

  (* The two sides agree as long as [intact] holds of side 1's script source
     and input at the end.  [intact] says that side 1 has not yet taken what
     the two sides differ in; neither pulling nor executing can get it back
     ([intact_pull_back], [intact_exec_back]: [intact] after implies [intact]
     before), so it held all the way and both sides saw the same.  The [_rel]
     hypotheses are the [_sim] ones weakened by "if [intact] holds of what
     side 1 is left with". *)
  Section Rel.
    Variable intact : S1 -> I1 -> Prop.
    Hypothesis intact_pull_back : forall s i, intact (pull_src (op_pull ops1 s i)) (res_in (op_pull ops1 s i)) -> intact s i.
    Hypothesis intact_exec_back : forall s c x, leaves P c = true -> intact s (x_in (fst (exec ops1 c x))) -> intact s (x_in x).
    Hypothesis pull_rel : forall s1 s2 i1 i2, RS s1 s2 -> RI i1 i2 ->
      intact (pull_src (op_pull ops1 s1 i1)) (res_in (op_pull ops1 s1 i1)) ->
      let '(l1, t1, j1, n1) := op_pull ops1 s1 i1 in
      let '(l2, t2, j2, n2) := op_pull ops2 s2 i2 in
      l1 = l2 /\ n1 = n2 /\ RS t1 t2 /\ RI j1 j2.
    Hypothesis read_rel : forall s raw d v i1 i2, P (CRead raw d v) = true -> RI i1 i2 ->
      intact s (res_in (op_read ops1 raw d i1)) ->
      let '(c1, f1, j1, n1) := op_read ops1 raw d i1 in
      let '(c2, f2, j2, n2) := op_read ops2 raw d i2 in
      c1 = c2 /\ f1 = f2 /\ n1 = n2 /\ RI j1 j2.
    Hypothesis slurp_rel : forall s i1 i2, RI i1 i2 ->
      intact s (res_in (op_slurp ops1 i1)) ->
      let '(c1, j1, n1) := op_slurp ops1 i1 in
      let '(c2, j2, n2) := op_slurp ops2 i2 in
      c1 = c2 /\ n1 = n2 /\ RI j1 j2.
    Hypothesis nest_rel : forall s0 s x1 x2, P (CNest s) = true -> RX x1 x2 ->
      intact s0 (x_in (fst (op_nest ops1 s x1))) ->
      RX (fst (op_nest ops1 s x1)) (fst (op_nest ops2 s x2)) /\
      snd (op_nest ops1 s x1) = snd (op_nest ops2 s x2).

    Lemma exec_rel (t : S1) (c : cmd) : forall x1 x2, leaves P c = true -> RX x1 x2 ->
      intact t (x_in (fst (exec ops1 c x1))) ->
      RX (fst (exec ops1 c x1)) (fst (exec ops2 c x2)) /\ snd (exec ops1 c x1) = snd (exec ops2 c x2).
    Proof.
      induction c; intros x1 x2 HP HR;
        try (intros _; match goal with |- context [exec ops1 ?c x1] => exact (exec_pure_sim c x1 x2 I HR) end);
        cbn [exec]; cbn [leaves] in HP;
        repeat match goal with H : _ && _ = true |- _ => apply andb_true_iff in H; destruct H end.
      - destruct HR as [H1 [H2 [H3 H4]]].
        pose proof (read_rel t raw d v _ _ HP H4) as Hr.
        destruct (op_read ops1 raw d (x_in x1)) as [[[c1 f1] j1] n1].
        destruct (op_read ops2 raw d (x_in x2)) as [[[c2 f2] j2] n2].
        intros Hk. assert (Hk1 : intact t j1) by (destruct (existsb _ c1); exact Hk).
        destruct (Hr Hk1) as [-> [-> [-> Hj]]]. rewrite H1, H2, H3.
        destruct (existsb (fun c => N.eqb (fst c) 0) c2);
          (split; [|reflexivity]); repeat split; assumption.
      - pose proof HR as [H1 [H2 [H3 H4]]].
        pose proof (slurp_rel t _ _ H4) as Hr.
        destruct (op_slurp ops1 (x_in x1)) as [[c1 j1] n1].
        destruct (op_slurp ops2 (x_in x2)) as [[c2 j2] n2].
        intros Hk. destruct (Hr Hk) as [-> [-> Hj]].
        split; [|reflexivity]. apply RX_with_status. rewrite H2.
        pose proof (RX_emit 2 [c2] (x_off x2) _ _ HR) as [E1 [E2 [E3 E4]]].
        repeat split; cbn; assumption.
      - (* if [intact] holds after the whole it held after the first part, so that agreed *)
        specialize (IHc1 _ _ ltac:(assumption) HR).
        pose proof (intact_exec_back t c2 (fst (exec ops1 c1 x1)) ltac:(assumption)) as Hb.
        destruct (exec ops1 c1 x1) as [y1 e1]. destruct (exec ops2 c1 x2) as [y2 e2].
        cbn [fst snd] in *. destruct e1; intros Hk.
        + destruct (IHc1 Hk) as [Hy <-]. split; [assumption|reflexivity].
        + destruct (IHc1 (Hb Hk)) as [Hy <-]. now apply IHc2.
      - specialize (IHc1 _ _ ltac:(assumption) HR).
        pose proof (intact_exec_back t c2 (fst (exec ops1 c1 x1)) ltac:(assumption)) as Hb.
        destruct (exec ops1 c1 x1) as [y1 e1]. destruct (exec ops2 c1 x2) as [y2 e2].
        cbn [fst snd] in *. destruct e1; [|destruct (N.eqb (x_status y1) 0) eqn:Est]; intros Hk.
        + destruct (IHc1 Hk) as [Hy <-]. split; [assumption|reflexivity].
        + destruct (IHc1 (Hb Hk)) as [Hy <-]. rewrite <- (RX_status _ _ Hy), Est. now apply IHc2.
        + destruct (IHc1 Hk) as [Hy <-]. rewrite <- (RX_status _ _ Hy), Est. split; [assumption|reflexivity].
      - specialize (IHc1 _ _ ltac:(assumption) HR).
        pose proof (intact_exec_back t c2 (fst (exec ops1 c1 x1)) ltac:(assumption)) as Hb.
        destruct (exec ops1 c1 x1) as [y1 e1]. destruct (exec ops2 c1 x2) as [y2 e2].
        cbn [fst snd] in *. destruct e1; [|destruct (N.eqb (x_status y1) 0) eqn:Est]; intros Hk.
        + destruct (IHc1 Hk) as [Hy <-]. split; [assumption|reflexivity].
        + destruct (IHc1 Hk) as [Hy <-]. rewrite <- (RX_status _ _ Hy), Est. split; [assumption|reflexivity].
        + destruct (IHc1 (Hb Hk)) as [Hy <-]. rewrite <- (RX_status _ _ Hy), Est. now apply IHc2.
      - specialize (IHc _ _ HP HR).
        destruct (exec ops1 c x1) as [y1 e1]. destruct (exec ops2 c x2) as [y2 e2].
        cbn [fst snd] in *. destruct e1; intros Hk; destruct (IHc Hk) as [Hy <-].
        + split; [assumption|reflexivity].
        + rewrite (RX_status _ _ Hy). split; [now apply RX_with_status | reflexivity].
      - specialize (IHc1 _ _ ltac:(assumption) HR).
        pose proof (intact_exec_back t c2 (fst (exec ops1 c1 x1)) ltac:(assumption)) as Hb2.
        pose proof (intact_exec_back t c3 (fst (exec ops1 c1 x1)) ltac:(assumption)) as Hb3.
        destruct (exec ops1 c1 x1) as [y1 e1]. destruct (exec ops2 c1 x2) as [y2 e2].
        cbn [fst snd] in *. destruct e1; [|destruct (N.eqb (x_status y1) 0) eqn:Est]; intros Hk.
        + destruct (IHc1 Hk) as [Hy <-]. split; [assumption|reflexivity].
        + destruct (IHc1 (Hb2 Hk)) as [Hy <-]. rewrite <- (RX_status _ _ Hy), Est. now apply IHc2.
        + destruct (IHc1 (Hb3 Hk)) as [Hy <-]. rewrite <- (RX_status _ _ Hy), Est. now apply IHc3.
      - specialize (IHc _ _ HP HR).
        destruct (exec ops1 c x1) as [y1 e1]. destruct (exec ops2 c x2) as [y2 e2].
        cbn [fst snd] in *. intros Hk. destruct (IHc Hk) as [Hy _].
        pose proof (RX_status _ _ Hy) as Hs.
        destruct HR as [H1 _]. destruct Hy as [_ [G2 [G3 G4]]].
        rewrite H1, Hs. split; [|reflexivity]. repeat split; cbn; assumption.
      - exact (nest_rel t s _ _ HP HR).
    Qed.

    Lemma pull_back (s : S1) (i : I1) s0 i0 (off : N) : (intact s0 i0 -> intact s i) ->
      let '(l, t, j, n) := op_pull ops1 s0 i0 in
      intact t j -> intact s i.
    Proof.
      intros H. pose proof (intact_pull_back s0 i0) as Hb.
      destruct (op_pull ops1 s0 i0) as [[[l t] j] n]. intros Hk. exact (H (Hb Hk)).
    Qed.

    Lemma pull_loop_back (fuel : nat) sts fed s i off eof :
      let '(_, (_, t, j, _, _)) := pull_loop ops1 parser fuel sts fed s i off eof in intact t j -> intact s i.
    Proof. apply (pull_loop_keeps ops1 parser (fun t j _ _ => intact t j -> intact s i) (pull_back s i)). auto. Qed.

    Lemma parse_phase_back (pf : nat) sts pend fed s i off eof :
      let '(_, (_, t, j, _, _)) := parse_phase ops1 parser pf sts pend fed s i off eof in intact t j -> intact s i.
    Proof. apply (parse_phase_keeps ops1 parser (fun t j _ _ => intact t j -> intact s i) (pull_back s i)). auto. Qed.

    Lemma pull_loop_rel (fuel : nat) : forall sts fed s1 s2 i1 i2 off eof ph g t1 j1 o e,
      RS s1 s2 -> RI i1 i2 ->
      pull_loop ops1 parser fuel sts fed s1 i1 off eof = (ph, (g, t1, j1, o, e)) -> intact t1 j1 ->
      exists t2 j2, pull_loop ops2 parser fuel sts fed s2 i2 off eof = (ph, (g, t2, j2, o, e))
                    /\ RS t1 t2 /\ RI j1 j2.
    Proof.
      induction fuel as [|f IH]; intros sts fed s1 s2 i1 i2 off eof ph g t1 j1 o e HS HI.
      - intros [= <- <- <- <- <- <-] _. exists s2, i2. auto.
      - rewrite !pull_loop_S. destruct eof.
        + cbn [orb]. destruct (asks_more _); intros [= <- <- <- <- <- <-] _; exists s2, i2; auto.
        + pose proof (pull_rel _ _ _ _ HS HI) as Hp.
          pose proof (pull_loop_back f sts) as Hback.
          destruct (op_pull ops1 s1 i1) as [[[l1 u1] k1] n1].
          destruct (op_pull ops2 s2 i2) as [[[l2 u2] k2] n2]. cbn [orb].
          (* if [intact] holds at the end it held after this pull, so both sides pulled the same line *)
          destruct (asks_more (parser sts (fed ++ @cons (list N) l1 []))) eqn:Ep;
            [|intros [= <- <- <- <- <- <-] Hk; destruct (Hp Hk) as [<- [<- [HS' HI']]]; rewrite Ep; exists u2, k2; auto].
          destruct l1 as [|b l1].
          * intros [= <- <- <- <- <- <-] Hk. destruct (Hp Hk) as [<- [<- [HS' HI']]]. rewrite Ep. exists u2, k2. auto.
          * intros E Hk. specialize (Hback (fed ++ [b :: l1]) u1 k1 (off + n1) false). rewrite E in Hback.
            destruct (Hp (Hback Hk)) as [<- [<- [HS' HI']]]. rewrite Ep.
            exact (IH _ _ _ _ _ _ _ _ _ _ _ _ _ _ HS' HI' E Hk).
    Qed.

    Lemma parse_phase_rel (pf : nat) sts pend fed s1 s2 i1 i2 off eof ph g t1 j1 o e :
      RS s1 s2 -> RI i1 i2 ->
      parse_phase ops1 parser pf sts pend fed s1 i1 off eof = (ph, (g, t1, j1, o, e)) -> intact t1 j1 ->
      exists t2 j2, parse_phase ops2 parser pf sts pend fed s2 i2 off eof = (ph, (g, t2, j2, o, e))
                    /\ RS t1 t2 /\ RI j1 j2.
    Proof.
      intros HS HI. rewrite !parse_phase_eq.
      destruct (pend && _); [intros [= <- <- <- <- <- <-] _; eauto | now apply pull_loop_rel].
    Qed.

    Lemma iter_rel (pf : nat) m1 m2 n1 :
      RM m1 m2 -> iter ops1 parser pf m1 = inl n1 -> intact (m_src n1) (x_in (m_x n1)) ->
      exists n2, iter ops2 parser pf m2 = inl n2 /\ RM n1 n2.
    Proof.
      intros [HX [HS [He [Hpe [Hfe Hhi]]]]] Hn Hk. pose proof HX as [H1 [H2 [H3 H4]]].
      destruct (iter_inl _ _ _ _ _ Hn) as (c & p & g & s & r & o & e & y & fd & Eph & Hfd & Ex & ->).
      cbn [m_x m_src] in Hk. pose proof (parser_P _ _ _ _ Hfd) as HP.
      (* [intact] held after the command, so it held after the parse phase *)
      pose proof (intact_exec_back s c (mkX (x_sh (m_x m1)) r o (x_evs (m_x m1))) HP) as Hkr.
      rewrite Ex in Hkr. specialize (Hkr Hk). cbn [x_in] in Hkr.
      destruct (parse_phase_rel _ _ _ _ _ _ _ _ _ _ _ _ _ _ _ _ HS H4 Eph Hkr)
        as (t2 & r' & E2 & HS' & HI').
      pose proof (exec_rel s c _ _ HP
                    (RX_intro (x_sh (m_x m1)) o (x_evs (m_x m1)) r r' HI')) as Hc.
      rewrite Ex in Hc. cbn [fst snd] in Hc. destruct (Hc Hk) as [Hy Hex].
      unfold iter. rewrite <- H1, <- H2, <- H3, <- He, <- Hpe, <- Hfe, <- Hhi, E2.
      destruct (exec ops2 c (mkX (x_sh (m_x m1)) r' o (x_evs (m_x m1)))) as [y' ex'].
      cbn [fst snd] in *. subst ex'. eexists. split; [reflexivity|].
      repeat split; try apply Hy; (reflexivity || assumption).
    Qed.

    Lemma iter_back (pf : nat) m n :
      iter ops1 parser pf m = inl n -> intact (m_src n) (x_in (m_x n)) -> intact (m_src m) (x_in (m_x m)).
    Proof.
      intros H Hk. destruct (iter_inl _ _ _ _ _ H) as (c & p & g & s & r & o & e & y & fd & Eph & Hfd & Ex & ->).
      cbn [m_x m_src] in Hk.
      pose proof (intact_exec_back s c (mkX (x_sh (m_x m)) r o (x_evs (m_x m))) (parser_P _ _ _ _ Hfd)) as Hb.
      rewrite Ex in Hb.
      pose proof (parse_phase_back pf ((if m_pend m then m_hist m else []) ++ [s_ps (x_sh (m_x m))])
                    (m_pend m) (m_fed m) (m_src m) (x_in (m_x m)) (x_off (m_x m)) (m_eof m)) as Hp.
      rewrite Eph in Hp. exact (Hp (Hb Hk)).
    Qed.

    Lemma iter_n_back (k pf : nat) : forall m n,
      iter_n ops1 parser k pf m = inl n -> intact (m_src n) (x_in (m_x n)) -> intact (m_src m) (x_in (m_x m)).
    Proof.
      induction k as [|k IH]; intros m n H Hk; cbn [iter_n] in H.
      - inversion H; subst. exact Hk.
      - destruct (iter ops1 parser pf m) as [m1|r] eqn:E; [|discriminate].
        exact (iter_back pf m m1 E (IH m1 n H Hk)).
    Qed.

    Lemma iter_n_rel (k pf : nat) : forall m1 m2 n1,
      RM m1 m2 -> iter_n ops1 parser k pf m1 = inl n1 -> intact (m_src n1) (x_in (m_x n1)) ->
      exists n2, iter_n ops2 parser k pf m2 = inl n2 /\ RM n1 n2.
    Proof.
      induction k as [|k IH]; intros m1 m2 n1 HR H Hk; cbn [iter_n] in *.
      - inversion H; subst. exists m2. split; [reflexivity | exact HR].
      - destruct (iter ops1 parser pf m1) as [p1|r] eqn:E; [|discriminate].
        destruct (iter_rel pf m1 m2 p1 HR E (iter_n_back k pf p1 n1 H Hk)) as [p2 [E' HR1]]. rewrite E'.
        eapply IH; eassumption.
    Qed.
  End Rel.

  (* with nothing to lose the parse phases agree always *)
  Lemma parse_phase_sim (pf : nat) sts pend fed s1 s2 i1 i2 off eof :
    RS s1 s2 -> RI i1 i2 ->
    let '(ph1, (g1, t1, j1, o1, e1)) := parse_phase ops1 parser pf sts pend fed s1 i1 off eof in
    let '(ph2, (g2, t2, j2, o2, e2)) := parse_phase ops2 parser pf sts pend fed s2 i2 off eof in
    ph1 = ph2 /\ g1 = g2 /\ o1 = o2 /\ e1 = e2 /\ RS t1 t2 /\ RI j1 j2.
  Proof.
    intros HS HI.
    destruct (parse_phase ops1 parser pf sts pend fed s1 i1 off eof) as [ph1 [[[[g1 t1] j1] o1] e1]] eqn:E1.
    destruct (parse_phase_rel (fun _ _ => True) (fun _ _ _ => I)
                (fun u1 u2 k1 k2 H1 H2 _ => pull_sim u1 u2 k1 k2 H1 H2) pf sts pend fed s1 s2 i1 i2 off eof
                _ _ _ _ _ _ HS HI E1 I) as (t2 & j2 & -> & HS' & HI').
    repeat split; assumption.
  Qed.

  Definition Rres (r1 : mstate (I:=I1) (SRC:=S1) + final)
                  (r2 : mstate (I:=I2) (SRC:=S2) + final) : Prop :=
    match r1, r2 with
    | inl m1, inl m2 => RM m1 m2
    | inr f1, inr f2 => f1 = f2
    | _, _ => False
    end.

  Lemma finish_sim t n x1 x2 : RX x1 x2 -> finish t n x1 = finish t n x2.
  Proof. intros [_ [H2 [H3 _]]]. unfold finish. now rewrite H2, H3. Qed.

  Definition Rresx (r1 : mstate (I:=I1) (SRC:=S1) + (ftag * xstate (I:=I1)))
                   (r2 : mstate (I:=I2) (SRC:=S2) + (ftag * xstate (I:=I2))) : Prop :=
    match r1, r2 with
    | inl m1, inl m2 => RM m1 m2
    | inr (t1, x1), inr (t2, x2) => t1 = t2 /\ RX x1 x2
    | _, _ => False
    end.

  Lemma iterx_sim (pf : nat) (m1 : mstate) (m2 : mstate) :
    RM m1 m2 -> Rresx (iterx ops1 parser pf m1) (iterx ops2 parser pf m2).
  Proof.
    intros [HX [HS [He [Hpe [Hfe Hhi]]]]]. unfold iterx. pose proof HX as [H1 [H2 [H3 H4]]].
    rewrite H1, H2, H3, He, Hpe, Hfe, Hhi.
    set (sts := (if m_pend m2 then m_hist m2 else []) ++ [s_ps (x_sh (m_x m2))]).
    pose proof (parse_phase_sim pf sts (m_pend m2) (m_fed m2) _ _ _ _ (x_off (m_x m2)) (m_eof m2) HS H4) as Hp.
    destruct (parse_phase ops1 parser pf sts (m_pend m2) (m_fed m2) (m_src m1) (x_in (m_x m1))
                (x_off (m_x m2)) (m_eof m2)) as [ph1 [[[[g1 t1] j1] o1] e1]].
    destruct (parse_phase ops2 parser pf sts (m_pend m2) (m_fed m2) (m_src m2) (x_in (m_x m2))
                (x_off (m_x m2)) (m_eof m2)) as [ph2 [[[[g2 t2] j2] o2] e2]] eqn:E2.
    destruct Hp as [-> [-> [-> [-> [HS' HI']]]]].
    assert (HX' : RX (mkX (x_sh (m_x m2)) j1 o2 (x_evs (m_x m2)))
                     (mkX (x_sh (m_x m2)) j2 o2 (x_evs (m_x m2)))) by now apply RX_intro.
    destruct ph2 as [r| |]; try (cbn; split; [reflexivity | now apply RX_with_status]).
    destruct r; try (cbn; split; [reflexivity | (now apply RX_with_status) || assumption]).
    destruct (parse_phase_from_parser _ _ _ _ _ _ _ _ _ _ _ _ E2) as [fd Hfd].
    (* with nothing to lose two executions agree always *)
    pose proof (exec_rel (fun _ _ => True) (fun _ _ _ _ _ => I) (fun _ raw d _ i1 i2 _ H _ => read_sim raw d i1 i2 H)
                  (fun _ i1 i2 H _ => slurp_sim i1 i2 H) (fun _ s y1 y2 Hs H _ => nest_sim s y1 y2 Hs H)
                  t1 c _ _ (parser_P _ _ _ _ Hfd) HX' I) as Hc.
    destruct (exec ops1 c _) as [y1 x1e]. destruct (exec ops2 c _) as [y2 x2e].
    cbn [fst snd] in Hc. destruct Hc as [Hy ->]. destruct x2e; cbn.
    - split; [reflexivity | assumption].
    - repeat split; try assumption; apply Hy.
  Qed.

  Lemma loopx_sim (fuel pf : nat) : forall m1 m2, RM m1 m2 ->
    fst (loopx ops1 parser fuel pf m1) = fst (loopx ops2 parser fuel pf m2) /\
    RX (snd (loopx ops1 parser fuel pf m1)) (snd (loopx ops2 parser fuel pf m2)).
  Proof.
    induction fuel as [|f IH]; intros m1 m2 HR; cbn [loopx].
    - cbn [fst snd]. split; [reflexivity | apply RX_with_status; apply HR].
    - pose proof (iterx_sim pf _ _ HR) as Hi.
      destruct (iterx ops1 parser pf m1) as [n1|[t1 y1]], (iterx ops2 parser pf m2) as [n2|[t2 y2]];
        cbn in Hi; try contradiction; [now apply IH | exact Hi].
  Qed.

  Lemma iter_sim (pf : nat) (m1 : mstate) (m2 : mstate) :
    RM m1 m2 -> Rres (iter ops1 parser pf m1) (iter ops2 parser pf m2).
  Proof.
    intros H. rewrite !iter_iterx. pose proof (iterx_sim pf _ _ H) as Hx.
    destruct (iterx ops1 parser pf m1) as [n1|[t1 y1]], (iterx ops2 parser pf m2) as [n2|[t2 y2]];
      cbn in *; try contradiction; [exact Hx|].
    destruct Hx as [-> Hx]. rewrite (RX_status _ _ Hx). now apply finish_sim.
  Qed.

  Lemma loop_sim (fuel pf : nat) m1 m2 : RM m1 m2 ->
    loop ops1 parser fuel pf m1 = loop ops2 parser fuel pf m2.
  Proof.
    intros H. rewrite !loop_loopx. destruct (loopx_sim fuel pf _ _ H) as [Ht Hx].
    destruct (loopx ops1 parser fuel pf m1) as [t1 y1], (loopx ops2 parser fuel pf m2) as [t2 y2].
    cbn [fst snd] in *. subst t2. rewrite (RX_status _ _ Hx). now apply finish_sim.
  Qed.

  Lemma nest_result_sim t x1 x2 : RX x1 x2 ->
    RX (fst (nest_result (t, x1))) (fst (nest_result (t, x2))) /\
    snd (nest_result (t, x1)) = snd (nest_result (t, x2)).
  Proof.
    intros H. pose proof (RX_status _ _ H) as Hs.
    destruct t; cbn [nest_result fst snd]; (split; [|reflexivity]);
      try assumption; try (rewrite Hs); now apply RX_with_status.
  Qed.

  (* the nested loops one level up are related again *)
  Lemma nest_with_sim (mk1 : nsrc -> S1) (mk2 : nsrc -> S2) fuel pf :
    (forall s, RS (mk1 s) (mk2 s)) ->
    forall s x1 x2, RX x1 x2 ->
    RX (fst (nest_with ops1 parser mk1 fuel pf s x1)) (fst (nest_with ops2 parser mk2 fuel pf s x2)) /\
    snd (nest_with ops1 parser mk1 fuel pf s x1) = snd (nest_with ops2 parser mk2 fuel pf s x2).
  Proof.
    intros Hmk s x1 x2 HR. unfold nest_with. destruct (nsrc_empty s).
    - cbn [fst snd]. split; [now apply RX_with_status | reflexivity].
    - assert (HM : RM (mkM x1 (mk1 s) false false [] []) (mkM x2 (mk2 s) false false [] [])).
      { repeat split; try apply HR. apply Hmk. }
      destruct (loopx_sim fuel pf _ _ HM) as [Ht Hx].
      destruct (loopx ops1 parser fuel pf _) as [t1 y1].
      destruct (loopx ops2 parser fuel pf _) as [t2 y2].
      cbn [fst snd] in Ht, Hx. subst t2. now apply nest_result_sim.
  Qed.

  Lemma iter_n_sim (n pf : nat) : forall m1 m2, RM m1 m2 ->
    Rres (iter_n ops1 parser n pf m1) (iter_n ops2 parser n pf m2).
  Proof.
    induction n as [|k IH]; intros m1 m2 HR; cbn [iter_n].
    - exact HR.
    - pose proof (iter_sim pf _ _ HR) as Hi.
      destruct (iter ops1 parser pf m1) as [n1|f1], (iter ops2 parser pf m2) as [n2|f2];
        cbn in Hi; try contradiction; [now apply IH | exact Hi].
  Qed.

  Lemma init_sim s1 s2 i1 i2 : RS s1 s2 -> RI i1 i2 -> RM (init s1 i1) (init s2 i2).
  Proof. intros HS HI. unfold init. repeat split; assumption. Qed.

  Lemma run_sim fuel pf s1 s2 i1 i2 : RS s1 s2 -> RI i1 i2 ->
    run ops1 parser fuel pf s1 i1 = run ops2 parser fuel pf s2 i2.
  Proof. intros HS HI. unfold run. apply loop_sim. now apply init_sim. Qed.
End Sim.
