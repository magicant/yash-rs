(* C18 — the byte-level model refines the line-level reference semantics, at
   every nesting level: ProofsSim's simulation instantiated with ProofsBytes'
   relation, its hypothesis on nested loops being the induction hypothesis on
   the level.  Then what single commands and single iterations do at byte
   level, and reflexivity of the oracle's comparisons. *)
From Yv Require Import Common.Base C18.Model C18.Spec C18.Run.
From Yv Require Import C18.ProofsBytes C18.ProofsSim.
Local Open Scope N_scope.

(* [byte_ops_at] and [line_ops_at] are fixpoints on the level: their fields
   reduce only once the level is a constructor, hence [destruct lvl]. *)

Lemma at_pull_sim parser fuel pf lvl : forall s1 s2 i1 i2, lines_of_src s1 s2 -> lines_of_dev i1 i2 ->
  let '(l1, t1, j1, n1) := op_pull (byte_ops_at parser fuel pf lvl) s1 i1 in
  let '(l2, t2, j2, n2) := op_pull (line_ops_at parser fuel pf lvl) s2 i2 in
  l1 = l2 /\ n1 = n2 /\ lines_of_src t1 t2 /\ lines_of_dev j1 j2.
Proof. destruct lvl; exact pull_refines. Qed.

Lemma at_read_sim parser fuel pf lvl : forall raw d i1 i2, lines_of_dev i1 i2 ->
  let '(c1, f1, j1, n1) := op_read (byte_ops_at parser fuel pf lvl) raw d i1 in
  let '(c2, f2, j2, n2) := op_read (line_ops_at parser fuel pf lvl) raw d i2 in
  c1 = c2 /\ f1 = f2 /\ n1 = n2 /\ lines_of_dev j1 j2.
Proof. destruct lvl; exact read_refines. Qed.

Lemma at_slurp_sim parser fuel pf lvl : forall i1 i2, lines_of_dev i1 i2 ->
  let '(c1, j1, n1) := op_slurp (byte_ops_at parser fuel pf lvl) i1 in
  let '(c2, j2, n2) := op_slurp (line_ops_at parser fuel pf lvl) i2 in
  c1 = c2 /\ n1 = n2 /\ lines_of_dev j1 j2.
Proof. destruct lvl; exact slurp_refines. Qed.

Lemma src_sim (s : nsrc) : lines_of_src (byte_src s) (line_src s).
Proof.
  destruct s as [ls|b]; unfold lines_of_src; cbn [byte_src line_src abs_src concat]; [reflexivity|].
  now rewrite app_nil_r.
Qed.

Lemma at_nest_sim parser fuel pf lvl : forall s x1 x2, RX lines_of_dev x1 x2 ->
  RX lines_of_dev (fst (op_nest (byte_ops_at parser fuel pf lvl) s x1))
        (fst (op_nest (line_ops_at parser fuel pf lvl) s x2)) /\
  snd (op_nest (byte_ops_at parser fuel pf lvl) s x1)
  = snd (op_nest (line_ops_at parser fuel pf lvl) s x2).
Proof.
  induction lvl as [|k IH].
  - (* level 0: nested loops are not entered on either side *)
    intros s x1 x2 H. cbn [op_nest byte_ops_at line_ops_at]. unfold nest_stub. cbn [fst snd].
    split; [now apply RX_with_status | reflexivity].
  - intros s x1 x2 H. cbn [byte_ops_at line_ops_at op_nest].
    apply (nest_with_sim (byte_ops_at parser fuel pf k) (line_ops_at parser fuel pf k) lines_of_dev lines_of_src parser
             (fun _ => true) (fun _ _ c _ _ => leaves_true c)
             (at_pull_sim parser fuel pf k) (at_read_sim parser fuel pf k)
             (at_slurp_sim parser fuel pf k) (fun s y1 y2 _ => IH s y1 y2) byte_src line_src fuel pf src_sim); exact H.
Qed.

Lemma nested_refines_spec_lemma parser lvl fuel pf src d :
  nmodel_run parser lvl fuel pf src d = nspec_run parser lvl fuel pf (abs_src src) (abs_dev d).
Proof.
  unfold nmodel_run, nspec_run.
  apply (run_sim (byte_ops_at parser fuel pf lvl) (line_ops_at parser fuel pf lvl) lines_of_dev lines_of_src parser
           (fun _ => true) (fun _ _ c _ _ => leaves_true c)
           (at_pull_sim parser fuel pf lvl) (at_read_sim parser fuel pf lvl)
           (at_slurp_sim parser fuel pf lvl) (fun s y1 y2 _ => at_nest_sim parser fuel pf lvl s y1 y2)).
  - reflexivity.
  - reflexivity.
Qed.

(* the run depends on the script source and on standard input only through
   their lines: every delivery-independence theorem of Properties.v is an
   instance *)
Lemma run_depends_on_lines parser lvl fuel pf (s1 s2 : source) (d1 d2 : dev) :
  abs_src s1 = abs_src s2 -> concat d1 = concat d2 ->
  nmodel_run parser lvl fuel pf s1 d1 = nmodel_run parser lvl fuel pf s2 d2.
Proof. intros Hs H. rewrite !nested_refines_spec_lemma. unfold abs_dev. now rewrite Hs, H. Qed.

(* level 0 is the machine without nested loops *)
Lemma model_refines_spec_lemma parser fuel pf src d :
  model_run parser fuel pf src d = spec_run parser fuel pf (abs_src src) (abs_dev d).
Proof. exact (nested_refines_spec_lemma parser 0 fuel pf src d). Qed.

(* [byte_ops] is [byte_ops_at parser f p 0] whatever [f] and [p] are (by
   conversion): the zeros are arbitrary *)
Lemma iter_n_refines parser (k pf : nat) m1 m2 : RM lines_of_dev lines_of_src m1 m2 ->
  Rres lines_of_dev lines_of_src (iter_n byte_ops parser k pf m1) (iter_n line_ops parser k pf m2).
Proof.
  exact (iter_n_sim _ _ lines_of_dev lines_of_src parser (fun _ => true) (fun _ _ c _ _ => leaves_true c)
           (at_pull_sim parser 0 0 0) (at_read_sim parser 0 0 0) (at_slurp_sim parser 0 0 0)
           (fun s y1 y2 _ => at_nest_sim parser 0 0 0 s y1 y2) k pf m1 m2).
Qed.

Lemma concat_chunk (sizes : list nat) (x : list N) : concat (chunk sizes x) = x.
Proof.
  revert x; induction sizes as [|n s IH]; intros x; cbn [chunk concat].
  - apply app_nil_r.
  - rewrite IH. apply firstn_skipn.
Qed.

Lemma parse_phase_bytes parser pf sts pend fed src d off eof :
  let '(ph1, (g1, t1, j1, o1, e1)) := parse_phase byte_ops parser pf sts pend fed src d off eof in
  let '(ph2, (g2, t2, j2, o2, e2)) :=
    parse_phase line_ops parser pf sts pend fed (abs_src src) (abs_dev d) off eof in
  ph1 = ph2 /\ g1 = g2 /\ o1 = o2 /\ e1 = e2 /\ lines_of_src t1 t2 /\ lines_of_dev j1 j2.
Proof.
  apply (parse_phase_sim byte_ops line_ops lines_of_dev lines_of_src parser pull_refines).
  - reflexivity.
  - reflexivity.
Qed.

Lemma str_eqb_refl (s : str) : str_eqb s s = true.
Proof. now apply str_eqb_eq. Qed.

Lemma get_set_var n v l : get_var n (set_var n v l) = v.
Proof.
  induction l as [|[n' v'] l IH]; cbn [set_var get_var].
  - now rewrite str_eqb_refl.
  - destruct (str_eqb n n') eqn:E; cbn [get_var]; rewrite ?str_eqb_refl, ?E; [reflexivity | exact IH].
Qed.

Lemma scan_line_raw (l : line) : snd (scan_line true l) <> LCont.
Proof.
  induction l as [|c l IH]; cbn [scan_line]; [discriminate|].
  destruct (N.eqb c NL); [discriminate|]. cbn [negb andb].
  destruct (scan_line true l) as [cs e]. exact IH.
Qed.

Lemma line_read_raw (ls : list line) :
  line_read true NL ls =
  (fst (scan_line true (hd [] ls)),
   match ls with [] => false | l :: _ => match snd (scan_line true l) with LNl => true | _ => false end end,
   tl ls, nlen (hd [] ls)).
Proof.
  unfold line_read. change (N.eqb NL NL) with true. cbv iota.
  destruct ls as [|l rest]; [reflexivity|]. cbn [line_read_nl hd tl].
  pose proof (scan_line_raw l) as H. destruct (scan_line true l) as [cs e]. cbn [fst snd] in *.
  destruct e; try reflexivity. contradiction.
Qed.

Lemma slurp_sees_rest (x : xstate (I:=dev)) :
  let y := fst (exec byte_ops CSlurp x) in
  x_evs y = x_evs x ++ [Ev 2 [concat (x_in x)] (x_status x) (x_off x)] /\
  concat (x_in y) = [] /\ x_off y = x_off x + nlen (concat (x_in x)).
Proof.
  cbn [exec op_slurp byte_ops]. destruct (slurp_all_flat (x_in x)) as [d' [-> Hd]].
  cbn. repeat split. exact Hd.
Qed.

Lemma read_sees_next_line (v : str) (x : xstate (I:=dev)) :
  let y := fst (exec byte_ops (CRead true NL v) x) in
  let ls := split_lines (concat (x_in x)) in
  (existsb (fun c => N.eqb (fst c) 0) (fst (scan_line true (hd [] ls))) = false ->
   get_var v (s_vars (x_sh y)) = read_value (fst (scan_line true (hd [] ls)))) /\
  concat (x_in y) = concat (tl ls) /\ x_off y = x_off x + nlen (hd [] ls) /\
  x_evs y = x_evs x.
Proof.
  cbn [exec op_read byte_ops]. pose proof (read_text_lines true NL (x_in x)) as H.
  rewrite line_read_raw in H. destruct H as [d' [-> Hd]].
  destruct (existsb (fun c => N.eqb (fst c) 0)
              (fst (scan_line true (hd [] (split_lines (concat (x_in x))))))) eqn:E; cbn.
  - repeat split; try discriminate. rewrite <- Hd. now rewrite concat_split_lines.
  - rewrite get_set_var. repeat split. rewrite <- Hd. now rewrite concat_split_lines.
Qed.

(* The two iterations compared by executed_prefix_equals_truncated_script:
   the one that fails adds no record; on the truncated script the loop ends
   normally at that point. *)
Lemma syntax_error_iteration parser pf (m : mstate (I:=dev) (SRC:=source)) r :
  iter byte_ops parser pf m = inr r -> f_tag r = FSyntax ->
  f_evs r = x_evs (m_x m) /\ f_status r = 2.
Proof.
  unfold iter.
  destruct (parse_phase byte_ops parser pf _ (m_pend m) (m_fed m) (m_src m) (x_in (m_x m))
              (x_off (m_x m)) (m_eof m)) as [ph [[[[g' s'] i'] off'] eof']].
  destruct ph as [pr| |]; try (intros H; inversion H; subst; cbn; discriminate).
  destruct pr; try (intros H; inversion H; subst; cbn; try discriminate; intros _; split; reflexivity).
  destruct (exec byte_ops c _) as [x2 ex]. destruct ex; intros H; inversion H; subst; cbn; discriminate.
Qed.

Lemma end_of_input_iteration parser pf (m : mstate (I:=dev) (SRC:=source)) :
  (1 <= pf)%nat -> m_src m = SrcStdin -> m_eof m = false -> m_pend m = false ->
  concat (x_in (m_x m)) = [] ->
  parser [s_ps (x_sh (m_x m))] [[]] = PEnd ->
  exists r, iter byte_ops parser pf m = inr r /\ f_tag r = FEnd /\
    f_evs r = x_evs (m_x m) /\ f_status r = x_status (m_x m) /\ f_off r = x_off (m_x m).
Proof.
  intros Hpf Hsrc Heof Hpe Hin Hend. unfold iter, parse_phase. rewrite Hsrc, Heof, Hpe.
  destruct pf as [|pf]; [lia|]. cbn [pull_loop op_pull byte_ops byte_pull app].
  pose proof (next_line_lines (x_in (m_x m))) as Hn. rewrite Hin in Hn. cbn in Hn.
  destruct Hn as [d' [-> _]]. cbn [orb app nlen length]. rewrite Hend.
  eexists. split; [reflexivity|]. cbn. rewrite N.add_0_r. repeat split.
Qed.

Lemma loop_iter_n {I SRC} (ops : input_ops I SRC) parser (k : nat) : forall fuel pf m mk,
  iter_n ops parser k pf m = inl mk ->
  loop ops parser (k + fuel) pf m = loop ops parser fuel pf mk.
Proof.
  induction k as [|k IH]; intros fuel pf m mk H; cbn [iter_n plus loop] in *.
  - now inversion H.
  - destruct (iter ops parser pf m) as [m1|r]; [|discriminate]. now apply IH.
Qed.

Lemma list_eqb_refl {A} (eqb : A -> A -> bool) :
  (forall x, eqb x x = true) -> forall l, list_eqb eqb l l = true.
Proof. intros H l. induction l as [|a l IH]; cbn; [reflexivity | now rewrite H, IH]. Qed.

Lemma event_eqb_refl e : event_eqb e e = true.
Proof.
  destruct e as [k a s o]. cbn. rewrite !N.eqb_refl, (list_eqb_refl str_eqb str_eqb_refl). reflexivity.
Qed.

Lemma obs_eqb_refl o : obs_eqb o o = true.
Proof.
  destruct o as [[[t s] f] e]. cbn. rewrite !N.eqb_refl. exact (list_eqb_refl event_eqb event_eqb_refl e).
Qed.

Lemma model_of_spec_of parser fuel pf script data f :
  model_of parser fuel pf script data f = spec_of parser fuel pf script data f.
Proof.
  unfold model_of, spec_of. destruct f; cbn [shared]; rewrite model_refines_spec_lemma;
    unfold abs_dev, abs_src; cbn [concat]; rewrite ?app_nil_r, ?concat_chunk; reflexivity.
Qed.

(* neither a line echoed by `set -v` (kind 4) nor the record of `probe vmark`,
   which switches the clause [echo_ok] on *)
Definition quiet_event (e : event) : bool :=
  match e with Ev k args _ _ => negb (N.eqb k 4) && negb (list_eqb str_eqb args vmark) end.

Lemma echo_walk_quiet script evs :
  forallb quiet_event evs = true -> echo_walk script None [] evs = (true, None, []).
Proof.
  induction evs as [|[k args st off] evs IH]; intros H; cbn [echo_walk]; [reflexivity|].
  cbn [forallb quiet_event] in H. apply andb_true_iff in H. destruct H as [H1 H2].
  apply andb_true_iff in H1. destruct H1 as [Hk Hv].
  apply negb_true_iff in Hk, Hv. rewrite Hk, Hv.
  destruct (N.eqb k 3); [now apply IH|]. now rewrite (IH H2).
Qed.

