(* C18 — the property theorems, each a few steps from the lemmas of the
   proof files; the driver pins the statements with [Check] and prints the
   assumptions on every run.  Non-vacuity examples are in Examples.v. *)
From Yv Require Import Common.Base C18.Model C18.Spec C18.Run.
From Yv Require Import C18.ProofsBytes C18.ProofsSim C18.ProofsLines C18.Proofs C18.ProofsNested C18.Examples.

(* the byte-level machine (chunked descriptor, one byte per read, lexer line buffer with its pending text) does exactly what the line-level reference semantics says, for every parser, script source, chunking and fuel *)
Theorem model_refines_spec :
  forall parser fuel pf src d, model_run parser fuel pf src d = spec_run parser fuel pf (abs_src src) (abs_dev d).
Proof. exact model_refines_spec_lemma. Qed.

(* the property as a relation: every run of the model on a script on standard input, in any chunking, is a sequence of steps each taking exactly the lines the parser needs for one command (none when the command comes out of text pending in the line buffer and that suffices) and then running it on what follows, before anything of the next command is read; the parser of the next step gets the state the command left *)
Theorem run_is_line_by_line :
  forall parser fuel pf (d : dev), f_tag (model_run parser fuel pf SrcStdin d) <> FOutOfFuel -> f_tag (model_run parser fuel pf SrcStdin d) <> FStuck -> line_by_line parser (mkX (mkSh (mkP [] false) [] 0) (split_lines (concat d)) 0 []) false false [] [] (model_run parser fuel pf SrcStdin d).
Proof.
  intros parser fuel pf d. rewrite model_refines_spec. unfold spec_run, run, abs_src, abs_dev. intros H1 H2.
  apply (loop_line_by_line parser fuel pf (init LShared (split_lines (concat d)))); try assumption.
  - reflexivity.
  - apply wf_split.
Qed.

(* two deliveries of the same bytes (any bytes, not only UTF-8) on standard input, cut into chunks in any two ways, give the same run *)
Theorem chunking_irrelevant :
  forall parser fuel pf (d1 d2 : dev), concat d1 = concat d2 -> model_run parser fuel pf SrcStdin d1 = model_run parser fuel pf SrcStdin d2.
Proof. intros parser fuel pf d1 d2 H. exact (run_depends_on_lines parser 0 fuel pf _ _ d1 d2 eq_refl H). Qed.

(* the same when the script has a descriptor of its own *)
Theorem chunking_irrelevant_script_file :
  forall parser fuel pf (s1 s2 d1 d2 : dev), concat s1 = concat s2 -> concat d1 = concat d2 -> model_run parser fuel pf (SrcOwn s1) d1 = model_run parser fuel pf (SrcOwn s2) d2.
Proof.
  intros parser fuel pf s1 s2 d1 d2 Hs H. apply (run_depends_on_lines parser 0 fuel pf (SrcOwn s1) (SrcOwn s2)); [|exact H].
  cbn [abs_src]. now rewrite Hs.
Qed.

(* a script file and a -c string with the same text run alike *)
Theorem script_file_equals_command_string :
  forall parser fuel pf (s d : dev), model_run parser fuel pf (SrcOwn s) d = model_run parser fuel pf (SrcMem (split_lines (concat s))) d.
Proof. intros parser fuel pf s d. exact (run_depends_on_lines parser 0 fuel pf (SrcOwn s) (SrcMem _) d d eq_refl eq_refl). Qed.

(* the chunked descriptor the check builds from the harness' chunk sizes holds exactly the script *)
Theorem chunks_hold_the_script :
  forall sizes x, concat (chunk sizes x) = x.
Proof. exact concat_chunk. Qed.

(* parsing one command takes from the descriptor exactly the first k lines, k the least number after which the parser stops asking (k may be 0 when text is pending in the line buffer); the position advances by their length and everything after them is still in the descriptor; a line ends at the first newline byte whatever the other bytes are *)
Theorem consumes_minimal_lines :
  forall parser pf sts pend fed0 (d : dev) off r fed' src' d' off' eof', parse_phase byte_ops parser pf sts pend fed0 SrcStdin d off false = (PhDone r, (fed', src', d', off', eof')) -> exists k, decides parser sts (if pend then fed0 else []) (if pend then 0 else 1)%nat (split_lines (concat d)) k r /\ concat d = concat (firstn k (split_lines (concat d))) ++ concat d' /\ off' = (off + nlen (concat (firstn k (split_lines (concat d)))))%N /\ concat d' = concat (skipn k (split_lines (concat d))) /\ fed' = (if pend then fed0 else []) ++ firstn k (feedable (split_lines (concat d))).
Proof.
  intros parser pf sts pend fed0 d off r fed' src' d' off' eof' H.
  pose proof (parse_phase_bytes parser pf sts pend fed0 SrcStdin d off false) as Hs.
  rewrite H in Hs. cbn [abs_src] in Hs.
  destruct (parse_phase line_ops parser pf sts pend fed0 LShared (abs_dev d) off false)
    as [ph2 [[[[g2 t2] j2] o2] e2]] eqn:E.
  destruct Hs as [<- [<- [<- [<- [_ HI]]]]].
  apply parse_phase_takes in E; [|apply split_lines_no_empty].
  destruct E as [k [Hdec [Hfed [_ [Hls [Hoff _]]]]]].
  unfold lines_of_dev, abs_dev in *.
  assert (Hd' : concat d' = concat (skipn k (split_lines (concat d)))).
  { rewrite <- Hls, HI. now rewrite concat_split_lines. }
  exists k. split; [exact Hdec|]. split; [|split; [exact Hoff | split; [exact Hd' | exact Hfed]]].
  rewrite Hd', <- concat_app, firstn_skipn. now rewrite concat_split_lines.
Qed.

(* when a command starts, the descriptor holds exactly the lines that follow the command: a command reading everything gets exactly them, `read -r` gets exactly the next line and leaves the rest *)
Theorem fd_position_after_command :
  forall parser pf sts pend fed0 (d : dev) off c p fed' src' d' off' eof', parse_phase byte_ops parser pf sts pend fed0 SrcStdin d off false = (PhDone (PComplete c p), (fed', src', d', off', eof')) -> exists k, decides parser sts (if pend then fed0 else []) (if pend then 0 else 1)%nat (split_lines (concat d)) k (PComplete c p) /\ let following := skipn k (split_lines (concat d)) in concat d' = concat following /\ (forall sh evs, x_evs (fst (exec byte_ops CSlurp (mkX sh d' off' evs))) = evs ++ [Ev 2 [concat following] (s_status sh) off']) /\ (forall sh evs v, let y := fst (exec byte_ops (CRead true NL v) (mkX sh d' off' evs)) in (existsb (fun c => N.eqb (fst c) 0) (fst (scan_line true (hd [] following))) = false -> get_var v (s_vars (x_sh y)) = read_value (fst (scan_line true (hd [] following)))) /\ concat (x_in y) = concat (tl following) /\ x_off y = (off' + nlen (hd [] following))%N).
Proof.
  intros parser pf sts pend fed0 d off c p fed' src' d' off' eof' H.
  destruct (consumes_minimal_lines _ _ _ _ _ _ _ _ _ _ _ _ _ H) as [k [Hd [_ [_ [Hrest _]]]]].
  exists k. split; [exact Hd|]. cbn zeta. split; [exact Hrest|]. split.
  - intros sh evs. destruct (slurp_sees_rest (mkX sh d' off' evs)) as [He _].
    cbn [x_evs x_in x_off] in He. rewrite He, Hrest. reflexivity.
  - intros sh evs v. destruct (read_sees_next_line v (mkX sh d' off' evs)) as [H1 [H2 [H3 _]]].
    cbn [x_in x_off] in *.
    assert (E : split_lines (concat d') = skipn k (split_lines (concat d))).
    { apply (f_equal split_lines) in Hrest. rewrite Hrest. apply split_lines_skipn. }
    rewrite E in *. repeat split; assumption.
Qed.

(* if k commands of the input A++B leave exactly B unread, the same k commands do the same (records, variables, aliases, options, position, pending buffer) whatever replaces B — a syntax error, nothing, anything — in any chunking (for scripts whose reads take whole lines, i.e. without `read -d`) *)
Theorem earlier_lines_take_effect :
  forall parser (pf k : nat) (A B B' : list N) (d d' : dev) (m : mstate (I:=dev) (SRC:=source)), reads_lines parser -> concat d = A ++ B -> concat d' = A ++ B' -> nl_terminated A -> B <> [] -> iter_n byte_ops parser k pf (init SrcStdin d) = inl m -> concat (x_in (m_x m)) = B -> exists m', iter_n byte_ops parser k pf (init SrcStdin d') = inl m' /\ concat (x_in (m_x m')) = B' /\ x_sh (m_x m') = x_sh (m_x m) /\ x_off (m_x m') = x_off (m_x m) /\ x_evs (m_x m') = x_evs (m_x m) /\ m_eof m' = m_eof m /\ m_src m' = SrcStdin /\ m_pend m' = m_pend m /\ m_fed m' = m_fed m /\ m_hist m' = m_hist m.
Proof.
  intros parser pf k A B B' d d' m Hrl Hd Hd' HA HB H Hin.
  assert (Hinit : forall e, RM lines_of_dev lines_of_src (init SrcStdin e) (init LShared (abs_dev e))).
  { intros e. apply init_sim; reflexivity. }
  pose proof (iter_n_refines parser k pf _ _ (Hinit d)) as Hs.
  rewrite H in Hs.
  destruct (iter_n line_ops parser k pf (init LShared (abs_dev d))) as [n|] eqn:En; [|contradiction].
  cbn in Hs. destruct Hs as [[Hsh [Hoff [Hevs Hri]]] [Hsrc [Heof [Hpe [Hfe Hhi]]]]].
  unfold abs_dev in En. rewrite Hd, split_lines_app_nl in En by assumption.
  unfold lines_of_dev, abs_dev in Hri. rewrite Hin in Hri.
  assert (HLB : split_lines B <> []) by (intros E; apply split_lines_nil in E; contradiction).
  destruct (prefix_independence_lines parser (split_lines A) (split_lines B) (split_lines B')
              k pf n Hrl HLB En Hri)
    as [n' [En' [Hin' [Hsh' [Hoff' [Hevs' [Heof' [Hsrc' [Hpe' [Hfe' Hhi']]]]]]]]]].
  pose proof (iter_n_refines parser k pf _ _ (Hinit d')) as Hs'.
  unfold abs_dev in Hs'. rewrite Hd', split_lines_app_nl, En' in Hs' by assumption.
  destruct (iter_n byte_ops parser k pf (init SrcStdin d')) as [m'|]; [|contradiction].
  cbn in Hs'. destruct Hs' as [[Gsh [Goff [Gevs Gri]]] [Gsrc [Geof [Gpe [Gfe Ghi]]]]].
  exists m'. split; [reflexivity|]. unfold lines_of_dev, abs_dev in Gri. rewrite Hin' in Gri.
  apply split_lines_inj in Gri. rewrite Hsrc' in Gsrc.
  destruct (m_src m'); try discriminate Gsrc.
  repeat split; congruence.
Qed.

(* the same for a -c string or a script file (any commands, `read -d` included): if k commands leave exactly the lines LB of the script unread, they do the same whatever replaces LB *)
Theorem earlier_lines_take_effect_separate :
  forall parser (pf k : nat) (s s' : source) (LA LB LB' : list line) (d : dev) (m : mstate (I:=dev) (SRC:=source)), abs_src s = LLines (LA ++ LB) -> abs_src s' = LLines (LA ++ LB') -> LB <> [] -> iter_n byte_ops parser k pf (init s d) = inl m -> abs_src (m_src m) = LLines LB -> exists m', iter_n byte_ops parser k pf (init s' d) = inl m' /\ abs_src (m_src m') = LLines LB' /\ x_sh (m_x m') = x_sh (m_x m) /\ x_off (m_x m') = x_off (m_x m) /\ x_evs (m_x m') = x_evs (m_x m) /\ concat (x_in (m_x m')) = concat (x_in (m_x m)) /\ m_eof m' = m_eof m /\ m_pend m' = m_pend m /\ m_fed m' = m_fed m /\ m_hist m' = m_hist m.
Proof.
  intros parser pf k s s' LA LB LB' d m Hs Hs' HB H Hsrc.
  assert (Hinit : forall t, RM lines_of_dev lines_of_src (init t d) (init (abs_src t) (abs_dev d))).
  { intros t. apply init_sim; reflexivity. }
  pose proof (iter_n_refines parser k pf _ _ (Hinit s)) as Hsim.
  rewrite H in Hsim.
  destruct (iter_n line_ops parser k pf (init (abs_src s) (abs_dev d))) as [n|] eqn:En; [|contradiction].
  cbn in Hsim. destruct Hsim as [[Hsh [Hoff [Hevs Hri]]] [Hrs [Heof [Hpe [Hfe Hhi]]]]].
  unfold lines_of_src in Hrs. rewrite Hsrc in Hrs. rewrite Hs in En.
  destruct (prefix_independence_lines_sep parser LA LB LB' (abs_dev d) k pf n HB En Hrs)
    as [n' [En' [Hsrc' [Hx' [Heof' [Hpe' [Hfe' Hhi']]]]]]].
  pose proof (iter_n_refines parser k pf _ _ (Hinit s')) as Hsim'.
  rewrite Hs', En' in Hsim'.
  destruct (iter_n byte_ops parser k pf (init s' d)) as [m'|]; [|contradiction].
  cbn in Hsim'. destruct Hsim' as [[Gsh [Goff [Gevs Gri]]] [Grs [Geof [Gpe [Gfe Ghi]]]]].
  exists m'. split; [reflexivity|]. unfold lines_of_src in Grs. rewrite Hsrc' in Grs.
  unfold lines_of_dev, abs_dev in *. rewrite Hx' in *.
  repeat split; try congruence.
  apply split_lines_inj. congruence.
Qed.

(* if the command starting at B is a syntax error, what was executed before it is exactly what the script truncated before that command executes (which then ends normally) *)
Theorem executed_prefix_equals_truncated_script :
  forall parser (pf k : nat) (A B : list N) (d dA : dev) (m : mstate (I:=dev) (SRC:=source)) r, reads_lines parser -> (1 <= pf)%nat -> concat d = A ++ B -> concat dA = A -> nl_terminated A -> B <> [] -> iter_n byte_ops parser k pf (init SrcStdin d) = inl m -> concat (x_in (m_x m)) = B -> iter byte_ops parser pf m = inr r -> f_tag r = FSyntax -> m_eof m = false -> m_pend m = false -> parser [s_ps (x_sh (m_x m))] [[]] = PEnd -> exists mA rA, iter_n byte_ops parser k pf (init SrcStdin dA) = inl mA /\ iter byte_ops parser pf mA = inr rA /\ f_tag rA = FEnd /\ f_evs rA = f_evs r /\ f_off rA = x_off (m_x m) /\ f_status rA = x_status (m_x m).
Proof.
  intros parser pf k A B d dA m r Hrl Hpf Hd HdA HA HB Hk Hin Hit Htag Heof Hpend Hend.
  assert (HdA' : concat dA = A ++ []) by now rewrite app_nil_r.
  destruct (earlier_lines_take_effect parser pf k A B [] d dA m Hrl Hd HdA' HA HB Hk Hin)
    as [mA [HkA [HinA [Hsh [Hoff [Hevs [HeofA [HsrcA [HpeA _]]]]]]]]].
  destruct (syntax_error_iteration parser pf m r Hit Htag) as [He _].
  assert (HendA : parser [s_ps (x_sh (m_x mA))] [[]] = PEnd) by now rewrite Hsh.
  rewrite Heof in HeofA. rewrite Hpend in HpeA.
  destruct (end_of_input_iteration parser pf mA Hpf HsrcA HeofA HpeA HinA HendA)
    as [rA [HitA [HtagA [HevA [HstA HoffA]]]]].
  exists mA, rA. repeat split; try assumption.
  - now rewrite HevA, He, Hevs.
  - now rewrite HoffA, Hoff.
  - rewrite HstA. unfold x_status. now rewrite Hsh.
Qed.

(* every position of standard input recorded during a run, and the final one, is a line boundary (when no command reads with a delimiter other than newline) *)
Theorem positions_are_line_boundaries :
  forall parser fuel pf src (d : dev), reads_lines parser -> line_aligned (concat d) (obs_of_final (model_run parser fuel pf src d)) = true.
Proof.
  intros parser fuel pf src d Hrl. rewrite model_refines_spec. apply line_aligned_sound. unfold spec_run, abs_dev.
  now apply run_ok.
Qed.

(* the oracle of the check accepts everything the model can produce *)
Theorem oracle_sound :
  forall parser fuel pf script data f1 f2, let o := obs_of_final (model_of parser fuel pf script data f1) in (shared f1 = true -> shared f2 = true -> obs_eqb (obs_of_final (model_of parser fuel pf script data f2)) o = true) /\ (reads_lines parser -> line_aligned (if shared f1 then script else data) o = true) /\ obs_eqb (obs_of_final (spec_of parser fuel pf script data f1)) o = true.
Proof.
  intros parser fuel pf script data f1 f2. cbn zeta. split; [|split].
  - intros H1 H2. rewrite !model_of_spec_of. unfold spec_of. rewrite H1, H2. apply obs_eqb_refl.
  - intros Hrl. rewrite model_of_spec_of. unfold spec_of, spec_run.
    destruct (shared f1); apply line_aligned_sound, run_ok, Hrl.
  - rewrite model_of_spec_of. apply obs_eqb_refl.
Qed.

(* the check applies the line-boundary clause only when the recorded parser satisfies the hypothesis of positions_are_line_boundaries *)
Theorem table_parser_reads_lines :
  forall t, table_reads_lines t = true -> reads_lines (tab_parser t).
Proof.
  intros t Ht sts fed c p H. unfold tab_parser in H.
  destruct (find _ t) as [[[s f] r]|] eqn:Ef.
  - apply find_some in Ef. destruct Ef as [Hin _]. subst r.
    unfold table_reads_lines in Ht. rewrite forallb_forall in Ht. exact (Ht _ Hin).
  - destruct (existsb _ t); discriminate.
Qed.

(* the recorded parser satisfies the bound on pending chains that the fuel of the check is computed from *)
Theorem table_parser_depth :
  forall t, pend_depth (tab_parser t) (table_depth t).
Proof.
  intros t sts fed c H. unfold tab_parser in H.
  destruct (find _ t) as [[[s f] r]|] eqn:Ef.
  - apply find_some in Ef. destruct Ef as [Hin Heq]. subst r.
    apply andb_true_iff in Heq. destruct Heq as [Heq _].
    assert (Hlen : length sts = length s).
    { clear - Heq. unfold sts_eqb in Heq. revert s Heq.
      induction sts as [|a sts IH]; intros [|b s] H; cbn in *; try discriminate; [reflexivity|].
      apply andb_true_iff in H. destruct H as [_ H]. f_equal. now apply IH. }
    rewrite Hlen. unfold table_depth. clear - Hin.
    induction t as [|e t IH]; [contradiction|]. cbn [fold_right]. destruct Hin as [->|Hin].
    + cbn [fst]. lia.
    + specialize (IH Hin). lia.
  - destruct (existsb _ t); discriminate.
Qed.

(* with the fuel the check computes from the input size and the depth of pending chains the model never stops for lack of fuel; for the recorded parser pend_depth is table_parser_depth, while ends_at_eof is only what the third conjunct of Run.entry_ok tests on the table (no theorem carries it to tab_parser) *)
Theorem fuel_never_runs_out :
  forall parser (K fuel pf : nat) src (d : dev), ends_at_eof parser -> pend_depth parser K -> (1 <= K)%nat -> (src_bytes src d + 2 <= pf)%nat -> (pf * K + 1 <= fuel)%nat -> f_tag (model_run parser fuel pf src d) <> FOutOfFuel.
Proof.
  intros parser K fuel pf src d He Hd HK Hpf Hf. rewrite model_refines_spec. unfold spec_run.
  apply (run_fuel parser K He Hd HK); [apply wf_split | | exact Hf].
  unfold src_bytes in Hpf. destruct src as [|d0|ls|d0]; cbn [abs_src src_size] in *; unfold abs_dev.
  - pose proof (split_lines_length (concat d)). lia.
  - pose proof (split_lines_length (concat d0)). lia.
  - lia.
  - pose proof (split_lines_length (concat d0)). lia.
Qed.

(* the `set -v` oracle clause accepts every observation without echoed lines and without the `probe vmark` record: it raises no alarm on scripts that do not use `set -v` *)
Theorem echo_clause_quiet :
  forall script t s off evs, forallb quiet_event evs = true -> echo_ok script (t, s, off, evs) = true.
Proof. intros script t s off evs H. unfold echo_ok. now rewrite (echo_walk_quiet script evs H). Qed.

(* chunking irrelevance at the Input level: an input function that returns the same text in any two sequences of pieces (pieces may end in the middle of a line; only an empty piece is the end of input) gives the same run *)
Theorem input_pieces_irrelevant :
  forall parser fuel pf (p1 p2 d : dev), concat p1 = concat p2 -> model_run parser fuel pf (SrcInput p1) d = model_run parser fuel pf (SrcInput p2) d.
Proof.
  intros parser fuel pf p1 p2 d H. apply (run_depends_on_lines parser 0 fuel pf (SrcInput p1) (SrcInput p2)); [|reflexivity].
  cbn [abs_src]. now rewrite H.
Qed.

(* and the same run as the input function that returns the text line by line (Memory) *)
Theorem input_pieces_equal_lines :
  forall parser fuel pf (p d : dev), model_run parser fuel pf (SrcInput p) d = model_run parser fuel pf (SrcMem (split_lines (concat p))) d.
Proof. intros parser fuel pf p d. exact (run_depends_on_lines parser 0 fuel pf (SrcInput p) (SrcMem _) d d eq_refl eq_refl). Qed.

(* model_refines_spec extended to programs with nested read-eval loops: at every nesting level (eval / dot run a new loop on a Memory source / on a descriptor of their own, on the same shell state and standard input), the byte-level machine equals the line-level reference semantics, for every parser, source, chunking and fuel *)
Theorem nested_refines_spec :
  forall parser lvl fuel pf src d, nmodel_run parser lvl fuel pf src d = nspec_run parser lvl fuel pf (abs_src src) (abs_dev d).
Proof. exact nested_refines_spec_lemma. Qed.

(* chunking_irrelevant extended to nested loops: with eval / dot commands (whose inner commands read the same standard input) two deliveries of the same bytes give the same run *)
Theorem nested_chunking_irrelevant :
  forall parser lvl fuel pf (d1 d2 : dev), concat d1 = concat d2 -> nmodel_run parser lvl fuel pf SrcStdin d1 = nmodel_run parser lvl fuel pf SrcStdin d2.
Proof. intros parser lvl fuel pf d1 d2. now apply run_depends_on_lines. Qed.

(* the same when the script has a descriptor of its own *)
Theorem nested_chunking_irrelevant_script_file :
  forall parser lvl fuel pf (s1 s2 d1 d2 : dev), concat s1 = concat s2 -> concat d1 = concat d2 -> nmodel_run parser lvl fuel pf (SrcOwn s1) d1 = nmodel_run parser lvl fuel pf (SrcOwn s2) d2.
Proof.
  intros parser lvl fuel pf s1 s2 d1 d2 Hs. apply run_depends_on_lines. cbn [abs_src]. now rewrite Hs.
Qed.

(* at nesting level 0 (what the check uses for scripts without eval / dot) the nested model is the model all other theorems are about *)
Theorem level0_is_model :
  forall parser fuel pf src d, nmodel_run parser 0 fuel pf src d = model_run parser fuel pf src d.
Proof. reflexivity. Qed.

(* parsing a command of a nested text (source = Memory string of eval or the descriptor dot opened) takes nothing from standard input and does not move its position, however many lines the command needs *)
Theorem nested_parse_leaves_stdin :
  forall parser fuel0 pf0 lvl pf sts pend fed s (d : dev) off eof ph fed' s' d' off' eof', s <> SrcStdin -> parse_phase (byte_ops_at parser fuel0 pf0 lvl) parser pf sts pend fed s d off eof = (ph, (fed', s', d', off', eof')) -> d' = d /\ off' = off /\ s' <> SrcStdin.
Proof. exact nested_parse_leaves_stdin_lemma. Qed.

(* one iteration of a nested loop: the command is parsed in the parser state (aliases, options) that the inner commands before it left, parsing leaves standard input and its position as they were, and the state after the iteration is exactly that of executing this one command on the state before it — so the position of the outer descriptor after eval / dot is the position after the command line containing it plus what the commands executed inside took *)
Theorem nested_iteration_runs_one_command :
  forall parser fuel0 pf0 lvl pf (m m' : mstate (I:=dev) (SRC:=source)), m_src m <> SrcStdin -> iterx (byte_ops_at parser fuel0 pf0 lvl) parser pf m = inl m' -> exists c p fed' src' eof', parse_phase (byte_ops_at parser fuel0 pf0 lvl) parser pf ((if m_pend m then m_hist m else []) ++ [s_ps (x_sh (m_x m))]) (m_pend m) (m_fed m) (m_src m) (x_in (m_x m)) (x_off (m_x m)) (m_eof m) = (PhDone (PComplete c p), (fed', src', x_in (m_x m), x_off (m_x m), eof')) /\ exec (byte_ops_at parser fuel0 pf0 lvl) c (m_x m) = (m_x m', false) /\ m_src m' = src' /\ src' <> SrcStdin.
Proof. exact nested_iteration_lemma. Qed.

(* a syntax error at the (k+1)-th command of a nested text stops the nested loop there: eval / dot hands back exactly the state the k inner commands before it left (records, variables, aliases, options, position of standard input) and interrupts the enclosing command with exit status 2 (the non-interactive shell then stops like for a syntax error in the script); in the model the interrupt is the exit flag with status ST_INTR + 2, which Run.decode_final turns into a final FSyntax with status 2 *)
Theorem nested_syntax_error_keeps_earlier_effects :
  forall parser lvl fuel pf s (x : xstate (I:=dev)) (k : nat) m, nsrc_empty s = false -> (k < fuel)%nat -> iterx_n (byte_ops_at parser fuel pf lvl) parser k pf (mkM x (byte_src s) false false [] []) = inl m -> (exists y, iterx (byte_ops_at parser fuel pf lvl) parser pf m = inr (FSyntax, y)) -> op_nest (byte_ops_at parser fuel pf (S lvl)) s x = (with_status (ST_INTR + 2) (m_x m), true).
Proof.
  intros parser lvl fuel pf s x k m He Hk Hn [y Hy]. cbn [byte_ops_at op_nest]. unfold nest_with. rewrite He.
  rewrite (loopx_iterx_n _ parser k fuel pf _ m _ Hn Hy Hk).
  assert (Ho : m_src m <> SrcStdin).
  { eapply iterx_n_own; [|exact Hn]. cbn [m_src]. apply byte_src_own. }
  revert Hy. unfold iterx.
  destruct (parse_phase _ parser pf _ (m_pend m) (m_fed m) (m_src m) (x_in (m_x m)) (x_off (m_x m)) (m_eof m))
    as [ph [[[[fed' src'] d'] off'] eof']] eqn:Ep.
  destruct (nested_parse_leaves_stdin _ _ _ _ _ _ _ _ _ _ _ _ _ _ _ _ _ _ Ho Ep) as [-> [-> Ho']].
  rewrite mkX_eta.
  destruct ph as [r| |]; try discriminate. destruct r as [|c p| | |]; try discriminate.
  - destruct (exec _ c (m_x m)) as [x2 ex]. destruct ex; discriminate.
  - intros E. inversion E; subst y. cbn [nest_result]. reflexivity.
Qed.

(* the delivery-independence clause and the reference-semantics clause of the oracle accept everything the nested model can produce, at every level *)
Theorem nested_oracle_sound :
  forall parser lvl fuel pf script data f1 f2, let o := obs_of_final (nmodel_of parser lvl fuel pf script data f1) in (shared f1 = true -> shared f2 = true -> obs_eqb (obs_of_final (nmodel_of parser lvl fuel pf script data f2)) o = true) /\ obs_eqb (obs_of_final (nspec_of parser lvl fuel pf script data f1)) o = true.
Proof.
  intros parser lvl fuel pf script data f1 f2. cbn zeta. split.
  - intros H1 H2. rewrite !nmodel_of_nspec_of. unfold nspec_of. rewrite H1, H2. apply obs_eqb_refl.
  - rewrite nmodel_of_nspec_of. apply obs_eqb_refl.
Qed.

(* for a parser that never yields a command containing eval / dot, the nested model at every level is the model the other theorems are about: all of them hold for it unchanged *)
Theorem nested_conservative :
  forall parser lvl fuel pf src d, parser_nest_free parser -> nmodel_run parser lvl fuel pf src d = model_run parser fuel pf src d.
Proof.
  (* the machine of any level simulates the flat machine on such scripts:
     their operations differ in [op_nest] only *)
  intros parser lvl fuel pf src d Hp. unfold nmodel_run, model_run.
  apply (run_sim (byte_ops_at parser fuel pf lvl) byte_ops eq eq parser
           (fun c => match c with CNest _ => false | _ => true end)); try reflexivity.
  - intros sts fed c p H. rewrite <- nest_free_leaves. exact (Hp _ _ _ _ H).
  - intros s1 s2 i1 i2 <- <-. destruct lvl; cbn [op_pull byte_ops_at byte_ops];
      destruct (byte_pull s1 i1) as [[[l t] j] n]; auto.
  - intros raw dl i1 i2 <-. destruct lvl; cbn [op_read byte_ops_at byte_ops];
      destruct (read_text raw dl i1) as [[[c f] j] n]; auto.
  - intros i1 i2 <-. destruct lvl; cbn [op_slurp byte_ops_at byte_ops];
      destruct (slurp_all i1) as [[c j] n]; auto.
  - discriminate.
Qed.

Print Assumptions model_refines_spec.
Print Assumptions run_is_line_by_line.
Print Assumptions chunking_irrelevant.
Print Assumptions chunking_irrelevant_script_file.
Print Assumptions script_file_equals_command_string.
Print Assumptions chunks_hold_the_script.
Print Assumptions consumes_minimal_lines.
Print Assumptions fd_position_after_command.
Print Assumptions earlier_lines_take_effect.
Print Assumptions earlier_lines_take_effect_separate.
Print Assumptions executed_prefix_equals_truncated_script.
Print Assumptions positions_are_line_boundaries.
Print Assumptions oracle_sound.
Print Assumptions table_parser_reads_lines.
Print Assumptions table_parser_depth.
Print Assumptions fuel_never_runs_out.
Print Assumptions echo_clause_quiet.
Print Assumptions input_pieces_irrelevant.
Print Assumptions input_pieces_equal_lines.
Print Assumptions nested_refines_spec.
Print Assumptions nested_chunking_irrelevant.
Print Assumptions nested_chunking_irrelevant_script_file.
Print Assumptions level0_is_model.
Print Assumptions nested_parse_leaves_stdin.
Print Assumptions nested_iteration_runs_one_command.
Print Assumptions nested_syntax_error_keeps_earlier_effects.
Print Assumptions nested_oracle_sound.
Print Assumptions nested_conservative.
