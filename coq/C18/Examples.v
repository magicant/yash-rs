(* C18 — concrete instances showing that the hypotheses of the theorems are
   satisfiable by non-trivial scripts (non-vacuity), with a toy parser:
     p...   probe        r...  read -r v      s...  slurp      )...  syntax error
     {      opens a group that extends to the line starting with }          *)
From Yv Require Import Common.Base C18.Model C18.Spec C18.Run.
Local Open Scope N_scope.

Definition toy_simple (l : line) : option cmd :=
  match l with
  | [] => Some CNop
  | b :: _ =>
      if N.eqb b 112 then Some (CProbe [[112]])
      else if N.eqb b 114 then Some (CRead true NL [118])
      else if N.eqb b 115 then Some CSlurp
      else if N.eqb b 41 then None
      else Some CNop
  end.

Fixpoint toy_group (ls : list line) (acc : cmd) : pres :=
  match ls with
  | [] => PNeedMore
  | [] :: _ => PError                          (* end of input inside a group *)
  | (b :: l) :: ls' =>
      if N.eqb b 125 then PComplete acc false
      else match toy_simple (b :: l) with
           | Some c => toy_group ls' (CSeq acc c)
           | None => PError
           end
  end.

Definition toy (sts : list pstate) (fed : list line) : pres :=
  match fed with
  | [] => PUnknown
  | [[]] => PEnd
  | [] :: _ => PUnknown
  | (b :: l) :: rest =>
      if N.eqb b 123 then toy_group rest CNop
      else match rest with
           | [] => match toy_simple (b :: l) with Some c => PComplete c false | None => PError end
           | _ => PUnknown
           end
  end.

Example toy_ends_at_eof : ends_at_eof toy.
Proof. intros st. exact I. Qed.

(* "{\np\nr\n}\nxy\ns\nrest" : a three-line group whose read takes the line
   after the group, then slurp takes the rest *)
Definition ex_script : list N :=
  [123;10; 112;10; 114;10; 125;10; 120;121;10; 115;10; 114;101;115;116].

Example ex_run :
  obs_of_final (model_run toy 30 30 SrcStdin (chunk [1;2;3;1;5]%nat ex_script)) =
  (0, 0, 17, [Ev 0 [[112]] 0 8; Ev 2 [[114;101;115;116]] 0 13]).
Proof. vm_compute. reflexivity. Qed.

(* hypotheses of run_is_line_by_line *)
Example ex_run_tag :
  f_tag (model_run toy 30 30 SrcStdin (chunk [1;2;3;1;5]%nat ex_script)) = FEnd.
Proof. vm_compute. reflexivity. Qed.

(* hypotheses of consumes_minimal_lines / fd_position_after_command *)
Example ex_parse_phase :
  exists c fed' d' off',
    parse_phase byte_ops toy 10 [mkP [] false] false [] SrcStdin (chunk [1;2;3]%nat ex_script) 0 false
    = (PhDone (PComplete c false), (fed', SrcStdin, d', off', false)) /\ off' = 8 /\
    concat d' = [120;121;10; 115;10; 114;101;115;116].
Proof. eexists. eexists. eexists. eexists. split; [vm_compute; reflexivity | split; reflexivity]. Qed.

(* hypotheses of earlier_lines_take_effect and
   executed_prefix_equals_truncated_script: "p\nr\nab\n" ++ ")\np\n" *)
Definition ex_A : list N := [112;10; 114;10; 97;98;10].
Definition ex_B : list N := [41;10; 112;10].

Example ex_prefix :
  nl_terminated ex_A /\ ex_B <> [] /\
  exists m r,
    iter_n byte_ops toy 2 9 (init SrcStdin (chunk [3;3]%nat (ex_A ++ ex_B))) = inl m /\
    concat (x_in (m_x m)) = ex_B /\
    iter byte_ops toy 9 m = inr r /\ f_tag r = FSyntax /\ m_eof m = false /\ m_pend m = false /\
    toy [s_ps (x_sh (m_x m))] [[]] = PEnd /\
    x_evs (m_x m) = [Ev 0 [[112]] 0 2].
Proof.
  split; [right; exists [112;10; 114;10; 97;98]; reflexivity|].
  split; [discriminate|].
  eexists. eexists. split; [vm_compute; reflexivity|].
  repeat split; vm_compute; reflexivity.
Qed.

(* ------------------------------------------------------------------ *)
(* Why one byte per read matters: a reader that asks for two bytes at a
   time (a natural "optimisation" of FdReader2) makes both the position
   after a command and the data a later `read` gets depend on where the
   chunk boundaries fall — the reference semantics and the oracle's
   line-boundary clause tell such a reader apart. *)

Fixpoint kread (n : nat) (d : dev) : list N * dev :=
  match d with
  | [] => ([], [])
  | [] :: d' => kread n d'
  | c :: d' => (firstn n c, skipn n c :: d')
  end.

Fixpoint next_line2 (fuel : nat) (d : dev) : line * dev :=
  match fuel with
  | O => ([], d)
  | S f =>
      match kread 2 d with
      | ([], d') => ([], d')
      | (bs, d') =>
          if existsb (N.eqb NL) bs then (bs, d')
          else let (l, d'') := next_line2 f d' in (bs ++ l, d'')
      end
  end.

Definition bulk_pull (s : source) (i : dev) : line * source * dev * N :=
  match s with
  | SrcStdin => let (l, i') := next_line2 100 i in (l, SrcStdin, i', nlen l)
  | _ => byte_pull s i
  end.

Definition bulk_ops : input_ops dev source := mkOps dev source bulk_pull read_text slurp_all nest_stub.

(* a parser that, like the real lexer, is only interested in the text up to
   the first newline of what it is given *)
Fixpoint upto_nl (l : line) : line :=
  match l with
  | [] => []
  | c :: l' => if N.eqb c NL then [c] else c :: upto_nl l'
  end.
Definition toy1 (st : list pstate) (fed : list line) : pres :=
  match fed with
  | [l] => toy st [upto_nl l]
  | _ => toy st fed
  end.

(* "pp\nq\n": a probe, then a line that is no command *)
Definition ex_bulk : list N := [112;112;10; 113;10].

Example bulk_reader_breaks_property :
  (* delivered byte by byte the bulk reader happens to behave ... *)
  obs_of_final (run bulk_ops toy1 20 20 SrcStdin (chunk [1;1;1;1]%nat ex_bulk))
    = obs_of_final (spec_run toy1 20 20 LShared (split_lines ex_bulk)) /\
  (* ... delivered in one piece it reads past the newline: the position when
     the first command runs is not a line boundary *)
  obs_of_final (run bulk_ops toy1 20 20 SrcStdin [ex_bulk])
    <> obs_of_final (spec_run toy1 20 20 LShared (split_lines ex_bulk)) /\
  line_aligned ex_bulk (obs_of_final (run bulk_ops toy1 20 20 SrcStdin [ex_bulk])) = false /\
  (* whereas the model is unaffected *)
  obs_of_final (model_run toy1 20 20 SrcStdin [ex_bulk])
    = obs_of_final (spec_run toy1 20 20 LShared (split_lines ex_bulk)).
Proof. repeat split; vm_compute; (reflexivity || discriminate). Qed.

Lemma toy_simple_nl l c : toy_simple l = Some c -> nl_cmd c = true.
Proof.
  destruct l as [|b l]; cbn; [intros H; inversion H; reflexivity|].
  destruct (N.eqb b 112); [intros H; inversion H; reflexivity|].
  destruct (N.eqb b 114); [intros H; inversion H; reflexivity|].
  destruct (N.eqb b 115); [intros H; inversion H; reflexivity|].
  destruct (N.eqb b 41); intros H; inversion H; reflexivity.
Qed.

(* the toy parser leaves nothing pending and yields reads of whole lines only *)
Lemma toy_group_complete ls : forall acc c p,
  nl_cmd acc = true -> toy_group ls acc = PComplete c p -> p = false /\ nl_cmd c = true.
Proof.
  induction ls as [|l ls IH]; intros acc c p Ha H; cbn [toy_group] in H; [discriminate|].
  destruct l as [|b l]; [discriminate|].
  destruct (N.eqb b 125); [inversion H; subst; split; [reflexivity | exact Ha]|].
  destruct (toy_simple (b :: l)) eqn:Es; [|discriminate].
  eapply IH; [|exact H]. cbn [nl_cmd]. rewrite Ha. exact (toy_simple_nl _ _ Es).
Qed.

Lemma toy_complete sts fed c p : toy sts fed = PComplete c p -> p = false /\ nl_cmd c = true.
Proof.
  unfold toy. destruct fed as [|l rest]; [discriminate|]. destruct l as [|b l].
  - destruct rest; discriminate.
  - destruct (N.eqb b 123).
    + exact (toy_group_complete rest CNop c p eq_refl).
    + destruct rest; [|discriminate]. destruct (toy_simple (b :: l)) eqn:Es; [|discriminate].
      intros H. inversion H; subst. split; [reflexivity | exact (toy_simple_nl _ _ Es)].
Qed.

Example toy_reads_lines : reads_lines toy.
Proof. intros sts fed c p H. exact (proj2 (toy_complete _ _ _ _ H)). Qed.

Example toy_pend_depth : pend_depth toy 1.
Proof. intros sts fed c H. destruct (toy_complete _ _ _ _ H) as [[=] _]. Qed.

(* ------------------------------------------------------------------ *)
(* Text pending in the line buffer: the line "t" stands for a two-line alias
   whose first line is `set -o portable` and whose second line is accepted
   only when `portable` is off.  The second command comes out of the pending
   buffer (nothing is read for it) and is parsed in the state the first one
   left: a syntax error. *)
Definition toy2 (sts : list pstate) (fed : list line) : pres :=
  match sts, fed with
  | [_], [[116; 10]] => PComplete (CPortable true) true
  | [_; st2], [[116; 10]] =>
      if p_portable st2 then PError else PComplete (CProbe [[120]]) false
  | [_], [[]] => PEnd
  | [_], [_ :: _] => PComplete (CProbe [[112]]) false
  | _, _ => PUnknown
  end.

Example ex_pending :
  obs_of_final (model_run toy2 20 20 SrcStdin (chunk [1]%nat [116;10; 112;10]))
    = (1, 2, 2, []) /\
  (* the same two commands when the first does not change the option *)
  obs_of_final (model_run (fun sts fed => match toy2 sts fed with
                                          | PComplete (CPortable _) p => PComplete CNop p
                                          | r => r end)
                          20 20 SrcStdin [[116;10; 112;10]])
    = (0, 0, 4, [Ev 0 [[120]] 0 2; Ev 0 [[112]] 0 4]).
Proof. split; vm_compute; reflexivity. Qed.

(* ------------------------------------------------------------------ *)
(* Nested read-eval loops.  A line starting with `e` is `eval` of the fixed
   four-line text  p / r / ) / p : probe, read a line of the OUTER standard
   input, syntax error, (never reached) probe. *)
Definition toy_inner : list line := [[112;10]; [114;10]; [41;10]; [112;10]].

Definition toyn (sts : list pstate) (fed : list line) : pres :=
  match fed with
  | [101 :: _] => PComplete (CNest (NMem toy_inner)) false
  | _ => toy sts fed
  end.

(* "e\nxy\np\n": the inner probe sees position 2 (after the eval line), the
   inner read takes "xy\n", the inner syntax error interrupts the script: the
   outer `p` never runs; the earlier inner commands have taken effect. *)
Definition ex_nested : list N := [101;10; 120;121;10; 112;10].

Example ex_nested_run :
  obs_of_final (decode_final (nmodel_run toyn 1 30 30 SrcStdin (chunk [1;1;2]%nat ex_nested))) =
  (1, 2, 5, [Ev 0 [[112]] 0 2]).
Proof. vm_compute. reflexivity. Qed.

(* at level 0 the nested loop is not entered: the distinct out-of-fuel value *)
Example ex_nested_level0 :
  f_tag (decode_final (nmodel_run toyn 0 30 30 SrcStdin [ex_nested])) = FOutOfFuel.
Proof. vm_compute. reflexivity. Qed.

Definition ex_x0 : xstate (I:=dev) := mkX (mkSh (mkP [] false) [] 0) [[120;121;10; 112;10]] 2 [].

(* hypotheses of nested_syntax_error_keeps_earlier_effects (k = 2) *)
Example ex_nested_syntax_hyps :
  nsrc_empty (NMem toy_inner) = false /\ (2 < 30)%nat /\
  exists m, iterx_n (byte_ops_at toyn 30 30 0) toyn 2 30
              (mkM ex_x0 (byte_src (NMem toy_inner)) false false [] []) = inl m /\
            x_off (m_x m) = 5 /\
            exists y, iterx (byte_ops_at toyn 30 30 0) toyn 30 m = inr (FSyntax, y).
Proof.
  split; [reflexivity|]. split; [lia|].
  eexists. split; [vm_compute; reflexivity|]. split; [reflexivity|].
  eexists. vm_compute. reflexivity.
Qed.

(* hypotheses of nested_iteration_runs_one_command / nested_parse_leaves_stdin *)
Example ex_nested_iteration_hyps :
  byte_src (NMem toy_inner) <> SrcStdin /\
  exists m', iterx (byte_ops_at toyn 30 30 0) toyn 30
               (mkM ex_x0 (byte_src (NMem toy_inner)) false false [] []) = inl m'.
Proof. split; [discriminate|]. eexists. vm_compute. reflexivity. Qed.
