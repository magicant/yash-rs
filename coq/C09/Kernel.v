(* C09 — a small pure model of the descriptor-table part of a POSIX kernel,
   shaped like yash-env/src/system/virtual{.rs,/process.rs,/file_system.rs}:

     per-process table  fd |-> (open-file-description id, close-on-exec flag)
     (the Rust [BTreeMap<Fd, FdBody>]: kept sorted by descriptor, so that two
     tables with the same bindings are the same list),
     a soft limit RLIMIT_NOFILE on descriptor *numbers* ([Process::set_fd]),
     [open] = lowest unused descriptor, [dup(fd, min, flags)] = lowest unused
     descriptor >= min, [dup2], [close], and a tiny file system (path key |->
     regular file / directory) with the O_CREAT / O_EXCL / O_TRUNC effects and
     the EISDIR rule of [VirtualSystem::resolve_file].

   Every *allocation* of a descriptor additionally consumes one bit of a fault
   list [k_flt]; a [true] bit makes the allocation fail with EMFILE whatever the
   table looks like.  The implementation corresponds to the empty fault list
   (failures then come from the limit only); the theorems hold for every list,
   i.e. for every pattern of allocation failures. *)
From Yv Require Import Common.Base.

Record fdent := mkEnt { e_ofd : N; e_cx : bool }.

Definition fdent_eqb (a b : fdent) : bool :=
  N.eqb (e_ofd a) (e_ofd b) && Bool.eqb (e_cx a) (e_cx b).

Definition table := list (N * fdent).

Fixpoint lookup (t : table) (k : N) : option fdent :=
  match t with
  | [] => None
  | (k', v) :: t' => if N.eqb k' k then Some v else lookup t' k
  end.

(* BTreeMap::insert *)
Fixpoint tset (t : table) (k : N) (v : fdent) : table :=
  match t with
  | [] => [(k, v)]
  | (k', v') :: t' =>
      if N.ltb k k' then (k, v) :: t
      else if N.eqb k k' then (k, v) :: t'
      else (k', v') :: tset t' k v
  end.

(* BTreeMap::remove *)
Fixpoint tdel (t : table) (k : N) : table :=
  match t with
  | [] => []
  | (k', v') :: t' => if N.eqb k k' then t' else (k', v') :: tdel t' k
  end.

Definition keys (t : table) : list N := map fst t.

Fixpoint sorted (t : table) : Prop :=
  match t with
  | [] => True
  | (k, _) :: t' => (forall k', In k' (keys t') -> (k < k')%N) /\ sorted t'
  end.

(* process.rs [min_unused_fd]: the least descriptor >= c that is not a key of
   the (sorted) table *)
Fixpoint min_unused (c : N) (t : table) : N :=
  match t with
  | [] => c
  | (k, _) :: t' =>
      if N.ltb k c then min_unused c t'
      else if N.eqb k c then min_unused (c + 1) t'
      else c
  end.

Definition in_limit (lim : option N) (fd : N) : bool :=
  match lim with None => true | Some l => N.ltb fd l end.

(* every open descriptor is below the limit (true of a process that has not
   lowered its limit below a descriptor it holds) *)
Definition below_limit (lim : option N) (t : table) : Prop :=
  forall k, In k (keys t) -> in_limit lim k = true.

Inductive fref :=
| FPath (p : N)                   (* the file found at path key p when it was opened *)
| FAnon (content : list N) (off : N)    (* unnamed temporary file (here-document) *)
| FAnonDirty                           (* ... after a diagnostic message of unknown text was written to it *)
| FPipe.                               (* one end of a pipe *)

Record ofd := mkOfd { o_file : fref; o_r : bool; o_w : bool; o_app : bool }.

Inductive fnode :=
| Reg (content : list N) (dirty : bool)   (* dirty: a diagnostic message of unknown text was written *)
| Dir.

Definition fsys := list (N * fnode).

Fixpoint fs_get (f : fsys) (p : N) : option fnode :=
  match f with
  | [] => None
  | (p', n) :: f' => if N.eqb p' p then Some n else fs_get f' p
  end.

Fixpoint fs_set (f : fsys) (p : N) (n : fnode) : fsys :=
  match f with
  | [] => [(p, n)]
  | (p', n') :: f' => if N.eqb p' p then (p, n) :: f' else (p', n') :: fs_set f' p n
  end.

Fixpoint ofd_get (l : list (N * ofd)) (i : N) : option ofd :=
  match l with
  | [] => None
  | (i', o) :: l' => if N.eqb i' i then Some o else ofd_get l' i
  end.

Record kst := mkK {
  k_tab : table;
  k_lim : option N;            (* soft RLIMIT_NOFILE, None = infinity *)
  k_flt : list bool;           (* injected allocation failures *)
  k_next : N;                  (* next open-file-description id *)
  k_ofd : list (N * ofd);      (* attributes of the descriptions created so far *)
  k_fs : fsys
}.

Definition with_tab (s : kst) (t : table) : kst :=
  mkK t (k_lim s) (k_flt s) (k_next s) (k_ofd s) (k_fs s).
Definition with_fs (s : kst) (f : fsys) : kst :=
  mkK (k_tab s) (k_lim s) (k_flt s) (k_next s) (k_ofd s) f.
Definition with_lim (s : kst) (l : option N) : kst :=
  mkK (k_tab s) l (k_flt s) (k_next s) (k_ofd s) (k_fs s).

Definition take_fault (s : kst) : bool * kst :=
  match k_flt s with
  | [] => (false, s)
  | b :: f => (b, mkK (k_tab s) (k_lim s) f (k_next s) (k_ofd s) (k_fs s))
  end.

Inductive errno := EBADF | EMFILE | EEXIST | ENOENT | EOTHER.

Inductive res (A : Type) := Ok (a : A) | Err (e : errno).
Arguments Ok {A} a.
Arguments Err {A} e.

(* Process::open_fd_ge + set_fd: the lowest unused descriptor >= min, refused
   at or above the limit.  One fault bit is consumed per call. *)
Definition alloc_fd (s : kst) (min : N) (v : fdent) : kst * res N :=
  let (flt, s1) := take_fault s in
  if flt then (s1, Err EMFILE)
  else
    let c := min_unused min (k_tab s1) in
    if in_limit (k_lim s1) c then (with_tab s1 (tset (k_tab s1) c v), Ok c)
    else (s1, Err EMFILE).

(* Dup::dup *)
Definition k_dup (s : kst) (from min : N) (cx : bool) : kst * res N :=
  match lookup (k_tab s) from with
  | None => (s, Err EBADF)
  | Some e => alloc_fd s min (mkEnt (e_ofd e) cx)
  end.

(* Dup::dup2, on the table alone (the rest of the state is not touched) *)
Definition t_dup2 (lim : option N) (t : table) (from to : N) : table * bool :=
  match lookup t from with
  | None => (t, false)
  | Some e =>
      (* POSIX: if the two descriptors are equal, dup2 returns it without
         closing it or changing its flags *)
      if N.eqb from to then (t, true)
      else if in_limit lim to then (tset t to (mkEnt (e_ofd e) false), true) else (t, false)
  end.

Definition k_dup2 (s : kst) (from to : N) : kst * bool :=
  let (t, ok) := t_dup2 (k_lim s) (k_tab s) from to in (with_tab s t, ok).

(* Close::close (never fails in the virtual system) *)
Definition k_close (s : kst) (fd : N) : kst := with_tab s (tdel (k_tab s) fd).

(* Fcntl::fcntl_getfd ... contains(CloseOnExec); false for a closed descriptor *)
Definition k_cloexec (s : kst) (fd : N) : bool :=
  match lookup (k_tab s) fd with Some e => e_cx e | None => false end.

Definition k_ofd_of (s : kst) (fd : N) : option ofd :=
  match lookup (k_tab s) fd with
  | Some e => ofd_get (k_ofd s) (e_ofd e)
  | None => None
  end.

Inductive pth := PKey (p : N) | PBad.   (* PBad: a path through a regular file (ENOTDIR) *)

Record oflags := mkFl { f_create : bool; f_excl : bool; f_trunc : bool; f_append : bool }.

(* VirtualSystem::resolve_file: the effects on the file system happen before a
   descriptor is allocated *)
Definition k_resolve (f : fsys) (p : pth) (w : bool) (fl : oflags) : fsys * res N :=
  match p with
  | PBad => (f, Err EOTHER)
  | PKey k =>
      match fs_get f k with
      | Some node =>
          if f_excl fl then (f, Err EEXIST)
          else
            match node with
            | Dir => if w then (f, Err EOTHER) (* EISDIR: a directory is opened read-only or not at all *)
                     else (f, Ok k)
            | Reg _ _ => if f_trunc fl then (fs_set f k (Reg [] false), Ok k) else (f, Ok k)
            end
      | None => if f_create fl then (fs_set f k (Reg [] false), Ok k) else (f, Err ENOENT)
      end
  end.

(* a new open file description; its id is returned *)
Definition new_ofd (s : kst) (o : ofd) : kst * N :=
  (mkK (k_tab s) (k_lim s) (k_flt s) (k_next s + 1) ((k_next s, o) :: k_ofd s) (k_fs s), k_next s).

(* Open::open *)
Definition k_open (s : kst) (p : pth) (r w : bool) (fl : oflags) : kst * res N :=
  let (f', rk) := k_resolve (k_fs s) p w fl in
  let s1 := with_fs s f' in
  match rk with
  | Err e => (s1, Err e)
  | Ok k =>
      let (s2, id) := new_ofd s1 (mkOfd (FPath k) r w (f_append fl)) in
      alloc_fd s2 0 (mkEnt id false)
  end.

(* Open::open with O_CLOEXEC, read-only, no other flag (how the shell opens a
   script for its own use) *)
Definition k_open_cx (s : kst) (p : pth) : kst * res N :=
  let (f', rk) := k_resolve (k_fs s) p false (mkFl false false false false) in
  let s1 := with_fs s f' in
  match rk with
  | Err e => (s1, Err e)
  | Ok k =>
      let (s2, id) := new_ofd s1 (mkOfd (FPath k) true false false) in
      alloc_fd s2 0 (mkEnt id true)
  end.

(* Pipe::pipe: reader then writer, each at the lowest unused descriptor; the
   reader is closed again if the writer cannot be allocated *)
Definition k_pipe (s : kst) : kst * res (N * N) :=
  let (s1, rid) := new_ofd s (mkOfd FPipe true false false) in
  let (s2, wid) := new_ofd s1 (mkOfd FPipe false true false) in
  match alloc_fd s2 0 (mkEnt rid false) with
  | (s3, Err e) => (s3, Err e)
  | (s3, Ok r) =>
      match alloc_fd s3 0 (mkEnt wid false) with
      | (s4, Err e) => (k_close s4 r, Err e)
      | (s4, Ok w) => (s4, Ok (r, w))
      end
  end.

(* Open::open_tmpfile followed by here_doc::fill_content (write, lseek 0) *)
Definition k_tmpfile (s : kst) (content : list N) : kst * res N :=
  let (s2, id) := new_ofd s (mkOfd (FAnon content 0) true true false) in
  alloc_fd s2 0 (mkEnt id false).
