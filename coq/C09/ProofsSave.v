(* C09 — the saving step of [perform] (redir.rs: dup(target, MIN_INTERNAL_FD,
   CLOEXEC)) as a failure point of its own.  Here: the limit alone makes it
   fail when no slot is free from 10 on; the lenient variant of [perform] (any
   failure of the saving dup taken as "the target is not open"), and the state
   on which that variant loses a descriptor of the user's while [perform]
   refuses the redirection and changes nothing. *)
From Yv Require Import Common.Base C09.Kernel C09.Model.

Local Open Scope N_scope.

(* the limit alone (no injected failure): no free slot from [min] on *)
Lemma alloc_fd_limit s min v :
  k_flt s = [] -> in_limit (k_lim s) (min_unused min (k_tab s)) = false ->
  alloc_fd s min v = (s, Err EMFILE).
Proof.
  intros Hf Hl. unfold alloc_fd, take_fault. rewrite Hf. cbv zeta. rewrite Hl. reflexivity.
Qed.

(* [perform] with every failure of the saving dup taken as "nothing to save" *)
Definition perform_lenient (nc : bool) (s : kst) (r : redir) : kst * option saved :=
  let target := r_fd r in
  if k_cloexec s target then (s, None)
  else
    let go (s1 : kst) (save : option N) :=
      match apply nc s1 r with
      | (s2, true) => (s2, Some (target, save))
      | (s2, false) => (close_opt s2 save, None)
      end in
    match k_dup s target MIN_INTERNAL_FD true with
    | (s1, Ok sv) => go s1 (Some sv)
    | (s1, Err _) => go s1 None
    end.

(* descriptors 0 1 2 open, descriptor limit 10, path key 4 a regular file *)
Definition lenient_witness : kst :=
  mkK [(0, mkEnt 0 false); (1, mkEnt 1 false); (2, mkEnt 2 false)] (Some 10) [] 3
      [(2, mkOfd (FPath 2) true true false); (1, mkOfd (FPath 1) true true false);
       (0, mkOfd (FPath 0) true true false)]
      [(4, Reg [66; 66] false)].

(* non-vacuity of command_refused_when_no_backup_slot: the witness satisfies its hypotheses
   (descriptor 1 open and visible, no injected failure, no slot at 10 or
   above), and this is what the command does *)
Example command_refused_example :
  exists s', run_cmd false lenient_witness (mkCmd KRegular [mkRedir 1 (BFile FileOut (PKey 4))])
             = (s', None, false) /\ k_tab s' = k_tab lenient_witness
  /\ in_limit (k_lim lenient_witness) (min_unused MIN_INTERNAL_FD (k_tab lenient_witness)) = false.
Proof. eexists. split; [vm_compute; reflexivity|]. split; vm_compute; reflexivity. Qed.
