(* C09 — the model refines the specification: [sim] relates the abstract state
   of Spec.v to the model's process and is kept by every successful [perform]
   (by [perform_step] alone; the backups, being close-on-exec, do not show in
   [view]).  Then: the propositions [explained] (Spec.v), [has_backup]
   (ProofsTab.v) and the like imply the boolean oracle clauses of Spec.v. *)
From Yv Require Import Common.Base C09.Kernel C09.Model C09.Spec C09.ProofsTab.

Local Open Scope N_scope.

(* the abstract state u describes the process s, s0 being the process before
   the first redirection *)
Record sim (s0 s : kst) (u : ust) : Prop := mkSim {
  sim_view : forall fd, view (k_tab s) fd = uget (view (k_tab s0)) u fd;
  sim_fs : k_fs s = u_fs u;
  sim_next : k_next s = u_next u;
  sim_attr : forall id, ofd_get (k_ofd s) id = uattr (ofd_get (k_ofd s0)) u id
}.

Definition ust0 (s : kst) : ust := mkU [] (k_fs s) (k_next s) [].

Lemma sim_init s : sim s s (ust0 s).
Proof. split; reflexivity. Qed.

Lemma view_of_lookup t fd v : lookup t fd = v ->
  view t fd = match v with Some e => if e_cx e then None else Some (e_ofd e) | None => None end.
Proof. intros <-. reflexivity. Qed.

Lemma uget_ufresh base u f n o fd :
  uget base (ufresh u f n o) fd = if N.eqb n fd then Some (u_next u) else uget base u fd.
Proof. unfold uget, ufresh. cbn. destruct (N.eqb n fd); reflexivity. Qed.

Lemma uget_ubind base u n v fd :
  uget base (ubind u n v) fd = if N.eqb n fd then v else uget base u fd.
Proof. unfold uget, ubind. cbn. destruct (N.eqb n fd); reflexivity. Qed.

Lemma uattr_ufresh battr u f n o id :
  uattr battr (ufresh u f n o) id = if N.eqb (u_next u) id then Some o else uattr battr u id.
Proof. unfold uattr, ufresh. cbn. destruct (N.eqb (u_next u) id); reflexivity. Qed.

(* descriptor n now has a description of its own *)
Lemma sim_ufresh s0 s u s' n f' o :
  sim s0 s u -> added_ofd s s' f' o ->
  (forall fd, fd <> n -> view (k_tab s') fd = view (k_tab s) fd) ->
  lookup (k_tab s') n = Some (mkEnt (k_next s) false) ->
  sim s0 s' (ufresh u f' n o).
Proof.
  intros [Sv Sf Sn Sa] [Ef [En Eo]] Hrest Hn. split.
  - intros fd. rewrite uget_ufresh. destruct (N.eqb_spec n fd) as [<-|Hfd].
    + unfold view. rewrite Hn. cbn. rewrite Sn. reflexivity.
    + rewrite Hrest by congruence. apply Sv.
  - exact Ef.
  - rewrite En, Sn. reflexivity.
  - intros id. rewrite Eo, uattr_ufresh. cbn [ofd_get]. rewrite Sn.
    destruct (N.eqb (u_next u) id); [reflexivity|apply Sa].
Qed.

(* descriptor n is now what the user sees as v; no new description *)
Lemma sim_ubind s0 s u s' n v :
  sim s0 s u -> frame s s' ->
  (forall fd, fd <> n -> view (k_tab s') fd = view (k_tab s) fd) ->
  view (k_tab s') n = v ->
  sim s0 s' (ubind u n v).
Proof.
  intros [Sv Sf Sn Sa] [_ [En [Eo Ef]]] Hrest Hn. split; cbn; try congruence.
  - intros fd. rewrite uget_ubind. destruct (N.eqb_spec n fd) as [<-|Hfd]; [exact Hn|].
    rewrite Hrest by congruence. apply Sv.
  - intros id. rewrite Eo. apply Sa.
Qed.

Lemma step_sim nc s0 s u r s' n save :
  wf s -> sim s0 s u -> perform nc s r = (s', Some (n, save)) ->
  exists u', spec_redir (view (k_tab s0)) (ofd_get (k_ofd s0)) nc u r = Some u' /\ sim s0 s' u'.
Proof.
  intros Hwf Hsim Hp. apply perform_step in Hp; [|assumption].
  destruct Hp as [_ [_ [-> [_ [Hval [Hkeep Hsave]]]]]].
  (* the backup, being close-on-exec, is invisible: as far as the user can
     see only the target has changed *)
  assert (forall fd, fd <> r_fd r -> view (k_tab s') fd = view (k_tab s) fd) as Hrest.
  { intros fd Hfd. unfold view. destruct save as [sv|]; [|rewrite Hkeep by congruence; reflexivity].
    destruct (N.eq_dec fd sv) as [->|Hsv]; [|rewrite Hkeep by congruence; reflexivity].
    destruct Hsave as [en [_ [_ [-> [_ [_ ->]]]]]]. reflexivity. }
  pose proof Hsim as [Sv Sf _ Sa]. unfold spec_redir.
  destruct (r_body r) as [op p|op [m| |]|c|]; cbn [step_val] in Hval; try contradiction.
  - destruct Hval as [f' [o [Hsn [Hd Ev]]]]. rewrite <- Sf, Hsn.
    eexists. split; [destruct op; reflexivity|]. eapply sim_ufresh; eassumption.
  - (* n<&m *)
    destruct Hval as [Hf [e [o [Hm [Hcxm [Hofd [Hacc Ev]]]]]]].
    assert (uget (view (k_tab s0)) u m = Some (e_ofd e)) as ->
      by (rewrite <- Sv; unfold view; rewrite Hm, Hcxm; reflexivity).
    rewrite <- Sa, Hofd, Hacc. eexists. split; [reflexivity|].
    eapply sim_ubind; try eassumption. unfold view. rewrite Ev. reflexivity.
  - (* n<&- *)
    destruct Hval as [Hf Ev]. eexists. split; [reflexivity|].
    eapply sim_ubind; try eassumption. unfold view. rewrite Ev. reflexivity.
  - destruct Hval as [f' [o [Hsn [Hd Ev]]]]. rewrite <- Sf, Hsn.
    eexists. split; [reflexivity|]. eapply sim_ufresh; eassumption.
Qed.

Lemma perform_redirs_sim nc s0 rs :
  forall s stack u s' stack',
    wf s -> sim s0 s u -> perform_redirs nc s rs stack = (s', stack', true) ->
    exists u', spec_redirs (view (k_tab s0)) (ofd_get (k_ofd s0)) nc u rs = Some u' /\ sim s0 s' u'.
Proof.
  induction rs as [|r rs IH]; intros s stack u s' stack' Hwf Hsim; cbn [perform_redirs spec_redirs].
  - intros E. injection E as <- _. eauto.
  - destruct (perform nc s r) as [s1 [[n save]|]] eqn:Hp; [|discriminate].
    pose proof (perform_step _ _ _ _ _ Hwf Hp) as [Hwf1 _].
    destruct (step_sim _ _ _ _ _ _ _ _ Hwf Hsim Hp) as [u1 [Hs1 Hsim1]].
    rewrite Hs1. intros Hrs. eapply IH; eassumption.
Qed.

Lemma fdent_eqb_refl e : fdent_eqb e e = true.
Proof. unfold fdent_eqb. rewrite N.eqb_refl, Bool.eqb_reflx. reflexivity. Qed.

Lemma ent_opt_eqb_refl a : ent_opt_eqb a a = true.
Proof. destruct a; cbn; [apply fdent_eqb_refl|reflexivity]. Qed.

Lemma restored_refl t : restored t t = true.
Proof. unfold restored. apply forallb_forall. intros fd _. apply ent_opt_eqb_refl. Qed.

Lemma mem_In x l : In x l -> mem x l = true.
Proof. intros H. unfold mem. apply existsb_exists. exists x. split; [exact H|apply N.eqb_refl]. Qed.

Lemma explained_internal_ok tg t0 t : explained tg t0 t -> internal_ok tg t0 t = true.
Proof.
  intros H. unfold internal_ok. apply forallb_forall. intros fd _.
  destruct (H fd) as [E|E].
  - rewrite E, ent_opt_eqb_refl. reflexivity.
  - apply orb_true_iff. right. destruct (lookup t fd) as [e|]; [|apply mem_In; exact E].
    destruct (e_cx e); [|apply mem_In; exact E].
    destruct E as [Hge Hor]. apply andb_true_iff. split; [apply N.leb_le; exact Hge|].
    destruct Hor as [Hin|Hn]; [rewrite (mem_In _ _ Hin); reflexivity|rewrite Hn; apply orb_true_r].
Qed.

Lemma has_backup_ok tg t0 t :
  (forall fd e, In fd tg -> lookup t0 fd = Some e -> has_backup t e) -> backup_ok tg t0 t = true.
Proof.
  intros H. unfold backup_ok. apply forallb_forall. intros fd Hin.
  destruct (lookup t0 fd) as [e|] eqn:Hl; [|reflexivity].
  destruct (H fd e Hin Hl) as [sv [esv [A [B [C D]]]]].
  apply existsb_exists. exists (sv, esv). split; [apply lookup_In; exact A|].
  cbn [fst snd]. rewrite C, D, N.eqb_refl. apply N.leb_le in B. rewrite B. reflexivity.
Qed.

Lemma persisted_ok_intro tg t0 t :
  (forall fd, ~ In fd tg -> lookup t fd = lookup t0 fd) ->
  (forall fd, In fd tg -> not_cx (lookup t fd)) ->
  persisted_ok tg t0 t = true.
Proof.
  intros Hout Hin. unfold persisted_ok. apply forallb_forall. intros fd _.
  destruct (in_dec N.eq_dec fd tg) as [H|H].
  - apply orb_true_iff. right. rewrite (mem_In _ _ H). specialize (Hin fd H).
    destruct (lookup t fd) as [e|]; [rewrite (Hin e eq_refl)|]; reflexivity.
  - rewrite (Hout fd H), ent_opt_eqb_refl. reflexivity.
Qed.
