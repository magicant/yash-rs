(* C09 — the property theorems, each read off the general lemmas of
   Proofs*.v in a few lines (those about symbolic links off the lemmas about
   Symlink.v, which stand with them); the driver pins the statements with
   [Check] and prints the assumptions on every run.

   Reading guide.  [s] is a process of the kernel model (Kernel.v): descriptor
   table, descriptor limit, a list of injected allocation failures, the files.
   All theorems quantify over every such process whose table is a map
   ([sorted], the BTreeMap invariant) and holds no descriptor at or above its
   limit ([below_limit]) - in particular over every limit and over every
   pattern of allocation failures, so over every point at which a redirection
   can fail - over both settings of noclobber [nc], and over every list of
   redirections [rs]. *)
From Yv Require Import Common.Base C09.Kernel C09.Model C09.Spec C09.Symlink
  C09.ProofsTab C09.ProofsSpec C09.ProofsProgress C09.ProofsScript C09.ProofsSave.
From Yv Require Import Gen.Gen_Consts.

(* the kernel model allocates the least unused descriptor *)
Theorem min_unused_spec : forall c t,
  sorted t ->
  lookup t (min_unused c t) = None /\ (c <= min_unused c t)%N
  /\ forall x, (c <= x < min_unused c t)%N -> lookup t x <> None.
Proof.
  intros c t Hs. split; [apply min_unused_fresh; exact Hs|]. split; [apply min_unused_ge|].
  intros x Hx. eapply min_unused_least; eassumption.
Qed.

(* perform_redirs, stopped by an error or not, followed by undo_redirs (what
   dropping the RedirGuard does) gives back the table: same descriptors, same
   open file descriptions, same flags. *)
Theorem undo_restores : forall nc s rs s' stack ok,
  sorted (k_tab s) -> below_limit (k_lim s) (k_tab s) ->
  perform_redirs nc s rs [] = (s', stack, ok) ->
  forall fd, lookup (k_tab (undo_redirs s' stack)) fd = lookup (k_tab s) fd.
Proof.
  intros nc s rs s' stack ok Hs Hb Hp fd.
  destruct (undo_restores_wf _ _ _ _ _ _ (conj Hs Hb) Hp _ (same_table_refl s')) as [-> _]. reflexivity.
Qed.

Theorem undo_restores_table : forall nc s rs s' stack ok,
  sorted (k_tab s) -> below_limit (k_lim s) (k_tab s) ->
  perform_redirs nc s rs [] = (s', stack, ok) ->
  k_tab (undo_redirs s' stack) = k_tab s.
Proof.
  intros nc s rs s' stack ok Hs Hb Hp.
  exact (proj1 (undo_restores_wf _ _ _ _ _ _ (conj Hs Hb) Hp _ (same_table_refl s'))).
Qed.

(* a redirection that fails leaves nothing behind (the saved copy is closed) *)
Theorem failed_redir_changes_nothing : forall nc s r s',
  sorted (k_tab s) -> below_limit (k_lim s) (k_tab s) ->
  perform nc s r = (s', None) -> k_tab s' = k_tab s.
Proof.
  intros nc s r s' Hs Hb Hp. exact (proj1 (proj2 (proj2 (perform_step _ _ _ _ _ (conj Hs Hb) Hp)))).
Qed.

(* the hypotheses are invariants *)
Theorem redirs_keep_table_wellformed : forall nc s rs s' stack ok,
  sorted (k_tab s) -> below_limit (k_lim s) (k_tab s) ->
  perform_redirs nc s rs [] = (s', stack, ok) ->
  sorted (k_tab s') /\ below_limit (k_lim s') (k_tab s') /\ k_lim s' = k_lim s.
Proof.
  intros nc s rs s' stack ok Hs Hb Hp.
  destruct (perform_redirs_guard0 _ _ _ _ _ _ (conj Hs Hb) Hp) as [[A B] [C _]]. auto.
Qed.

(* ... also of whole commands, exec included: the hypotheses hold again for the
   next command of the script *)
Theorem command_keeps_table_wellformed : forall nc s c s' inside ex,
  sorted (k_tab s) -> below_limit (k_lim s) (k_tab s) ->
  run_cmd nc s c = (s', inside, ex) ->
  sorted (k_tab s') /\ below_limit (k_lim s') (k_tab s').
Proof. intros nc s c s' inside ex Hs Hb Hr. exact (run_cmd_wf _ _ _ _ _ _ (conj Hs Hb) Hr). Qed.

(* every kind of command, however it ends: the shell's table afterwards is the
   table before, except after an exec whose redirections succeeded *)
Theorem command_restores_table : forall nc s c s' inside ex,
  sorted (k_tab s) -> below_limit (k_lim s) (k_tab s) ->
  run_cmd nc s c = (s', inside, ex) ->
  exec_like (c_kind c) = false \/ snd (perform_redirs nc s (c_redirs c) []) = false ->
  k_tab s' = k_tab s /\ k_lim s' = k_lim s.
Proof.
  intros nc s c s' inside ex Hs Hb Hr Hk. exact (run_cmd_restores _ _ _ _ _ _ (conj Hs Hb) Hr Hk).
Qed.

(* exec, with or without an operand (an operand that cannot be invoked: the
   shell goes on if it is interactive and exits otherwise): redirections that
   succeeded are kept, exactly the same table in both cases *)
Theorem exec_keeps_successful_redirections : forall nc s c s' inside ex s1 stack,
  exec_like (c_kind c) = true ->
  perform_redirs nc s (c_redirs c) [] = (s1, stack, true) ->
  run_cmd nc s c = (s', inside, ex) ->
  k_tab s' = k_tab (preserve_redirs s1 stack) /\ k_lim s' = k_lim s1
  /\ ex = match c_kind c with KExecFail false => true | _ => false end.
Proof.
  intros nc s c s' inside ex s1 stack Hk Hp Hr.
  destruct (run_cmd_exec _ _ _ _ _ _ _ _ Hk Hp Hr) as [[Et El] Hex]. exact (conj Et (conj El Hex)).
Qed.

(* command_restores_table for the items of a script (Model.v [item]), nested
   to any depth: a compound command or function with redirections whose body
   is a list of further items, a script read with `.` or `command .` (the
   shell opens a descriptor of its own for it), a command with a command
   substitution (a pipe), a pipeline - if nothing in it is meant to persist
   ([transient]: no exec, no change of the limit).  Whether the body runs to
   its end, a redirection is refused, the script cannot be opened or moved to
   10 or above, a pipe cannot be made, or the shell exits from inside it. *)
Theorem script_item_restores_table : forall i sh steps sh' ex,
  sorted (k_tab (sh_k sh)) -> below_limit (k_lim (sh_k sh)) (k_tab (sh_k sh)) ->
  transient i = true -> run_item sh i = (steps, sh', ex) ->
  k_tab (sh_k sh') = k_tab (sh_k sh) /\ k_lim (sh_k sh') = k_lim (sh_k sh).
Proof.
  intros i sh steps sh' ex Hs Hb Ht Hr. exact (item_restores i sh steps sh' ex (conj Hs Hb) Ht Hr).
Qed.

(* descriptor 15 open above a limit of 12 (the limit was lowered while it was
   open) *)
Definition limit_witness : kst :=
  mkK [(0%N, mkEnt 0 false); (15%N, mkEnt 1 false)] (Some 12%N) [] 2
      [(1%N, mkOfd (FPath 1) true true false); (0%N, mkOfd (FPath 0) true true false)] [].

(* the limit hypothesis cannot be dropped: 15<&- on that process loses
   descriptor 15, because dup2 cannot put a descriptor back at or above the
   limit *)
Theorem undo_restores_needs_limit_refuted :
  exists nc s rs s' stack ok,
    sorted (k_tab s) /\ perform_redirs nc s rs [] = (s', stack, ok)
    /\ lookup (k_tab (undo_redirs s' stack)) 15%N <> lookup (k_tab s) 15%N.
Proof.
  exists false, limit_witness, [mkRedir 15 (BDup FdIn DClose)].
  eexists. eexists. eexists. split; [|split; [vm_compute; reflexivity|vm_compute; discriminate]].
  cbn. repeat split; intros k' H; cbn in H; intuition lia.
Qed.

(* If the list is performed successfully, the specification (left fold of the
   operators' meanings over the user-visible table) also succeeds, and the
   command sees exactly the table, the files and the descriptions it gives. *)
Theorem redirs_applied_in_order : forall nc s rs s' stack,
  sorted (k_tab s) -> below_limit (k_lim s) (k_tab s) ->
  perform_redirs nc s rs [] = (s', stack, true) ->
  exists u, spec_redirs (view (k_tab s)) (ofd_get (k_ofd s)) nc
                        (mkU [] (k_fs s) (k_next s) []) rs = Some u
            /\ (forall fd, view (k_tab s') fd = uget (view (k_tab s)) u fd)
            /\ k_fs s' = u_fs u
            /\ (forall id, ofd_get (k_ofd s') id = uattr (ofd_get (k_ofd s)) u id).
Proof.
  intros nc s rs s' stack Hs Hb Hp.
  destruct (perform_redirs_sim nc s rs s [] (ust0 s) s' stack (conj Hs Hb) (sim_init s) Hp)
    as [u [Hu [A B _ D]]].
  exists u. repeat split; assumption.
Qed.

(* ... and conversely (progress): with no descriptor limit and no allocation
   failure, the shell's own descriptors at 10 or above and a list that only
   names descriptors 0..9, a list the specification accepts is performed. *)
Theorem redirs_succeed_when_unconstrained : forall nc s rs u,
  sorted (k_tab s) -> k_lim s = None -> k_flt s = [] ->
  (forall fd e, lookup (k_tab s) fd = Some e -> e_cx e = true -> (10 <= fd)%N) ->
  portable rs = true ->
  spec_redirs (view (k_tab s)) (ofd_get (k_ofd s)) nc (mkU [] (k_fs s) (k_next s) []) rs = Some u ->
  exists s' stack, perform_redirs nc s rs [] = (s', stack, true).
Proof.
  intros nc s rs u Hs Hl Hf Hhigh Hport Hspec.
  assert (wf s) as Hwf by (split; [exact Hs|rewrite Hl; intros k' _; reflexivity]).
  eapply perform_redirs_unc; try eassumption; [split; assumption|apply sim_init].
Qed.

(* noclobber: > on an existing regular file is refused; table and files are
   untouched *)
Theorem noclobber_refuses_existing_regular : forall s r k c d,
  sorted (k_tab s) -> below_limit (k_lim s) (k_tab s) ->
  r_body r = BFile FileOut (PKey k) -> fs_get (k_fs s) k = Some (Reg c d) ->
  exists s', perform true s r = (s', None) /\ k_tab s' = k_tab s /\ k_fs s' = k_fs s.
Proof.
  intros s r k c d Hs Hb Hbody Hreg.
  (* the specification's open refuses, so [perform] can neither have succeeded
     nor have failed after opening the file *)
  assert (forall f' o, spec_new true (k_fs s) (r_body r) <> Some (f', o)) as Hno
    by (intros f' o; rewrite Hbody; cbn; rewrite Hreg; discriminate).
  destruct (perform true s r) as [s' [[n save]|]] eqn:Hp; apply perform_step in Hp; try (split; assumption).
  - exfalso. destruct Hp as [_ [_ [_ [_ [Hval _]]]]]. rewrite Hbody in Hval. destruct Hval as [f' [o [Hsn _]]].
    rewrite <- Hbody in Hsn. exact (Hno _ _ Hsn).
  - exists s'. destruct Hp as [_ [_ [Et [Ef|[f' [o [Hsn _]]]]]]]; [auto|destruct (Hno _ _ Hsn)].
Qed.

(* noclobber through symbolic links (model Symlink.v: the algorithm of
   open_file_noclobber over POSIX open(2) with links; not tied to the code on
   the simulated OS, which does not follow links - C19 finding F41) *)
Lemma lresolve_exists fuel f name r : lresolve fuel f name = Some r -> f name <> None.
Proof. intros H E. destruct fuel; cbn in H; rewrite E in H; discriminate. Qed.

(* once the name exists, the answer depends only on where it resolves to *)
Lemma noclobber_open_resolved fuel f name r :
  lresolve fuel f name = Some r ->
  noclobber_open fuel f name =
  match r with
  | Found _ ((LFifo | LDev | LLink _) as n) => Opened n
  | _ => Refused
  end.
Proof.
  intros H. pose proof (lresolve_exists _ _ _ _ H) as Hex. unfold noclobber_open. rewrite H.
  destruct (f name); [|congruence]. destruct r as [final []| |]; reflexivity.
Qed.

(* a name that resolves, through any chain of links, to an existing regular
   file is refused *)
Theorem link_noclobber_refuses_regular : forall fuel f name final,
  lresolve fuel f name = Some (Found final LReg) -> noclobber_open fuel f name = Refused.
Proof. intros fuel f name final H. exact (noclobber_open_resolved _ _ _ _ H). Qed.

(* ... a FIFO or a device behind links is opened as it is ... *)
Theorem link_noclobber_opens_fifo_and_device : forall fuel f name final n,
  lresolve fuel f name = Some (Found final n) -> n = LFifo \/ n = LDev ->
  noclobber_open fuel f name = Opened n.
Proof. intros fuel f name final n H [-> | ->]; exact (noclobber_open_resolved _ _ _ _ H). Qed.

(* ... a missing name is created; a directory, a dangling link and a cycle of
   links are refused *)
Theorem link_noclobber_other_cases : forall fuel f name,
  (f name = None -> noclobber_open fuel f name = Created)
  /\ (forall final, lresolve fuel f name = Some (Found final LDir) -> noclobber_open fuel f name = Refused)
  /\ (lresolve fuel f name = Some Dangling -> noclobber_open fuel f name = Refused)
  /\ (lresolve fuel f name = Some Loop -> noclobber_open fuel f name = Refused).
Proof.
  intros fuel f name. split; [intros H; unfold noclobber_open; rewrite H; reflexivity|].
  split; [intros final H|split; intros H]; exact (noclobber_open_resolved _ _ _ _ H).
Qed.

(* name 1 -> name 2 -> name 3, a regular file *)
Definition chain_fs : lfs :=
  fun n => match n with
           | 1%N => Some (LLink 2) | 2%N => Some (LLink 3) | 3%N => Some LReg
           | _ => None
           end.

(* examining the name (lstat) instead of the opened file is wrong: a link to a
   regular file would be overwritten *)
Theorem link_noclobber_lstat_variant_refuted :
  exists fuel f name final,
    lresolve fuel f name = Some (Found final LReg)
    /\ noclobber_open fuel f name = Refused
    /\ noclobber_open_lstat fuel f name = Opened LReg.
Proof. exists 8%nat, chain_fs, 1%N, 3%N. repeat split. Qed.

(* The content is [explained] (Spec.v), the proposition behind oracle clause I
   (verdict 4); also for a list that stops at a failure. *)
Theorem internal_fds_ge_10_cloexec : forall nc s rs s' stack ok,
  sorted (k_tab s) -> below_limit (k_lim s) (k_tab s) ->
  perform_redirs nc s rs [] = (s', stack, ok) ->
  explained (targets rs) (k_tab s) (k_tab s').
Proof.
  intros nc s rs s' stack ok Hs Hb Hp.
  destruct (perform_redirs_guard0 _ _ _ _ _ _ (conj Hs Hb) Hp) as [_ [_ [Hg [Hsub _]]]].
  exact (guard_explained _ _ _ _ _ Hg Hsub).
Qed.

(* the stack discipline: a saved descriptor stays open, close-on-exec, >= 10,
   different from its original and from every other saved descriptor ... *)
Theorem saved_fds_intact : forall nc s rs s' stack ok orig sv,
  sorted (k_tab s) -> below_limit (k_lim s) (k_tab s) ->
  perform_redirs nc s rs [] = (s', stack, ok) -> In (orig, Some sv) stack ->
  (exists e, lookup (k_tab s') sv = Some e /\ e_cx e = true) /\ (10 <= sv)%N /\ sv <> orig
  /\ NoDup (saves stack).
Proof.
  intros nc s rs s' stack ok orig sv Hs Hb Hp Hin.
  destruct (perform_redirs_guard0 _ _ _ _ _ _ (conj Hs Hb) Hp) as [_ [_ [Hg _]]].
  destruct (g_save _ _ _ _ Hg sv) as [A [B _]]; [apply in_saves; eauto|].
  repeat split; [exact A|exact B| |exact (g_nodup _ _ _ _ Hg)].
  intros ->. exact (g_ne _ _ _ _ Hg _ Hin).
Qed.

(* ... because a redirection whose target is a saved descriptor is refused *)
Theorem saved_fd_never_target : forall nc nc' s rs s' stack ok orig sv r,
  sorted (k_tab s) -> below_limit (k_lim s) (k_tab s) ->
  perform_redirs nc s rs [] = (s', stack, ok) -> In (orig, Some sv) stack ->
  r_fd r = sv -> perform nc' s' r = (s', None).
Proof.
  intros nc nc' s rs s' stack ok orig sv r Hs Hb Hp Hin Hr.
  destruct (saved_fds_intact _ _ _ _ _ _ _ _ Hs Hb Hp Hin) as [[e [He Hcx]] _].
  unfold perform, k_cloexec. rewrite Hr, He, Hcx. reflexivity.
Qed.

(* assert_ne!(save, original) in undo_redirs never fires *)
Theorem undo_never_panics : forall nc s rs s' stack ok,
  sorted (k_tab s) -> below_limit (k_lim s) (k_tab s) ->
  perform_redirs nc s rs [] = (s', stack, ok) -> undo_panics stack = false.
Proof.
  intros nc s rs s' stack ok Hs Hb Hp.
  destruct (perform_redirs_guard0 _ _ _ _ _ _ (conj Hs Hb) Hp) as [_ [_ [Hg _]]].
  exact (guard_no_panic _ _ _ _ Hg).
Qed.

(* move_fd_internal: whether or not the copy at 10 or above can be made, the
   low descriptor it was opened at does not stay behind *)
Theorem move_fd_internal_leaves_nothing_behind : forall s from e s' res,
  sorted (k_tab s) -> below_limit (k_lim s) (k_tab s) ->
  lookup (k_tab s) from = Some e -> move_fd_internal s from = (s', res) ->
  k_lim s' = k_lim s /\
  match res with
  | Ok fd =>
      if N.leb 10 from then fd = from /\ k_tab s' = k_tab s
      else (10 <= fd)%N /\ lookup (k_tab s) fd = None
           /\ k_tab s' = tdel (tset (k_tab s) fd (mkEnt (e_ofd e) true)) from
  | Err _ => (from < 10)%N /\ k_tab s' = tdel (k_tab s) from
  end.
Proof.
  intros s from e s' res Hs Hb Hf Hm. exact (proj2 (move_fd_internal_tab _ _ _ _ _ (conj Hs Hb) Hf Hm)).
Qed.

(* opening a script (`.`, start-up): exactly one new descriptor, close-on-exec,
   at 10 or above - or, on any failure, no change at all *)
Theorem open_internal_all_or_nothing : forall s p s' r,
  sorted (k_tab s) -> below_limit (k_lim s) (k_tab s) ->
  open_internal s p = (s', r) ->
  k_lim s' = k_lim s /\
  match r with
  | None => k_tab s' = k_tab s
  | Some fd => (10 <= fd)%N /\ lookup (k_tab s) fd = None
               /\ exists id, k_tab s' = tset (k_tab s) fd (mkEnt id true)
  end.
Proof. intros s p s' r Hs Hb Ho. exact (proj2 (open_internal_tab _ _ _ _ (conj Hs Hb) Ho)). Qed.

(* pipe(2): two new descriptors or none *)
Theorem pipe_all_or_nothing : forall s s' res,
  sorted (k_tab s) -> below_limit (k_lim s) (k_tab s) ->
  k_pipe s = (s', res) ->
  k_lim s' = k_lim s /\
  match res with
  | Ok (r, w) =>
      r <> w /\ lookup (k_tab s) r = None /\ lookup (k_tab s) w = None
      /\ exists e1 e2, k_tab s' = tset (tset (k_tab s) r e1) w e2
  | Err _ => k_tab s' = k_tab s
  end.
Proof. intros s s' res Hs Hb Hp. exact (proj2 (k_pipe_tab _ _ _ (conj Hs Hb) Hp)). Qed.

(* a pipeline leaves the parent's table as it was, whether or not every pipe
   can be made (when one cannot, the read end of the previous pipe is closed
   too) *)
Theorem pipeline_restores_table : forall s n s' children ok,
  sorted (k_tab s) -> below_limit (k_lim s) (k_tab s) ->
  run_pipeline s n = (s', children, ok) ->
  k_tab s' = k_tab s /\ k_lim s' = k_lim s.
Proof. intros s n s' children ok Hs Hb Hr. exact (pipeline_restores _ _ _ _ _ (conj Hs Hb) Hr). Qed.

Theorem preserve_keeps_only_targets : forall nc s rs s' stack ok fd,
  sorted (k_tab s) -> below_limit (k_lim s) (k_tab s) ->
  perform_redirs nc s rs [] = (s', stack, ok) -> ~ In fd (targets rs) ->
  lookup (k_tab (preserve_redirs s' stack)) fd = lookup (k_tab s) fd.
Proof.
  intros nc s rs s' stack ok fd Hs Hb Hp Hnt.
  destruct (perform_redirs_guard0 _ _ _ _ _ _ (conj Hs Hb) Hp) as [[Hs' _] [_ [Hg [Hsub _]]]].
  destruct (guard_preserve _ _ _ _ fd Hs' Hg) as [A _]. apply A. intros Ho. apply Hnt, Hsub, Ho.
Qed.

Theorem preserve_keeps_view : forall nc s rs s' stack ok fd,
  sorted (k_tab s) -> below_limit (k_lim s) (k_tab s) ->
  perform_redirs nc s rs [] = (s', stack, ok) ->
  view (k_tab (preserve_redirs s' stack)) fd = view (k_tab s') fd.
Proof.
  intros nc s rs s' stack ok fd Hs Hb Hp.
  destruct (perform_redirs_guard0 _ _ _ _ _ _ (conj Hs Hb) Hp) as [[Hs' _] [_ [Hg _]]].
  exact (proj1 (proj2 (guard_preserve _ _ _ _ fd Hs' Hg))).
Qed.

(* The oracle's clauses R, I, P of Spec.v (verdicts 2, 4, 3) accept every
   [run_cmd] of the model: a verdict of that kind on the implementation is
   never the oracle asking for more than the theorems give. *)

Theorem oracle_restored_sound : forall nc s c s' inside ex,
  sorted (k_tab s) -> below_limit (k_lim s) (k_tab s) ->
  run_cmd nc s c = (s', inside, ex) ->
  exec_like (c_kind c) = false \/ snd (perform_redirs nc s (c_redirs c) []) = false ->
  restored (k_tab s) (k_tab s') = true.
Proof.
  intros nc s c s' inside ex Hs Hb Hr Hk.
  destruct (command_restores_table _ _ _ _ _ _ Hs Hb Hr Hk) as [-> _]. apply restored_refl.
Qed.

Theorem oracle_internal_sound : forall nc s c s' si ex,
  sorted (k_tab s) -> below_limit (k_lim s) (k_tab s) ->
  c_kind c <> KAsync ->
  run_cmd nc s c = (s', Some si, ex) ->
  internal_ok (targets (c_redirs c)) (k_tab s) (k_tab si) = true.
Proof.
  intros nc s c s' si ex Hs Hb Hk Hr. apply run_cmd_inside in Hr; [|exact Hk]. destruct Hr as [stack Hp].
  apply explained_internal_ok. exact (internal_fds_ge_10_cloexec _ _ _ _ _ _ Hs Hb Hp).
Qed.

Theorem oracle_persisted_sound : forall nc s c s' inside ex s1 stack,
  sorted (k_tab s) -> below_limit (k_lim s) (k_tab s) ->
  exec_like (c_kind c) = true ->
  perform_redirs nc s (c_redirs c) [] = (s1, stack, true) ->
  run_cmd nc s c = (s', inside, ex) ->
  persisted_ok (targets (c_redirs c)) (k_tab s) (k_tab s') = true.
Proof.
  intros nc s c s' inside ex s1 stack Hs Hb Hk Hp Hr.
  destruct (run_cmd_exec _ _ _ _ _ _ _ _ Hk Hp Hr) as [[-> _] _].
  destruct (perform_redirs_guard0 _ _ _ _ _ _ (conj Hs Hb) Hp) as [[Hs1 _] [_ [Hg [Hsub Hsup]]]].
  apply persisted_ok_intro; intros fd Hfd; destruct (guard_preserve _ _ _ _ fd Hs1 Hg) as [A [_ B]].
  - apply A. intros Ho. apply Hfd, Hsub, Ho.
  - apply B, (Hsup eq_refl), Hfd.
Qed.

(* redir.rs perform: dup(target, MIN_INTERNAL_FD, CLOEXEC) fails although the
   target is open (no descriptor can be allocated: the limit, or an injected
   failure): the redirection is refused - it is NOT applied without a backup -
   and neither the table nor the files have changed *)
Theorem save_failure_refuses : forall nc s r en s1 e, lookup (k_tab s) (r_fd r) = Some en -> e_cx en = false -> alloc_fd s MIN_INTERNAL_FD (mkEnt (e_ofd en) true) = (s1, Err e) -> perform nc s r = (s1, None) /\ k_tab s1 = k_tab s /\ k_fs s1 = k_fs s.
Proof.
  intros nc s r en s1 e Hl Hcx Ha. pose proof (alloc_fd_spec _ _ _ _ _ Ha) as [[_ [_ [_ Efs]]] [Et ->]].
  unfold perform, k_cloexec, k_dup. rewrite Hl, Hcx, Ha. auto.
Qed.

(* `ulimit -n 10; echo x >file; echo still-here`: the first target is open and
   there is no slot at 10 or above for its backup: a command that does not end
   the shell does not run, the shell goes on, the table is the one before *)
Theorem command_refused_when_no_backup_slot : forall nc s c r rs en s' inside ex, c_redirs c = r :: rs -> lookup (k_tab s) (r_fd r) = Some en -> e_cx en = false -> k_flt s = [] -> in_limit (k_lim s) (min_unused MIN_INTERNAL_FD (k_tab s)) = false -> match c_kind c with KRegular | KFunction | KGroup | KSubshell | KNotFound => True | _ => False end -> run_cmd nc s c = (s', inside, ex) -> inside = None /\ ex = false /\ k_tab s' = k_tab s /\ k_lim s' = k_lim s.
Proof.
  intros nc s c r rs en s' inside ex Hc Hl Hcx Hf Hlim Hk. unfold run_cmd. rewrite Hc. cbn [perform_redirs].
  rewrite (proj1 (save_failure_refuses nc s r en s EMFILE Hl Hcx (alloc_fd_limit _ _ _ Hf Hlim))).
  pose proof (stderr_write_tab s) as [Et El].
  destruct (c_kind c); try contradiction; intros E; injection E as <- <- <-;
    (split; [reflexivity|]; split; [reflexivity|]); cbn; rewrite ?Et, ?El; split; reflexivity.
Qed.

(* a successful perform records no backup exactly when the target was closed;
   otherwise the backup is a fresh descriptor at 10 or above, close-on-exec, on
   the description the target had *)
Theorem backup_iff_target_open : forall nc s r s' n save, sorted (k_tab s) -> below_limit (k_lim s) (k_tab s) -> perform nc s r = (s', Some (n, save)) -> n = r_fd r /\ match save with | None => lookup (k_tab s) n = None | Some sv => exists en, lookup (k_tab s) n = Some en /\ e_cx en = false /\ lookup (k_tab s) sv = None /\ (10 <= sv)%N /\ sv <> n /\ lookup (k_tab s') sv = Some (mkEnt (e_ofd en) true) end.
Proof.
  intros nc s r s' n save Hs Hb Hp. apply perform_step in Hp; [|split; assumption].
  destruct Hp as [_ [_ [Hn [_ [_ [_ Hsave]]]]]]. exact (conj Hn Hsave).
Qed.

(* so the closing branch of undo_redirs only closes what was closed before *)
Theorem undo_closes_only_closed : forall nc s r s' n, sorted (k_tab s) -> below_limit (k_lim s) (k_tab s) -> perform nc s r = (s', Some (n, None)) -> lookup (k_tab s) n = None /\ lookup (undo_one (k_lim s') (k_tab s') (n, None)) n = lookup (k_tab s) n.
Proof.
  intros nc s r s' n Hs Hb Hp. apply perform_step in Hp; [|split; assumption].
  destruct Hp as [[Hs' _] [_ [_ [_ [_ [_ Hc]]]]]]. split; [exact Hc|]. rewrite Hc. cbn [undo_one].
  rewrite lookup_tdel by exact Hs'. rewrite N.eqb_refl. reflexivity.
Qed.

(* after a list of redirections has been performed, every target that was open
   before has a backup among the shell's own descriptors, on the description it
   had before the first redirection *)
Theorem backups_while_running : forall nc s rs s' stack fd e, sorted (k_tab s) -> below_limit (k_lim s) (k_tab s) -> perform_redirs nc s rs [] = (s', stack, true) -> In fd (targets rs) -> lookup (k_tab s) fd = Some e -> exists sv esv, lookup (k_tab s') sv = Some esv /\ (10 <= sv)%N /\ e_cx esv = true /\ e_ofd esv = e_ofd e.
Proof.
  intros nc s rs s' stack fd e Hs Hb Hp Hin Hl.
  destruct (perform_redirs_guard0 _ _ _ _ _ _ (conj Hs Hb) Hp) as [_ [_ [Hg [_ Hsup]]]].
  exact (g_backup _ _ _ _ Hg fd e (Hsup eq_refl fd Hin) Hl).
Qed.

(* soundness of oracle clause B (verdict 12) *)
Theorem oracle_backup_sound : forall nc s c s' si ex, sorted (k_tab s) -> below_limit (k_lim s) (k_tab s) -> c_kind c <> KAsync -> run_cmd nc s c = (s', Some si, ex) -> backup_ok (targets (c_redirs c)) (k_tab s) (k_tab si) = true.
Proof.
  intros nc s c s' si ex Hs Hb Hk Hr. apply run_cmd_inside in Hr; [|exact Hk]. destruct Hr as [stack Hp].
  apply has_backup_ok. intros fd e Hin Hl. exact (backups_while_running _ _ _ _ _ _ _ Hs Hb Hp Hin Hl).
Qed.

(* the variant of perform that takes every failure of the saving dup as "the
   target is not open" (ProofsSave.perform_lenient) loses a descriptor of the
   user's: with descriptors 0 1 2 open and the limit at 10, `>file` succeeds
   there, and the undo leaves descriptor 1 closed; perform refuses *)
Theorem lenient_save_variant_refuted : exists nc s r s' sv, sorted (k_tab s) /\ below_limit (k_lim s) (k_tab s) /\ k_flt s = [] /\ ProofsSave.perform_lenient nc s r = (s', Some sv) /\ lookup (k_tab s) 1%N <> None /\ lookup (k_tab (undo_redirs s' [sv])) 1%N = None /\ perform nc s r = (s, None).
Proof.
  exists false, ProofsSave.lenient_witness, (mkRedir 1 (BFile FileOut (PKey 4))).
  eexists. eexists.
  split; [cbn; repeat split; intros k' H; cbn in H; intuition lia|].
  split; [intros k H; cbn in H; intuition (subst; reflexivity)|].
  split; [reflexivity|].
  split; [vm_compute; reflexivity|].
  split; [vm_compute; discriminate|].
  split; vm_compute; reflexivity.
Qed.

(* non-vacuity of the hypotheses: Examples.v and
   ProofsSave.command_refused_example *)

(* TIE BY TRANSLATION: the lowest descriptor the shell keeps for itself is the
   constant the source declares now (translator/consts.py reads MIN_INTERNAL_FD
   out of yash-env/src/io.rs on every run) *)
Theorem min_internal_fd_is_source : MIN_INTERNAL_FD = gen_min_internal_fd.
Proof. reflexivity. Qed.

Print Assumptions min_unused_spec.
Print Assumptions undo_restores.
Print Assumptions undo_restores_table.
Print Assumptions failed_redir_changes_nothing.
Print Assumptions redirs_keep_table_wellformed.
Print Assumptions command_keeps_table_wellformed.
Print Assumptions command_restores_table.
Print Assumptions exec_keeps_successful_redirections.
Print Assumptions script_item_restores_table.
Print Assumptions undo_restores_needs_limit_refuted.
Print Assumptions redirs_applied_in_order.
Print Assumptions redirs_succeed_when_unconstrained.
Print Assumptions noclobber_refuses_existing_regular.
Print Assumptions link_noclobber_refuses_regular.
Print Assumptions link_noclobber_opens_fifo_and_device.
Print Assumptions link_noclobber_other_cases.
Print Assumptions link_noclobber_lstat_variant_refuted.
Print Assumptions internal_fds_ge_10_cloexec.
Print Assumptions saved_fds_intact.
Print Assumptions saved_fd_never_target.
Print Assumptions undo_never_panics.
Print Assumptions move_fd_internal_leaves_nothing_behind.
Print Assumptions open_internal_all_or_nothing.
Print Assumptions pipe_all_or_nothing.
Print Assumptions pipeline_restores_table.
Print Assumptions preserve_keeps_only_targets.
Print Assumptions preserve_keeps_view.
Print Assumptions oracle_restored_sound.
Print Assumptions oracle_internal_sound.
Print Assumptions oracle_persisted_sound.
Print Assumptions save_failure_refuses.
Print Assumptions command_refused_when_no_backup_slot.
Print Assumptions backup_iff_target_open.
Print Assumptions undo_closes_only_closed.
Print Assumptions backups_while_running.
Print Assumptions oracle_backup_sound.
Print Assumptions lenient_save_variant_refuted.
Print Assumptions min_internal_fd_is_source.
