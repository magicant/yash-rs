(* C09 — noclobber and symbolic links.

   The simulated OS does not follow symbolic links in open(2) (known finding F41
   of C19), so this part cannot be tied to the code by the correspondence check
   of Run.v.  It is a self-contained model of redir.rs [open_file_noclobber]
   over POSIX open(2) with links:

     open(name, O_WRONLY|O_CREAT|O_EXCL)  fails with EEXIST if the name exists -
                                          even as a (dangling) symbolic link - and
                                          creates the file otherwise;
     open(name, O_WRONLY)                 follows links; ENOENT for a dangling
                                          link, ELOOP for a cycle, EISDIR for a
                                          directory;
     fstat(fd)                            is about the file that was opened.

   and of the variant that looks at the name instead of the opened file. *)
From Yv Require Import Common.Base.

Inductive lnode :=
| LReg | LFifo | LDev | LDir
| LLink (target : N).          (* names are numbers *)

Definition lfs := N -> option lnode.

Inductive lres :=
| Found (name : N) (n : lnode)   (* n is not a link *)
| Dangling                       (* a link to a name that does not exist *)
| Loop.

(* path resolution of the last component, following links (SYMLOOP_MAX = fuel) *)
Fixpoint lresolve (fuel : nat) (f : lfs) (name : N) : option lres :=
  match f name with
  | None => None                                  (* the name itself does not exist *)
  | Some (LLink t) =>
      match fuel with
      | O => Some Loop
      | S fuel' => match lresolve fuel' f t with
                   | None => Some Dangling
                   | r => r
                   end
      end
  | Some n => Some (Found name n)
  end.

Inductive verdict_nc :=
| Created                        (* the file did not exist and was created *)
| Opened (n : lnode)             (* an existing file that is not regular was opened as it is *)
| Refused.                       (* the redirection fails *)

(* redir.rs open_file_noclobber *)
Definition noclobber_open (fuel : nat) (f : lfs) (name : N) : verdict_nc :=
  match f name with
  | None => Created                                        (* O_EXCL succeeded *)
  | Some _ =>
      (* EEXIST: open it again without O_CREAT, then fstat the descriptor *)
      match lresolve fuel f name with
      | Some (Found _ LDir) => Refused                     (* EISDIR *)
      | Some (Found _ LReg) => Refused                     (* is_regular: close, EEXIST *)
      | Some (Found _ n) => Opened n
      | Some Dangling | Some Loop | None => Refused        (* ENOENT -> EEXIST; ELOOP *)
      end
  end.

(* the variant that examines the name (lstat) instead of the opened file *)
Definition noclobber_open_lstat (fuel : nat) (f : lfs) (name : N) : verdict_nc :=
  match f name with
  | None => Created
  | Some LReg => Refused
  | Some _ =>
      match lresolve fuel f name with
      | Some (Found _ LDir) => Refused
      | Some (Found _ n) => Opened n
      | _ => Refused
      end
  end.
