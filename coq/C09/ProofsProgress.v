(* C09 — progress.  When nothing constrains allocation (no
   descriptor limit, no injected failure), the shell's own descriptors are at 10
   or above and the list only names descriptors 0..9, a list that the
   specification accepts is performed successfully by the model: yash-rs refuses
   no redirection that POSIX allows. *)
From Yv Require Import Common.Base C09.Kernel C09.Model C09.Spec
  C09.ProofsTab C09.ProofsSpec.

Local Open Scope N_scope.

(* unconstrained allocation *)
Definition unc (s : kst) : Prop := k_flt s = [] /\ k_lim s = None.

Definition own_fds_high (t : table) : Prop :=
  forall fd e, lookup t fd = Some e -> e_cx e = true -> 10 <= fd.

Lemma alloc_unc s min v :
  unc s ->
  alloc_fd s min v = (with_tab s (tset (k_tab s) (min_unused min (k_tab s)) v),
                      Ok (min_unused min (k_tab s))).
Proof.
  intros [Hf Hl]. unfold alloc_fd, take_fault. rewrite Hf. cbv zeta. rewrite Hl. reflexivity.
Qed.

Lemma unc_with_tab s t : unc s -> unc (with_tab s t).
Proof. intros [A B]. split; assumption. Qed.

Lemma unc_with_fs s f : unc s -> unc (with_fs s f).
Proof. intros [A B]. split; assumption. Qed.

Lemma unc_close s fd : unc s -> unc (k_close s fd).
Proof. apply unc_with_tab. Qed.

Lemma k_open_unc s p r w fl f' k :
  unc s -> k_resolve (k_fs s) p w fl = (f', Ok k) ->
  exists s' c, k_open s p r w fl = (s', Ok c) /\ unc s'.
Proof.
  intros Hu Hr. unfold k_open. rewrite Hr. cbn [new_ofd].
  rewrite alloc_unc by exact Hu.
  eexists. eexists. split; [reflexivity|]. destruct Hu. split; assumption.
Qed.

Lemma k_open_err_unc s p r w fl f' e :
  unc s -> k_resolve (k_fs s) p w fl = (f', Err e) ->
  k_open s p r w fl = (with_fs s f', Err e).
Proof. intros _ Hr. unfold k_open. rewrite Hr. reflexivity. Qed.

Lemma sopen_resolve f p r w fl f' o :
  sopen f p r w fl = Some (f', o) -> exists k, k_resolve f p w fl = (f', Ok k).
Proof.
  unfold sopen. destruct (k_resolve f p w fl) as [f1 [k|e]]; [|discriminate].
  intros E. injection E as <- _. eauto.
Qed.

Lemma open_file_unc s r w fl p f' o :
  unc s -> sopen (k_fs s) p r w fl = Some (f', o) ->
  exists s1 f, open_file s r w fl p = (s1, Some (Owned f)) /\ unc s1.
Proof.
  intros Hu Hs. apply sopen_resolve in Hs. destruct Hs as [k Hr].
  destruct (k_open_unc s p r w fl f' k Hu Hr) as [s' [c [Ho Hu']]].
  unfold open_file. rewrite Ho. eauto.
Qed.

Lemma open_normal_unc nc s b f' o :
  unc s -> spec_new nc (k_fs s) b = Some (f', o) ->
  exists s1 f, open_normal nc s b = (s1, Some (Owned f)) /\ unc s1.
Proof.
  intros Hu. destruct b as [op p|op a|c|]; cbn [open_normal]; try discriminate.
  - destruct op; try (apply open_file_unc; assumption).
    destruct nc; [|apply open_file_unc; assumption].
    (* the O_EXCL open goes through, so the second look is not taken *)
    rewrite <- spec_new_noclobber. intros Hsn.
    destruct (open_file_unc s false true fl_excl p f' o Hu Hsn) as [s1 [c [Ho Hu1]]].
    revert Ho. unfold open_file, open_file_noclobber.
    destruct (k_open s p false true fl_excl) as [sa [c0|e]]; [|discriminate].
    intros E. injection E as -> ->. eauto.
  - intros _. unfold k_tmpfile. cbn [new_ofd].
    rewrite alloc_unc by exact Hu.
    eexists. eexists. split; [reflexivity|]. destruct Hu; split; assumption.
Qed.

Lemma k_dup2_unc s from to e :
  unc s -> lookup (k_tab s) from = Some e ->
  exists s', k_dup2 s from to = (s', true) /\ unc s'.
Proof.
  intros [Hf Hl] Hfrom. unfold k_dup2, t_dup2. rewrite Hfrom, Hl.
  destruct (N.eqb from to); cbn; (eexists; split; [reflexivity|]; split; assumption).
Qed.

(* an operator that opens a file of its own *)
Lemma apply_unc_new nc s r f' o :
  wf s -> unc s -> spec_new nc (k_fs s) (r_body r) = Some (f', o) ->
  exists s2, apply nc s r = (s2, true) /\ unc s2.
Proof.
  intros [Hs _] Hu Hsn. unfold apply.
  destruct (open_normal_unc nc s _ f' o Hu Hsn) as [s1 [f [Ho Hu1]]]. rewrite Ho. cbn [spec_fd].
  destruct (N.eqb f (r_fd r)); [eauto|].
  destruct (open_normal_shape _ _ _ _ _ Hs Ho) as [_ [f1 [o1 [_ Hfa]]]].
  assert (lookup (k_tab s1) f = Some (mkEnt (k_next s) false)) as Ef
    by (rewrite (fa_tab _ _ _ _ _ _ Hfa); apply lookup_tset_same).
  destruct (k_dup2_unc s1 f (r_fd r) _ Hu1 Ef) as [s2 [Hd Hu2]]. rewrite Hd.
  eexists. split; [reflexivity|]. apply unc_close. exact Hu2.
Qed.

Lemma apply_unc nc s0 s u r u' :
  wf s -> unc s -> sim s0 s u ->
  spec_redir (view (k_tab s0)) (ofd_get (k_ofd s0)) nc u r = Some u' ->
  exists s2, apply nc s r = (s2, true) /\ unc s2.
Proof.
  intros Hwf Hu [Sv Sf Sn Sa]. unfold spec_redir. rewrite <- Sf.
  destruct (r_body r) as [op p|op a|c|] eqn:Hbody.
  - destruct (spec_new nc (k_fs s) (BFile op p)) as [[f' o]|] eqn:Hsn; [|destruct op; discriminate].
    intros _. apply (apply_unc_new nc s r f' o Hwf Hu). rewrite Hbody. exact Hsn.
  - unfold apply. rewrite Hbody. destruct a as [m| |]; [| |discriminate].
    + destruct (uget (view (k_tab s0)) u m) as [id|] eqn:Hum; [|discriminate].
      destruct (uattr (ofd_get (k_ofd s0)) u id) as [o|] eqn:Hat; [|discriminate].
      destruct (acc op o) eqn:Hacc; [|discriminate]. intros _.
      rewrite <- Sv in Hum. unfold view in Hum.
      destruct (lookup (k_tab s) m) as [e|] eqn:Hm; [|discriminate].
      destruct (e_cx e) eqn:Hcx; [discriminate|]. injection Hum as <-.
      rewrite <- Sa in Hat.
      cbn [open_normal]. unfold copy_fd, fd_valid, k_ofd_of, k_cloexec. rewrite Hm, Hat.
      unfold acc in Hacc. rewrite Hacc, Hcx. cbn [negb spec_fd spec_close].
      destruct (N.eqb m (r_fd r)); [eauto|].
      destruct (k_dup2_unc s m (r_fd r) e Hu Hm) as [s2 [Hd Hu2]]. rewrite Hd. eauto.
    + intros _. cbn [open_normal copy_fd spec_fd]. eexists. split; [reflexivity|].
      apply unc_close. exact Hu.
  - destruct (spec_new nc (k_fs s) (BHere c)) as [[f' o]|] eqn:Hsn; [|discriminate].
    intros _. apply (apply_unc_new nc s r f' o Hwf Hu). rewrite Hbody. exact Hsn.
  - cbn. discriminate.
Qed.

Lemma perform_unc nc s0 s u r u' :
  wf s -> unc s -> own_fds_high (k_tab s) -> sim s0 s u -> r_fd r < 10 ->
  spec_redir (view (k_tab s0)) (ofd_get (k_ofd s0)) nc u r = Some u' ->
  exists s' sv, perform nc s r = (s', Some sv) /\ unc s'.
Proof.
  intros Hwf Hu Hhigh Hsim Hlt Hspec. pose proof Hwf as [Hs Hb]. unfold perform.
  assert (k_cloexec s (r_fd r) = false) as ->.
  { unfold k_cloexec. destruct (lookup (k_tab s) (r_fd r)) as [e|] eqn:E; [|reflexivity].
    destruct (e_cx e) eqn:Ecx; [|reflexivity]. specialize (Hhigh _ _ E Ecx). lia. }
  unfold k_dup. destruct (lookup (k_tab s) (r_fd r)) as [en|] eqn:Hn.
  - rewrite alloc_unc by exact Hu.
    set (sv := min_unused MIN_INTERNAL_FD (k_tab s)).
    set (s1 := with_tab s (tset (k_tab s) sv (mkEnt (e_ofd en) true))).
    assert (lookup (k_tab s) sv = None) as Hfresh by (apply min_unused_fresh; exact Hs).
    assert (wf s1) as Hwf1
      by (eapply (wf_tset s s1 sv); [exact Hwf|rewrite (proj2 Hu)|..]; reflexivity).
    assert (unc s1) as Hu1 by (apply unc_with_tab; exact Hu).
    assert (sim s0 s1 u) as Hsim1.
    { destruct Hsim as [Sv Sf Sn Sa]. split; try assumption.
      intros fd. rewrite <- Sv. unfold view. cbn. rewrite lookup_tset.
      destruct (N.eqb_spec sv fd) as [<-|_]; [|reflexivity]. cbn. rewrite Hfresh. reflexivity. }
    destruct (apply_unc nc s0 s1 u r u' Hwf1 Hu1 Hsim1 Hspec) as [s2 [Hap Hu2]].
    rewrite Hap. eauto.
  - destruct (apply_unc nc s0 s u r u' Hwf Hu Hsim Hspec) as [s2 [Hap Hu2]].
    rewrite Hap. eauto.
Qed.

Lemma own_fds_high_step nc s r s' sv :
  wf s -> own_fds_high (k_tab s) -> perform nc s r = (s', Some sv) -> own_fds_high (k_tab s').
Proof.
  intros Hwf Hhigh Hp. apply perform_step in Hp; [|assumption].
  destruct sv as [n save]. destruct Hp as [_ [_ [_ [_ [Hv [Hkeep Hsave]]]]]].
  apply step_val_not_cx in Hv. intros fd e He Hce.
  destruct (N.eq_dec fd n) as [->|Hfd]; [rewrite (Hv e He) in Hce; discriminate|].
  destruct save as [x|].
  - destruct (N.eq_dec fd x) as [->|Hfx]; [destruct Hsave as [en [_ [_ [_ [Hge _]]]]]; exact Hge|].
    rewrite Hkeep in He by congruence. eapply Hhigh; eassumption.
  - rewrite Hkeep in He by congruence. eapply Hhigh; eassumption.
Qed.

Lemma spec_redir_det base battr nc u r a b :
  spec_redir base battr nc u r = Some a -> spec_redir base battr nc u r = Some b -> a = b.
Proof. congruence. Qed.

Lemma perform_redirs_unc nc s0 rs :
  forall s stack u u',
    wf s -> unc s -> own_fds_high (k_tab s) -> sim s0 s u -> portable rs = true ->
    spec_redirs (view (k_tab s0)) (ofd_get (k_ofd s0)) nc u rs = Some u' ->
    exists s' stack', perform_redirs nc s rs stack = (s', stack', true).
Proof.
  induction rs as [|r rs IH]; intros s stack u u' Hwf Hu Hhigh Hsim Hport; cbn [perform_redirs spec_redirs].
  - intros _. eauto.
  - destruct (spec_redir (view (k_tab s0)) (ofd_get (k_ofd s0)) nc u r) as [u1|] eqn:Hs1; [|discriminate].
    intros Hrest. cbn [portable forallb] in Hport. apply andb_true_iff in Hport.
    destruct Hport as [Hr Hport]. apply andb_true_iff in Hr. destruct Hr as [Hlt _].
    apply N.ltb_lt in Hlt.
    destruct (perform_unc nc s0 s u r u1 Hwf Hu Hhigh Hsim Hlt Hs1) as [s1 [sv [Hp Hu1]]].
    rewrite Hp.
    pose proof (perform_step _ _ _ _ _ Hwf Hp) as [Hwf1 _].
    destruct sv as [n save].
    destruct (step_sim _ _ _ _ _ _ _ _ Hwf Hsim Hp) as [u1' [Hs1' Hsim1]].
    assert (u1' = u1) as -> by congruence.
    exact (IH s1 ((n, save) :: stack) u1 u' Hwf1 Hu1
              (own_fds_high_step _ _ _ _ _ Hwf Hhigh Hp) Hsim1 Hport Hrest).
Qed.
