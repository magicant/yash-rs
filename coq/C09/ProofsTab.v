(* C09 — the table as a finite map ([lookup] after [tset] and [tdel];
   [sorted_ext]; [min_unused] gives the least free descriptor); then what one
   [perform] does to the process (the step lemma), and what a list of them
   keeps: while redirections are in effect the table and the stack of saved
   descriptors satisfy one invariant, [guard]; undo, preserve, the shell's own
   descriptors and the backups are read off it. *)
From Yv Require Import Common.Base C09.Kernel C09.Model C09.Spec.

Local Open Scope N_scope.

Lemma lookup_tset t k v k' :
  lookup (tset t k v) k' = if N.eqb k k' then Some v else lookup t k'.
Proof.
  induction t as [|[k0 v0] t IH]; cbn [tset lookup].
  - reflexivity.
  - destruct (N.ltb_spec k k0) as [Hlt|Hge].
    + cbn [lookup]. reflexivity.
    + destruct (N.eqb_spec k k0) as [->|Hne].
      * cbn [lookup]. destruct (N.eqb_spec k0 k'); reflexivity.
      * cbn [lookup]. rewrite IH.
        destruct (N.eqb_spec k0 k') as [->|Hne']; [|reflexivity].
        destruct (N.eqb_spec k k'); [congruence|reflexivity].
Qed.

Lemma lookup_tset_same t k v : lookup (tset t k v) k = Some v.
Proof. rewrite lookup_tset, N.eqb_refl. reflexivity. Qed.

Lemma lookup_tset_other t k v k' : k <> k' -> lookup (tset t k v) k' = lookup t k'.
Proof. intros Hne. rewrite lookup_tset. destruct (N.eqb_spec k k'); [contradiction|reflexivity]. Qed.

Lemma in_keys_lookup t k : In k (keys t) <-> lookup t k <> None.
Proof.
  induction t as [|[k0 v0] t IH]; cbn [keys map fst In lookup].
  - split; [tauto|congruence].
  - destruct (N.eqb_spec k0 k) as [->|Hne].
    + split; [congruence|auto].
    + unfold keys in IH. rewrite <- IH. split; [intros [?|?]; [congruence|auto]|auto].
Qed.

Lemma lookup_In t k v : lookup t k = Some v -> In (k, v) t.
Proof.
  induction t as [|[k' v'] t IH]; cbn; [discriminate|].
  destruct (N.eqb_spec k' k) as [->|_]; [intros E; injection E as ->; auto|auto].
Qed.

Lemma lookup_below t k c :
  (forall k', In k' (keys t) -> (k < k')%N) -> (c <= k)%N -> lookup t c = None.
Proof.
  intros Hlt Hc. destruct (lookup t c) eqn:E; [|reflexivity].
  assert (In c (keys t)) as Hin by (apply in_keys_lookup; congruence).
  apply Hlt in Hin. lia.
Qed.

Lemma lookup_tdel t k k' :
  sorted t -> lookup (tdel t k) k' = if N.eqb k k' then None else lookup t k'.
Proof.
  induction t as [|[k0 v0] t IH]; cbn [tdel lookup sorted].
  - destruct (N.eqb k k'); reflexivity.
  - intros [Hlt Hs]. destruct (N.eqb_spec k k0) as [->|Hne].
    + destruct (N.eqb_spec k0 k') as [->|Hne']; [|reflexivity].
      apply (lookup_below _ _ _ Hlt). lia.
    + cbn [lookup]. rewrite IH by assumption.
      destruct (N.eqb_spec k0 k') as [->|Hne']; [|reflexivity].
      destruct (N.eqb_spec k k'); [congruence|reflexivity].
Qed.

Lemma keys_tset t k v k' : In k' (keys (tset t k v)) <-> k' = k \/ In k' (keys t).
Proof.
  rewrite !in_keys_lookup, lookup_tset.
  destruct (N.eqb_spec k k') as [->|Hne].
  - split; [auto|congruence].
  - split; [auto|intros [?|?]; [congruence|auto]].
Qed.

Lemma sorted_tset t k v : sorted t -> sorted (tset t k v).
Proof.
  induction t as [|[k0 v0] t IH]; cbn [tset sorted].
  - intros _. split; [intros k' []|exact I].
  - intros [Hlt Hs]. destruct (N.ltb_spec k k0) as [Hl|Hge].
    + cbn [sorted]. split; [|split; assumption].
      intros k' Hin. cbn [keys map fst In] in Hin. destruct Hin as [<-|Hin]; [assumption|].
      apply Hlt in Hin. lia.
    + destruct (N.eqb_spec k k0) as [->|Hne].
      * cbn [sorted]. split; assumption.
      * cbn [sorted]. split; [|apply IH; assumption].
        intros k' Hin. apply keys_tset in Hin. destruct Hin as [->|Hin]; [lia|auto].
Qed.

Lemma keys_tdel_incl t k k' : In k' (keys (tdel t k)) -> In k' (keys t).
Proof.
  induction t as [|[k0 v0] t IH]; cbn [tdel keys map fst In]; [tauto|].
  destruct (N.eqb k k0); cbn [keys map fst In]; [auto|].
  intros [?|?]; [auto|right; apply IH; assumption].
Qed.

Lemma sorted_tdel t k : sorted t -> sorted (tdel t k).
Proof.
  induction t as [|[k0 v0] t IH]; cbn [tdel sorted]; [tauto|].
  intros [Hlt Hs]. destruct (N.eqb k k0); [assumption|].
  cbn [sorted]. split; [|apply IH; assumption].
  intros k' Hin. apply keys_tdel_incl in Hin. auto.
Qed.

(* why [sorted] is carried everywhere: with it, restoration can be stated as
   equality of tables *)
Lemma sorted_ext t1 t2 :
  sorted t1 -> sorted t2 -> (forall k, lookup t1 k = lookup t2 k) -> t1 = t2.
Proof.
  revert t2. induction t1 as [|[k1 v1] t1 IH]; intros [|[k2 v2] t2] S1 S2 H.
  - reflexivity.
  - specialize (H k2). cbn [lookup] in H. rewrite N.eqb_refl in H. discriminate.
  - specialize (H k1). cbn [lookup] in H. rewrite N.eqb_refl in H. discriminate.
  - cbn [sorted] in S1, S2. destruct S1 as [L1 S1], S2 as [L2 S2].
    pose proof (H k1) as H1. pose proof (H k2) as H2. cbn [lookup] in H1, H2.
    rewrite N.eqb_refl in H1, H2.
    (* the smaller head would be unbound in the other table *)
    assert (k1 = k2) as ->.
    { destruct (N.eqb_spec k2 k1) as [->|Hne]; [reflexivity|].
      destruct (N.eqb_spec k1 k2) as [->|_]; [reflexivity|].
      destruct (N.le_ge_cases k1 k2) as [Hle|Hle].
      - rewrite (lookup_below _ _ _ L2 Hle) in H1. discriminate.
      - rewrite (lookup_below _ _ _ L1 Hle) in H2. discriminate. }
    rewrite N.eqb_refl in H2. injection H2 as ->. f_equal. apply IH; [assumption..|].
    intros k. specialize (H k). cbn [lookup] in H.
    destruct (N.eqb_spec k2 k) as [->|Hne]; [|assumption].
    rewrite (lookup_below _ _ _ L1 (N.le_refl k)), (lookup_below _ _ _ L2 (N.le_refl k)). reflexivity.
Qed.

Lemma min_unused_ge c t : (c <= min_unused c t)%N.
Proof.
  revert c. induction t as [|[k v] t IH]; intros c; cbn [min_unused]; [lia|].
  destruct (N.ltb k c); [apply IH|].
  destruct (N.eqb k c); [|lia]. specialize (IH (c + 1)%N). lia.
Qed.

Lemma min_unused_fresh c t : sorted t -> lookup t (min_unused c t) = None.
Proof.
  revert c. induction t as [|[k v] t IH]; intros c; cbn [min_unused sorted]; [reflexivity|].
  intros [Hlt Hs]. destruct (N.ltb_spec k c) as [Hl|Hge].
  - cbn [lookup]. pose proof (min_unused_ge c t).
    destruct (N.eqb_spec k (min_unused c t)); [lia|]. apply IH; assumption.
  - destruct (N.eqb_spec k c) as [->|Hne].
    + cbn [lookup]. pose proof (min_unused_ge (c + 1) t).
      destruct (N.eqb_spec c (min_unused (c + 1) t)); [lia|]. apply IH; assumption.
    + cbn [lookup]. destruct (N.eqb_spec k c); [congruence|]. apply (lookup_below _ _ _ Hlt Hge).
Qed.

Lemma min_unused_least c t x :
  sorted t -> (c <= x < min_unused c t)%N -> lookup t x <> None.
Proof.
  revert c. induction t as [|[k v] t IH]; intros c; cbn [min_unused sorted]; [lia|].
  intros [Hlt Hs] Hx. destruct (N.ltb_spec k c) as [Hl|Hge].
  - cbn [lookup]. destruct (N.eqb_spec k x); [congruence|]. eapply IH; eassumption.
  - destruct (N.eqb_spec k c) as [->|Hne]; [|lia].
    cbn [lookup]. destruct (N.eqb_spec c x); [congruence|].
    apply (IH (c + 1)%N); [assumption|lia].
Qed.

Lemma tdel_tset_fresh t k v : sorted t -> lookup t k = None -> tdel (tset t k v) k = t.
Proof.
  intros Hs Hn. apply sorted_ext; [apply sorted_tdel, sorted_tset; assumption|assumption|].
  intros k'. rewrite lookup_tdel by (apply sorted_tset; assumption). rewrite lookup_tset.
  destruct (N.eqb_spec k k') as [->|]; [symmetry; assumption|reflexivity].
Qed.

(* a descriptor opened at k', copied to k and closed again: as if opened at k *)
Lemma tdel_tset_other t k v k' v' :
  sorted t -> lookup t k' = None -> k <> k' ->
  tdel (tset (tset t k' v') k v) k' = tset t k v.
Proof.
  intros Hs Hn Hne. apply sorted_ext.
  - apply sorted_tdel, sorted_tset, sorted_tset; exact Hs.
  - apply sorted_tset; exact Hs.
  - intros fd. rewrite lookup_tdel by (apply sorted_tset, sorted_tset; exact Hs).
    rewrite !lookup_tset. destruct (N.eqb_spec k' fd) as [<-|Hfd].
    + destruct (N.eqb_spec k k'); [congruence|]. symmetry; exact Hn.
    + reflexivity.
Qed.

Lemma close_both t r w e1 e2 :
  sorted t -> lookup t r = None -> lookup t w = None -> r <> w ->
  tdel (tdel (tset (tset t r e1) w e2) w) r = t.
Proof.
  intros Hs Hr Hw Hne.
  assert (sorted (tset t r e1)) as Hs1 by (apply sorted_tset; exact Hs).
  rewrite tdel_tset_fresh; [apply tdel_tset_fresh; assumption|exact Hs1|].
  rewrite lookup_tset_other by exact Hne. exact Hw.
Qed.

Lemma below_limit_tset lim t k v :
  below_limit lim t -> in_limit lim k = true -> below_limit lim (tset t k v).
Proof. intros Hb Hk k' Hin. apply keys_tset in Hin. destruct Hin as [->|Hin]; auto. Qed.

Lemma below_limit_tdel lim t k : below_limit lim t -> below_limit lim (tdel t k).
Proof. intros Hb k' Hin. apply keys_tdel_incl in Hin. auto. Qed.

Lemma below_limit_lookup lim t k e : below_limit lim t -> lookup t k = Some e -> in_limit lim k = true.
Proof. intros Hb Hl. apply Hb. apply in_keys_lookup. congruence. Qed.

(* well-formed process: the table is a map (sorted, like the BTreeMap) and no
   open descriptor is at or above the limit *)
Definition wf (s : kst) : Prop := sorted (k_tab s) /\ below_limit (k_lim s) (k_tab s).

(* same descriptors, same descriptions, same flags, same limit: what every
   failure leaves and every undo gives back *)
Definition same_table (s s' : kst) : Prop := k_tab s' = k_tab s /\ k_lim s' = k_lim s.

Lemma same_table_refl s : same_table s s.
Proof. split; reflexivity. Qed.

Lemma same_table_trans a b c : same_table a b -> same_table b c -> same_table a c.
Proof. intros [A B] [C D]. split; congruence. Qed.

Lemma same_table_wf s s' : same_table s s' -> wf s -> wf s'.
Proof. intros [A B] [C D]. split; [rewrite A|rewrite A, B]; assumption. Qed.

Lemma stderr_write_tab s : same_table s (stderr_write s).
Proof.
  unfold stderr_write. destruct (lookup (k_tab s) 2) as [e|]; [|apply same_table_refl].
  destruct (ofd_get (k_ofd s) (e_ofd e)) as [o|]; [|apply same_table_refl].
  destruct (negb (o_w o)); [apply same_table_refl|].
  destruct (o_file o); [|split; reflexivity..].
  destruct (fs_get (k_fs s) p) as [[c d|]|]; split; reflexivity.
Qed.

Lemma wf_close s fd : wf s -> wf (k_close s fd).
Proof. intros [Hs Hb]. split; [apply sorted_tdel; exact Hs|apply below_limit_tdel; exact Hb]. Qed.

Lemma wf_tset s s' n v :
  wf s -> in_limit (k_lim s) n = true -> k_lim s' = k_lim s -> k_tab s' = tset (k_tab s) n v -> wf s'.
Proof.
  intros [Hs Hb] Hi El Et.
  split; [rewrite Et; apply sorted_tset, Hs|rewrite Et, El; apply below_limit_tset; assumption].
Qed.

Lemma rebind_tset s s' n v :
  wf s -> in_limit (k_lim s) n = true -> k_lim s' = k_lim s -> k_tab s' = tset (k_tab s) n v ->
  wf s' /\ k_lim s' = k_lim s
  /\ (forall fd, fd <> n -> lookup (k_tab s') fd = lookup (k_tab s) fd)
  /\ lookup (k_tab s') n = Some v.
Proof.
  intros Hwf Hi El Et. split; [exact (wf_tset _ _ _ _ Hwf Hi El Et)|]. split; [exact El|]. rewrite Et.
  split; [intros fd Hfd; apply lookup_tset_other; congruence|apply lookup_tset_same].
Qed.

(* everything but the table and the fault list *)
Definition frame (s s' : kst) : Prop :=
  k_lim s' = k_lim s /\ k_next s' = k_next s /\ k_ofd s' = k_ofd s /\ k_fs s' = k_fs s.

Lemma frame_refl s : frame s s.
Proof. repeat split. Qed.

Lemma frame_trans a b c : frame a b -> frame b c -> frame a c.
Proof. intros [A1 [A2 [A3 A4]]] [B1 [B2 [B3 B4]]]. repeat split; congruence. Qed.

Lemma take_fault_frame s b s1 :
  take_fault s = (b, s1) -> k_tab s1 = k_tab s /\ frame s s1.
Proof.
  unfold take_fault. destruct (k_flt s); intros E; injection E as <- <-; cbn; repeat split.
Qed.

Lemma alloc_fd_spec s min v s' r :
  alloc_fd s min v = (s', r) ->
  frame s s' /\
  match r with
  | Ok c => k_tab s' = tset (k_tab s) c v /\ c = min_unused min (k_tab s)
            /\ in_limit (k_lim s) c = true
  | Err e => k_tab s' = k_tab s /\ e = EMFILE
  end.
Proof.
  unfold alloc_fd. destruct (take_fault s) as [b s1] eqn:Ef.
  apply take_fault_frame in Ef. destruct Ef as [Et Hf]. pose proof Hf as [El _].
  destruct b; [intros E; injection E as <- <-; auto|]. cbv zeta. rewrite Et, El.
  destruct (in_limit (k_lim s) (min_unused min (k_tab s))) eqn:Ei;
    intros E; injection E as <- <-; (split; [exact Hf|auto]).
Qed.

Lemma alloc_fd_fresh s min v s' c :
  sorted (k_tab s) -> alloc_fd s min v = (s', Ok c) -> lookup (k_tab s) c = None /\ min <= c.
Proof.
  intros Hs Ha. apply alloc_fd_spec in Ha. destruct Ha as [_ [_ [-> _]]].
  split; [apply min_unused_fresh; exact Hs|apply min_unused_ge].
Qed.

Lemma alloc_fd_wf s min v s' r :
  wf s -> alloc_fd s min v = (s', r) ->
  wf s' /\ frame s s' /\
  match r with
  | Ok c => lookup (k_tab s) c = None /\ min <= c /\ k_tab s' = tset (k_tab s) c v
  | Err e => k_tab s' = k_tab s /\ e = EMFILE
  end.
Proof.
  intros Hwf Ha. pose proof (alloc_fd_spec _ _ _ _ _ Ha) as [Hf Hr]. pose proof Hf as [El _].
  destruct r as [c|e].
  - destruct Hr as [Et [_ Hi]]. destruct (alloc_fd_fresh _ _ _ _ _ (proj1 Hwf) Ha) as [A B].
    split; [exact (wf_tset _ _ _ _ Hwf Hi El Et)|auto].
  - split; [exact (same_table_wf s s' (conj (proj1 Hr) El) Hwf)|auto].
Qed.

(* The store of s' is that of s plus one new description with attributes o,
   and the files are f'. *)
Definition added_ofd (s s' : kst) (f' : fsys) (o : ofd) : Prop :=
  k_fs s' = f' /\ k_next s' = k_next s + 1 /\ k_ofd s' = (k_next s, o) :: k_ofd s.

(* ... and that description is bound to descriptor c, which was free. *)
Record fresh_at (s s' : kst) (c : N) (cx : bool) (f' : fsys) (o : ofd) : Prop := mkFresh {
  fa_free : lookup (k_tab s) c = None;
  fa_lim : k_lim s' = k_lim s;
  fa_in : in_limit (k_lim s) c = true;
  fa_tab : k_tab s' = tset (k_tab s) c (mkEnt (k_next s) cx);
  fa_added : added_ofd s s' f' o
}.

Lemma fresh_at_wf s s' c cx f' o : wf s -> fresh_at s s' c cx f' o -> wf s'.
Proof.
  intros Hwf [_ El Hi Et _]. exact (wf_tset _ _ _ _ Hwf Hi El Et).
Qed.

(* how [k_open], [k_open_cx] and [k_tmpfile] end: a new description at the
   lowest free descriptor *)
Lemma alloc_new_spec s o min cx s' r :
  sorted (k_tab s) ->
  (let (s2, id) := new_ofd s o in alloc_fd s2 min (mkEnt id cx)) = (s', r) ->
  match r with
  | Ok c => min <= c /\ fresh_at s s' c cx (k_fs s) o
  | Err e => same_table s s' /\ k_fs s' = k_fs s /\ e = EMFILE
  end.
Proof.
  intros Hs. cbn [new_ofd]. intros Ha. destruct r as [c|e].
  - pose proof Ha as Hfr. apply alloc_fd_fresh in Hfr; [|exact Hs]. destruct Hfr as [Hfree Hge].
    apply alloc_fd_spec in Ha.
    destruct Ha as [[El [En [Eo Ef]]] [Et [_ Hi]]]. split; [exact Hge|]. repeat split; assumption.
  - apply alloc_fd_spec in Ha. destruct Ha as [[El [En [Eo Ef]]] [Et ->]]. repeat split; assumption.
Qed.

Lemma k_resolve_err f p w fl f' e : k_resolve f p w fl = (f', Err e) -> f' = f.
Proof.
  unfold k_resolve. destruct p as [k|]; [|intros E; injection E as <- _; reflexivity].
  destruct (fs_get f k) as [node|].
  - destruct (f_excl fl); [intros E; injection E as <- _; reflexivity|].
    destruct node; [destruct (f_trunc fl); discriminate|].
    destruct w; [intros E; injection E as <- _; reflexivity|discriminate].
  - destruct (f_create fl); [discriminate|intros E; injection E as <- _; reflexivity].
Qed.

Lemma k_open_spec s p r w fl s' res :
  sorted (k_tab s) -> k_open s p r w fl = (s', res) ->
  match res with
  | Ok c => exists k, snd (k_resolve (k_fs s) p w fl) = Ok k
                      /\ fresh_at s s' c false (fst (k_resolve (k_fs s) p w fl))
                                   (mkOfd (FPath k) r w (f_append fl))
  | Err e => same_table s s' /\ k_fs s' = fst (k_resolve (k_fs s) p w fl)
  end.
Proof.
  intros Hs. unfold k_open. destruct (k_resolve (k_fs s) p w fl) as [f' [k|e']]; cbn [fst snd].
  - intros Ha. apply (alloc_new_spec (with_fs s f')) in Ha; [|exact Hs]. destruct res as [c|e]; [|split; apply Ha].
    destruct Ha as [_ [A B C D E]]. exists k. split; [reflexivity|]. split; assumption.
  - intros E. injection E as <- <-. repeat split.
Qed.

Lemma k_open_cx_spec s p s' res :
  sorted (k_tab s) -> k_open_cx s p = (s', res) ->
  match res with
  | Ok c => exists f' o, fresh_at s s' c true f' o
  | Err _ => same_table s s'
  end.
Proof.
  intros Hs. unfold k_open_cx. destruct (k_resolve (k_fs s) p false _) as [f' [k|e]].
  - intros Ha. apply (alloc_new_spec (with_fs s f')) in Ha; [|exact Hs]. destruct res as [c|e]; [|apply Ha].
    destruct Ha as [_ [A B C D E]]. eexists. eexists. split; eassumption.
  - intros E. injection E as <- <-. split; reflexivity.
Qed.

(* an error other than EMFILE comes from the path resolution: nothing changed *)
Lemma k_open_path_error s p r w fl s' e :
  k_open s p r w fl = (s', Err e) -> e <> EMFILE ->
  k_tab s' = k_tab s /\ frame s s' /\ k_resolve (k_fs s) p w fl = (k_fs s, Err e).
Proof.
  unfold k_open. destruct (k_resolve (k_fs s) p w fl) as [f' [k|e']] eqn:Er.
  - cbn [new_ofd]. intros Ha Hne. apply alloc_fd_spec in Ha. destruct Ha as [_ [_ ->]]. congruence.
  - intros E _. injection E as <- <-. apply k_resolve_err in Er. subst f'. repeat split.
Qed.

Lemma k_dup2_spec s from to e :
  lookup (k_tab s) from = Some e -> from <> to ->
  k_dup2 s from to =
  if in_limit (k_lim s) to then (with_tab s (tset (k_tab s) to (mkEnt (e_ofd e) false)), true)
  else (with_tab s (k_tab s), false).
Proof.
  intros Hf Hne. unfold k_dup2, t_dup2. rewrite Hf.
  destruct (N.eqb_spec from to); [congruence|]. destruct (in_limit (k_lim s) to); reflexivity.
Qed.

Definition opens_file (b : body) : Prop :=
  match b with BFile _ _ | BHere _ => True | _ => False end.

(* Where a redirection fails, the files are as they were - unless the failure
   came after the file had been opened (no descriptor left, target at or above
   the limit): then they are what the specification's open makes of them. *)
Definition files_after (nc : bool) (s s' : kst) (b : body) : Prop :=
  k_fs s' = k_fs s \/ exists f' o, spec_new nc (k_fs s) b = Some (f', o) /\ k_fs s' = f'.

(* what [open_normal] hands to [apply] *)
Definition spec_shape (nc : bool) (s s1 : kst) (b : body) (osp : option fdspec) : Prop :=
  match osp with
  | None => same_table s s1 /\ files_after nc s s1 b
  | Some (Owned c) =>
      opens_file b /\ exists f' o, spec_new nc (k_fs s) b = Some (f', o) /\ fresh_at s s1 c false f' o
  | Some (Borrowed m) =>
      s1 = s /\ exists op e o, b = BDup op (DFd m) /\ lookup (k_tab s) m = Some e /\ e_cx e = false
                               /\ ofd_get (k_ofd s) (e_ofd e) = Some o /\ acc op o = true
  | Some SClosed => s1 = s /\ exists op, b = BDup op DClose
  end.

Lemma spec_shape_wf nc s s1 b osp : wf s -> spec_shape nc s s1 b osp -> wf s1 /\ k_lim s1 = k_lim s.
Proof.
  intros Hwf. destruct osp as [[c|m|]|]; cbn.
  - intros [_ [f' [o [_ Hfa]]]]. split; [eapply fresh_at_wf; eassumption|apply Hfa].
  - intros [-> _]. auto.
  - intros [-> _]. auto.
  - intros [Hst _]. split; [eapply same_table_wf; eassumption|apply Hst].
Qed.

Lemma spec_shape_refused nc s b : spec_shape nc s s b None.
Proof. split; [apply same_table_refl|left; reflexivity]. Qed.

(* the operators that are a plain open(2): the specification is [sopen] with
   the same flags *)
Lemma open_file_shape nc op s r w fl p s1 osp :
  sopen (k_fs s) p r w fl = spec_new nc (k_fs s) (BFile op p) ->
  sorted (k_tab s) -> open_file s r w fl p = (s1, osp) -> spec_shape nc s s1 (BFile op p) osp.
Proof.
  intros Hsp Hs. unfold open_file.
  destruct (k_open s p r w fl) as [s' [c|e]] eqn:Eo; intros E; injection E as <- <-;
    apply k_open_spec in Eo; try exact Hs; cbn [spec_shape]; unfold files_after; rewrite <- Hsp; unfold sopen;
    destruct (k_resolve (k_fs s) p w fl) as [f' rk] eqn:Er; cbn [fst snd] in Eo.
  - destruct Eo as [k [-> Hfa]]. split; [exact I|]. eauto.
  - destruct Eo as [Hst Ef]. split; [exact Hst|]. destruct rk as [k|e']; [right; eauto|left].
    rewrite Ef. exact (k_resolve_err _ _ _ _ _ _ Er).
Qed.

Lemma fresh_at_regular s s1 c cx f' k r w a cc d :
  fresh_at s s1 c cx f' (mkOfd (FPath k) r w a) -> fs_get f' k = Some (Reg cc d) ->
  is_regular_fd s1 c = true.
Proof.
  intros [_ _ _ Et [Ef [_ Eo]]] Hg. unfold is_regular_fd, k_ofd_of.
  rewrite Et, lookup_tset_same. cbn [e_ofd]. rewrite Eo. cbn [ofd_get].
  rewrite N.eqb_refl. cbn [o_file]. rewrite Ef, Hg. reflexivity.
Qed.

(* O_CREAT|O_EXCL: the name must be missing *)
Lemma k_resolve_excl f p :
  k_resolve f p true fl_excl =
  match p with
  | PBad => (f, Err EOTHER)
  | PKey k => match fs_get f k with
              | Some _ => (f, Err EEXIST)
              | None => (fs_set f k (Reg [] false), Ok k)
              end
  end.
Proof. destruct p as [k|]; [|reflexivity]. unfold k_resolve. destruct (fs_get f k); reflexivity. Qed.

(* without O_CREAT and O_TRUNC the files are only looked at *)
Lemma k_resolve_none_fs f p w : fst (k_resolve f p w fl_none) = f.
Proof.
  unfold k_resolve. destruct p as [k|]; [|reflexivity].
  destruct (fs_get f k) as [[c d|]|]; [|destruct w|]; reflexivity.
Qed.

(* a name that can be opened for writing without O_CREAT is a regular file *)
Lemma k_resolve_write_existing f p k :
  snd (k_resolve f p true fl_none) = Ok k -> exists c d, fs_get f k = Some (Reg c d).
Proof.
  unfold k_resolve. destruct p as [k0|]; [|discriminate].
  destruct (fs_get f k0) as [[c d|]|] eqn:Eg; cbn; [|discriminate..].
  intros E. injection E as <-. eauto.
Qed.

(* under noclobber the specification of > is that of an open(2) with
   O_CREAT|O_EXCL *)
Lemma spec_new_noclobber f p : sopen f p false true fl_excl = spec_new true f (BFile FileOut p).
Proof.
  unfold sopen. rewrite k_resolve_excl. destruct p as [k|]; [|reflexivity].
  cbn [spec_new]. destruct (fs_get f k) as [[c d|]|]; reflexivity.
Qed.

Lemma open_file_noclobber_shape s p s1 osp :
  sorted (k_tab s) -> open_file_noclobber s p = (s1, osp) ->
  spec_shape true s s1 (BFile FileOut p) osp.
Proof.
  intros Hs.
  (* but for EEXIST this is [open_file] with O_EXCL *)
  generalize (open_file_shape true FileOut s false true fl_excl p s1 osp (spec_new_noclobber _ _) Hs).
  unfold open_file, open_file_noclobber.
  destruct (k_open s p false true fl_excl) as [sa [c|e]] eqn:Ea; [auto|]. destruct e; auto. intros _.
  (* EEXIST: nothing has changed so far, and the second open only looks *)
  apply k_open_path_error in Ea; [|discriminate]. destruct Ea as [Eta [[Ela [_ [_ Efs]]] _]].
  assert (sorted (k_tab sa)) as Hsa by (rewrite Eta; exact Hs).
  destruct (k_open sa p false true fl_none) as [sb [c|e]] eqn:Eb; apply k_open_spec in Eb; try exact Hsa;
    rewrite k_resolve_none_fs, Efs in Eb.
  - (* the name can be opened for writing: it is a regular file, and the
       descriptor is closed again *)
    destruct Eb as [k [Er Hfb]]. destruct (k_resolve_write_existing _ _ _ Er) as [cc [d Hg]].
    rewrite (fresh_at_regular _ _ _ _ _ _ _ _ _ _ _ Hfb Hg).
    intros E. injection E as <- <-. destruct Hfb as [Hfree Elb _ Etb [Efb _]].
    split; [split|left; exact Efb]; cbn; [rewrite Etb, tdel_tset_fresh by assumption; exact Eta|congruence].
  - intros E. injection E as <- <-. destruct Eb as [[Etb Elb] Efb].
    split; [split; congruence|left; exact Efb].
Qed.

Lemma open_normal_shape nc s b s1 osp :
  sorted (k_tab s) -> open_normal nc s b = (s1, osp) -> spec_shape nc s s1 b osp.
Proof.
  intros Hs. destruct b as [op p|op a|c|]; cbn [open_normal].
  - destruct op; try (apply open_file_shape; [reflexivity|assumption]).
    destruct nc; [apply open_file_noclobber_shape|apply open_file_shape; [reflexivity|]]; assumption.
  - intros E. injection E as <- <-.
    unfold copy_fd. destruct a as [n| |]; cbn [spec_shape]; [|eauto|apply spec_shape_refused].
    destruct (fd_valid s n op) eqn:Ev; cbn [negb spec_shape]; [|apply spec_shape_refused].
    destruct (k_cloexec s n) eqn:Ec; cbn [spec_shape]; [apply spec_shape_refused|].
    split; [reflexivity|]. unfold fd_valid, k_ofd_of in Ev. unfold k_cloexec in Ec.
    destruct (lookup (k_tab s) n) as [e|]; [|discriminate].
    destruct (ofd_get (k_ofd s) (e_ofd e)) as [o|] eqn:Eo; [|discriminate].
    exists op, e, o. unfold acc. repeat split; auto.
  - destruct (k_tmpfile s c) as [s' [fd|e]] eqn:Et; intros E; injection E as <- <-;
      unfold k_tmpfile in Et; apply alloc_new_spec in Et; try exact Hs;
      [|exact (conj (proj1 Et) (or_introl (proj1 (proj2 Et))))].
    split; [exact I|]. eexists. eexists. split; [reflexivity|apply Et].
  - intros E. injection E as <- <-. apply spec_shape_refused.
Qed.

Definition not_cx (v : option fdent) : Prop := forall e, v = Some e -> e_cx e = false.

Definition opened_val (nc : bool) (s s' : kst) (b : body) (v : option fdent) : Prop :=
  exists f' o, spec_new nc (k_fs s) b = Some (f', o) /\ added_ofd s s' f' o
               /\ v = Some (mkEnt (k_next s) false).

(* what a successful redirection with body b has done, v being the new
   binding of the target *)
Definition step_val (nc : bool) (s s' : kst) (b : body) (v : option fdent) : Prop :=
  match b with
  | BDup op (DFd m) =>
      frame s s' /\ exists e o, lookup (k_tab s) m = Some e /\ e_cx e = false
                                /\ ofd_get (k_ofd s) (e_ofd e) = Some o /\ acc op o = true
                                /\ v = Some (mkEnt (e_ofd e) false)
  | BDup _ DClose => frame s s' /\ v = None
  | BDup _ DMalformed | BUnsupported => False
  | BFile _ _ | BHere _ => opened_val nc s s' b v
  end.

Lemma step_val_not_cx nc s s' b v : step_val nc s s' b v -> not_cx v.
Proof.
  assert (opened_val nc s s' b v -> not_cx v) as Hfresh.
  { intros [f' [o [_ [_ ->]]]] e E. injection E as <-. reflexivity. }
  destruct b as [op p|op [m| |]|c|]; cbn [step_val]; try exact Hfresh; try tauto.
  - intros [_ [e0 [o [_ [_ [_ [_ ->]]]]]]] e E. injection E as <-. reflexivity.
  - intros [_ ->] e E. discriminate.
Qed.

Lemma apply_step nc s r s2 ok :
  wf s -> apply nc s r = (s2, ok) ->
  wf s2 /\ k_lim s2 = k_lim s /\
  if ok then
    (forall fd, fd <> r_fd r -> lookup (k_tab s2) fd = lookup (k_tab s) fd)
    /\ step_val nc s s2 (r_body r) (lookup (k_tab s2) (r_fd r))
  else k_tab s2 = k_tab s /\ files_after nc s s2 (r_body r).
Proof.
  intros Hwf. unfold apply.
  destruct (open_normal nc s (r_body r)) as [s1 osp] eqn:Eo. pose proof Hwf as [Hs Hb].
  apply open_normal_shape in Eo; [|assumption]. rename Eo into Hsh.
  destruct (spec_shape_wf _ _ _ _ _ Hwf Hsh) as [Hwf1 El1].
  destruct osp as [[c|m|]|]; cbn [spec_shape spec_fd spec_close] in *.
  - (* a descriptor of its own: moved to the target unless it is there already;
       either way the target ends up bound to the new description *)
    destruct Hsh as [Hopens [f' [o [Hsn [Hfree _ Hic Et1 Hd]]]]].
    assert (forall s2, k_lim s2 = k_lim s -> added_ofd s s2 f' o -> in_limit (k_lim s) (r_fd r) = true ->
              k_tab s2 = tset (k_tab s) (r_fd r) (mkEnt (k_next s) false) ->
              wf s2 /\ k_lim s2 = k_lim s /\
              (forall fd, fd <> r_fd r -> lookup (k_tab s2) fd = lookup (k_tab s) fd)
              /\ step_val nc s s2 (r_body r) (lookup (k_tab s2) (r_fd r))) as Hfin.
    { intros sx El Hdx Hi Et. destruct (rebind_tset _ _ _ _ Hwf Hi El Et) as [A [B [C ->]]].
      repeat (split; [assumption|]).
      assert (opened_val nc s sx (r_body r) (Some (mkEnt (k_next s) false))) as H by (exists f', o; auto).
      unfold step_val. destruct (r_body r); cbn in Hopens; tauto. }
    destruct (N.eqb_spec c (r_fd r)) as [Heq|Hne].
    + intros E. injection E as <- <-. rewrite Heq in Hic, Et1. exact (Hfin _ El1 Hd Hic Et1).
    + rewrite (k_dup2_spec s1 c (r_fd r) (mkEnt (k_next s) false))
        by (rewrite ?Et1, ?lookup_tset_same; auto).
      rewrite El1. destruct (in_limit (k_lim s) (r_fd r)) eqn:Ei; intros E; injection E as <- <-.
      * cbv iota. apply Hfin; [exact El1|exact Hd|reflexivity|]. cbn. rewrite Et1.
        apply tdel_tset_other; [exact Hs|exact Hfree|congruence].
      * assert (same_table s (k_close (with_tab s1 (k_tab s1)) c)) as Hst
          by (split; [cbn; rewrite Et1; apply tdel_tset_fresh; assumption|exact El1]).
        split; [eapply same_table_wf; eassumption|]. split; [apply Hst|]. split; [apply Hst|].
        right. exists f', o. split; [exact Hsn|apply Hd].
  - (* a copy of descriptor m *)
    destruct Hsh as [-> [op [e [o [Hbody [Hm [Hcx [Ho Hacc]]]]]]]].
    unfold step_val. rewrite Hbody.
    destruct (N.eqb_spec m (r_fd r)) as [Heq|Hne].
    + intros E. injection E as <- <-. split; [assumption|]. split; [reflexivity|].
      split; [reflexivity|]. split; [apply frame_refl|].
      exists e, o. rewrite <- Heq, Hm. destruct e as [i cx]. cbn in Hcx. subst cx. repeat split; assumption.
    + rewrite (k_dup2_spec s m (r_fd r) e Hm Hne).
      destruct (in_limit (k_lim s) (r_fd r)) eqn:Ei; intros E; injection E as <- <-.
      * destruct (rebind_tset s (with_tab s (tset (k_tab s) (r_fd r) (mkEnt (e_ofd e) false))) _ _
                                Hwf Ei eq_refl eq_refl) as [A [B [C ->]]].
        repeat (split; [assumption|]). split; [repeat split|]. exists e, o. repeat split; assumption.
      * split; [exact Hwf|]. split; [reflexivity|]. split; [reflexivity|left; reflexivity].
  - (* n<&- *)
    destruct Hsh as [-> [op Hbody]]. intros E. injection E as <- <-.
    split; [apply wf_close; exact Hwf|]. split; [reflexivity|]. unfold step_val. rewrite Hbody. split.
    + intros fd Hfd. cbn. rewrite lookup_tdel by assumption.
      destruct (N.eqb_spec (r_fd r) fd); [congruence|reflexivity].
    + split; [repeat split|]. cbn. rewrite lookup_tdel by assumption. rewrite N.eqb_refl. reflexivity.
  - intros E. injection E as <- <-. destruct Hsh as [Hst Hfs]. split; [assumption|]. split; [assumption|].
    split; [apply Hst|exact Hfs].
Qed.

(* the saving dup does not disturb what [apply] does: it adds a close-on-exec
   descriptor, which cannot be the source of a copy *)
Lemma step_val_transport nc s s1 s2 b v sv X :
  frame s s1 -> k_tab s1 = tset (k_tab s) sv X -> e_cx X = true ->
  step_val nc s1 s2 b v -> step_val nc s s2 b v.
Proof.
  intros Hf Et Hx. pose proof Hf as [Hl [Hn [Ho Hfs]]].
  assert (opened_val nc s1 s2 b v -> opened_val nc s s2 b v) as Hfresh.
  { unfold opened_val, added_ofd. rewrite Hfs, Hn, Ho. auto. }
  destruct b as [op p|op [m| |]|c|]; cbn [step_val]; try exact Hfresh; try tauto.
  - intros [Hf2 [e [o [Hm [Hcx [Hofd [Hacc Hv]]]]]]]. split; [eapply frame_trans; eassumption|].
    exists e, o. rewrite Et, lookup_tset in Hm. rewrite Ho in Hofd.
    destruct (N.eqb_spec sv m) as [->|_]; [injection Hm as <-; congruence|]. repeat split; assumption.
  - intros [Hf2 Hv]. split; [eapply frame_trans; eassumption|assumption].
Qed.

(* The step lemma.  [guard_step], [step_sim] (ProofsSpec.v) and the theorems
   of Properties.v about a single redirection use only this about [perform];
   besides it, [perform] is unfolded in [perform_unc] (ProofsProgress.v) and
   for the two refusals read off its first lines in Properties.v.  The clause
   on [save] is where the EBADF / other-errno split of the saving dup shows: a
   record without backup is made for a closed target only. *)
Lemma perform_step nc s r s' res :
  wf s -> perform nc s r = (s', res) ->
  wf s' /\ k_lim s' = k_lim s /\
  match res with
  | None => k_tab s' = k_tab s /\ files_after nc s s' (r_body r)
  | Some (n, save) =>
      n = r_fd r /\ k_cloexec s n = false /\
      step_val nc s s' (r_body r) (lookup (k_tab s') n) /\
      (forall fd, fd <> n -> Some fd <> save -> lookup (k_tab s') fd = lookup (k_tab s) fd) /\
      match save with
      | None => lookup (k_tab s) n = None
      | Some sv =>
          exists en, lookup (k_tab s) n = Some en /\ e_cx en = false
                     /\ lookup (k_tab s) sv = None /\ 10 <= sv /\ sv <> n
                     /\ lookup (k_tab s') sv = Some (mkEnt (e_ofd en) true)
      end
  end.
Proof.
  intros Hwf. pose proof Hwf as [Hs Hb]. unfold perform.
  destruct (k_cloexec s (r_fd r)) eqn:Ecx.
  { intros E. injection E as <- <-. repeat split; try assumption. left; reflexivity. }
  unfold k_dup. destruct (lookup (k_tab s) (r_fd r)) as [en|] eqn:Hn.
  - destruct (alloc_fd s MIN_INTERNAL_FD (mkEnt (e_ofd en) true)) as [s1 [sv|e]] eqn:Ea;
      apply alloc_fd_wf in Ea; try exact Hwf; destruct Ea as [Hwf1 [Hf1 Ha]]; pose proof Hf1 as [El1 _].
    + destruct Ha as [Hfresh [Hge Et1]].
      assert (sv <> r_fd r) as Hne by (intros ->; congruence).
      destruct (apply nc s1 r) as [s2 ok] eqn:Eap.
      apply apply_step in Eap; [|assumption]. destruct Eap as [Hwf2 [El2 Hap]].
      destruct ok; intros E; injection E as <- <-.
      * destruct Hap as [Hrest Hval]. split; [assumption|]. split; [congruence|].
        split; [reflexivity|]. split; [assumption|].
        split; [eapply step_val_transport; [exact Hf1|exact Et1|reflexivity|exact Hval]|].
        split.
        -- intros fd A B. rewrite Hrest by exact A. rewrite Et1. apply lookup_tset_other. congruence.
        -- exists en. unfold k_cloexec in Ecx. rewrite Hn in Ecx. repeat split; try assumption.
           rewrite Hrest by exact Hne. rewrite Et1. apply lookup_tset_same.
      * destruct Hap as [Et2 Hfs].
        assert (same_table s (close_opt s2 (Some sv))) as Hst
          by (split; cbn; [rewrite Et2, Et1; apply tdel_tset_fresh; assumption|congruence]).
        split; [eapply same_table_wf; eassumption|]. split; [apply Hst|]. split; [apply Hst|].
        unfold files_after in *. rewrite (proj2 (proj2 (proj2 Hf1))) in Hfs. exact Hfs.
    + (* the saving dup fails although the target is open: refused *)
      destruct Ha as [Et1 ->]. intros E. injection E as <- <-. split; [assumption|]. split; [assumption|].
      split; [assumption|left; apply Hf1].
  - destruct (apply nc s r) as [s2 ok] eqn:Eap.
    apply apply_step in Eap; [|assumption]. destruct Eap as [Hwf2 [El2 Hap]].
    destruct ok; intros E; injection E as <- <-.
    + destruct Hap as [Hrest Hval]. repeat (split; [assumption || reflexivity|]).
      split; [|exact Hn]. intros fd A _. apply Hrest. exact A.
    + cbn [close_opt]. split; [assumption|]. split; assumption.
Qed.

(* the descriptors that have been redirected *)
Definition origs (stack : list saved) : list N := map fst stack.

Lemma in_saves stack fd : In fd (saves stack) <-> exists orig, In (orig, Some fd) stack.
Proof.
  unfold saves. rewrite in_flat_map. split.
  - intros [[orig [sv|]] [Hin Hx]]; cbn in Hx; [|contradiction].
    destruct Hx as [->|[]]. exists orig. exact Hin.
  - intros [orig Hin]. exists (orig, Some fd). split; [exact Hin|left; reflexivity].
Qed.

Lemma saves_cons orig sv l :
  saves ((orig, sv) :: l) = match sv with Some x => x :: saves l | None => saves l end.
Proof. unfold saves. cbn. destruct sv; reflexivity. Qed.

Lemma in_saves_cons n save stack fd :
  In fd (saves ((n, save) :: stack)) <-> Some fd = save \/ In fd (saves stack).
Proof. rewrite saves_cons. destruct save as [x|]; cbn [In]; intuition congruence. Qed.

(* one of the shell's own descriptors is open on the description of e *)
Definition has_backup (t : table) (e : fdent) : Prop :=
  exists x ex, lookup t x = Some ex /\ 10 <= x /\ e_cx ex = true /\ e_ofd ex = e_ofd e.

(* t0 is the table when the guard was empty, t the table now *)
Record guard (lim : option N) (t0 t : table) (stack : list saved) : Prop := mkGuard {
  g_undo : undo_tab lim t stack = t0;
  (* a saved descriptor is open, close-on-exec, >= 10, in a slot that was free
     at the beginning or has been freed by a redirection of that slot *)
  g_save : forall fd, In fd (saves stack) ->
           (exists e, lookup t fd = Some e /\ e_cx e = true) /\ 10 <= fd
           /\ (lookup t0 fd = None \/ In fd (origs stack));
  (* a descriptor that has been redirected is visible to the user, unless its
     slot has since been taken by a saved descriptor *)
  g_target : forall fd, In fd (origs stack) -> ~ In fd (saves stack) -> not_cx (lookup t fd);
  g_rest : forall fd, ~ In fd (origs stack) -> ~ In fd (saves stack) -> lookup t fd = lookup t0 fd;
  g_ne : forall orig, ~ In (orig, Some orig) stack;
  g_nodup : NoDup (saves stack);
  (* every redirected descriptor that was open at the beginning has a backup *)
  g_backup : forall fd e, In fd (origs stack) -> lookup t0 fd = Some e -> has_backup t e
}.

Lemma guard_init lim t0 : guard lim t0 t0 [].
Proof.
  split; [reflexivity|intros fd []|intros fd []|reflexivity|intros orig []|constructor|intros fd e []].
Qed.

Lemma ent_eta e : e_cx e = false -> mkEnt (e_ofd e) false = e.
Proof. destruct e as [o c]. cbn. intros ->. reflexivity. Qed.

Lemma undo_one_restores nc s r s' n save :
  wf s -> perform nc s r = (s', Some (n, save)) ->
  undo_one (k_lim s) (k_tab s') (n, save) = k_tab s.
Proof.
  intros Hwf Hp. pose proof Hwf as [Hs Hb]. apply perform_step in Hp; [|assumption].
  destruct Hp as [[Hs' _] [_ [_ [_ [_ [Hrest Hsave]]]]]].
  destruct save as [sv|]; cbn [undo_one].
  - destruct Hsave as [en [Hln [Hcxn [Hfresh [_ [Hne Hsv]]]]]].
    unfold t_dup2. rewrite Hsv. destruct (N.eqb_spec sv n) as [|_]; [congruence|].
    rewrite (below_limit_lookup _ _ _ _ Hb Hln). cbn [fst e_ofd].
    apply sorted_ext; [apply sorted_tdel, sorted_tset; assumption|assumption|].
    intros fd. rewrite lookup_tdel by (apply sorted_tset; assumption). rewrite lookup_tset.
    destruct (N.eqb_spec sv fd) as [<-|Hfd]; [symmetry; assumption|].
    destruct (N.eqb_spec n fd) as [<-|Hfd']; [rewrite Hln, ent_eta by assumption; reflexivity|].
    apply Hrest; congruence.
  - apply sorted_ext; [apply sorted_tdel; assumption|assumption|].
    intros fd. rewrite lookup_tdel by assumption.
    destruct (N.eqb_spec n fd) as [<-|Hfd]; [symmetry; assumption|]. apply Hrest; congruence.
Qed.

Lemma guard_step nc t0 s r s' n save stack :
  wf s -> guard (k_lim s) t0 (k_tab s) stack ->
  perform nc s r = (s', Some (n, save)) ->
  guard (k_lim s) t0 (k_tab s') ((n, save) :: stack).
Proof.
  intros Hwf [Hundo Hsv Htg Hrest Hne Hnd Hbk] Hp.
  pose proof (undo_one_restores _ _ _ _ _ _ Hwf Hp) as Hone.
  apply perform_step in Hp; [|assumption].
  destruct Hp as [_ [_ [_ [Hcx [Hval [Hkeep Hsave]]]]]]. apply step_val_not_cx in Hval.
  (* [perform] refuses a close-on-exec target, and the backup goes to a free
     slot: the saved descriptors are not touched *)
  assert (forall x ex, lookup (k_tab s) x = Some ex -> e_cx ex = true ->
                       x <> n /\ Some x <> save) as Hcxne.
  { intros x ex Hx Hxc. split.
    - intros ->. unfold k_cloexec in Hcx. rewrite Hx in Hcx. congruence.
    - destruct save as [sv|]; [|discriminate]. destruct Hsave as [en [_ [_ [Hfr _]]]].
      intros E. injection E as ->. congruence. }
  assert (forall x, In x (saves stack) -> x <> n /\ Some x <> save) as Hsvne.
  { intros x Hin. destruct (Hsv x Hin) as [[e [He Hce]] _]. eapply Hcxne; eassumption. }
  assert (forall e, has_backup (k_tab s) e -> has_backup (k_tab s') e) as Hbkeep.
  { intros e [x [ex [A [B [C D]]]]]. exists x, ex. repeat split; try assumption.
    rewrite Hkeep; [exact A|apply (Hcxne x ex A C)..]. }
  split.
  - cbn [undo_tab fold_left]. rewrite Hone. exact Hundo.
  - intros fd Hfd. apply in_saves_cons in Hfd. destruct Hfd as [Hfd|Hfd].
    + destruct save as [sv|]; [|discriminate]. injection Hfd as ->.
      destruct Hsave as [en [_ [_ [Hfr [Hge [_ Hl]]]]]].
      split; [eauto|]. split; [exact Hge|].
      destruct (in_dec N.eq_dec sv (origs stack)) as [Ho|Ho]; [right; right; exact Ho|left].
      rewrite <- Hrest; [exact Hfr|exact Ho|]. intros Hin. apply (Hsvne sv Hin). reflexivity.
    + destruct (Hsv fd Hfd) as [[e [He Hce]] [Hge Hor]].
      split; [exists e; split; [rewrite Hkeep; [exact He|apply (Hsvne fd Hfd)..]|exact Hce]|].
      split; [exact Hge|]. destruct Hor; [left|right; right]; assumption.
  - intros fd Hfd Hns. rewrite in_saves_cons in Hns. cbn in Hfd.
    destruct (N.eq_dec fd n) as [->|Hfn]; [exact Hval|]. destruct Hfd as [E|Hfd]; [congruence|].
    rewrite Hkeep; [apply Htg; tauto|exact Hfn|tauto].
  - intros fd Hno Hns. rewrite in_saves_cons in Hns. cbn in Hno.
    rewrite Hkeep; [apply Hrest; tauto|intros ->; tauto|tauto].
  - intros orig [E|Hin]; [|exact (Hne orig Hin)]. injection E as -> ->.
    destruct Hsave as [en [_ [_ [_ [_ [H _]]]]]]. congruence.
  - rewrite saves_cons. destruct save as [sv|]; [|exact Hnd].
    constructor; [|exact Hnd]. intros Hin. apply (Hsvne sv Hin). reflexivity.
  - intros fd e Hfd Hl0. cbn in Hfd.
    destruct (in_dec N.eq_dec fd (origs stack)) as [Ho|Ho]; [apply Hbkeep; eapply Hbk; eassumption|].
    destruct Hfd as [<-|Hfd]; [|contradiction].
    (* redirected for the first time: it is still as it was at the beginning *)
    rewrite <- (Hrest n Ho) in Hl0 by (intros Hin; destruct (Hsvne n Hin); congruence).
    destruct save as [sv|]; [|congruence].
    destruct Hsave as [en [Hln [_ [_ [Hge [_ Hl]]]]]]. assert (en = e) as -> by congruence.
    exists sv, (mkEnt (e_ofd e) true). repeat split; assumption.
Qed.

(* Stated for any starting stack, for the induction; [pre] is what this call
   has pushed: a record for every redirection performed, so for every target
   when [ok]. *)
Lemma perform_redirs_guard nc t0 rs :
  forall s stack s' stack' ok,
    wf s -> guard (k_lim s) t0 (k_tab s) stack ->
    perform_redirs nc s rs stack = (s', stack', ok) ->
    wf s' /\ k_lim s' = k_lim s /\ guard (k_lim s) t0 (k_tab s') stack'
    /\ exists pre, stack' = pre ++ stack /\ incl (origs pre) (targets rs)
                   /\ (ok = true -> incl (targets rs) (origs pre)).
Proof.
  induction rs as [|r rs IH]; intros s stack s' stack' ok Hwf Hg; cbn [perform_redirs targets map].
  - intros E. injection E as <- <- <-. split; [assumption|]. split; [reflexivity|]. split; [assumption|].
    exists []. split; [reflexivity|]. split; [intros x []|intros _ x []].
  - destruct (perform nc s r) as [s1 [[n save]|]] eqn:Hp.
    + pose proof (guard_step _ _ _ _ _ _ _ _ Hwf Hg Hp) as Hg1.
      apply perform_step in Hp; [|assumption]. destruct Hp as [Hwf1 [El1 [-> _]]].
      rewrite <- El1 in Hg1. intros Hrs. apply (IH _ _ _ _ _ Hwf1 Hg1) in Hrs.
      destruct Hrs as [Hwf' [El' [Hg' [pre [-> [Hsub Hsup]]]]]]. rewrite El1 in *.
      split; [assumption|]. split; [assumption|]. split; [assumption|]. exists (pre ++ [(r_fd r, save)]).
      split; [rewrite <- app_assoc; reflexivity|]. unfold origs in *. rewrite map_app. split.
      * intros x Hx. apply in_app_iff in Hx.
        destruct Hx as [Hx|[<-|[]]]; [right; apply Hsub; exact Hx|left; reflexivity].
      * intros Hok x [<-|Hx]; apply in_app_iff; [right; left; reflexivity|left; apply (Hsup Hok); exact Hx].
    + apply perform_step in Hp; [|assumption]. destruct Hp as [Hwf1 [El1 [Et1 _]]].
      intros E. injection E as <- <- <-. rewrite Et1. split; [assumption|]. split; [assumption|].
      split; [assumption|]. exists []. split; [reflexivity|]. split; [intros x []|discriminate].
Qed.

(* ... starting from an empty guard, as [perform_redirs] is called *)
Lemma perform_redirs_guard0 nc s rs s' stack ok :
  wf s -> perform_redirs nc s rs [] = (s', stack, ok) ->
  wf s' /\ k_lim s' = k_lim s /\ guard (k_lim s) (k_tab s) (k_tab s') stack
  /\ incl (origs stack) (targets rs) /\ (ok = true -> incl (targets rs) (origs stack)).
Proof.
  intros Hwf Hp. apply (perform_redirs_guard nc (k_tab s)) in Hp; [|exact Hwf|apply guard_init].
  destruct Hp as [A [B [C [pre [-> [D E]]]]]]. rewrite app_nil_r in *.
  exact (conj A (conj B (conj C (conj D E)))).
Qed.

Lemma undo_tab_app lim t a b : undo_tab lim t (a ++ b) = undo_tab lim (undo_tab lim t a) b.
Proof. unfold undo_tab. apply fold_left_app. Qed.

(* Dropping the guard gives back the table, whatever has happened since the
   redirections were performed, provided the table is again the one they left
   (a diagnostic has been written, a nested guard has come and gone). *)
Lemma undo_restores_wf nc s rs s' stack ok :
  wf s -> perform_redirs nc s rs [] = (s', stack, ok) ->
  forall sx, same_table s' sx -> same_table s (undo_redirs sx stack).
Proof.
  intros Hwf Hp sx [Et El].
  destruct (perform_redirs_guard0 _ _ _ _ _ _ Hwf Hp) as [_ [El' [[Hundo _ _ _ _ _ _] _]]].
  split; cbn; [rewrite Et, El, El'; exact Hundo|congruence].
Qed.

Lemma guard_no_panic lim t0 t stack : guard lim t0 t stack -> undo_panics stack = false.
Proof.
  intros Hg. unfold undo_panics. destruct (existsb _ stack) eqn:E; [|reflexivity].
  apply existsb_exists in E. destruct E as [[orig [x|]] [Hin Hx]]; cbn in Hx; [|discriminate].
  apply N.eqb_eq in Hx. subst x. destruct (g_ne _ _ _ _ Hg _ Hin).
Qed.

Lemma guard_explained lim t0 t stack tg :
  guard lim t0 t stack -> incl (origs stack) tg -> explained tg t0 t.
Proof.
  intros Hg Hi fd. destruct (in_dec N.eq_dec fd (saves stack)) as [Hin|Hnin].
  - right. destruct (g_save _ _ _ _ Hg fd Hin) as [[e [-> Hce]] [Hge Hor]]. rewrite Hce.
    split; [assumption|]. destruct Hor; auto.
  - destruct (in_dec N.eq_dec fd (origs stack)) as [Ho|Ho]; [|left; apply (g_rest _ _ _ _ Hg); assumption].
    right. pose proof (g_target _ _ _ _ Hg fd Ho Hnin) as Hv.
    destruct (lookup t fd) as [e|]; [rewrite (Hv e eq_refl)|]; auto.
Qed.

(* the stack is drained oldest first, so the newest record is handled last *)
Lemma preserve_tab_cons t sv stack :
  preserve_tab t (sv :: stack) = preserve_one (preserve_tab t stack) sv.
Proof. unfold preserve_tab. cbn [rev]. rewrite fold_left_app. reflexivity. Qed.

Lemma preserve_tab_sorted t stack : sorted t -> sorted (preserve_tab t stack).
Proof.
  intros Hs. induction stack as [|[orig [x|]] st IH]; [exact Hs|rewrite preserve_tab_cons..];
    [apply sorted_tdel|]; exact IH.
Qed.

Lemma preserve_tab_below lim t stack : below_limit lim t -> below_limit lim (preserve_tab t stack).
Proof.
  intros Hb. induction stack as [|[orig [x|]] st IH]; [exact Hb|rewrite preserve_tab_cons..];
    [apply below_limit_tdel|]; exact IH.
Qed.

Lemma preserve_wf s stack : wf s -> wf (preserve_redirs s stack).
Proof. intros [Hs Hb]. split; [apply preserve_tab_sorted, Hs|apply preserve_tab_below, Hb]. Qed.

Lemma preserve_tab_lookup t stack fd :
  sorted t ->
  (In fd (saves stack) -> lookup (preserve_tab t stack) fd = None)
  /\ (~ In fd (saves stack) -> lookup (preserve_tab t stack) fd = lookup t fd).
Proof.
  intros Hs. induction stack as [|[orig [x|]] st [A B]]; [split; [intros []|reflexivity]| |];
    rewrite preserve_tab_cons, saves_cons; [|split; assumption].
  unfold preserve_one. cbn [snd]. rewrite lookup_tdel by (apply preserve_tab_sorted, Hs).
  destruct (N.eqb_spec x fd) as [->|Hne].
  - split; [reflexivity|]. intros H. exfalso. apply H. left. reflexivity.
  - split; [intros [E|H]; [congruence|exact (A H)]|]. intros H. apply B. intros H'. apply H. right. exact H'.
Qed.

Lemma guard_preserve lim t0 t stack fd :
  sorted t -> guard lim t0 t stack ->
  (~ In fd (origs stack) -> lookup (preserve_tab t stack) fd = lookup t0 fd)
  /\ view (preserve_tab t stack) fd = view t fd
  /\ (In fd (origs stack) -> not_cx (lookup (preserve_tab t stack) fd)).
Proof.
  intros Hs Hg. unfold view. destruct (preserve_tab_lookup t stack fd Hs) as [A B].
  destruct (in_dec N.eq_dec fd (saves stack)) as [Hin|Hnin].
  - rewrite A by exact Hin. destruct (g_save _ _ _ _ Hg fd Hin) as [[e [He Hce]] [_ Hor]].
    split; [intros Ho; destruct Hor; [congruence|contradiction]|].
    split; [rewrite He, Hce; reflexivity|discriminate].
  - rewrite B by exact Hnin. split; [intros Ho; apply (g_rest _ _ _ _ Hg); assumption|].
    split; [reflexivity|]. intros Ho. apply (g_target _ _ _ _ Hg); assumption.
Qed.
