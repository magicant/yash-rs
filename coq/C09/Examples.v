(* C09 — non-vacuity: concrete, non-trivial states that satisfy the hypotheses
   of the implication-shaped theorems of Properties.v. *)
From Yv Require Import Common.Base C09.Kernel C09.Model C09.Spec.

(* A process with descriptors 0-2 and 5 and a limit of 12; the list
   0</3  5>&-  1>/4  2<<...: the hypotheses hold, the first two redirections
   succeed (descriptors 0 and 5 saved at 10 and 11), the third is refused
   because the limit leaves no slot for the backup of descriptor 1.  The
   failure injected at the sixth allocation is never reached: the refused
   saving dup is the fourth. *)
Definition ex_state : kst :=
  mkK [(0, mkEnt 0 false); (1, mkEnt 1 false); (2, mkEnt 2 false); (5, mkEnt 1 false)]%N
      (Some 12%N) [false; false; false; false; false; true] 3%N
      [(2, mkOfd (FPath 2) true true true); (1, mkOfd (FPath 1) true true true);
       (0, mkOfd (FPath 0) true true true)]%N
      [(3, Reg [65; 66] false); (4, Reg [67] false)]%N.

Definition ex_redirs : list redir :=
  [mkRedir 0 (BFile FileIn (PKey 3)); mkRedir 5 (BDup FdOut DClose);
   mkRedir 1 (BFile FileOut (PKey 4)); mkRedir 2 (BHere [104; 10])]%N.

Example hypotheses_satisfiable :
  sorted (k_tab ex_state) /\ below_limit (k_lim ex_state) (k_tab ex_state)
  /\ exists s' stack,
       perform_redirs false ex_state ex_redirs [] = (s', stack, false)
       /\ saves stack = [11; 10]%N
       /\ k_tab s' <> k_tab ex_state
       /\ k_tab (undo_redirs s' stack) = k_tab ex_state.
Proof.
  split; [|split].
  - cbn. repeat split; intros k' H; cbn in H; intuition lia.
  - intros k' H. cbn in H. intuition (subst; reflexivity).
  - eexists. eexists. split; [vm_compute; reflexivity|].
    split; [reflexivity|]. split; [vm_compute; discriminate|vm_compute; reflexivity].
Qed.

Example success_case_satisfiable :
  exists s' stack,
    perform_redirs false (with_lim ex_state None) (firstn 3 ex_redirs ++ [mkRedir 7 (BDup FdIn (DFd 0))]%N) []
    = (s', stack, true) /\ view (k_tab s') 7%N = view (k_tab s') 0%N /\ view (k_tab s') 7%N <> None.
Proof.
  eexists. eexists. split; [vm_compute; reflexivity|]. split; [reflexivity|vm_compute; discriminate].
Qed.

Example noclobber_case_satisfiable :
  fs_get (k_fs ex_state) 4%N = Some (Reg [67]%N false)
  /\ exists s', perform true ex_state (mkRedir 1 (BFile FileOut (PKey 4)))%N = (s', None).
Proof. split; [reflexivity|]. eexists. vm_compute. reflexivity. Qed.

(* progress: no limit, no injected failure, the shell's own descriptors (none
   here) at 10 or above, a portable list the specification accepts *)
Definition ex_free : kst :=
  mkK (k_tab ex_state) None [] (k_next ex_state) (k_ofd ex_state) (k_fs ex_state).

Example progress_case_satisfiable :
  k_lim ex_free = None /\ k_flt ex_free = [] /\ portable ex_redirs = true
  /\ (forall fd e, lookup (k_tab ex_free) fd = Some e -> e_cx e = true -> (10 <= fd)%N)
  /\ spec_redirs (view (k_tab ex_free)) (ofd_get (k_ofd ex_free)) false
                 (mkU [] (k_fs ex_free) (k_next ex_free) []) ex_redirs <> None.
Proof.
  repeat split; try reflexivity; [|vm_compute; discriminate].
  intros fd e H Hc. cbn [lookup k_tab ex_free ex_state] in H.
  repeat (destruct (N.eqb _ fd) in H; [injection H as <-; cbn in Hc; discriminate Hc|]).
  discriminate H.
Qed.

(* a function with redirections whose body holds a redirected command, a
   command whose redirection is refused, and a nested compound command *)
Definition ex_item : item :=
  IGroup KFunction [mkRedir 1 (BFile FileOut (PKey 4)); mkRedir 0 (BDup FdIn DClose)]%N
    [ICmd (mkCmd KRegular [mkRedir 2 (BDup FdOut (DFd 1))]%N);
     ICmd (mkCmd KRegular [mkRedir 0 (BFile FileIn (PKey 9))]%N);
     IGroup KGroup [mkRedir 5 (BHere [104; 10])]%N
       [ICmd (mkCmd KSubshell [mkRedir 5 (BDup FdIn DClose)]%N)]].

Example script_case_satisfiable :
  transient ex_item = true
  /\ exists steps sh',
       run_item (mkSh ex_free false false) ex_item = (steps, sh', false)
       /\ length steps = 7%nat
       /\ k_tab (sh_k sh') = k_tab ex_free.
Proof.
  split; [reflexivity|]. eexists. eexists. split; [vm_compute; reflexivity|].
  split; reflexivity.
Qed.

(* the shell opens a script with a limit of 10: the file is opened at 3, cannot
   be moved to 10 or above, and 3 is closed again; with a limit of 11 it ends
   up at 10 *)
Definition ex_tight (l : N) : kst :=
  mkK (k_tab ex_free) (Some l) [] (k_next ex_free) (k_ofd ex_free) (k_fs ex_free).

Example own_descriptor_cases_satisfiable :
  (exists s', open_internal (ex_tight 10) (PKey 3) = (s', None) /\ k_tab s' = k_tab (ex_tight 10))
  /\ (exists s', open_internal (ex_tight 11) (PKey 3) = (s', Some 10%N))
  /\ (exists s1 s', k_open_cx (ex_tight 10) (PKey 3) = (s1, Ok 3%N)
                    /\ move_fd_internal s1 3 = (s', Err EMFILE) /\ lookup (k_tab s') 3%N = None).
Proof.
  split; [|split].
  - eexists. split; vm_compute; reflexivity.
  - eexists. vm_compute. reflexivity.
  - eexists. eexists. split; [vm_compute; reflexivity|]. split; vm_compute; reflexivity.
Qed.

(* exec with an operand that cannot be invoked, in an interactive shell: the
   shell goes on with the redirection in place *)
Example exec_operand_case_satisfiable :
  exists s' s1 stack,
    perform_redirs false ex_free [mkRedir 7 (BFile FileOut (PKey 4))]%N [] = (s1, stack, true)
    /\ run_cmd false ex_free (mkCmd (KExecFail true) [mkRedir 7 (BFile FileOut (PKey 4))]%N) = (s', None, false)
    /\ lookup (k_tab s') 7%N <> None /\ lookup (k_tab ex_free) 7%N = None.
Proof.
  eexists. eexists. eexists. split; [vm_compute; reflexivity|].
  split; [vm_compute; reflexivity|]. split; [vm_compute; discriminate|reflexivity].
Qed.

(* a script read with `command .` under redirections, whose body holds a command
   with a command substitution *)
Definition ex_dot : item :=
  IDot true [mkRedir 0 (BFile FileIn (PKey 3))]%N (PKey 4)
    [ISubst (mkCmd KRegular [mkRedir 5 (BHere [104; 10])]%N)].

Example dot_case_satisfiable :
  transient ex_dot = true
  /\ (exists steps sh', run_item (mkSh ex_free false false) ex_dot = (steps, sh', false)
                        /\ length steps = 4%nat /\ k_tab (sh_k sh') = k_tab ex_free)
  /\ (exists steps sh', run_item (mkSh (ex_tight 11) false false) ex_dot = (steps, sh', false)
                        /\ length steps = 1%nat /\ k_tab (sh_k sh') = k_tab ex_free).
Proof.
  split; [reflexivity|]. split; eexists; eexists; (split; [vm_compute; reflexivity|]); split; reflexivity.
Qed.

(* three commands, descriptors 0 1 2 (and 5) open, a limit of 6: the second pipe
   cannot be made; the parent's table is nevertheless the one before *)
Example pipeline_failure_case_satisfiable :
  exists s' children,
    run_pipeline (ex_tight 6) 3 = (s', children, false)
    /\ length children = 1%nat /\ k_tab s' = k_tab (ex_tight 6).
Proof. eexists. eexists. split; [vm_compute; reflexivity|]. split; reflexivity. Qed.
