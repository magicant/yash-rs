(* C09 — what the shell does around its guards.  Descriptors it opens for its
   own use: the script read by `.` or at start-up (opened low, moved to 10 or
   above) and the pipes of command substitutions and pipelines.  Then what each
   kind of command does with its redirections, and compound commands and
   functions with redirections whose bodies contain further redirected commands
   (nested RedirGuards): whatever happens inside, and whether or not every pipe
   can be made, afterwards the table is the one before - provided nothing in
   the body is meant to persist (exec, ulimit). *)
From Yv Require Import Common.Base C09.Kernel C09.Model C09.Spec C09.ProofsTab.

Local Open Scope N_scope.

Lemma move_fd_internal_tab s from e s' res :
  wf s -> lookup (k_tab s) from = Some e -> move_fd_internal s from = (s', res) ->
  wf s' /\ k_lim s' = k_lim s /\
  match res with
  | Ok fd =>
      if N.leb 10 from then fd = from /\ k_tab s' = k_tab s
      else 10 <= fd /\ lookup (k_tab s) fd = None
           /\ k_tab s' = tdel (tset (k_tab s) fd (mkEnt (e_ofd e) true)) from
  | Err _ => from < 10 /\ k_tab s' = tdel (k_tab s) from
  end.
Proof.
  intros Hwf Hfrom. pose proof Hwf as [Hs Hb]. unfold move_fd_internal, MIN_INTERNAL_FD.
  destruct (N.leb_spec 10 from) as [Hge|Hlt].
  - intros E. injection E as <- <-. split; [exact Hwf|]. split; [reflexivity|]. split; reflexivity.
  - unfold k_dup. rewrite Hfrom.
    destruct (alloc_fd s 10 (mkEnt (e_ofd e) true)) as [s1 [sv|er]] eqn:Ea; intros E; injection E as <- <-;
      apply alloc_fd_wf in Ea; try exact Hwf; destruct Ea as [Hwf1 [[El _] Ha]];
      (split; [apply wf_close; exact Hwf1|]); (split; [exact El|]).
    + destruct Ha as [Hfresh [Hge Et]]. split; [exact Hge|]. split; [exact Hfresh|]. cbn. rewrite Et. reflexivity.
    + destruct Ha as [Et _]. split; [exact Hlt|]. cbn. rewrite Et. reflexivity.
Qed.

Lemma open_internal_tab s p s' r :
  wf s -> open_internal s p = (s', r) ->
  wf s' /\ k_lim s' = k_lim s /\
  match r with
  | None => k_tab s' = k_tab s
  | Some fd => 10 <= fd /\ lookup (k_tab s) fd = None
               /\ exists id, k_tab s' = tset (k_tab s) fd (mkEnt id true)
  end.
Proof.
  intros Hwf. pose proof Hwf as [Hs Hb]. unfold open_internal.
  destruct (k_open_cx s p) as [s1 [c|er]] eqn:Eo; apply k_open_cx_spec in Eo; try exact Hs.
  2:{ intros E. injection E as <- <-. split; [eapply same_table_wf; eassumption|]. split; apply Eo. }
  destruct Eo as [f' [o Hfa]]. pose proof (fresh_at_wf _ _ _ _ _ _ Hwf Hfa) as Hwf1.
  destruct Hfa as [Hfresh El1 _ Et1 _].
  assert (lookup (k_tab s1) c = Some (mkEnt (k_next s) true)) as Hc1
    by (rewrite Et1; apply lookup_tset_same).
  destruct (move_fd_internal s1 c) as [s2 [fd|er]] eqn:Em;
    apply (move_fd_internal_tab _ _ _ _ _ Hwf1 Hc1) in Em; destruct Em as [Hwf2 [El2 Hm]];
    intros E; injection E as <- <-; (split; [exact Hwf2|]); (split; [congruence|]).
  - destruct (N.leb_spec 10 c) as [Hge|Hlt].
    + destruct Hm as [-> Et2]. split; [exact Hge|]. split; [exact Hfresh|].
      exists (k_next s). congruence.
    + destruct Hm as [Hge [Hf1 Et2]]. cbn [e_ofd] in Et2.
      rewrite Et1, lookup_tset in Hf1. destruct (N.eqb_spec c fd) as [->|Hne]; [discriminate|].
      split; [exact Hge|]. split; [exact Hf1|]. exists (k_next s).
      rewrite Et2, Et1. apply tdel_tset_other; [exact Hs|exact Hfresh|congruence].
  - destruct Hm as [_ Et2]. rewrite Et2, Et1. apply tdel_tset_fresh; assumption.
Qed.

Lemma k_pipe_tab s s' res :
  wf s -> k_pipe s = (s', res) ->
  wf s' /\ k_lim s' = k_lim s /\
  match res with
  | Ok (r, w) =>
      r <> w /\ lookup (k_tab s) r = None /\ lookup (k_tab s) w = None
      /\ exists e1 e2, k_tab s' = tset (tset (k_tab s) r e1) w e2
  | Err _ => k_tab s' = k_tab s
  end.
Proof.
  intros Hwf. unfold k_pipe. cbn [new_ofd].
  destruct (alloc_fd _ 0 (mkEnt (k_next s) false)) as [s3 [r|er]] eqn:Ea;
    apply alloc_fd_wf in Ea; try exact Hwf; destruct Ea as [Hwf3 [[El3 _] Ha]]; cbn in El3, Ha.
  2:{ intros E. injection E as <- <-. split; [exact Hwf3|]. split; [exact El3|apply Ha]. }
  destruct Ha as [Hfr [_ Et3]].
  destruct (alloc_fd s3 0 _) as [s4 [w|er]] eqn:Eb;
    apply alloc_fd_wf in Eb; try exact Hwf3; destruct Eb as [Hwf4 [[El4 _] Hb']]; intros E; injection E as <- <-.
  - destruct Hb' as [Hfw [_ Et4]]. split; [exact Hwf4|]. split; [congruence|].
    rewrite Et3, lookup_tset in Hfw. destruct (N.eqb_spec r w) as [->|Hne]; [discriminate|].
    split; [exact Hne|]. split; [exact Hfr|]. split; [exact Hfw|].
    eexists. eexists. rewrite Et4, Et3. reflexivity.
  - destruct Hb' as [Et4 _].
    assert (same_table s (k_close s4 r)) as Hst
      by (split; cbn; [rewrite Et4, Et3; apply tdel_tset_fresh; [apply Hwf|exact Hfr]|congruence]).
    split; [eapply same_table_wf; eassumption|]. split; apply Hst.
Qed.

(* t is t0 except at the descriptors xs, which were free in t0 *)
Record extra (t0 t : table) (xs : list N) : Prop := mkExtra {
  ex_free : forall fd, In fd xs -> lookup t0 fd = None;
  ex_old : forall fd, ~ In fd xs -> lookup t fd = lookup t0 fd
}.

Lemma extra_nil t0 t : sorted t0 -> sorted t -> extra t0 t [] -> t = t0.
Proof. intros H0 H1 [_ Ho]. apply sorted_ext; try assumption. intros fd. apply Ho. intros []. Qed.

(* one of them is closed; ys are the others *)
Lemma extra_close t0 t xs x ys :
  sorted t -> In x xs -> incl ys xs -> incl xs (x :: ys) ->
  extra t0 t xs -> extra t0 (tdel t x) ys.
Proof.
  intros Hs Hx Hys Hxs [Hf Ho]. split; [intros fd H; apply Hf, Hys, H|].
  intros fd Hn. rewrite lookup_tdel by exact Hs.
  destruct (N.eqb_spec x fd) as [<-|Hne]; [symmetry; apply Hf, Hx|].
  apply Ho. intros H. destruct (Hxs fd H) as [E|E]; [congruence|contradiction].
Qed.

Lemma extra_open t0 t xs x e :
  lookup t x = None -> extra t0 t xs -> extra t0 (tset t x e) (xs ++ [x]).
Proof.
  intros Hx [Hf Ho]. split.
  - intros fd Hin. apply in_app_iff in Hin. destruct Hin as [Hin|[<-|[]]]; [apply Hf, Hin|].
    destruct (in_dec N.eq_dec x xs) as [H|H]; [apply Hf, H|rewrite <- (Ho x H); exact Hx].
  - intros fd Hn. rewrite lookup_tset. destruct (N.eqb_spec x fd) as [<-|Hne].
    + exfalso. apply Hn, in_app_iff. right. left. reflexivity.
    + apply Ho. intros H. apply Hn, in_app_iff. left. exact H.
Qed.

Definition opt_fd (o : option N) : list N := match o with Some p => [p] | None => [] end.

Definition fds_of (prev : option N) (next : option (N * N)) : list N :=
  opt_fd prev ++ match next with Some (r, w) => [r; w] | None => [] end.

(* the parent between two commands of the pipeline: beyond the table t0 it had
   at the start it holds the read end of the previous pipe and both ends of
   the next one, in slots that were free in t0 *)
Record pinv (t0 : table) (lim : option N) (s : kst) (prev : option N) (next : option (N * N)) : Prop := {
  pi_wf : wf s;
  pi_lim : k_lim s = lim;
  pi_extra : extra t0 (k_tab s) (fds_of prev next)
}.

Lemma close_opt_inv t0 lim s prev next :
  pinv t0 lim s prev next -> pinv t0 lim (close_opt s prev) None next.
Proof.
  destruct prev as [p|]; [|auto]. intros [Hwf Hl He]. split; [apply wf_close; exact Hwf|exact Hl|].
  unfold fds_of, opt_fd in *. cbn [app] in *.
  exact (extra_close _ _ _ p _ (proj1 Hwf) (in_eq p _) (incl_tl p (incl_refl _)) (incl_refl _) He).
Qed.

(* the write end of the last pipe is closed; its read end becomes prev *)
Lemma close_write_inv t0 lim s next :
  pinv t0 lim s None next ->
  pinv t0 lim (match next with Some (_, w) => k_close s w | None => s end)
       (match next with Some (r, _) => Some r | None => None end) None.
Proof.
  destruct next as [[r w]|]; [|auto]. intros [Hwf Hl He]. split; [apply wf_close; exact Hwf|exact Hl|].
  apply (extra_close _ _ [r; w] w [r] (proj1 Hwf)); [right; left; reflexivity| | |exact He];
    intros y [<-|H]; cbn in *; tauto.
Qed.

(* a new pipe joins the invariant, or, if it cannot be made, the pipeline is
   abandoned and the reader goes too *)
Lemma k_pipe_inv t0 lim s prev s' res :
  pinv t0 lim s prev None -> k_pipe s = (s', res) ->
  match res with
  | Ok rw => pinv t0 lim s' prev (Some rw)
  | Err _ => pinv t0 lim (close_opt s' prev) None None
  end.
Proof.
  intros [Hwf Hl He] Ep. apply k_pipe_tab in Ep; [|exact Hwf]. destruct Ep as [Hwf' [El' Hp]].
  unfold fds_of in *. rewrite app_nil_r in He. destruct res as [[r w]|er].
  - destruct Hp as [Hne [Hr [Hw [e1 [e2 Et]]]]]. split; [exact Hwf'|congruence|]. rewrite Et.
    assert (lookup (tset (k_tab s) r e1) w = None) as Hw'
      by (rewrite lookup_tset_other by exact Hne; exact Hw).
    pose proof (extra_open _ _ _ w e2 Hw' (extra_open _ _ _ r e1 Hr He)) as H.
    rewrite <- app_assoc in H. exact H.
  - apply close_opt_inv. split; [exact Hwf'|congruence|]. unfold fds_of. rewrite app_nil_r, Hp. exact He.
Qed.

Lemma pipe_shift_inv t0 lim s prev next has_next s' prev' next' ok :
  pinv t0 lim s prev next ->
  pipe_shift s prev next has_next = (s', prev', next', ok) ->
  pinv t0 lim s' prev' next'
  /\ (ok = true -> (next' = None <-> has_next = false))
  /\ (ok = false -> next' = None /\ prev' = None).
Proof.
  intros Hinv. apply close_opt_inv, close_write_inv in Hinv. unfold pipe_shift.
  (* whatever [next] was, the parent now holds at most the reader, as [Hinv] says *)
  destruct next as [[r w]|]; destruct has_next.
  1,3: destruct (k_pipe _) as [s3 [rw|e]] eqn:Ep; apply (k_pipe_inv _ _ _ _ _ _ Hinv) in Ep.
  all: intros E; injection E as <- <- <- <-; split; [assumption|].
  (* the two remaining clauses only compare the flags just returned *)
  all: split; intros; try discriminate; split; (discriminate || reflexivity).
Qed.

Lemma pipe_loop_inv t0 lim k :
  forall s prev next acc s' children ok,
    pinv t0 lim s prev next -> (k = O -> next = None) ->
    pipe_loop s prev next k acc = (s', children, ok) ->
    k_lim s' = lim /\ extra t0 (k_tab s') [] /\ sorted (k_tab s').
Proof.
  induction k as [|k IH]; intros s prev next acc s' children ok Hinv Hk; cbn [pipe_loop].
  - rewrite (Hk eq_refl) in *.
    destruct (pipe_shift s prev None false) as [[[s1 prev1] next1] ok1] eqn:Es.
    intros E. injection E as <- _ _.
    revert Es. unfold pipe_shift. intros Es. injection Es as <- _ _ _.
    apply close_opt_inv in Hinv. destruct Hinv as [[Hs Hb] Hl He].
    split; [exact Hl|]. split; [exact He|exact Hs].
  - destruct (pipe_shift s prev next (match k with O => false | S _ => true end))
      as [[[s1 prev1] next1] ok1] eqn:Es.
    destruct (pipe_shift_inv _ _ _ _ _ _ _ _ _ _ Hinv Es) as [Hinv1 [Hok Hfail]].
    destruct ok1.
    + apply IH; [exact Hinv1|]. intros ->. apply (Hok eq_refl). reflexivity.
    + intros E. injection E as <- _ _. destruct (Hfail eq_refl) as [-> ->].
      destruct (stderr_write_tab s1) as [A B]. destruct Hinv1 as [[Hs Hb] Hl He].
      rewrite A. split; [congruence|]. split; [exact He|exact Hs].
Qed.

Lemma pipeline_restores s n s' children ok :
  wf s -> run_pipeline s n = (s', children, ok) -> same_table s s'.
Proof.
  intros Hwf Hr. unfold run_pipeline in Hr.
  assert (pinv (k_tab s) (k_lim s) s None None) as Hinv.
  { split; [exact Hwf|reflexivity|]. split; [intros fd []|reflexivity]. }
  destruct (pipe_loop_inv _ _ n _ _ _ _ _ _ _ Hinv (fun _ => eq_refl) Hr) as [Hl [He Hs']].
  split; [apply extra_nil; [apply Hwf|assumption..]|exact Hl].
Qed.

Lemma run_cmd_restores nc s c s' inside ex :
  wf s -> run_cmd nc s c = (s', inside, ex) ->
  exec_like (c_kind c) = false \/ snd (perform_redirs nc s (c_redirs c) []) = false ->
  same_table s s'.
Proof.
  intros Hwf. unfold run_cmd.
  destruct (perform_redirs nc s (c_redirs c) []) as [[s1 stack] ok] eqn:Hp.
  pose proof (undo_restores_wf _ _ _ _ _ _ Hwf Hp _ (same_table_refl s1)) as Hok.
  pose proof (undo_restores_wf _ _ _ _ _ _ Hwf Hp _ (stderr_write_tab s1)) as Herr.
  cbn [snd].
  (* every kind ends with the undo, after a diagnostic or not; KEmpty and KAsync
     run in a child and leave the parent's table alone; exec is excluded *)
  destruct (c_kind c) eqn:Ek; destruct ok; cbv beta iota zeta; intros E Hk; injection E as <- _ _;
    try assumption; try (split; reflexivity);
    destruct Hk; discriminate.
Qed.

Lemma run_cmd_inside nc s c s' si ex :
  c_kind c <> KAsync ->
  run_cmd nc s c = (s', Some si, ex) ->
  exists stack, perform_redirs nc s (c_redirs c) [] = (si, stack, true).
Proof.
  unfold run_cmd. intros Hk. destruct (perform_redirs nc s (c_redirs c) []) as [[s1 stack] ok].
  destruct (c_kind c); try congruence; destruct ok; cbv beta iota zeta; intros E;
    injection E as _ E2 _; try discriminate; subst si; eauto.
Qed.

Lemma run_cmd_exec nc s c s' inside ex s1 stack :
  exec_like (c_kind c) = true ->
  perform_redirs nc s (c_redirs c) [] = (s1, stack, true) ->
  run_cmd nc s c = (s', inside, ex) ->
  same_table (preserve_redirs s1 stack) s'
  /\ ex = match c_kind c with KExecFail false => true | _ => false end.
Proof.
  unfold run_cmd. intros Hk Hp. rewrite Hp.
  destruct (c_kind c) as [| | | | | | | | |i]; try discriminate; cbv beta iota zeta;
    intros E; injection E as <- _ <-.
  - split; [apply same_table_refl|reflexivity].
  - (* "cannot execute" has been reported first *)
    destruct (stderr_write_tab s1) as [A B].
    split; [split; cbn; [rewrite A|rewrite B]; reflexivity|destruct i; reflexivity].
Qed.

Lemma run_cmd_wf nc s c s' inside ex : wf s -> run_cmd nc s c = (s', inside, ex) -> wf s'.
Proof.
  intros Hwf Hr.
  assert (exec_like (c_kind c) = false \/ snd (perform_redirs nc s (c_redirs c) []) = false -> wf s')
    as Hrestored by (intros Hk; eapply same_table_wf; [eapply run_cmd_restores|]; eassumption).
  destruct (exec_like (c_kind c)) eqn:Ek; [|auto].
  destruct (perform_redirs nc s (c_redirs c) []) as [[s1 stack] [|]] eqn:Hp; [|auto].
  destruct (run_cmd_exec _ _ _ _ _ _ _ _ Ek Hp Hr) as [Hst _].
  destruct (perform_redirs_guard0 _ _ _ _ _ _ Hwf Hp) as [Hwf1 _].
  exact (same_table_wf _ _ Hst (preserve_wf s1 stack Hwf1)).
Qed.

(* induction over items, with the bodies *)
Lemma item_ind' (P : item -> Prop) :
  (forall c, P (ICmd c)) ->
  (forall k rs body, Forall P body -> P (IGroup k rs body)) ->
  (forall via rs p body, Forall P body -> P (IDot via rs p body)) ->
  (forall c, P (ISubst c)) ->
  (forall n, P (IPipe n)) ->
  (forall p, P (IStartup p)) ->
  (forall l, P (ILimit l)) ->
  (forall b, P (INoclobber b)) ->
  (forall b, P (IErrexit b)) ->
  forall i, P i.
Proof.
  intros Hc Hg Hd Hsu Hp Hst Hl Hn He.
  fix IH 1. intros [c|k rs body|via rs p body|c|n|p|l|b|b].
  - apply Hc.
  - apply Hg. induction body as [|x body IHb]; constructor; [apply IH|exact IHb].
  - apply Hd. induction body as [|x body IHb]; constructor; [apply IH|exact IHb].
  - apply Hsu.
  - apply Hp.
  - apply Hst.
  - apply Hl.
  - apply Hn.
  - apply He.
Qed.

(* the property of one item that the induction carries *)
Definition restores (i : item) : Prop :=
  forall sh steps sh' ex,
    wf (sh_k sh) -> transient i = true -> run_item sh i = (steps, sh', ex) ->
    same_table (sh_k sh) (sh_k sh').

Lemma run_list_restores body :
  Forall restores body ->
  forall sh steps sh' ex,
    wf (sh_k sh) -> forallb transient body = true ->
    run_list_with run_item sh body = (steps, sh', ex) ->
    same_table (sh_k sh) (sh_k sh').
Proof.
  induction 1 as [|x body Hx Hbody IH]; intros sh steps sh' ex Hwf Ht; cbn [run_list_with].
  - intros E. injection E as _ <- _. apply same_table_refl.
  - cbn [forallb] in Ht. apply andb_true_iff in Ht. destruct Ht as [Htx Htb].
    destruct (run_item sh x) as [[o1 sh1] ex1] eqn:E1.
    pose proof (Hx _ _ _ _ Hwf Htx E1) as H1.
    destruct ex1.
    + intros E. injection E as _ <- _. exact H1.
    + fold (run_list_with run_item).
      destruct (run_list_with run_item sh1 body) as [[o2 sh2] ex2] eqn:E2.
      intros E. injection E as _ <- _.
      eapply same_table_trans; [exact H1|].
      eapply IH; [eapply same_table_wf; eassumption|exact Htb|exact E2].
Qed.

Lemma item_restores : forall i, restores i.
Proof.
  apply item_ind'.
  - (* a command *)
    intros c sh steps sh' ex Hwf Ht. cbn [run_item transient] in *.
    destruct (run_cmd (sh_nc sh) (sh_k sh) c) as [[s' inside] ex'] eqn:Er.
    intros E. injection E as _ <- _. cbn [sh_k with_k].
    eapply run_cmd_restores; [exact Hwf|exact Er|].
    left. destruct (c_kind c); try reflexivity; discriminate.
  - (* a compound command with a body *)
    intros k rs body Hbody sh steps sh' ex Hwf Ht. cbn [run_item transient] in *.
    destruct (perform_redirs (sh_nc sh) (sh_k sh) rs []) as [[s1 stack] ok] eqn:Hp.
    pose proof (undo_restores_wf _ _ _ _ _ _ Hwf Hp) as Hback.
    destruct (perform_redirs_guard0 _ _ _ _ _ _ Hwf Hp) as [Hwf1 _].
    destruct ok.
    + destruct (run_list_with run_item (with_k sh s1) body) as [[ob shb] exb] eqn:Eb.
      pose proof (run_list_restores body Hbody (with_k sh s1) _ _ _ Hwf1 Ht Eb) as Hsame.
      destruct exb; intros E; injection E as _ <- _; exact (Hback _ Hsame).
    + intros E. injection E as _ <- _. exact (Hback _ (stderr_write_tab s1)).
  - (* the . built-in *)
    intros via rs p body Hbody sh steps sh' ex Hwf Ht. cbn [run_item transient] in *.
    destruct (perform_redirs (sh_nc sh) (sh_k sh) rs []) as [[s1 stack] ok] eqn:Hp.
    pose proof (undo_restores_wf _ _ _ _ _ _ Hwf Hp) as Hback.
    destruct (perform_redirs_guard0 _ _ _ _ _ _ Hwf Hp) as [Hwf1 _].
    destruct ok.
    + destruct (open_internal s1 p) as [s2 [fd|]] eqn:Eo;
        apply open_internal_tab in Eo; try exact Hwf1; destruct Eo as [Hwf2 [El2 Ho]].
      * destruct Ho as [Hge [Hfresh [id Et2]]].
        destruct (run_list_with run_item (with_k sh s2) body) as [[ob shb] exb] eqn:Eb.
        pose proof (run_list_restores body Hbody (with_k sh s2) _ _ _ Hwf2 Ht Eb) as [A B].
        cbn [sh_k with_k] in A, B.
        assert (same_table (sh_k sh) (undo_redirs (k_close (sh_k shb) fd) stack)) as Hfin.
        { apply Hback. split; cbn; [|congruence].
          rewrite A, Et2. apply tdel_tset_fresh; [apply Hwf1|exact Hfresh]. }
        destruct exb; intros E; injection E as _ <- _; exact Hfin.
      * intros E. injection E as _ <- _. cbn [sh_k with_k]. apply Hback.
        eapply same_table_trans; [split; [exact Ho|exact El2]|apply stderr_write_tab].
    + intros E. injection E as _ <- _. cbn [sh_k with_k]. apply Hback, stderr_write_tab.
  - (* a command with a command substitution *)
    intros c sh steps sh' ex Hwf Ht. cbn [run_item transient] in *.
    destruct (k_pipe (sh_k sh)) as [s1 [[r w]|er]] eqn:Ep;
      apply k_pipe_tab in Ep; try exact Hwf; destruct Ep as [Hwf1 [El1 Hpipe]].
    + destruct Hpipe as [Hne [Hr [Hw [e1 [e2 Et1]]]]].
      set (s2 := k_close (k_close s1 w) r).
      assert (same_table (sh_k sh) s2) as H2.
      { split; [cbn; rewrite Et1; apply close_both; try assumption; apply Hwf|exact El1]. }
      destruct (run_cmd (sh_nc sh) s2 c) as [[s' inside] ex'] eqn:Er.
      intros E. injection E as _ <- _. cbn [sh_k with_k].
      eapply same_table_trans; [exact H2|].
      eapply run_cmd_restores; [exact (same_table_wf _ _ H2 Hwf)|exact Er|].
      left. destruct (c_kind c); try reflexivity; discriminate.
    + intros E. injection E as _ <- _. cbn [sh_k with_k].
      eapply same_table_trans; [split; [exact Hpipe|exact El1]|apply stderr_write_tab].
  - (* a pipeline *)
    intros n sh steps sh' ex Hwf _. cbn [run_item].
    destruct (run_pipeline (sh_k sh) n) as [[s' children] ok] eqn:Er.
    intros E. injection E as _ <- _. cbn [sh_k with_k].
    exact (pipeline_restores _ _ _ _ _ Hwf Er).
  - intros p sh steps sh' ex _ Ht. discriminate.
  - intros l sh steps sh' ex _ Ht. discriminate.
  - intros b sh steps sh' ex _ _ E. cbn in E. injection E as _ <- _. apply same_table_refl.
  - intros b sh steps sh' ex _ _ E. cbn in E. injection E as _ <- _. apply same_table_refl.
Qed.
