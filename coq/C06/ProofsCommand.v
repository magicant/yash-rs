(* C06 — command.rs.  What simple_command.rs reads as a simple command,
   command.rs returns as that simple command (it is not taken for a function
   definition or a compound command); the tokens at which no command starts. *)
From Yv Require Import Common.Base C06.Ast C06.Lex C06.Parse C06.ParseEq
  C06.ProofsLen C06.SpecCmd C06.ProofsCmdBase C06.ProofsSimple.
Local Open Scope N_scope.

(* a simple command returned by command.rs was returned by simple_command.rs,
   a compound command by compound_command.rs ([s0], [s1] of the compound case
   are some text, not related to [s]: only facts about [comp] are drawn from
   it, ProofsCompound.compound_first) *)
Lemma command_parts f s c r :
  p_command f s = Ok (Some c, r) ->
  match c with
  | CSimple a w rds => exists f0, p_simple f0 None empty_b s = Ok (Some (a, w, rds), r)
  | CCompound comp _ => exists f0 s0 s1, p_compound f0 s0 = Ok (Some comp, s1)
  | CFunction _ _ _ _ => True
  end.
Proof.
  destruct f as [|f]; [discriminate|]. rewrite p_command_eq. cbv zeta. unfold bind.
  destruct (p_simple f None (mkBuilder [] [] []) s) as [[[[[a' w'] rds']|] s1]| | | |] eqn:E; try discriminate.
  - intros H. repeat (dmh H; try discriminate); injection H as <- <-; try exact I; exists f; exact E.
  - destruct (p_full_compound f s1) as [[[[c' rs']|] s2]| | | |] eqn:E2; try discriminate.
    + intros H. inv H. destruct f as [|f]; [discriminate|].
      rewrite p_full_compound_eq in E2. cbv zeta in E2. unfold bind in E2.
      destruct (p_compound f s1) as [[[c''|] s3]| | | |] eqn:E3; try discriminate.
      repeat (dmh E2; try discriminate). inv E2. eauto.
    + intros H. repeat (dmh H; try discriminate).
Qed.

(* command.rs where simple_command.rs reads a simple command: what ends the
   command is not `(`, so it is not taken for a function definition *)
Lemma command_of_simple f x a w rds z :
  p_simple f None empty_b x = Ok (Some (a, w, rds), z) -> cmd_end z -> (3 <= f)%nat ->
  p_command (S f) x = Ok (Some (CSimple a w rds), z).
Proof.
  intros H He Hf. rewrite p_command_eq. cbv zeta. unfold bind.
  change (mkBuilder [] [] []) with empty_b. rewrite H.
  destruct (cmd_end_token (p_inner f) f z He Hf) as (t & r' & Et & Hid).
  destruct a; [|reflexivity]. destruct w as [|[name m] [|]]; try reflexivity.
  destruct rds; [|reflexivity]. rewrite Et.
  destruct (t_id t) as [|op| | |]; try reflexivity. destruct op; try reflexivity.
  destruct Hid as [_ X]. congruence.
Qed.

(* the same token is read at [s] with every fuel >= 12
   (ProofsToken.lex_token_kw) *)
Definition token_at (s : str) (t : token) (r : str) : Prop :=
  forall f, (12 <= f)%nat -> tk2 f s = Ok (t, r).

(* facts that hold on every large enough fuel: two of them, about the calls a
   function makes, give one about the function, which runs them on one less *)
Lemma large_step (P Q R : nat -> Prop) :
  (exists f1, forall f, (f1 <= f)%nat -> P f) -> (exists f2, forall f, (f2 <= f)%nat -> Q f) ->
  (forall f, P f -> Q f -> R (S f)) -> exists f0, forall f, (f0 <= f)%nat -> R f.
Proof.
  intros [f1 H1] [f2 H2] H. exists (S (max f1 f2)). intros f Hf. destruct f as [|f]; [lia|].
  apply H; [apply H1 | apply H2]; lia.
Qed.

(* the tokens at which command.rs returns no command: the end of the input, the
   operators that are neither `(` nor looked at by p_redir, and the reserved
   words that start neither a compound command nor an error *)
Definition no_command (id : token_id) : bool :=
  match id with
  | TEnd => true
  | TOp OpOpenParen => false
  | TOp op => negb (redirish op)
  | TToken (Some (KOpenBrace | KFor | KWhile | KUntil | KIf | KCase
                 | KFunction | KOpenBracketBracket | KNamespace | KSelect)) => false
  | TToken (Some _) => true
  | _ => false
  end.

Lemma no_command_simple id : no_command id = true -> ends_simple empty_b id.
Proof.
  destruct id as [[k|]|op| | |]; try discriminate; try exact (fun _ => I); [reflexivity|].
  destruct op; try discriminate; reflexivity.
Qed.

Lemma p_compound_none_at f s t r :
  tk2 f s = Ok (t, r) -> no_command (t_id t) = true -> p_compound (S f) s = Ok (None, s).
Proof.
  intros E H. rewrite p_compound_eq. cbv zeta. unfold bind. rewrite E.
  destruct (t_id t) as [[[]|]|[]| | |]; try discriminate H; reflexivity.
Qed.

Lemma p_command_none_at s t r :
  token_at s t r -> no_command (t_id t) = true ->
  forall f, (15 <= f)%nat -> p_command f s = Ok (None, s).
Proof.
  intros Ht H f Hf. destruct f as [|[|[|f]]]; try lia.
  rewrite p_command_eq. cbv zeta. unfold bind. change (mkBuilder [] [] []) with empty_b.
  rewrite (p_simple_stop (S f) None _ s t r (Ht (S f) ltac:(lia)) (no_command_simple _ H)).
  cbn [empty_b builder_is_empty b_assigns b_words b_redirs].
  rewrite p_full_compound_eq. cbv zeta. unfold bind.
  rewrite (p_compound_none_at f s t r (Ht f ltac:(lia)) H), (Ht (S (S f)) ltac:(lia)).
  destruct (t_id t) as [[[]|]|[]| | |]; try discriminate H; reflexivity.
Qed.

(* nor a pipeline, an and-or list or a list when the token is not `!` either:
   list.rs returns the empty list there and consumes nothing *)
Lemma p_list_none_at s t r :
  token_at s t r -> no_command (t_id t) = true -> t_id t <> TToken (Some KBang) ->
  forall f, (18 <= f)%nat -> p_list f s = Ok ([], s).
Proof.
  intros Ht H Hb f Hf. destruct f as [|[|[|f]]]; try lia.
  rewrite p_list_eq. cbv zeta. unfold bind. rewrite p_and_or_eq. cbv zeta. unfold bind.
  rewrite p_pipeline_eq. cbv zeta. unfold bind.
  rewrite (p_command_none_at s t r Ht H f ltac:(lia)), (Ht f ltac:(lia)).
  destruct (t_id t) as [[[]|]|[]| | |]; try discriminate H; try reflexivity. congruence.
Qed.
