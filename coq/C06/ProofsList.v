(* C06 — pipelines, and-or lists and lists of commands that
   are read back from their printed text. *)
From Yv Require Import Common.Base C06.Ast C06.Print C06.Lex C06.LexEq C06.Parse C06.ParseEq
  C06.Spec C06.ProofsLen C06.ProofsRtBase C06.ProofsMono C06.ProofsToken C06.SpecCmd
  C06.ProofsCmdBase C06.ProofsSimple C06.ProofsSimpleRun C06.ProofsCommand C06.ProofsParse.
From Coq Require Ascii String.
Import Coq.Strings.String.StringSyntax.
Local Open Scope N_scope.

Lemma skip_newlines_none tk f s t r :
  tk s = Ok (t, r) -> t_id t <> TOp OpNewline -> skip_newlines tk (S f) s = Ok s.
Proof.
  intros H Hn. cbn [skip_newlines]. unfold bind. rewrite H.
  destruct (t_id t) as [|op| | |]; try reflexivity. destruct op; try reflexivity. congruence.
Qed.

Lemma tok_end i f : (2 <= f)%nat -> lex_token i f [] = Ok (mkToken [] TEnd [], []).
Proof.
  intros Hf. destruct f as [|[|f]]; try lia.
  unfold lex_token. cbn [skip_blanks_and_comment length skip_blanks skip_lc lex_operator skip_comment]. unfold bind.
  rewrite lex_units_eq. unfold bind. rewrite lex_wu_eq. cbn [skip_lc]. reflexivity.
Qed.

Lemma kw_token_at k cs z pre :
  keyword_of cs = Some k -> nolc z -> stops DToken z -> is_lead pre ->
  token_at (pre ++ cs ++ z) (mkToken (wlits cs) (TToken (Some k)) (cs ++ z)) z.
Proof.
  intros Hk Hn Hs Hl f Hf. rewrite (lex_token_lead _ _ _ _ Hl). apply lex_token_kw; assumption.
Qed.

(* what the printer puts after a command, a pipeline, an and-or list:
   nothing, or one of a few operators, possibly after a blank.  [za], [zp],
   [zc]: after an and-or list, a pipeline, a command. *)
Definition follows (ops : list operator) (z : str) : Prop :=
  z = [] \/
  exists pre o y, z = pre ++ print_op o ++ y /\ is_lead pre /\ In o ops /\ nolc y /\ op_follow_ok o (hd y).

Definition za := follows [OpAnd; OpSemicolon; OpCloseParen].
Definition zp := follows [OpAndAnd; OpBarBar; OpAnd; OpSemicolon; OpCloseParen].
Definition zc := follows [OpBar; OpAndAnd; OpBarBar; OpAnd; OpSemicolon; OpCloseParen].

Lemma follows_op ops pre o y :
  is_lead pre -> In o ops -> nolc y -> op_follow_ok o (hd y) -> follows ops (pre ++ print_op o ++ y).
Proof. intros. right. exists pre, o, y. auto. Qed.

Lemma follows_incl ops ops' z : incl ops ops' -> follows ops z -> follows ops' z.
Proof.
  intros Hi [-> | (pre & o & y & E & Hl & Hin & H)]; [left; reflexivity|].
  right. exists pre, o, y. auto.
Qed.

Lemma za_zp z : za z -> zp z.
Proof. apply follows_incl. intros o H. right. right. exact H. Qed.
Lemma zp_zc z : zp z -> zc z.
Proof. apply follows_incl. intros o H. right. exact H. Qed.

Lemma follows_token ops z i f :
  follows ops z -> (2 <= f)%nat ->
  exists t r, lex_token i f z = Ok (t, r) /\ (t_id t = TEnd \/ exists o, In o ops /\ t_id t = TOp o).
Proof.
  intros [-> | (pre & o & y & -> & Hl & Hin & Hn & Ho)] Hf.
  - rewrite tok_end by exact Hf. eexists _, _. split; [reflexivity | left; reflexivity].
  - rewrite (lex_token_lead _ _ _ _ Hl), (lex_token_op _ _ o y Hn Ho).
    eexists _, _. split; [reflexivity | right; eauto].
Qed.

Lemma zc_follow z : zc z -> follow z /\ cmd_end z.
Proof.
  intros [-> | (pre & o & y & -> & Hl & Hin & _)]; [split; [left; reflexivity | exact I]|].
  assert (E : exists c t, print_op o = c :: t /\ end_char c = true).
  { cbn [In] in Hin. repeat (destruct Hin as [<-|Hin]; [eexists _, _; split; reflexivity|]). contradiction. }
  destruct E as (c & t & -> & Hc). cbn [app]. split; [|apply cmd_end_char; assumption].
  destruct Hl as [-> | ->]; cbn [app]; [right; right; eauto | right; left; eauto].
Qed.

Definition cmd_first (c : command) : Prop :=
  match c with
  | CSimple a w rds => exists f s r, p_simple f None empty_b s = Ok (Some (a, w, rds), r)
  | _ => True
  end.

Definition cmd_clean (c : command) : Prop :=
  match c with
  | CSimple a w rds => nocs_res (a, w, rds) /\ nobs_res (a, w, rds)
  | _ => False
  end.

Definition cmd_good (c : command) : Prop := cmd_first c /\ cmd_clean c.

Lemma simple_no_newline f x res r :
  p_simple f None empty_b x = Ok (Some res, r) ->
  exists f0 t r', tk2 f0 x = Ok (t, r') /\ t_id t <> TOp OpNewline.
Proof.
  destruct f as [|f]; [discriminate|]. rewrite p_simple_eq. cbv zeta. unfold bind.
  destruct (tk2 f x) as [[t r']| | | |] eqn:Et.
  2-5: unfold p_redir, bind; rewrite Et; discriminate.
  intros H. exists f, t, r'. split; [exact Et|]. intros Hid.
  rewrite (p_redir_none_at _ _ _ _ Et), Et, Hid in H; [discriminate H | rewrite Hid; reflexivity].
Qed.

(* the printed form of a simple command of the first run is read back by
   command.rs with every large enough fuel; the second clause is for
   p_pipe_rest and p_and_or_rest, which call skip_newlines before command.rs *)
Lemma command_replay c z pre :
  cmd_good c -> follow z -> cmd_end z -> is_lead pre ->
  exists f0, forall f, (f0 <= f)%nat ->
    p_command f (pre ++ print_command c ++ z) = Ok (Some c, z) /\
    forall k, skip_newlines (tk2 f) (S k) (pre ++ print_command c ++ z) = Ok (pre ++ print_command c ++ z).
Proof.
  intros [Hf Hc] Hz He Hl. destruct c as [a w rds| |]; try contradiction.
  destruct Hf as (f1 & s1 & r1 & H1). destruct Hc as [Hn Hb].
  destruct (simple_print_lemma _ _ _ _ _ _ z pre H1 (or_intror Hb) Hn Hz He Hl) as [F HF].
  destruct (simple_no_newline _ _ _ _ (HF F (le_n _))) as (f2 & t & r' & Et & Hid).
  exists (S (max (max F 3) f2)). intros f Hle. split.
  - destruct f as [|f]; [lia|]. apply command_of_simple; [apply HF; lia | exact He | lia].
  - intros k. eapply skip_newlines_none; [|exact Hid].
    apply (tk_mono f2 f (parser_mono f2) ltac:(lia) _ _ Et). discriminate.
Qed.

(* a class of commands that are read back from their printed text, with no
   newline to skip in front *)
Definition replays (P : command -> Prop) : Prop :=
  forall c z pre, P c -> follow z -> cmd_end z -> is_lead pre ->
  exists f0, forall f, (f0 <= f)%nat ->
    p_command f (pre ++ print_command c ++ z) = Ok (Some c, z) /\
    forall k, skip_newlines (tk2 f) (S k) (pre ++ print_command c ++ z) = Ok (pre ++ print_command c ++ z).

Lemma cmd_good_replays : replays cmd_good.
Proof. intros c z pre. apply command_replay. Qed.

(* pipelines (not empty), and-or lists and items made of commands of a class
   ([pl_of]/[ao_of]/[list_of] of SpecCompound.v plus `not empty`, which only
   the first run tells) *)
Definition gpl (P : command -> Prop) (p : pipeline) : Prop :=
  match p with Pipeline cs _ => cs <> [] /\ Forall P cs end.
Definition gao (P : command -> Prop) (ao : and_or_list) : Prop :=
  match ao with AndOrList p rest => gpl P p /\ Forall (fun x => gpl P (snd x)) rest end.
Definition gitem (P : command -> Prop) (i : item) : Prop := match i with Item ao _ => gao P ao end.

Definition pipe_tail (cs : list command) : str :=
  cat_map (fun c => [32; 124; 32] ++ print_command c) cs.

Lemma pipe_tail_zc cs z : zp z -> zc (pipe_tail cs ++ z).
Proof.
  intros Hz. destruct cs as [|c cs]; [apply zp_zc; exact Hz|].
  unfold pipe_tail. cbn [cat_map]. rewrite <- !app_assoc.
  apply (follows_op _ [32] OpBar (32 :: print_command c ++ cat_map _ cs ++ z));
    [right; reflexivity | left; reflexivity | apply nolc_cons; reflexivity | reflexivity].
Qed.

Lemma print_pipeline_cons c cs neg :
  print_pipeline (Pipeline (c :: cs) neg)
  = (if neg then [33; 32] else []) ++ print_command c ++ pipe_tail cs.
Proof.
  cbn [print_pipeline]. change (kw " | ") with [32; 124; 32]. change (kw "! ") with [33; 32].
  rewrite join_map_cons. reflexivity.
Qed.

Definition ao_tail (rest : list (and_or * pipeline)) : str :=
  cat_map (fun x => [32] ++ print_andor (fst x) ++ [32] ++ print_pipeline (snd x)) rest.

Definition andor_op (a : and_or) : operator := match a with AndThen => OpAndAnd | OrElse => OpBarBar end.

Lemma ao_tail_cons a p rest z :
  ao_tail ((a, p) :: rest) ++ z = 32 :: print_op (andor_op a) ++ 32 :: print_pipeline p ++ ao_tail rest ++ z.
Proof. unfold ao_tail. cbn [cat_map fst snd]. rewrite <- !app_assoc. destruct a; reflexivity. Qed.

Lemma ao_tail_zp rest z : za z -> zp (ao_tail rest ++ z).
Proof.
  intros Hz. destruct rest as [|[a p] rest]; [apply za_zp; exact Hz|]. rewrite ao_tail_cons.
  apply (follows_op _ [32] (andor_op a)); [right; reflexivity | | apply nolc_cons; reflexivity |].
  - destruct a; cbn; auto.
  - destruct a; reflexivity.
Qed.

(* the printed form of an item: the and-or list and its separator *)
Definition item_sep (alt async : bool) : option operator :=
  if async then Some OpAnd else if alt then Some OpSemicolon else None.

Lemma print_item_sep alt ao async :
  print_item alt (Item ao async)
  = print_and_or_list ao ++ match item_sep alt async with Some o => print_op o | None => [] end.
Proof. destruct async, alt; reflexivity. Qed.

(* what follows a printed list: the end of the text or the closing
   parenthesis of a subshell (plain form); a blank, one of the reserved words
   `}`, `do`, `done` and something that ends a word (alternate form, in which
   every item carries its separator) *)
Definition closer (k : keyword) (cs : str) : Prop :=
  (k = KCloseBrace /\ cs = [125]) \/ (k = KDo /\ cs = [100; 111]) \/
  (k = KDone /\ cs = [100; 111; 110; 101]).

Lemma closer_kw k cs : closer k cs -> keyword_of cs = Some k.
Proof. intros [[-> ->]|[[-> ->]|[-> ->]]]; reflexivity. Qed.

Definition zl (alt : bool) (zt : str) : Prop :=
  if alt then exists k cs x, zt = 32 :: cs ++ x /\ closer k cs /\ nolc x /\ stops DToken x
  else zt = [] \/ exists x, zt = 41 :: x /\ nolc x.

(* the token there ends a list (list.rs maybe_compound_list) *)
Lemma zl_token alt zt :
  zl alt zt -> exists t r, token_at zt t r /\ is_clause_delimiter (t_id t) = true.
Proof.
  destruct alt; cbn [zl].
  - intros (k & cs & x & -> & Hk & Hn & Hs). eexists _, _. split.
    + exact (kw_token_at k cs x [32] (closer_kw k cs Hk) Hn Hs (or_intror eq_refl)).
    + destruct Hk as [[-> _]|[[-> _]|[-> _]]]; reflexivity.
  - intros [-> | (x & -> & Hn)]; eexists _, _; (split; [intros f Hf|]).
    + apply tok_end. lia.
    + reflexivity.
    + exact (lex_token_op _ f OpCloseParen x Hn ltac:(destruct x; exact I || reflexivity)).
    + reflexivity.
Qed.

Lemma clause_delimiter_no_command id :
  is_clause_delimiter id = true -> no_command id = true /\ id <> TToken (Some KBang).
Proof. destruct id as [[[]|]|[]| | |]; try discriminate; split; (reflexivity || discriminate). Qed.

(* `;` and `&` may stand in front of it *)
Lemma zl_sep alt zt o : zl alt zt -> o = OpAnd \/ o = OpSemicolon -> nolc zt /\ op_follow_ok o (hd zt).
Proof.
  intros Hz Ho. destruct alt; cbn [zl] in Hz.
  - destruct Hz as (k & cs & x & -> & _). split; [apply nolc_cons; reflexivity|].
    destruct Ho as [-> | ->]; reflexivity.
  - destruct Hz as [-> | (x & -> & _)]; (split; [reflexivity || (apply nolc_cons; reflexivity)|]);
      destruct Ho as [-> | ->]; reflexivity || exact I.
Qed.

Lemma zl_za zt : zl false zt -> za zt.
Proof.
  intros [-> | (x & -> & Hn)]; [left; reflexivity|].
  apply (follows_op _ [] OpCloseParen x); [left; reflexivity | cbn; auto | exact Hn|].
  destruct x; exact I || reflexivity.
Qed.

Section Generic.
  Variable P : command -> Prop.
  Hypothesis P_replay : replays P.

Lemma pipe_rest_replay cs : Forall P cs -> forall z, zp z ->
  exists f0, forall f, (f0 <= f)%nat -> p_pipe_rest f (pipe_tail cs ++ z) = Ok (cs, z).
Proof.
  induction 1 as [|c cs Hc _ IH]; intros z Hz.
  - exists 3%nat. intros f Hf. destruct f as [|f]; [lia|]. rewrite p_pipe_rest_eq. cbv zeta. unfold bind.
    cbn [pipe_tail cat_map app].
    destruct (follows_token _ z (p_inner f) f Hz ltac:(lia)) as (t & r & Et & Hid). rewrite Et.
    destruct Hid as [-> | (o & Hin & ->)]; [reflexivity|].
    cbn [In] in Hin. repeat (destruct Hin as [<-|Hin]; [reflexivity|]). contradiction.
  - destruct (zc_follow _ (pipe_tail_zc cs z Hz)) as [Hfo Hce].
    apply (large_step _ _ _ (IH z Hz) (P_replay c (pipe_tail cs ++ z) [32] Hc Hfo Hce (or_intror eq_refl))).
    intros f H1 [Hcmd Hsk]. rewrite p_pipe_rest_eq. cbv zeta. unfold bind.
    unfold pipe_tail at 1. cbn [cat_map]. fold (pipe_tail cs). rewrite <- !app_assoc. cbn [app].
    rewrite lex_token_blank, (lex_token_op _ f OpBar (32 :: print_command c ++ pipe_tail cs ++ z)
                                (nolc_cons 32 _ eq_refl) eq_refl). cbn [t_id].
    cbn [app] in Hcmd, Hsk.
    destruct f as [|f']; [discriminate H1|]. rewrite (Hsk f'), Hcmd, H1. reflexivity.
Qed.

(* `!` in front of a command: a reserved word at which no command starts *)
Lemma bang_token_at pre x :
  is_lead pre ->
  token_at (pre ++ 33 :: 32 :: x) (mkToken (wlits [33]) (TToken (Some KBang)) (33 :: 32 :: x)) (32 :: x).
Proof. intros Hl. exact (kw_token_at KBang [33] (32 :: x) pre eq_refl (nolc_cons 32 _ eq_refl) eq_refl Hl). Qed.

Lemma pipeline_replay p z pre :
  gpl P p -> zp z -> is_lead pre ->
  exists f0, forall f, (f0 <= f)%nat ->
    p_pipeline f (pre ++ print_pipeline p ++ z) = Ok (Some p, z) /\
    forall k, skip_newlines (tk2 f) (S k) (pre ++ print_pipeline p ++ z) = Ok (pre ++ print_pipeline p ++ z).
Proof.
  destruct p as [[|c cs] neg]; intros [Hne Hg] Hz Hl; [congruence|].
  pose proof (Forall_inv Hg) as Hc. destruct (pipe_rest_replay cs (Forall_inv_tail Hg) z Hz) as [f1 H1].
  destruct (zc_follow _ (pipe_tail_zc cs z Hz)) as [Hfo Hce].
  rewrite print_pipeline_cons. destruct neg.
  - destruct (P_replay c (pipe_tail cs ++ z) [32] Hc Hfo Hce (or_intror eq_refl)) as [f2 H2].
    exists (S (max (max f1 f2) 15)). intros f Hf. rewrite <- !app_assoc. cbn [app].
    pose proof (bang_token_at pre (print_command c ++ pipe_tail cs ++ z) Hl) as Hb.
    split.
    + destruct f as [|f]; [lia|]. rewrite p_pipeline_eq. cbv zeta. unfold bind.
      rewrite (p_command_none_at _ _ _ Hb eq_refl f ltac:(lia)), (Hb f ltac:(lia)). cbn [t_id].
      destruct (H2 f ltac:(lia)) as [Hcmd _]. cbn [app] in Hcmd. rewrite Hcmd, (H1 f ltac:(lia)). reflexivity.
    + intros k. eapply skip_newlines_none; [apply (Hb f); lia | discriminate].
  - destruct (P_replay c (pipe_tail cs ++ z) pre Hc Hfo Hce Hl) as [f2 H2].
    exists (S (max f1 f2)). intros f Hf. cbn [app]. rewrite <- !app_assoc.
    split.
    + destruct f as [|f]; [lia|]. rewrite p_pipeline_eq. cbv zeta. unfold bind.
      destruct (H2 f ltac:(lia)) as [Hcmd _]. rewrite Hcmd, (H1 f ltac:(lia)). reflexivity.
    + destruct (H2 f ltac:(lia)) as [_ Hsk]. exact Hsk.
Qed.

Lemma and_or_rest_replay rest : Forall (fun x => gpl P (snd x)) rest -> forall z, za z ->
  exists f0, forall f, (f0 <= f)%nat -> p_and_or_rest f (ao_tail rest ++ z) = Ok (rest, z).
Proof.
  induction 1 as [|[a p] rest Hp _ IH]; intros z Hz.
  - exists 3%nat. intros f Hf. destruct f as [|f]; [lia|]. rewrite p_and_or_rest_eq. cbv zeta. unfold bind.
    cbn [ao_tail cat_map app].
    destruct (follows_token _ z (p_inner f) f Hz ltac:(lia)) as (t & r & Et & Hid). rewrite Et.
    destruct Hid as [-> | (o & Hin & ->)]; [reflexivity|].
    cbn [In] in Hin. repeat (destruct Hin as [<-|Hin]; [reflexivity|]). contradiction.
  - cbn [snd] in Hp.
    apply (large_step _ _ _ (IH z Hz)
             (pipeline_replay p (ao_tail rest ++ z) [32] Hp (ao_tail_zp rest z Hz) (or_intror eq_refl))).
    intros f H1 [Hpl Hsk]. rewrite p_and_or_rest_eq. cbv zeta. unfold bind. rewrite ao_tail_cons.
    rewrite lex_token_blank, (lex_token_op _ f (andor_op a) (32 :: print_pipeline p ++ ao_tail rest ++ z)
                                (nolc_cons 32 _ eq_refl) ltac:(destruct a; reflexivity)).
    cbn [app] in Hpl, Hsk. destruct f as [|f']; [discriminate H1|].
    destruct a; cbn [t_id andor_op]; rewrite (Hsk f'), Hpl, H1; reflexivity.
Qed.

Lemma and_or_replay ao z pre :
  gao P ao -> za z -> is_lead pre ->
  exists f0, forall f, (f0 <= f)%nat ->
    p_and_or f (pre ++ print_and_or_list ao ++ z) = Ok (Some ao, z).
Proof.
  destruct ao as [p rest]. intros [Hp Hr] Hz Hl.
  apply (large_step _ _ _ (and_or_rest_replay rest Hr z Hz)
           (pipeline_replay p (ao_tail rest ++ z) pre Hp (ao_tail_zp rest z Hz) Hl)).
  intros f H1 [Hpl _]. rewrite p_and_or_eq. cbv zeta. unfold bind.
  change (print_and_or_list (AndOrList p rest)) with (print_pipeline p ++ ao_tail rest). rewrite <- !app_assoc.
  rewrite Hpl, H1. reflexivity.
Qed.

(* an item that carries its separator, in front of a text where list.rs reads
   the rest of the list *)
Lemma list_sep_replay ao async alt o y l zt pre :
  gao P ao -> is_lead pre -> item_sep alt async = Some o -> nolc y -> op_follow_ok o (hd y) ->
  (exists f0, forall f, (f0 <= f)%nat -> p_list f y = Ok (l, zt)) ->
  exists f0, forall f, (f0 <= f)%nat ->
    p_list f (pre ++ print_item alt (Item ao async) ++ y) = Ok (Item ao async :: l, zt).
Proof.
  intros Hi Hpre Ho Hn Hfo H2.
  assert (Hin : In o [OpAnd; OpSemicolon; OpCloseParen]).
  { destruct async, alt; inv Ho; cbn; auto. }
  apply (large_step _ _ _ (and_or_replay ao (print_op o ++ y) pre Hi
                             (follows_op _ [] o y (or_introl eq_refl) Hin Hn Hfo) Hpre) H2).
  intros f E1 E2. rewrite p_list_eq. cbv zeta. unfold bind. rewrite print_item_sep, Ho, <- !app_assoc.
  rewrite E1, (lex_token_op _ f o y Hn Hfo). cbn [t_id]. rewrite E2.
  destruct async, alt; inv Ho; reflexivity.
Qed.

(* the last item of a list printed in the plain form, without separator *)
Lemma list_last_replay ao zt pre :
  gao P ao -> is_lead pre -> zl false zt ->
  exists f0, forall f, (f0 <= f)%nat ->
    p_list f (pre ++ print_and_or_list ao ++ zt) = Ok ([Item ao false], zt).
Proof.
  intros Hi Hpre Hzt. destruct (zl_token false zt Hzt) as (t & r & Ht & Hcd).
  apply (large_step _ _ _ (and_or_replay ao zt pre Hi (zl_za zt Hzt) Hpre) (ex_intro _ 12%nat Ht)).
  intros f E1 Et. rewrite p_list_eq. cbv zeta. unfold bind. rewrite E1, Et.
  destruct (t_id t) as [[[]|]|[]| | |]; try discriminate Hcd; reflexivity.
Qed.

Lemma list_replay l : Forall (gitem P) l -> forall pre, is_lead pre -> l <> [] ->
  forall alt zt, zl alt zt ->
  exists f0, forall f, (f0 <= f)%nat -> p_list f (pre ++ print_list alt l ++ zt) = Ok (l, zt).
Proof.
  induction 1 as [|[ao async] l Hi Hl IH]; intros pre Hpre Hne alt zt Hzt; [congruence|].
  cbn [gitem] in Hi. unfold print_list in *. destruct l as [|i2 l'].
  - (* the last item *)
    cbn [print_list_with]. destruct (item_sep alt async) as [o|] eqn:Eo.
    + destruct (zl_token alt zt Hzt) as (t & r & Ht & Hcd).
      destruct (clause_delimiter_no_command _ Hcd) as [Hnc Hnb].
      assert (Ho : o = OpAnd \/ o = OpSemicolon) by (destruct async, alt; inv Eo; auto).
      destruct (zl_sep alt zt o Hzt Ho) as [Hn Hfo].
      apply (list_sep_replay ao async alt o zt [] zt pre Hi Hpre Eo Hn Hfo).
      exists 18%nat. exact (p_list_none_at zt t r Ht Hnc Hnb).
    + destruct async, alt; try discriminate Eo. cbn [print_item]. rewrite app_nil_r.
      apply list_last_replay; assumption.
  - change (print_list_with print_item alt (Item ao async :: i2 :: l'))
      with (print_item true (Item ao async) ++ [32] ++ print_list_with print_item alt (i2 :: l')).
    rewrite <- !app_assoc.
    assert (Eo : exists o, item_sep true async = Some o) by (destruct async; eexists; reflexivity).
    destruct Eo as [o Eo].
    apply (list_sep_replay ao async true o _ (i2 :: l') zt pre Hi Hpre Eo (nolc_cons 32 _ eq_refl)).
    + destruct async; inv Eo; reflexivity.
    + exact (IH [32] (or_intror eq_refl) ltac:(discriminate) alt zt Hzt).
Qed.

(* list.rs maybe_compound_list: the list up to its terminator *)
Lemma mcl_replay l : Forall (gitem P) l -> l <> [] -> forall pre alt zt, is_lead pre -> zl alt zt ->
  exists f0, forall f, (f0 <= f)%nat -> p_mcl f (pre ++ print_list alt l ++ zt) = Ok (l, zt).
Proof.
  intros Hg Hne pre alt zt Hpre Hzt.
  destruct (zl_token alt zt Hzt) as (t & r & Ht & Hcd).
  apply (large_step _ _ _ (list_replay l Hg pre Hpre Hne alt zt Hzt) (ex_intro _ 12%nat Ht)).
  intros f E0 Et. rewrite p_mcl_eq. cbv zeta. unfold bind. rewrite E0, Et.
  destruct (t_id t) as [[[]|]|[]| | |]; try discriminate Hcd; reflexivity.
Qed.

(* the fuel found by mcl_replay is brought to [parse_fuel] by
   ProofsParse.parse_more_fuel_lemma *)
Lemma program_replay l : Forall (gitem P) l -> parse_program (print_list false l) = Ok l.
Proof.
  intros Hg. destruct l as [|i l'] eqn:El; [vm_compute; reflexivity|]. rewrite <- El in *.
  destruct (mcl_replay l Hg ltac:(subst; discriminate) [] false [] (or_introl eq_refl) (or_introl eq_refl))
    as [f0 H0].
  cbn [app] in H0. rewrite app_nil_r in H0. set (txt := print_list false l) in *.
  assert (Hm : p_mcl (max (parse_fuel txt) f0) txt = Ok (l, [])).
  { eapply (gm_mcl f0 (parser_mono f0)); [lia | exact (H0 f0 (le_n _)) | discriminate]. }
  unfold parse_program, bind.
  rewrite <- (parse_more_fuel_lemma txt (max (parse_fuel txt) f0) ltac:(lia)), Hm. reflexivity.
Qed.

End Generic.

Lemma command_first f s c r : p_command f s = Ok (Some c, r) -> cmd_first c.
Proof.
  intros H. apply command_parts in H. destruct c as [a w rds| |]; try exact I.
  destruct H as [f0 H0]. cbn. eauto.
Qed.

(* what the first run tells about the commands of a tree: a fact [P] that
   holds of every command returned by command.rs holds of all commands of the
   lists returned by the list-level parsers *)
Record Extract (P : command -> Prop) (f : nat) : Prop := {
  ex_command : forall s c r, p_command f s = Ok (Some c, r) -> P c;
  ex_pipe_rest : forall s cs r, p_pipe_rest f s = Ok (cs, r) -> Forall P cs;
  ex_pipeline : forall s p r, p_pipeline f s = Ok (Some p, r) -> gpl P p;
  ex_and_or_rest : forall s rest r, p_and_or_rest f s = Ok (rest, r) -> Forall (fun x => gpl P (snd x)) rest;
  ex_and_or : forall s ao r, p_and_or f s = Ok (Some ao, r) -> gao P ao;
  ex_list : forall s l r, p_list f s = Ok (l, r) -> Forall (gitem P) l;
  ex_mcl : forall s l r, p_mcl f s = Ok (l, r) -> Forall (gitem P) l
}.

Lemma extract_zero P : Extract P O.
Proof. constructor; intros; discriminate. Qed.

Lemma extract_step P f :
  Extract P f -> (forall s c r, p_command (S f) s = Ok (Some c, r) -> P c) -> Extract P (S f).
Proof.
  intros [I0 I1 I2 I3 I4 I5 I6] HC. constructor.
  - exact HC.
  - intros s cs r. rewrite p_pipe_rest_eq. cbv zeta. unfold bind. intros H.
    repeat (dmh H; try discriminate); injection H as <- <-; try constructor; eauto.
  - intros s p r. rewrite p_pipeline_eq. cbv zeta. unfold bind. intros H.
    repeat (dmh H; try discriminate); injection H as <- <-; cbn; (split; [discriminate|]); constructor; eauto;
      repeat match goal with
             | X : match ?a with _ => _ end = _ |- _ => destruct a eqn:?; try discriminate
             end;
      repeat match goal with X : Ok _ = Ok _ |- _ => inv X end; eauto.
  - intros s rest r. rewrite p_and_or_rest_eq. cbv zeta. unfold bind. intros H.
    repeat (dmh H; try discriminate); injection H as <- <-; try constructor; cbn [snd]; eauto.
  - intros s ao r. rewrite p_and_or_eq. cbv zeta. unfold bind. intros H.
    repeat (dmh H; try discriminate); injection H as <- <-. cbn. split; eauto.
  - intros s l r. rewrite p_list_eq. cbv zeta. unfold bind. intros H.
    repeat (dmh H; try discriminate); injection H as <- <-; try constructor; cbn [gitem]; eauto.
  - intros s l r. rewrite p_mcl_eq. cbv zeta. unfold bind. intros H.
    repeat (dmh H; try discriminate); injection H as <- <-; try apply Forall_app; eauto.
Qed.
