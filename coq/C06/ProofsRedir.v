(* C06 — a redirection is read back from its printed form
   (file-descriptor number, operator and operand are printed without blanks
   between them). *)
From Yv Require Import Common.Base C06.Ast C06.Print C06.Lex C06.Parse C06.Spec C06.ProofsLen
  C06.ProofsTilde C06.ProofsNum C06.ProofsRtBase C06.ProofsMono C06.ProofsToken.
Local Open Scope N_scope.

Lemma digit_char_dec d :
  d < 10 -> is_digit (digit_char false d) = true /\ digit_char false d - 48 = d.
Proof.
  revert d. refine (N_lt_cases _ 10%nat _). intros i Hi.
  do 10 (destruct i as [|i]; [split; reflexivity|]). lia.
Qed.

Lemma dec_value_digits acc ds :
  Forall (fun d => d < 10) ds ->
  dec_value acc (map (digit_char false) ds) = Some (be_val 10 acc ds).
Proof.
  revert acc. induction ds as [|d ds IH]; intros acc H; cbn [map dec_value be_val]; [reflexivity|].
  destruct (digit_char_dec d (Forall_inv H)) as [E1 E2]. rewrite E1, E2.
  apply IH. exact (Forall_inv_tail H).
Qed.

Lemma fmt_dec_digits v :
  v < 10 ^ 64 ->
  exists ds, fmt_dec v = map (digit_char false) ds /\ Forall (fun d => d < 10) ds /\
             be_val 10 0 ds = v /\ ds <> [].
Proof.
  intros Hv. unfold fmt_dec, fmt_num, pad_left. rewrite digits_rev_dig, <- map_rev.
  destruct (dig_spec 64 10 v ltac:(lia) Hv) as [D1 D2].
  exists (rev (dig 64 10 v)). cbn [Nat.sub repeat app].
  repeat split.
  - apply Forall_rev. exact D2.
  - rewrite be_val_rev. exact D1.
  - intros X. apply (f_equal (@length N)) in X. rewrite rev_length in X.
    change (dig 64 10 v) with (v mod 10 :: (if v / 10 =? 0 then [] else dig 63 10 (v / 10))) in X.
    discriminate X.
Qed.

Lemma dec_value_fmt_dec v : v < 10 ^ 64 -> dec_value 0 (fmt_dec v) = Some v.
Proof.
  intros Hv. destruct (fmt_dec_digits v Hv) as (ds & E & F & V & _).
  rewrite E, (dec_value_digits 0 ds F), V. reflexivity.
Qed.

Lemma fmt_dec_all_digits v : v < 10 ^ 64 -> forallb is_digit (fmt_dec v) = true.
Proof.
  intros Hv. destruct (fmt_dec_digits v Hv) as (ds & -> & F & _ & _).
  induction F as [|d ds Hd _ IH]; [reflexivity|]. cbn [map forallb].
  rewrite (proj1 (digit_char_dec d Hd)). exact IH.
Qed.

Lemma fmt_dec_ne v : v < 10 ^ 64 -> fmt_dec v <> [].
Proof.
  intros Hv. destruct (fmt_dec_digits v Hv) as (ds & -> & _ & _ & Hne).
  destruct ds; [congruence | discriminate].
Qed.

(* 2147483647 = i32::MAX, the bound of [fd_of_word]; 10^64 is what the 64
   digits of [fmt_num] can print *)
Lemma i32_small v : v <= 2147483647 -> v < 10 ^ 64.
Proof. intros Hv. apply N.le_lt_trans with 2147483647; [exact Hv | reflexivity]. Qed.

Lemma fmt_dec_short v : v <= 2147483647 -> (length (fmt_dec v) <= 10)%nat.
Proof.
  intros Hv. unfold fmt_dec, fmt_num, pad_left. rewrite digits_rev_dig.
  cbn [Nat.sub repeat app]. rewrite rev_length, map_length.
  apply (dig_length 64 10 v 10); [lia | | lia].
  apply N.le_lt_trans with 2147483647; [exact Hv | reflexivity].
Qed.

Lemma fmt_z_of_N v : fmt_z (Z.of_N v) = fmt_dec v.
Proof. destruct v; reflexivity. Qed.

Lemma digit_cases c : is_digit c = true ->
  c = 48 \/ c = 49 \/ c = 50 \/ c = 51 \/ c = 52 \/ c = 53 \/ c = 54 \/ c = 55 \/ c = 56 \/ c = 57.
Proof.
  unfold is_digit, in_range. intros H. apply andb_prop in H. destruct H as [A B].
  apply N.leb_le in A, B. lia.
Qed.

Lemma digit_plain c :
  is_digit c = true ->
  plain_char c = true /\ (c =? c_hash) = false /\ (c =? c_tilde) = false /\
  forall cs, keyword_of (c :: cs) = None.
Proof.
  intros H. apply digit_cases in H.
  repeat (destruct H as [H|H]; [subst c; repeat split|]). subst c. repeat split.
Qed.

Lemma forallb_impl {A} (p q : A -> bool) l :
  (forall x, p x = true -> q x = true) -> forallb p l = true -> forallb q l = true.
Proof.
  intros H. induction l as [|x l IH]; [reflexivity|]. cbn [forallb]. intros X.
  apply andb_prop in X. destruct X as [X1 X2]. rewrite (H _ X1), (IH X2). reflexivity.
Qed.

Lemma io_number_token inner v z f :
  v < 10 ^ 64 -> nolc z -> peek_is_redir z = true -> (length (fmt_dec v) + 3 <= f)%nat ->
  lex_token inner f (fmt_dec v ++ z)
  = Ok (mkToken (wlits (fmt_dec v)) TIoNumber (fmt_dec v ++ z), z).
Proof.
  intros Hv Hz Hp Hf.
  pose proof (fmt_dec_all_digits v Hv) as Hall. pose proof (fmt_dec_ne v Hv) as Hne.
  destruct (fmt_dec v) as [|c t]; [congruence|].
  pose proof Hall as Hc. cbn [forallb] in Hc. apply andb_prop in Hc. destruct Hc as [Hc _].
  destruct (digit_plain c Hc) as (_ & Hh & Ht & Hk).
  assert (Hs : stops DToken z).
  { unfold peek_is_redir in Hp. rewrite Hz in Hp. destruct z as [|c0 z0]; [discriminate|].
    cbn [stops is_delim]. unfold is_token_delimiter_char, is_operator_char.
    apply Bool.orb_true_iff in Hp. destruct Hp as [X|X]; apply N.eqb_eq in X; subst; reflexivity. }
  cbn [app].
  rewrite (lex_token_lit inner f c t z
             (forallb_impl _ _ _ (fun x X => proj1 (digit_plain x X)) Hall) Hh Ht Hz Hs Hf).
  unfold token_id_of. cbn [wlits map]. change (Unquoted (Literal c) :: map _ t) with (wlits (c :: t)).
  rewrite word_literal_wlits, Hk, Hall, Hp. reflexivity.
Qed.

Lemma fd_of_word_fmt v :
  v <= 2147483647 -> fd_of_word (wlits (fmt_dec v)) = Some (Z.of_N v).
Proof.
  intros Hv. unfold fd_of_word. rewrite word_literal_wlits, (dec_value_fmt_dec v (i32_small v Hv)).
  apply N.leb_le in Hv. rewrite Hv. reflexivity.
Qed.

Lemma fd_of_word_range w fd : fd_of_word w = Some fd -> exists v, fd = Z.of_N v /\ v <= 2147483647.
Proof.
  unfold fd_of_word. destruct (word_literal w); [|discriminate].
  destruct (dec_value 0 s) as [v|]; [|discriminate].
  destruct (v <=? 2147483647) eqn:E; [|discriminate]. intros H. inv H.
  apply N.leb_le in E. eauto.
Qed.

Lemma redir_op_first o rop :
  redir_op_of o = Some rop ->
  print_op o = print_rop rop /\
  exists c t, print_rop rop = c :: t /\ ((c =? 60) || (c =? 62) = true).
Proof.
  destruct o; cbn [redir_op_of]; intros H; try discriminate H; injection H as <-; (split; [reflexivity|]);
    eexists _, _; split; reflexivity.
Qed.

Lemma lex_operator_none_head c t :
  nolc (c :: t) -> lex_operator (c :: t) = None -> is_operator_char c = false.
Proof. intros N. apply lex_operator_none. exact N. Qed.

Lemma op_ext_operator_chars o rop c :
  redir_op_of o = Some rop -> is_operator_char c = false -> existsb (N.eqb c) (op_ext o) = false.
Proof.
  intros Ho Hc. unfold is_operator_char in Hc.
  repeat (apply Bool.orb_false_iff in Hc; destruct Hc as [Hc ?]).
  destruct o; cbn [redir_op_of] in Ho; try discriminate Ho; cbn [op_ext existsb];
    repeat match goal with H : (c =? _) = false |- _ => rewrite H; clear H end; reflexivity.
Qed.

Lemma operator_token (i : inner_t) f op rop c y :
  redir_op_of op = Some rop -> nolc (c :: y) -> is_operator_char c = false ->
  lex_token i f (print_rop rop ++ c :: y) = Ok (mkToken [] (TOp op) (print_rop rop ++ c :: y), c :: y).
Proof.
  intros Ho Nx Hc. rewrite <- (proj1 (redir_op_first _ _ Ho)).
  apply lex_token_op; [exact Nx|]. cbn [hd op_follow_ok]. eapply op_ext_operator_chars; eauto.
Qed.

Lemma ext_refl {A B} (i : A -> res B) : ext i i.
Proof. intros s R H _. exact H. Qed.

(* what a successful run of redir.rs read (here-documents are outside the
   model): an optional IO_NUMBER that fits an i32, a redirection operator and
   a word token, the operand *)
Lemma p_redir_some tk s rd r :
  p_redir tk s = Ok (Some rd, r) ->
  exists fdo s2 t' s3 op rop o,
    (forall fd, fdo = Some fd -> exists v, fd = Z.of_N v /\ v <= 2147483647) /\
    tk s2 = Ok (t', s3) /\ t_id t' = TOp op /\ redir_op_of op = Some rop /\
    tk s3 = Ok (o, r) /\ match t_id o with TOp _ | TEnd => False | _ => True end /\
    rd = mkRedir fdo (RNormal rop (t_word o)).
Proof.
  unfold p_redir, bind. intros H.
  destruct (tk s) as [[t s1]| | | |] eqn:E1; try discriminate.
  assert (Hfd : exists fdo s2,
             (match t_id t with
              | TIoNumber => match fd_of_word (t_word t) with
                             | Some fd => Ok (Some fd, s1)
                             | None => Err
                             end
              | TIoLocation => Err
              | _ => Ok (None, s)
              end = Ok (fdo, s2)) /\
             (forall fd, fdo = Some fd -> exists v, fd = Z.of_N v /\ v <= 2147483647)).
  { destruct (t_id t); try (eexists _, _; split; [reflexivity | intros ? X; discriminate]);
      try discriminate.
    destruct (fd_of_word (t_word t)) as [fd|] eqn:Ef; [|discriminate].
    eexists _, _. split; [reflexivity|]. intros fd' X. inv X. eapply fd_of_word_range; eauto. }
  destruct Hfd as (fdo & s2 & Hfd & Hrange). rewrite Hfd in H.
  destruct (tk s2) as [[t' s3]| | | |] eqn:E2; try discriminate.
  destruct (t_id t') as [| op | | |] eqn:Eid; try discriminate.
  destruct (redir_op_of op) as [rop|] eqn:Erop.
  2:{ destruct op; try discriminate. }
  destruct (tk s3) as [[o s4]| | | |] eqn:E3; try discriminate.
  exists fdo, s2, t', s3, op, rop, o.
  destruct (t_id o); inv H; repeat split; auto.
Qed.

(* A redirection of the first run: the operand is a word token read from
   [s3]; [w0] are its units before the tilde post-processing.  The printed
   redirection is read back by any parser [i2] of command substitutions for
   which the word-level round trip of the operand holds.
   13 = 10 (digits of an i32, fmt_dec_short) + 3 (io_number_token). *)
Lemma redir_print (i1 : inner_t) f s rd r :
  p_redir (lex_token i1 f) s = Ok (Some rd, r) ->
  exists rop w0 s3,
    r_body rd = RNormal rop (tilde_front w0) /\
    lex_units i1 f CWord DToken (skip_blanks_and_comment s3) = Ok (w0, r) /\
    forall i2 : inner_t, units_facts i2 f CWord DToken (skip_blanks_and_comment s3) w0 r ->
    forall z f', good_follow w0 z -> (S (S f) <= f')%nat -> (13 <= f')%nat ->
      p_redir (lex_token i2 f') (print_redir rd ++ z) = Ok (Some rd, z).
Proof.
  intros H.
  destruct (p_redir_some _ _ _ _ H) as (fdo & s2 & t' & s3 & op & rop & o & Hrange & _ & _ & Erop & E3 & Ho & ->).
  assert (Hoid : t_word o <> []).
  { intros X. apply (lex_token_wordless _ _ _ _ _ E3) in X. destruct (t_id o); contradiction. }
  destruct (lex_token_word _ _ _ _ _ E3 Hoid) as (w0 & Ew0 & _ & Hne0 & Eop0 & Eu0).
  exists rop, w0, s3. cbn [r_body]. split; [rewrite Ew0; reflexivity|]. split; [exact Eu0|].
  intros i2 U z f' Hg Hf1 Hf2.
  destruct (word_token_print i2 _ _ _ _ Hne0 Eop0 U) as [(c & y & Hp & Hc & _) Rt].
  destruct (Rt z Hg) as [Nx Ro]. rewrite <- Ew0 in Ro.
  apply (lex_token_mono i2 i2 _ f' _ _ (ext_refl i2) Hf1) in Ro; [|discriminate].
  pose proof (token_id_of_word (t_word o) z Hoid) as Hido.
  rewrite Hp in Nx. cbn [app] in Nx.
  pose proof (operator_token i2 f' op rop c (y ++ z) Erop Nx Hc) as Rop.
  unfold print_redir. cbn [r_fd r_body print_rbody]. rewrite Ew0, print_tilde_front, <- Ew0.
  rewrite <- !app_assoc. rewrite Hp in Ro |- *. cbn [app] in Ro |- *.
  unfold p_redir, bind.
  destruct fdo as [fd|].
  - destruct (Hrange fd eq_refl) as (v & -> & Hv).
    rewrite fmt_z_of_N.
    destruct (redir_op_first _ _ Erop) as (_ & c0 & t0 & E0 & Hc0).
    assert (Nz' : nolc (print_rop rop ++ c :: y ++ z)).
    { rewrite E0. cbn [app]. apply nolc_cons.
      apply Bool.orb_true_iff in Hc0. destruct Hc0 as [X|X]; apply N.eqb_eq in X; subst; reflexivity. }
    assert (Pz' : peek_is_redir (print_rop rop ++ c :: y ++ z) = true).
    { unfold peek_is_redir. rewrite Nz', E0. cbn [app]. exact Hc0. }
    rewrite (io_number_token i2 v _ f' (i32_small v Hv) Nz' Pz'
               ltac:(pose proof (fmt_dec_short v Hv); lia)).
    cbn [t_id t_word]. rewrite (fd_of_word_fmt v Hv).
    rewrite Rop. cbn [t_id]. rewrite Erop, Ro. cbn [t_id t_word].
    destruct (token_id_of (t_word o) z); try contradiction; reflexivity.
  - cbn [app]. rewrite Rop. cbn [t_id]. rewrite Rop. cbn [t_id]. rewrite Erop, Ro. cbn [t_id t_word].
    destruct (token_id_of (t_word o) z); try contradiction; reflexivity.
Qed.
