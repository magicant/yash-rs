(* C06 — groupings `{ ...; }`, subshells `( ... )` and
   `while` / `until` loops are read back from their printed text, at every
   depth of nesting; the round trip of the lists that contain them. *)
From Yv Require Import Common.Base C06.Ast C06.Print C06.Lex C06.Parse C06.ParseEq C06.Spec
  C06.ProofsLen C06.ProofsRtBase C06.ProofsToken C06.SpecCmd C06.ProofsCmdBase C06.ProofsSimple
  C06.ProofsCommand C06.ProofsList C06.SpecCompound.
From Coq Require Ascii String.
Import Coq.Strings.String.StringSyntax.
Local Open Scope N_scope.

(* [L] of the sub-lists of a grouping, subshell, while or until; [dflt] for the
   other compound commands: [False] where they are excluded (clean, good),
   [True] where nothing is claimed (first) *)
Definition compound_of (dflt : Prop) (L : slist -> Prop) (comp : compound) : Prop :=
  match comp with
  | Grouping l | Subshell l => L l
  | While c b | Until c b => L c /\ L b
  | _ => dflt
  end.

Lemma compound_of_impl dflt (L L' : slist -> Prop) comp :
  (forall l, L l -> L' l) -> compound_of dflt L comp -> compound_of dflt L' comp.
Proof. intros H. destruct comp; cbn [compound_of]; auto. all: intros [A B]; auto. Qed.

(* no redirection follows where a command may end *)
Lemma redirs_none z f k : cmd_end z -> (4 <= f)%nat -> (1 <= k)%nat -> p_redirs (tk2 f) k z = Ok ([], z).
Proof.
  intros He Hf Hk. destruct k as [|k]; [lia|].
  destruct (cmd_end_token (p_inner f) f z He ltac:(lia)) as (t & r & Et & Hid).
  cbn [p_redirs]. unfold bind. rewrite (p_redir_none_at _ _ _ _ Et); [reflexivity|].
  destruct (t_id t) as [|op| | |]; try contradiction; [apply Hid | exact I].
Qed.

(* compound_command.rs reads the printed compound command; its first token
   starts no simple command and is not a newline *)
Definition compound_reads (comp : compound) (z pre : str) : Prop :=
  exists t r, token_at (pre ++ print_compound comp ++ z) t r /\
    ends_simple empty_b (t_id t) /\ t_id t <> TOp OpNewline /\
    exists f0, forall f, (f0 <= f)%nat ->
      p_compound f (pre ++ print_compound comp ++ z) = Ok (Some comp, z).

(* the frame: command.rs and full_compound_command around a compound command
   without redirections *)
Lemma compound_replay comp z pre :
  compound_reads comp z pre -> cmd_end z ->
  exists f0, forall f, (f0 <= f)%nat ->
    p_command f (pre ++ print_command (CCompound comp []) ++ z) = Ok (Some (CCompound comp []), z) /\
    forall k, skip_newlines (tk2 f) (S k) (pre ++ print_command (CCompound comp []) ++ z)
              = Ok (pre ++ print_command (CCompound comp []) ++ z).
Proof.
  intros (t & r & Ht & Hs & Hnl & f1 & H1) Hce. cbn [print_command cat_map]. rewrite app_nil_r.
  exists (S (S (max f1 13))). intros f Hf. split.
  - destruct f as [|[|f]]; try lia. rewrite p_command_eq. cbv zeta. unfold bind.
    change (mkBuilder [] [] []) with empty_b.
    rewrite (p_simple_stop f None empty_b _ t r (Ht f ltac:(lia)) Hs).
    cbn [empty_b builder_is_empty b_assigns b_words b_redirs].
    rewrite p_full_compound_eq. cbv zeta. unfold bind.
    rewrite (H1 f ltac:(lia)), (redirs_none z f f Hce ltac:(lia) ltac:(lia)). reflexivity.
  - intros k. eapply skip_newlines_none; [apply (Ht f); lia | exact Hnl].
Qed.

(* one level: groupings, subshells and loops whose sub-lists are made of
   commands of a class that is read back *)
Definition loop (u : bool) (c b : slist) : compound := if u then Until c b else While c b.
Definition loop_kw (u : bool) : keyword := if u then KUntil else KWhile.
Definition loop_word (u : bool) : str :=
  if u then [117; 110; 116; 105; 108] else [119; 104; 105; 108; 101].

Section Step.
  Variable P : command -> Prop.
  Hypothesis P_replay : replays P.

  Definition good_list (l : slist) : Prop := l <> [] /\ Forall (gitem P) l.

  (* a list in the alternate form, after a blank, up to the reserved word that
     closes it, and the token there *)
  Lemma closed_list_replay l k cs z :
    good_list l -> closer k cs -> nolc z -> stops DToken z ->
    exists f0, forall f, (f0 <= f)%nat ->
      p_mcl f (32 :: print_list true l ++ 32 :: cs ++ z) = Ok (l, 32 :: cs ++ z) /\
      tk2 f (32 :: cs ++ z) = Ok (mkToken (wlits cs) (TToken (Some k)) (cs ++ z), z).
  Proof.
    intros [Hne Hg] Hk Hn Hs.
    assert (Hzl : zl true (32 :: cs ++ z)) by (exists k, cs, z; auto).
    destruct (mcl_replay P P_replay l Hg Hne [32] true _ (or_intror eq_refl) Hzl) as [f1 H1].
    pose proof (kw_token_at k cs z [32] (closer_kw k cs Hk) Hn Hs (or_intror eq_refl)) as Hc.
    exists (max f1 12). intros f Hf. split; [apply H1 | apply Hc]; lia.
  Qed.

  Lemma group_reads l z pre :
    good_list l -> nolc z -> stops DToken z -> is_lead pre -> compound_reads (Grouping l) z pre.
  Proof.
    intros Hg Hn Hs Hl. unfold compound_reads.
    assert (Ep : pre ++ print_compound (Grouping l) ++ z
                 = pre ++ 123 :: 32 :: print_list true l ++ 32 :: 125 :: z).
    { cbn [print_compound]. change (kw "{ ") with [123; 32]. change (kw " }") with [32; 125].
      fold (print_list true l). rewrite <- !app_assoc. reflexivity. }
    rewrite Ep.
    pose proof (kw_token_at KOpenBrace [123] (32 :: print_list true l ++ 32 :: 125 :: z) pre
                  eq_refl (nolc_cons 32 _ eq_refl) eq_refl Hl) as Ht. cbn [app] in Ht.
    eexists _, _. split; [exact Ht|]. split; [reflexivity|]. split; [discriminate|].
    apply (large_step _ _ _ (closed_list_replay l KCloseBrace [125] z Hg
                               (or_introl (conj eq_refl eq_refl)) Hn Hs) (ex_intro _ 12%nat Ht)).
    intros f [Hm Hc] Et. rewrite p_compound_eq. cbv zeta. unfold bind. rewrite Et. cbn [t_id].
    cbn [app] in Hm, Hc. rewrite Hm, Hc. cbn [t_id].
    destruct Hg as [Hne _]. destruct l; [congruence | reflexivity].
  Qed.

  Lemma subshell_reads l z pre :
    good_list l -> nolc z -> is_lead pre -> compound_reads (Subshell l) z pre.
  Proof.
    intros [Hne Hg] Hn Hl. unfold compound_reads.
    assert (Ep : pre ++ print_compound (Subshell l) ++ z = pre ++ 40 :: print_list false l ++ 41 :: z).
    { cbn [print_compound]. fold (print_list false l). rewrite <- !app_assoc. reflexivity. }
    rewrite Ep.
    assert (Ht : token_at (pre ++ 40 :: print_list false l ++ 41 :: z)
                   (mkToken [] (TOp OpOpenParen) (40 :: print_list false l ++ 41 :: z))
                   (print_list false l ++ 41 :: z)).
    { intros f Hf. rewrite (lex_token_lead _ _ _ _ Hl).
      exact (lex_token_paren _ f OpOpenParen _ (or_introl eq_refl)). }
    eexists _, _. split; [exact Ht|]. split; [reflexivity|]. split; [discriminate|].
    assert (Hzl : zl false (41 :: z)) by (right; eauto).
    apply (large_step _ _ _ (mcl_replay P P_replay l Hg Hne [] false _ (or_introl eq_refl) Hzl)
             (ex_intro _ 12%nat Ht)).
    intros f E1 Et. rewrite p_compound_eq. cbv zeta. unfold bind. rewrite Et. cbn [t_id].
    cbn [app] in E1. rewrite E1, (lex_token_paren _ f OpCloseParen z (or_intror eq_refl)). cbn [t_id].
    destruct l; [congruence | reflexivity].
  Qed.

  (* compound_command.rs do_clause on " do ...; done" *)
  Lemma do_clause_replay b z :
    good_list b -> nolc z -> stops DToken z ->
    exists f0, forall f, (f0 <= f)%nat ->
      p_do_clause f (32 :: 100 :: 111 :: 32 :: print_list true b ++ 32 :: 100 :: 111 :: 110 :: 101 :: z)
      = Ok (Some b, z).
  Proof.
    intros Hg Hn Hs.
    pose proof (kw_token_at KDo [100; 111] (32 :: print_list true b ++ 32 :: 100 :: 111 :: 110 :: 101 :: z)
                  [32] eq_refl (nolc_cons 32 _ eq_refl) eq_refl (or_intror eq_refl)) as Ht.
    cbn [app] in Ht.
    apply (large_step _ _ _ (closed_list_replay b KDone [100; 111; 110; 101] z Hg
                               (or_intror (or_intror (conj eq_refl eq_refl))) Hn Hs) (ex_intro _ 12%nat Ht)).
    intros f [Hm Hc] Et. rewrite p_do_clause_eq. cbv zeta. unfold bind. rewrite Et. cbn [t_id].
    cbn [app] in Hm, Hc. rewrite Hm, Hc. cbn [t_id].
    destruct Hg as [Hne _]. destruct b; [congruence | reflexivity].
  Qed.

  Lemma loop_reads u c b z pre :
    good_list c -> good_list b -> nolc z -> stops DToken z -> is_lead pre ->
    compound_reads (loop u c b) z pre.
  Proof.
    intros Hc Hb Hn Hs Hl. unfold compound_reads.
    set (Y := 32 :: print_list true b ++ 32 :: 100 :: 111 :: 110 :: 101 :: z).
    set (X := 32 :: 100 :: 111 :: Y).
    assert (Ep : pre ++ print_compound (loop u c b) ++ z
                 = pre ++ loop_word u ++ 32 :: print_list true c ++ X).
    { destruct u; cbn [loop loop_word print_compound];
        [change (kw "until ") with ([117; 110; 116; 105; 108] ++ [32])
        | change (kw "while ") with ([119; 104; 105; 108; 101] ++ [32])];
        change (kw " do ") with [32; 100; 111; 32]; change (kw " done") with [32; 100; 111; 110; 101];
        fold (print_list true c); fold (print_list true b); unfold X, Y; rewrite <- !app_assoc; reflexivity. }
    rewrite Ep.
    pose proof (kw_token_at (loop_kw u) (loop_word u) (32 :: print_list true c ++ X) pre
                  ltac:(destruct u; reflexivity) (nolc_cons 32 _ eq_refl) eq_refl Hl) as Ht.
    eexists _, _. split; [exact Ht|]. split; [reflexivity|]. split; [discriminate|].
    destruct (closed_list_replay c KDo [100; 111] Y Hc (or_intror (or_introl (conj eq_refl eq_refl)))
                (nolc_cons 32 _ eq_refl) eq_refl) as [f1 H1].
    destruct (do_clause_replay b z Hb Hn Hs) as [f2 H2]. fold Y in H2. fold X in H2.
    exists (S (max (max f1 f2) 12)). intros f Hf. destruct f as [|f]; [lia|].
    rewrite p_compound_eq. cbv zeta. unfold bind. rewrite (Ht f ltac:(lia)). cbn [t_id].
    destruct (H1 f ltac:(lia)) as [Hm _]. cbn [app] in Hm. fold X in Hm. destruct Hc as [Hnec _].
    destruct u; cbn [loop_kw loop]; rewrite Hm; (destruct c; [congruence|]);
      rewrite (H2 f ltac:(lia)); reflexivity.
  Qed.

  (* the commands of the next level *)
  Definition good_command (c : command) : Prop :=
    match c with
    | CSimple _ _ _ => cmd_good c
    | CCompound comp [] => compound_of False good_list comp
    | _ => False
    end.

  Lemma good_command_replays : replays good_command.
  Proof.
    intros c z pre Hc Hfo Hce Hl.
    destruct c as [a w rds|comp [|]|]; [apply command_replay; assumption| |contradiction..].
    destruct (follow_good [] z Hfo eq_refl) as (Hn & Hs & _).
    apply compound_replay; [|exact Hce].
    destruct comp as [l|l| | c b|c b| |]; try contradiction.
    - apply group_reads; assumption.
    - apply subshell_reads; assumption.
    - destruct Hc. apply (loop_reads false); assumption.
    - destruct Hc. apply (loop_reads true); assumption.
  Qed.
End Step.

(* [n] levels of nesting, like [clean_n] of SpecCompound.v *)
Fixpoint good_n (n : nat) : command -> Prop :=
  match n with
  | O => good_command (fun _ => False)
  | S n' => good_command (good_n n')
  end.

Lemma good_n_replays : forall n, replays (good_n n).
Proof.
  induction n as [|n IH]; cbn [good_n]; apply good_command_replays; [|exact IH].
  intros c z pre [].
Qed.

(* what the first run tells, at every depth: every simple command was read
   by simple_command.rs and no sub-list of a compound command is empty *)
Definition from_mcl (l : slist) : Prop := l <> [] /\ exists f s r, p_mcl f s = Ok (l, r).

Lemma do_clause_first f s b r : p_do_clause f s = Ok (Some b, r) -> from_mcl b.
Proof.
  destruct f as [|f]; [discriminate|]. rewrite p_do_clause_eq. cbv zeta. unfold bind. intros H.
  repeat (dmh H; try discriminate); injection H as <- <-. split; [discriminate | eauto].
Qed.

Lemma compound_first f s comp r :
  p_compound f s = Ok (Some comp, r) -> compound_of True from_mcl comp.
Proof.
  destruct f as [|f]; [discriminate|]. rewrite p_compound_eq. cbv zeta. unfold bind.
  destruct (lex_token (p_inner f) f s) as [[t s1]| | | |]; try discriminate.
  (* by the token that opens the command; each branch is then followed on its own *)
  destruct (t_id t) as [[[]|]|[]| | |]; try discriminate; intros H;
    repeat (dmh H; try discriminate); injection H as <- <-; try exact I; cbn [compound_of];
    lazymatch goal with
    | |- from_mcl _ /\ from_mcl _ =>
        split; [split; [discriminate | eauto] | eapply do_clause_first; eassumption]
    | |- from_mcl _ => split; [discriminate | eauto]
    end.
Qed.

Definition first_command (Q : command -> Prop) (c : command) : Prop :=
  match c with
  | CSimple _ _ _ => cmd_first c
  | CCompound comp _ => compound_of True (fun l => l <> [] /\ Forall (gitem Q) l) comp
  | _ => True
  end.

Fixpoint first_n (n : nat) : command -> Prop :=
  match n with
  | O => first_command (fun _ => True)
  | S n' => first_command (first_n n')
  end.

Lemma extract_first_command Q :
  (forall f, Extract Q f) -> forall f, Extract (first_command Q) f.
Proof.
  intros HQ. induction f as [|f IH]; [apply extract_zero|]. apply extract_step; [exact IH|].
  intros s c r H. destruct c as [a w rds|comp rds|]; [exact (command_first _ _ _ _ H) | | exact I].
  destruct (command_parts _ _ _ _ H) as (f0 & s0 & s1 & Hc).
  apply (compound_of_impl True from_mcl); [|exact (compound_first _ _ _ _ Hc)].
  intros l (Hne & f1 & s2 & s3 & Hm). split; [exact Hne | exact (ex_mcl _ _ (HQ f1) _ _ _ Hm)].
Qed.

Lemma extract_first : forall n f, Extract (first_n n) f.
Proof.
  induction n as [|n IH]; cbn [first_n]; apply extract_first_command; [|exact IH].
  induction f as [|f IHf]; [apply extract_zero | apply extract_step; auto].
Qed.

Lemma combine_pl (A B C : command -> Prop) :
  (forall c, A c -> B c -> C c) -> forall p, pl_of A p -> gpl B p -> gpl C p.
Proof.
  intros H [cs neg]. cbn. intros HA [Hne HB]. split; [exact Hne|].
  rewrite Forall_forall in *. intros c Hc. apply H; auto.
Qed.

Lemma combine_items (A B C : command -> Prop) :
  (forall c, A c -> B c -> C c) -> forall l, list_of A l -> Forall (gitem B) l -> Forall (gitem C) l.
Proof.
  intros H l HA HB. unfold list_of in HA. rewrite Forall_forall in *.
  intros [[p rest] async] Hi. specialize (HA _ Hi). specialize (HB _ Hi).
  cbn in HA, HB |- *. destruct HA as [A1 A2]. destruct HB as [B1 B2]. split.
  - apply (combine_pl A B C H); assumption.
  - rewrite Forall_forall in *. intros x Hx. apply (combine_pl A B C H); auto.
Qed.

(* [clean_n], one level at a time *)
Definition clean_command_of (Cl : command -> Prop) (c : command) : Prop :=
  match c with
  | CSimple a w rds => nocs_res (a, w, rds) /\ nobs_res (a, w, rds)
  | CCompound comp [] => compound_of False (list_of Cl) comp
  | _ => False
  end.

Lemma clean_n_S n c : clean_n (S n) c -> clean_command_of (clean_n n) c.
Proof. destruct c as [a w rds|comp [|]|]; try exact id; destruct comp; exact id. Qed.

Lemma clean_n_0 c : clean_n 0 c -> clean_command_of (fun _ => False) c.
Proof. destruct c as [a w rds|comp [|]|]; try exact id; destruct comp; intros []. Qed.

Lemma good_command_of (Cl Q G : command -> Prop) c :
  (forall c, Cl c -> Q c -> G c) -> clean_command_of Cl c -> first_command Q c -> good_command G c.
Proof.
  intros H. destruct c as [a w rds|comp [|]|]; cbn [clean_command_of first_command good_command];
    try contradiction; [intros Hc Hf; split; assumption|].
  destruct comp; cbn [compound_of]; try contradiction.
  1,2: intros Hc [Hne Hf]; split; [exact Hne | apply (combine_items Cl Q G H); assumption].
  all: intros [Hc1 Hc2] [[Hn1 Hf1] [Hn2 Hf2]];
    split; (split; [assumption | apply (combine_items Cl Q G H); assumption]).
Qed.

(* clean (hypothesis on the tree, SpecCompound.v) and first (known because the
   tree came out of the parser) give good (what the replay needs) *)
Lemma good_of_clean_first : forall n c, clean_n n c -> first_n n c -> good_n n c.
Proof.
  induction n as [|n IH]; intros c Hc; cbn [first_n good_n].
  - apply (good_command_of (fun _ => False)); [intros ? [] | apply clean_n_0; exact Hc].
  - apply (good_command_of (clean_n n)); [exact IH | apply clean_n_S; exact Hc].
Qed.

Theorem parse_print_compound_lists_lemma : forall s l n,
  parse_program s = Ok l -> clean_list_n n l -> parse_program (print_list false l) = Ok l.
Proof.
  intros s l n H Hc. apply (program_replay (good_n n) (good_n_replays n)).
  unfold parse_program, bind in H.
  destruct (p_mcl (parse_fuel s) s) as [[l0 r]| | | |] eqn:E; try discriminate. inv H.
  pose proof (ex_mcl _ _ (extract_first n _) _ _ _ E) as Hr.
  apply (combine_items (clean_n n) (first_n n) (good_n n) (good_of_clean_first n)); assumption.
Qed.

(* the lists of simple commands are the depth 0 *)
Lemma clean_command_0 c : clean_command c -> clean_n 0 c.
Proof. destruct c as [a w rds| |]; cbn; auto; contradiction. Qed.

Lemma clean_list_0 l : clean_list l -> clean_list_n 0 l.
Proof.
  unfold clean_list, clean_list_n, list_of. apply Forall_impl. intros [[[cs neg] rest] a]. cbn.
  intros [H1 H2]. split.
  - eapply Forall_impl; [|exact H1]. exact clean_command_0.
  - eapply Forall_impl; [|exact H2]. intros [x [cs' neg']]. cbn. apply Forall_impl. exact clean_command_0.
Qed.

(* non-vacuity: a text with a subshell inside a grouping is covered *)
Example compound_lists_nonvacuous :
  let s := lit "{ (a >f); }" in
  exists l, parse_program s = Ok l /\ clean_list_n 2 l /\ l <> [] /\
            parse_program (print_list false l) = Ok l.
Proof.
  cbv zeta. eexists. split; [vm_compute; reflexivity|].
  match goal with |- ?C /\ _ /\ _ => assert (HC : C) end.
  { unfold clean_list_n.
    do 3 (unfold list_of; apply Forall_cons; [|apply Forall_nil]; split; [|apply Forall_nil];
          apply Forall_cons; [|apply Forall_nil]; cbn [clean_n]).
    split; (split; [|split]); intros x Hx; cbn [In] in Hx;
      (contradiction || (destruct Hx as [<-|[]]; reflexivity)). }
  split; [exact HC|]. split; [discriminate|].
  apply (parse_print_compound_lists_lemma (lit "{ (a >f); }") _ 2); [vm_compute; reflexivity | exact HC].
Qed.
