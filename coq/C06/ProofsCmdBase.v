(* C06 — what the command-level round trip needs of words
   and tokens: the word-level round trip for words without `$(...)` and any
   two parsers of command substitutions, the characters that may follow any
   word, and the token that ends a command. *)
From Yv Require Import Common.Base C06.Ast C06.Print C06.Lex C06.LexEq C06.Parse C06.Spec
  C06.ProofsLen C06.ProofsStop C06.ProofsRtBase C06.ProofsToken C06.ProofsInner C06.SpecCmd.
Local Open Scope N_scope.

(* A word token of the first run without `$(...)`, [w] its units before the
   tilde post-processing: the word is read back by any parser of command
   substitutions, and what followed it in the first run may follow its
   printed form. *)
Lemma nocs_units (i1 : inner_t) f s w r :
  lex_units i1 f CWord DToken s = Ok (w, r) -> nocs_word (tilde_front w) = true ->
  good_follow w r /\ forall i2 : inner_t, units_facts i2 f CWord DToken s w r.
Proof.
  intros H Hn. apply nocs_tilde_front in Hn.
  pose proof (fun i2 => lex_units_rt_nocs i1 i2 _ _ _ _ _ _ H Hn ltac:(discriminate)) as U.
  split; [|exact U]. destruct (U i1) as (A & B & C & _). repeat split; assumption.
Qed.

(* a character that may follow any word that does not end with an unquoted
   backslash *)
Definition univ_follow (c : N) : bool :=
  dollar_ok c && negb (is_name_char c) && negb (c =? c_sq).

Definition ends_bslash (w : word) : bool :=
  match last_opt w with
  | Some (Unquoted (Literal c)) => c =? c_bslash
  | _ => false
  end.

Lemma last_fo_univ w c :
  univ_follow c = true -> ends_bslash w = false -> last_fo_word CWord DToken w (Some c).
Proof.
  unfold univ_follow, ends_bslash, last_fo_word. intros H Hb.
  apply andb_prop in H. destruct H as [H H3]. apply andb_prop in H. destruct H as [H1 H2].
  apply Bool.negb_true_iff in H2, H3.
  destruct (last_opt w) as [u|]; [|exact I].
  destruct u as [t| | | |]; cbn [fo_wu]; auto.
  split.
  - destruct t; cbn [fo_tu]; auto.
    + split; [intros _; exact H1 | intros E; congruence].
  - intros _ _ X. inv X. rewrite N.eqb_refl in H3. discriminate.
Qed.

Lemma last_fo_nil w : last_fo_word CWord DToken w None.
Proof.
  unfold last_fo_word. destruct (last_opt w) as [u|]; [|exact I].
  destruct u as [t| | | |]; cbn [fo_wu]; auto. split; [|intros _ _ X; discriminate].
  destruct t; cbn [fo_tu]; auto.
Qed.

(* a backslash followed by a character is lexed as [Backslashed] (by a newline:
   a line continuation), so an unquoted literal backslash is last only at the
   end of the text *)
Lemma not_ends_bslash w r :
  last_fo_word CWord DToken w (hd r) -> r <> [] -> ends_bslash w = false.
Proof.
  unfold last_fo_word, ends_bslash. destruct (last_opt w) as [u|]; [|auto].
  destruct u as [t| | | |]; auto. destruct t; auto.
  cbn [fo_wu fo_tu]. intros [[_ A] _] Hr.
  destruct (c =? c_bslash) eqn:E; [|reflexivity].
  specialize (A eq_refl). destruct r as [|c0 r']; [congruence|]. cbn [hd] in A.
  destruct A as [A _]. cbn in A. discriminate.
Qed.

Lemma univ_follow_blank : univ_follow 32 = true.
Proof. reflexivity. Qed.

Lemma last_fo_blank w r :
  last_fo_word CWord DToken w (hd r) -> r <> [] -> last_fo_word CWord DToken w (Some 32).
Proof. intros H Hr. exact (last_fo_univ w 32 univ_follow_blank (not_ends_bslash w r H Hr)). Qed.

Lemma good_follow_blank w0 z : ends_bslash w0 = false -> good_follow w0 (32 :: z).
Proof.
  intros H. split; [apply nolc_cons; reflexivity|]. split; [reflexivity|].
  apply last_fo_univ; [reflexivity | exact H].
Qed.

Lemma good_follow_nil w0 : good_follow w0 [].
Proof. split; [reflexivity|]. split; [exact I | apply last_fo_nil]. Qed.

Lemma end_char_cases c : end_char c = true -> c = 10 \/ c = 38 \/ c = 41 \/ c = 59 \/ c = 124.
Proof.
  unfold end_char. intros H.
  repeat (apply Bool.orb_true_iff in H; destruct H as [H|H]); apply N.eqb_eq in H; auto.
Qed.

Lemma end_char_univ c : end_char c = true -> univ_follow c = true.
Proof.
  intros H. destruct (end_char_cases c H) as [->|[->|[->|[->| ->]]]]; reflexivity.
Qed.

Lemma end_char_stops c z : end_char c = true -> stops DToken (c :: z).
Proof.
  intros H. destruct (end_char_cases c H) as [->|[->|[->|[->| ->]]]]; reflexivity.
Qed.

Lemma good_follow_end w0 c z :
  end_char c = true -> ends_bslash w0 = false -> good_follow w0 (c :: z).
Proof.
  intros Hc Hb. split.
  - apply nolc_cons. destruct (end_char_cases c Hc) as [->|[->|[->|[->| ->]]]]; reflexivity.
  - split; [apply end_char_stops; exact Hc | apply last_fo_univ; [apply end_char_univ; exact Hc | exact Hb]].
Qed.

Lemma sbc_end_char c x : end_char c = true -> skip_blanks_and_comment (c :: x) = c :: x.
Proof.
  intros H. destruct (end_char_cases c H) as [->|[->|[->|[->| ->]]]];
    apply skip_blanks_and_comment_id; try reflexivity; apply nolc_cons; reflexivity.
Qed.

Lemma cmd_end_char pre c x : is_lead pre -> end_char c = true -> cmd_end (pre ++ c :: x).
Proof.
  intros Hl Hc. unfold cmd_end.
  destruct Hl as [-> | ->]; cbn [app]; rewrite ?sbc_blank, (sbc_end_char c x Hc); exact Hc.
Qed.

(* the operators that p_redir does not pass over: redirection operators,
   here-document operators and process redirections *)
Definition redirish (op : operator) : bool :=
  match op with
  | OpLessLess | OpLessLessDash | OpLessOpenParen | OpGreaterOpenParen => true
  | _ => match redir_op_of op with Some _ => true | None => false end
  end.

(* the token that ends a command: the end of the input or an operator that is
   not [redirish] and not `(` (which would start a function definition or an
   array value); it depends neither on the parser of command substitutions nor
   on the fuel *)
Lemma cmd_end_token i f z :
  cmd_end z -> (3 <= f)%nat ->
  exists t r, lex_token i f z = Ok (t, r) /\
    match t_id t with
    | TEnd => True
    | TOp op => redirish op = false /\ op <> OpOpenParen
    | _ => False
    end.
Proof.
  unfold cmd_end, lex_token. intros H Hf.
  destruct (skip_blanks_and_comment_spec z) as [N0 _].
  destruct (skip_blanks_and_comment z) as [|c x] eqn:E.
  - cbn [lex_operator skip_lc]. unfold bind.
    destruct f as [|[|[|f]]]; try lia.
    rewrite lex_units_eq. unfold bind. rewrite lex_wu_eq. cbn [skip_lc].
    eexists _, _. split; [reflexivity | exact I].
  - destruct (lex_operator (c :: x)) as [[op r]|] eqn:Eo.
    + (* the operator starts with [c] *)
      destruct (lex_operator_first c x op r N0 Eo) as [t Et].
      eexists _, _. split; [reflexivity|]. cbn [t_id].
      destruct op; injection Et as <- _; try discriminate H; (split; [reflexivity | discriminate]).
    + apply (lex_operator_none c x N0) in Eo.
      destruct (end_char_cases c H) as [->|[->|[->|[->| ->]]]]; discriminate Eo.
Qed.

Lemma follow_good w0 z : follow z -> ends_bslash w0 = false -> good_follow w0 z.
Proof.
  intros [->|[[z' ->]|(c & z' & -> & Hc)]] Hb.
  - apply good_follow_nil.
  - apply good_follow_blank. exact Hb.
  - apply good_follow_end; assumption.
Qed.

Lemma follow_peek z : follow z -> peek_is_redir z = false.
Proof.
  unfold peek_is_redir. intros [->|[[z' ->]|(c & z' & -> & Hc)]].
  - reflexivity.
  - rewrite skip_lc_nonbslash by reflexivity. reflexivity.
  - destruct (end_char_cases c Hc) as [->|[->|[->|[->| ->]]]];
      rewrite skip_lc_nonbslash by reflexivity; reflexivity.
Qed.
