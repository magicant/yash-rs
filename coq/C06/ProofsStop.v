(* C06 — where the lexer stops: the rest is empty or starts with a delimiter.
   [lex_twp_stops] is what keeps LexSound.lex_sound off the panic site; the
   other lemmas serve the round-trip files. *)
From Yv Require Import Common.Base C06.Lex C06.SpecLex C06.LexEq C06.ProofsLen.
Local Open Scope N_scope.

Lemma skip_lc_cons_not_lc c s s' :
  skip_lc s = c :: s' -> skip_lc (c :: s') = c :: s'.
Proof. intros H. rewrite <- H. apply skip_lc_idem. Qed.

Lemma skip_lc_nonbslash c s : (c =? c_bslash) = false -> skip_lc (c :: s) = c :: s.
Proof.
  intros H. destruct s as [|c2 s]; [reflexivity|]. cbn [skip_lc]. rewrite H. reflexivity.
Qed.

Section LexStop.
  Variable inner : str -> res (str * str).

  Lemma lex_tu_none f cx d e s r :
    lex_tu inner f cx d e s = Ok (None, r) -> r = skip_lc s /\ stops d r.
  Proof.
    destruct f as [|f]; [discriminate|]. rewrite lex_tu_eq. unfold bind. intros H.
    dmall; clean; try discriminate; cbn [stops]; auto.
  Qed.

  Lemma lex_text_stops f d e s t r :
    lex_text inner f d e s = Ok (t, r) -> stops d r.
  Proof.
    revert s t r. induction f as [|f IH]; intros s t r H; [discriminate|].
    rewrite lex_text_eq in H. unfold bind in H. dmall; clean.
    - eapply IH; eauto.
    - eapply lex_tu_none; eauto.
  Qed.

  Lemma lex_wu_none f cx d s r :
    lex_wu inner f cx d s = Ok (None, r) -> r = skip_lc s /\ stops d r.
  Proof.
    destruct f as [|f]; [discriminate|]. rewrite lex_wu_eq. unfold bind. intros H.
    dmall; clean; try discriminate; cbn [stops]; auto.
    all: match goal with E : lex_tu _ _ _ _ _ _ = Ok (None, _) |- _ =>
           apply lex_tu_none in E; destruct E as [E1 E2] end.
    all: match goal with E : skip_lc _ = _ :: _ |- _ =>
           rewrite (skip_lc_cons_not_lc _ _ _ E) in E1 end.
    all: subst; auto.
  Qed.

  Lemma lex_units_stops f cx d s w r :
    lex_units inner f cx d s = Ok (w, r) -> stops d r.
  Proof.
    revert s w r. induction f as [|f IH]; intros s w r H; [discriminate|].
    rewrite lex_units_eq in H. unfold bind in H. dmall; clean.
    - eapply IH; eauto.
    - eapply lex_wu_none; eauto.
  Qed.

  (* why the unreachable!() of arith.rs is not reached: [DParen] stops
     [lex_text] at a parenthesis and the loop consumes every `(`, so at depth 0
     what is left starts with `)` *)
  Lemma lex_twp_stops f depth s t r :
    lex_twp inner f depth s = Ok (t, r) -> r = [] \/ exists r', r = c_rparen :: r'.
  Proof.
    revert depth s t r. induction f as [|f IH]; intros depth s t r H; [discriminate|].
    rewrite lex_twp_eq in H. unfold bind in H.
    destruct (lex_text inner f DParen EArith s) as [[us r0]| | | |] eqn:E; try discriminate.
    pose proof (lex_text_stops _ _ _ _ _ _ E) as St.
    destruct r0 as [|c0 r0'].
    - cbn [skip_lc] in H. destruct depth; [inv H; auto | discriminate].
    - cbn [stops is_delim] in St.
      assert (Hc : (c0 =? c_bslash) = false).
      { apply Bool.orb_true_iff in St. unfold c_lparen, c_rparen, c_bslash in *.
        destruct St as [St|St]; apply N.eqb_eq in St; subst; reflexivity. }
      rewrite (skip_lc_nonbslash _ _ Hc) in H.
      destruct (c0 =? c_lparen) eqn:E1.
      + destruct (lex_twp inner f (S depth) r0') as [[vs r2]| | | |] eqn:E2; try discriminate.
        inv H. eapply IH; eauto.
      + cbn [orb] in St. apply N.eqb_eq in St. subst c0.
        destruct depth as [|dep].
        * inv H. right. eauto.
        * rewrite N.eqb_refl in H.
          destruct (lex_twp inner f dep r0') as [[vs r2]| | | |] eqn:E2; try discriminate.
          inv H. eapply IH; eauto.
  Qed.
End LexStop.
