(* C06 — F14: a `$(...)` whose content starts with `(` is accepted only through
   the fallback of `$((`; printed in front of `)` or of the end of the text it
   is read as an unclosed arithmetic expansion.  Here at the level of whole
   programs: the model (which mirrors the implementation) shows that the
   unrestricted statement "the printed text of a parsed tree parses back to
   the tree" is false; the witnesses are in the class [f14_class]. *)
From Yv Require Import Common.Base C06.Model C06.Spec.
From Coq Require Ascii String.
Import Coq.Strings.String.StringSyntax.

(* `)` follows the printed word: `(echo $(('(' ) ) )` prints as
   `(echo $(('(' ) ))`, which is a syntax error *)
Lemma f14_witness_paren :
  exists t, parse_program (lit "(echo $(('(' ) ) )") = Ok t /\ f14_class t = true /\
            print_list false t = lit "(echo $(('(' ) ))" /\
            parse_program (print_list false t) = Err.
Proof.
  eexists. split; [vm_compute; reflexivity|]. repeat split; vm_compute; reflexivity.
Qed.

(* the end of the text follows the printed word: `echo $(('(' ) ) ;` prints as
   `echo $(('(' ) )`, which is a syntax error *)
Lemma f14_witness_eof :
  exists t, parse_program (lit "echo $(('(' ) ) ;") = Ok t /\ f14_class t = true /\
            print_list false t = lit "echo $(('(' ) )" /\
            parse_program (print_list false t) = Err.
Proof.
  eexists. split; [vm_compute; reflexivity|]. repeat split; vm_compute; reflexivity.
Qed.
