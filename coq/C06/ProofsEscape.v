(* C06 — dollar-single-quoted strings.  Every escape unit the lexer produces is
   printed in a form the lexer reads back as the same unit (EscapeUnit
   re-encoding of impl_display.rs against lex/escape.rs). *)
From Yv Require Import Common.Base C06.Ast C06.Print C06.Lex C06.ProofsLen C06.ProofsNum.
Local Open Scope N_scope.

(* what the lexer can produce *)
Definition wf_eu (u : escape_unit) : Prop :=
  match u with
  | EuLiteral c => c <> c_sq /\ c <> c_bslash
  | EuControl b => b = 28 \/ (exists x, in_range 63 95 x = true /\ x <> 92 /\ b = N.lxor x 64)
  | EuOctal b => b <= 255
  | EuHex b => b < 256
  | EuUnicode c => is_scalar_value c = true
  | _ => True
  end.

Lemma hex_val_lt c d : hex_val c = Some d -> d < 16.
Proof.
  unfold hex_val. intros E. repeat (dmh E; try discriminate); inv E;
    unfold in_range, is_digit, in_range in *;
    repeat match goal with H : _ && _ = true |- _ => apply andb_prop in H; destruct H end;
    repeat match goal with H : (_ <=? _) = true |- _ => apply N.leb_le in H end; lia.
Qed.

Lemma hex_more_bound k acc s v r j :
  hex_more k acc s = (v, r) -> acc < 16 ^ j -> v < 16 ^ (j + N.of_nat k).
Proof.
  revert acc s v r j. induction k as [|k IH]; intros acc s v r j H Ha; cbn [hex_more] in H.
  - inv H. rewrite N.add_0_r. exact Ha.
  - assert (Hm : 16 ^ j <= 16 ^ (j + N.of_nat (S k))) by (apply N.pow_le_mono_r; lia).
    destruct s as [|c s']; [inv H; lia|].
    destruct (hex_val c) as [d|] eqn:E; [|inv H; lia].
    apply hex_val_lt in E. apply (IH _ _ _ _ (j + 1)) in H.
    + replace (j + N.of_nat (S k)) with (j + 1 + N.of_nat k) by lia. exact H.
    + rewrite N.pow_add_r, N.pow_1_r. lia.
Qed.

Lemma hex_digits_bound k s v r :
  hex_digits k s = Some (v, r) -> (1 <= k)%nat -> v < 16 ^ N.of_nat k.
Proof.
  unfold hex_digits. intros H Hk. destruct s as [|c s']; [discriminate|].
  destruct (hex_val c) as [d|] eqn:Ed; [|discriminate].
  destruct (hex_more (k - 1) d s') as [v' r'] eqn:Em. inv H.
  apply hex_val_lt in Ed.
  apply (hex_more_bound _ _ _ _ _ 1) in Em; [|rewrite N.pow_1_r; exact Ed].
  replace (N.of_nat k) with (1 + N.of_nat (k - 1)) by lia. exact Em.
Qed.

Lemma lex_escape_wf c2 s u r : lex_escape c2 s = Ok (u, r) -> wf_eu u.
Proof.
  unfold lex_escape. intros H.
  repeat (dmh H; try discriminate); inv H; cbn [wf_eu]; auto.
  - (* control *)
    right. eexists. split; [eassumption|]. split; [|reflexivity].
    match goal with E : (_ =? 92) = false |- _ => apply N.eqb_neq in E; exact E end.
  - (* hex *)
    match goal with E : hex_digits _ _ = Some _ |- _ => apply hex_digits_bound in E; [|lia] end.
    cbn in *. assumption.
  - (* octal *)
    match goal with E : (_ <=? 255) = true |- _ => apply N.leb_le in E; exact E end.
Qed.

Lemma scalar_lt v : is_scalar_value v = true -> v < 16 ^ 8.
Proof.
  unfold is_scalar_value, in_range. intros H.
  apply Bool.orb_true_iff in H. destruct H as [H|H].
  - apply N.ltb_lt in H. cbn. lia.
  - apply andb_prop in H. destruct H as [_ H]. apply N.leb_le in H. cbn. lia.
Qed.

(* `\cX` for a character from `?` to `_` other than the backslash *)
Lemma lex_escape_control x z :
  in_range 63 95 x = true -> x <> 92 -> lex_escape 99 (x :: z) = Ok (EuControl (N.lxor x 64), z).
Proof.
  intros Hr Hx.
  assert (Hu : to_ascii_upper x = x).
  { unfold to_ascii_upper, in_range in *. apply andb_prop in Hr. destruct Hr as [_ Hr].
    apply N.leb_le in Hr. destruct (97 <=? x) eqn:E; [apply N.leb_le in E; lia | reflexivity]. }
  apply N.eqb_neq in Hx. unfold lex_escape. simpl (99 =? _). cbv beta iota zeta.
  rewrite Hu, Hx, Hr. reflexivity.
Qed.

Lemma lex_escape_octal d s :
  d < 8 ->
  lex_escape (digit_char false d) s =
  let (v, r) := oct_more 2 d s in if v <=? 255 then Ok (EuOctal v, r) else Err.
Proof.
  revert d. apply (N_lt_cases _ 8). intros i Hi. do 8 (destruct i as [|i]; [reflexivity|]). lia.
Qed.

Lemma print_eu_lex u :
  wf_eu u ->
  (exists c, u = EuLiteral c) \/
  exists c2 t, print_eu u = c_bslash :: c2 :: t /\ forall z, lex_escape c2 (t ++ z) = Ok (u, z).
Proof.
  intros W. destruct u; cbn [wf_eu] in W; [left; eauto | right ..];
    try (eexists _, []; split; [reflexivity | intros z; reflexivity]).
  - (* control *)
    destruct W as [->|(x & Hr & Hx & ->)].
    + exists 99, [92; 92]. split; [reflexivity | intros z; reflexivity].
    + assert (Hb : (N.lxor x 64 =? 28) = false).
      { apply N.eqb_neq. intros E. apply Hx.
        assert (X : N.lxor (N.lxor x 64) 64 = N.lxor 28 64) by (rewrite E; reflexivity).
        rewrite N.lxor_assoc, N.lxor_nilpotent, N.lxor_0_r in X. exact X. }
      exists 99, [x]. cbn [print_eu]. rewrite Hb.
      rewrite N.lxor_assoc, N.lxor_nilpotent, N.lxor_0_r. split; [reflexivity|].
      intros z. apply lex_escape_control; assumption.
  - (* octal *)
    destruct (oct_fmt b W) as (d0 & t & E & Hd & Hm).
    exists (digit_char false d0), t. cbn [print_eu]. rewrite E. split; [reflexivity|].
    intros z. apply N.leb_le in W. rewrite (lex_escape_octal _ _ Hd), Hm, W. reflexivity.
  - (* hex *)
    exists 120, (fmt_num 16 true 2 b). split; [reflexivity|]. intros z.
    unfold lex_escape. cbn -[hex_digits fmt_num].
    rewrite (hex_digits_fmt true 2 b z) by (cbn; lia). reflexivity.
  - (* unicode *)
    cbn [print_eu]. destruct (c <=? 65535) eqn:E.
    + exists 117, (fmt_num 16 false 4 c). split; [reflexivity|]. intros z.
      unfold lex_escape. cbn -[hex_digits fmt_num is_scalar_value].
      apply N.leb_le in E. rewrite (hex_digits_fmt false 4 c z) by (cbn; lia). rewrite W. reflexivity.
    + exists 85, (fmt_num 16 true 8 c). split; [reflexivity|]. intros z.
      unfold lex_escape. cbn -[hex_digits fmt_num is_scalar_value].
      rewrite (hex_digits_fmt true 8 c z) by (try apply scalar_lt; auto; lia). rewrite W. reflexivity.
Qed.

Lemma lex_escaped_wf f s es r : lex_escaped f s = Ok (es, r) -> Forall wf_eu es.
Proof.
  revert s es r. induction f as [|f IH]; intros s es r H; cbn [lex_escaped] in H; [discriminate|].
  unfold bind in H. destruct s as [|c1 s1]; [discriminate|].
  destruct (c1 =? c_sq) eqn:E1; [inv H; constructor|].
  destruct (c1 =? c_bslash) eqn:E2.
  - destruct s1 as [|c2 s2]; [discriminate|].
    destruct (lex_escape c2 s2) as [[u r1]| | | |] eqn:E3; try discriminate.
    destruct (lex_escaped f r1) as [[us r2]| | | |] eqn:E4; try discriminate.
    inv H. constructor; [eapply lex_escape_wf; eauto | eapply IH; eauto].
  - destruct (lex_escaped f s1) as [[us r2]| | | |] eqn:E4; try discriminate.
    inv H. constructor; [|eapply IH; eauto].
    cbn [wf_eu]. split; apply N.eqb_neq; assumption.
Qed.

Lemma lex_escaped_cons u f x us r :
  wf_eu u -> lex_escaped f x = Ok (us, r) ->
  lex_escaped (S f) (print_eu u ++ x) = Ok (u :: us, r).
Proof.
  intros W H. destruct (print_eu_lex u W) as [[c ->]|(c2 & t & E & L)].
  - destruct W as [W1 W2]. apply N.eqb_neq in W1, W2.
    cbn [print_eu app lex_escaped]. rewrite W1, W2. unfold bind. rewrite H. reflexivity.
  - rewrite E. cbn [app lex_escaped].
    change (c_bslash =? c_sq) with false. change (c_bslash =? c_bslash) with true.
    cbv iota. unfold bind. rewrite L, H. reflexivity.
Qed.

Lemma escaped_roundtrip_wf es :
  Forall wf_eu es -> forall f z, (length es < f)%nat ->
  lex_escaped f (cat_map print_eu es ++ c_sq :: z) = Ok (es, z).
Proof.
  induction 1 as [|u es W _ IH]; intros [|f] z Hf; try (cbn in Hf; lia); [reflexivity|].
  cbn [cat_map]. rewrite <- app_assoc. apply lex_escaped_cons, IH; [exact W | cbn [length] in Hf; lia].
Qed.

Lemma print_eu_nonempty u : (1 <= length (print_eu u))%nat.
Proof.
  destruct u; cbn [print_eu length]; try lia.
  - destruct (b =? 28); cbn [length]; lia.
  - destruct (c <=? 65535); cbn [length]; lia.
Qed.

Lemma cat_print_eu_len es : (length es <= length (cat_map print_eu es))%nat.
Proof.
  induction es as [|u es IH]; cbn [cat_map length]; [lia|].
  rewrite app_length. pose proof (print_eu_nonempty u). lia.
Qed.

(* with the fuel the word lexer gives [lex_escaped]: the length of the text *)
Lemma escaped_roundtrip_len es z :
  Forall wf_eu es ->
  lex_escaped (S (len (cat_map print_eu es ++ c_sq :: z))) (cat_map print_eu es ++ c_sq :: z)
  = Ok (es, z).
Proof.
  intros W. apply escaped_roundtrip_wf; [exact W|].
  rewrite app_length. pose proof (cat_print_eu_len es). cbn [length]. lia.
Qed.
