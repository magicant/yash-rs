(* C06 — operators are read back from their printed form
   whenever what follows does not turn them into a longer operator. *)
From Yv Require Import Common.Base C06.Ast C06.Print C06.Lex C06.Parse C06.Spec C06.ProofsStop.
Local Open Scope N_scope.

Lemma alt_nil z o : nolc z -> alt z [] o = (o, z).
Proof. intros H. unfold alt. rewrite H. destruct z; reflexivity. Qed.

Theorem lex_operator_print_lemma o z :
  nolc z -> op_follow_ok o (hd z) -> lex_operator (print_op o ++ z) = Some (o, z).
Proof.
  intros Hz Hf. unfold op_follow_ok in Hf.
  destruct o; cbn [print_op app op_ext] in *; unfold lex_operator;
    rewrite skip_lc_nonbslash by reflexivity; cbn -[alt skip_lc];
    try reflexivity.
  all: try (unfold alt at 1; rewrite skip_lc_nonbslash by reflexivity; cbn -[alt skip_lc]).
  all: try (unfold alt at 1; rewrite skip_lc_nonbslash by reflexivity; cbn -[alt skip_lc]).
  all: try reflexivity.
  all: unfold fin.
  (* what is left: the operator stands, because the next character extends it to no other *)
  all: f_equal; unfold alt; rewrite Hz; destruct z as [|c z']; [reflexivity|];
    cbn [hd existsb] in Hf; cbn [find fst];
    repeat match type of Hf with
           | _ || _ = false => apply Bool.orb_false_iff in Hf; destruct Hf as [? Hf]
           end;
    repeat match goal with
           | H : (c =? ?k) = false |- context [?k =? c] => rewrite (N.eqb_sym k c), H
           end;
    reflexivity.
Qed.
