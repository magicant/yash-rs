(* C06 — two ways of speaking about the answer of a fuelled function, each with
   the rules for [bind] that let a proof follow the shape of the function:
   [fuel_le] compares the answers of two runs, [answers] bounds one answer. *)
From Yv Require Import Common.Base C06.Lex.

Lemma bind_assoc {A B C} (r : res A) (k1 : A -> res B) (k2 : B -> res C) :
  bind (bind r k1) k2 = bind r (fun a => bind (k1 a) k2).
Proof. destruct r; reflexivity. Qed.

(* the flat order with [Fuel] at the bottom: [r2] is [r1] unless [r1] is [Fuel] *)
Definition fuel_le {A} (r1 r2 : res A) : Prop := forall R, r1 = R -> R <> Fuel -> r2 = R.

Lemma fuel_le_refl {A} (r : res A) : fuel_le r r.
Proof. intros R H _. exact H. Qed.

Lemma fuel_le_fuel {A} (r : res A) : fuel_le Fuel r.
Proof. intros R <- HR. now destruct HR. Qed.

Lemma fuel_le_bind {A B} (r1 r2 : res A) (k1 k2 : A -> res B) :
  fuel_le r1 r2 -> (forall a, fuel_le (k1 a) (k2 a)) -> fuel_le (bind r1 k1) (bind r2 k2).
Proof.
  intros Hr Hk R. destruct r1 as [a| | | |]; cbn [bind]; intros H HR; try congruence;
    rewrite (Hr _ eq_refl ltac:(discriminate)); [exact (Hk a R H HR) | exact H..].
Qed.

(* A goal [fuel_le body1 body2] between two copies of one function body that
   differ only in the calls they make is proved along the body: [bind] by
   [fuel_le_bind], a [match] by cases on its scrutinee, a call by a hint of the
   database [mono] (or an induction hypothesis in the context), and what does
   not call anything by reflexivity. *)
Create HintDb mono discriminated.

Ltac fuel_le_walk :=
  repeat first
    [ match goal with |- fuel_le ?r1 ?r2 => constr_eq r1 r2; apply fuel_le_refl end
    | apply fuel_le_bind; [| intros ?; cbv beta]
    | match goal with |- fuel_le (match ?x with _ => _ end) _ => destruct x; cbv beta iota end
    | solve [auto with mono] ].

(* [answers E Q r]: the run does not reach a panic site, an [Ok] answer
   satisfies [Q], and if [E] holds (enough fuel) the fuel did not run out *)
Definition answers {A} (E : Prop) (Q : A -> Prop) (r : res A) : Prop :=
  match r with
  | Ok a => Q a
  | Fuel => ~ E
  | Panic => False
  | Err | Unsupp => True
  end.

Lemma answers_weaken {A} (E1 E : Prop) (P Q : A -> Prop) r :
  answers E1 P r -> (E -> E1) -> (forall a, P a -> Q a) -> answers E Q r.
Proof. destruct r; cbn; auto. Qed.

Lemma answers_bind {A B} (E1 E : Prop) (P : A -> Prop) (Q : B -> Prop) r k :
  answers E1 P r -> (E -> E1) -> (forall a, r = Ok a -> P a -> answers E Q (k a)) ->
  answers E Q (bind r k).
Proof. destruct r; cbn; auto. Qed.

Lemma answers_fuel {A} (E : Prop) (Q : A -> Prop) r : answers E Q r -> E -> r <> Fuel.
Proof. intros H HE ->. exact (H HE). Qed.

Lemma answers_nopanic {A} E (Q : A -> Prop) r : answers E Q r -> r <> Panic.
Proof. intros H ->. exact H. Qed.

(* A goal [answers E Q body] is proved along the body like one for [fuel_le]:
   a call, or a block of the body that has a lemma of its own, is looked up in
   the database [sound] (or the context); a call in tail position has its
   answer weakened; a nested [bind] is reassociated; a [match] is split, also
   one whose result is bound and has no lemma: then what comes after it is
   gone through once for every case, so a bound block with many cases wants a
   lemma.  What is left are the side conditions: that [E] gives the callee
   enough fuel, and [Q] of what is returned. *)
Create HintDb sound discriminated.

Ltac answers_cases x :=
  lazymatch x with
  | context [match ?y with _ => _ end] => answers_cases y
  | _ => first [is_var x; destruct x | destruct x eqn:?]; cbn [fst snd bind negb andb]
  end.

Ltac answers_walk :=
  repeat first
    [ match goal with
      | |- answers _ _ (bind (bind _ _) _) => rewrite bind_assoc
      | |- answers _ _ (bind _ _) =>
          let H := fresh in
          eapply answers_bind; [solve [eauto with sound] | | intros ? ? H; hnf in H; cbv beta]
      | |- answers _ _ (match ?x with _ => _ end) => answers_cases x
      | |- answers _ _ (bind (match ?x with _ => _ end) _) => answers_cases x
      | |- answers _ _ (Ok _) => cbn [answers]
      end
    | exact I
    | eapply answers_weaken; [solve [eauto with sound] | | intros ? ?] ].
