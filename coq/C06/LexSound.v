(* C06 — the mutually recursive lexer is sound, given a sound parser [inner]
   for the content of command substitutions. *)
From Yv Require Import Common.Base C06.Lex C06.LexEq C06.Answers C06.ProofsLen C06.ProofsStop.
Local Open Scope N_scope.

(* ranks in the call graph on inputs of the same length; [rk_inner] is the rank
   of [Parse.p_inner], above [rk_mcl] of ProofsParse.v and below [fuel_k] (the
   lexer calls [inner] only after `$(` is consumed) *)
Definition rk_tu := 0%nat.   Definition rk_dollar := 0%nat. Definition rk_braced := 0%nat.
Definition rk_text := 1%nat. Definition rk_wu := 1%nat.
Definition rk_twp := 2%nat.  Definition rk_units := 2%nat.
Definition rk_inner := 12%nat.
#[export] Hint Unfold rk_tu rk_dollar rk_braced rk_text rk_wu rk_twp rk_units rk_inner : lens.

Lemma lex_param_sound s : answers True (fun x => len (snd x) < len s)%nat (lex_param s).
Proof. unfold lex_param. answers_walk; arith. Qed.

(* [lu] is called on a suffix of [r] not known here, hence [E] for every text
   no longer than [r] *)
Lemma lex_suffix_sound lu cx r (E : str -> Prop) :
  (forall cx' s, answers (E s) (shorter s) (lu cx' s)) ->
  answers (forall s, (len s <= len r)%nat -> E s) (shorter r) (lex_suffix lu cx r).
Proof.
  intros H. unfold lex_suffix. cbv zeta. answers_walk.
  all: try (intros HE; apply HE). all: arith.
Qed.

Section LexSound.
  Variable inner : str -> res (str * str).
  Variable F : nat.      (* the fuel [inner] runs on *)
  Hypothesis inner_sound : forall s, answers (enough rk_inner F s) (shorter s) (inner s).

  (* [f <= F]: Parse.v gives the lexer and [inner] the same fuel, so fuel that
     is enough for the lexer on [s] is enough for [inner] on the shorter text
     after `$(` *)
  Local Notation E rk f s := ((f <= F)%nat /\ enough rk f s).

  Definition Sound_all (f : nat) :=
    (forall cx d e s, answers (E rk_tu f s) (fun x => len (snd x) + took (fst x) <= len s)%nat
                              (lex_tu inner f cx d e s)) /\
    (forall cx s, answers (E rk_dollar f s) (fun x => len (snd x) + took (fst x) <= len s)%nat
                          (lex_dollar inner f cx s)) /\
    (forall cx s, answers (E rk_braced f s) (fun x => len (snd x) < len s)%nat
                          (lex_braced inner f cx s)) /\
    (forall d e s, answers (E rk_text f s) (shorter s) (lex_text inner f d e s)) /\
    (forall depth s, answers (E rk_twp f s) (shorter s) (lex_twp inner f depth s)) /\
    (forall cx d s, answers (E rk_wu f s) (fun x => len (snd x) + took (fst x) <= len s)%nat
                            (lex_wu inner f cx d s)) /\
    (forall cx d s, answers (E rk_units f s)
                            (fun x => len (snd x) + took (hd_error (fst x)) <= len s)%nat
                            (lex_units inner f cx d s)).

  Lemma lex_sound : forall f, Sound_all f.
  Proof.
    induction f as [|f (Htu & Hdol & Hbr & Htx & Htwp & Hwu & Hun)].
    { repeat split; intros; hnf; arith. }
    pose proof lex_param_sound.
    assert (Hsuf : forall cx r, answers (E rk_units f r) (shorter r)
                     (lex_suffix (fun cx' s' => lex_units inner f cx' DBrace s') cx r)).
    { intros cx r. eapply answers_weaken; [apply lex_suffix_sound; intros cx' s' | |].
      - eapply answers_weaken; [apply Hun | exact (fun H => H) | arith].
      - arith.
      - arith. }
    repeat split; intros.
    - rewrite lex_tu_eq. answers_walk; arith.
    - rewrite lex_dollar_eq. cbv zeta. answers_walk. all: try arith.
      (* the unreachable!() of arith.rs: [lex_twp] stops at a closing parenthesis *)
      match goal with H : lex_twp _ _ _ _ = Ok _ |- _ =>
        apply lex_twp_stops in H; rename H into St end.
      destruct St as [->|[r' ->]]; [discriminate|].
      match goal with H : skip_lc (c_rparen :: _) = _ |- _ =>
        rewrite skip_lc_nonbslash in H by reflexivity; inv H end.
      discriminate.
    - rewrite lex_braced_eq. cbv zeta.
      destruct (has_length_prefix s), (skip_lc s) eqn:?; answers_walk; arith.
    - rewrite lex_text_eq. answers_walk; arith.
    - rewrite lex_twp_eq. answers_walk; arith.
    - rewrite lex_wu_eq. answers_walk; arith.
    - rewrite lex_units_eq. answers_walk; arith.
  Qed.
End LexSound.
