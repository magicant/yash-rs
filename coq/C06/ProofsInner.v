(* C06 — a word without `$(...)` is lexed the same way whatever parser is used
   for the contents of command substitutions; hence the word-level round trip
   holds for the model's own parser on such words without any hypothesis. *)
From Yv Require Import Common.Base C06.Ast C06.Print C06.Lex C06.SpecLex C06.LexEq C06.ProofsLen
  C06.ProofsTilde C06.ProofsRt.
Local Open Scope N_scope.

(* transparent, so that it can carry the recursive calls of a proof by
   structural recursion on a unit that holds lists of units *)
Lemma forallb_impl {A} (P Q : A -> bool) (H : forall x, P x = true -> Q x = true) l :
  forallb P l = true -> forallb Q l = true.
Proof.
  induction l as [|x l IH]; [reflexivity|]. cbn [forallb]. intros h. apply andb_prop in h.
  rewrite (H x (proj1 h)). exact (IH (proj2 h)).
Defined.

Lemma nocs_ok_tu u : nocs_tu u = true -> ok_tu u = true
with nocs_ok_wu u : nocs_wu u = true -> ok_wu u = true.
Proof.
  - destruct u as [c|c|p|p m|c|c|t]; cbn [nocs_tu ok_tu]; try reflexivity; try discriminate.
    + destruct m as [| |a c w|s l w]; try reflexivity; apply forallb_impl, nocs_ok_wu.
    + apply forallb_impl, nocs_ok_tu.
  - destruct u as [t|s|t|e|n b]; cbn [nocs_wu ok_wu]; try reflexivity;
      [apply nocs_ok_tu | apply forallb_impl, nocs_ok_tu].
Qed.

Lemma nocs_ok_word w : nocs_word w = true -> ok_word w = true.
Proof. apply forallb_impl. exact nocs_ok_wu. Qed.

Lemma tilde_name_nocs colon w n name sl :
  tilde_name colon w = Some (n, name, sl) -> nocs_word (firstn n w) = true.
Proof. intros H. rewrite (tilde_name_firstn _ _ _ _ _ H). apply forallb_wlits. reflexivity. Qed.

Lemma nocs_tilde_front w : nocs_word (tilde_front w) = true -> nocs_word w = true.
Proof. apply tilde_front_forallb. reflexivity. Qed.

Definition agree {A} (p : A -> bool) (r1 r2 : res (A * str)) : Prop :=
  forall a r, r1 = Ok (a, r) -> p a = true -> r2 = Ok (a, r).

Definition opt {U} (p : U -> bool) (o : option U) : bool :=
  match o with Some u => p u | None => true end.

Definition nocs_mod (m : modifier) : bool :=
  match m with MSwitch _ _ w | MTrim _ _ w => nocs_word w | _ => true end.

Lemma cmdsubst_not_nocs (i : str -> res (str * str)) s o r :
  (let* (content, r) := i s in
   match skip_lc r with
   | c' :: r' => if c' =? c_rparen then Ok (Some (CommandSubst content), r') else Err
   | [] => Err
   end) = Ok (o, r) ->
  opt nocs_tu o = true -> False.
Proof.
  unfold bind. destruct (i s) as [[content r0]| | | |]; try discriminate.
  destruct (skip_lc r0) as [|c' r']; [discriminate|].
  destruct (c' =? c_rparen); [|discriminate]. intros H. inv H. discriminate.
Qed.

Lemma seq_step_irrelevant {U} (nocs : U -> bool) (lu1 lu2 : str -> res (option U * str))
    (ls1 ls2 : str -> res (list U * str)) :
  (forall s, agree (opt nocs) (lu1 s) (lu2 s)) ->
  (forall s, agree (forallb nocs) (ls1 s) (ls2 s)) ->
  forall s, agree (forallb nocs) (seq_step lu1 ls1 s) (seq_step lu2 ls2 s).
Proof.
  intros Hu Hs s t r H Hn. unfold seq_step, bind in *.
  destruct (lu1 s) as [[[u|] r1]| | | |] eqn:E; try discriminate.
  - destruct (ls1 r1) as [[us r']| | | |] eqn:E2; try discriminate. inv H.
    cbn [forallb] in Hn. apply andb_prop in Hn. destruct Hn as [A B].
    rewrite (Hu _ _ _ E A), (Hs _ _ _ E2 B). reflexivity.
  - rewrite (Hu _ _ _ E eq_refl). exact H.
Qed.

Section Irrelevant.
  Variables i1 i2 : str -> res (str * str).

  Definition I_all (f : nat) :=
    (forall cx d e s, agree (opt nocs_tu) (lex_tu i1 f cx d e s) (lex_tu i2 f cx d e s)) /\
    (forall cx s, agree (opt nocs_tu) (lex_dollar i1 f cx s) (lex_dollar i2 f cx s)) /\
    (forall cx s, agree nocs_tu (lex_braced i1 f cx s) (lex_braced i2 f cx s)) /\
    (forall d e s, agree nocs_text (lex_text i1 f d e s) (lex_text i2 f d e s)) /\
    (forall depth s, agree nocs_text (lex_twp i1 f depth s) (lex_twp i2 f depth s)) /\
    (forall cx d s, agree (opt nocs_wu) (lex_wu i1 f cx d s) (lex_wu i2 f cx d s)) /\
    (forall cx d s, agree nocs_word (lex_units i1 f cx d s) (lex_units i2 f cx d s)).

  (* the modifier: [lex_suffix] calls the word lexer at most once *)
  Lemma lex_suffix_irrelevant f cx rp :
    (forall cx d s, agree nocs_word (lex_units i1 f cx d s) (lex_units i2 f cx d s)) ->
    agree nocs_mod (lex_suffix (fun cx' s' => lex_units i1 f cx' DBrace s') cx rp)
                   (lex_suffix (fun cx' s' => lex_units i2 f cx' DBrace s') cx rp).
  Proof.
    intros Hun m r2 Hm Hk. unfold lex_suffix, bind in *. cbv zeta in *.
    destruct (skip_lc rp) as [|cB sB]; [exact Hm|].
    destruct (cB =? 58).
    - destruct (skip_lc sB) as [|sym r1']; [exact Hm|].
      destruct ((sym =? 43) || (sym =? 45) || (sym =? 61) || (sym =? 63)).
      + destruct (lex_units i1 f cx DBrace r1') as [[w r']| | | |] eqn:Ew; try discriminate.
        inv Hm. rewrite (Hun _ _ _ _ _ Ew); [reflexivity|].
        destruct cx; [apply nocs_tilde_front|]; exact Hk.
      + exact Hm.
    - destruct ((cB =? 43) || (cB =? 45) || (cB =? 61) || (cB =? 63)).
      + destruct (lex_units i1 f cx DBrace sB) as [[w r']| | | |] eqn:Ew; try discriminate.
        inv Hm. rewrite (Hun _ _ _ _ _ Ew); [reflexivity|].
        destruct cx; [apply nocs_tilde_front|]; exact Hk.
      + destruct ((cB =? 35) || (cB =? 37)); [|exact Hm].
        destruct (match skip_lc sB with
                  | [] => (TlShortest, [])
                  | c' :: t => if c' =? cB then (TlLongest, t) else (TlShortest, c' :: t)
                  end) as [len r1''].
        destruct (lex_units i1 f CWord DBrace r1'') as [[w r']| | | |] eqn:Ew; try discriminate.
        inv Hm. rewrite (Hun _ _ _ _ _ Ew); [reflexivity|].
        apply nocs_tilde_front. exact Hk.
  Qed.

  Lemma lex_irrelevant : forall f, I_all f.
  Proof.
    induction f as [|f (Htu & Hdol & Hbr & Htx & Htwp & Hwu & Hun)].
    { repeat split; intros; discriminate. }
    repeat split.
    - (* lex_tu *)
      intros cx d e s o r H Hn. rewrite lex_tu_eq in H |- *. unfold bind in *.
      destruct (skip_lc s) as [|c s1]; [exact H|].
      destruct (c =? c_bslash); [exact H|].
      destruct (c =? c_dollar).
      + destruct (lex_dollar i1 f cx s1) as [[[u|] r1]| | | |] eqn:E; try discriminate.
        * inv H. rewrite (Hdol _ _ _ _ E Hn). reflexivity.
        * rewrite (Hdol _ _ _ _ E eq_refl). exact H.
      + exact H.
    - (* lex_dollar *)
      intros cx s o r H Hn. rewrite lex_dollar_eq in H |- *. unfold bind in *. cbv zeta in *.
      destruct (skip_lc s) as [|c s1]; [exact H|].
      destruct (special_of_char c); [exact H|].
      destruct (is_digit c); [exact H|].
      destruct (is_name_char c); [exact H|].
      destruct (c =? c_lbrace).
      + destruct (lex_braced i1 f cx s1) as [[u r1]| | | |] eqn:E; try discriminate.
        inv H. rewrite (Hbr _ _ _ _ E Hn). reflexivity.
      + destruct (c =? c_lparen); [|exact H].
        (* a command substitution is excluded; an arithmetic expansion recurses *)
        destruct (skip_lc s1) as [|c' s2]; [destruct (cmdsubst_not_nocs _ _ _ _ H Hn)|].
        destruct (c' =? c_lparen); [|destruct (cmdsubst_not_nocs _ _ _ _ H Hn)].
        destruct (lex_twp i1 f 0 s2) as [[content r1]| | | |] eqn:Et; try discriminate.
        destruct (skip_lc r1) as [|c1 r1'] eqn:Er1; [discriminate|].
        destruct (c1 =? c_rparen) eqn:Ec1; [|discriminate].
        destruct (skip_lc r1') as [|c2 r2] eqn:Er2; [discriminate|].
        destruct (c2 =? c_rparen) eqn:Ec2; [|destruct (cmdsubst_not_nocs _ _ _ _ H Hn)].
        inv H. cbn [nocs_tu] in Hn. rewrite (Htwp _ _ _ _ Et Hn). rewrite Er1, Ec1, Er2, Ec2.
        reflexivity.
    - (* lex_braced *)
      intros cx s u r H Hn. rewrite lex_braced_eq in H |- *. unfold bind in *. cbv zeta in *.
      destruct (lex_param _) as [[p rp]| | | |]; try discriminate.
      destruct (lex_suffix (fun cx' s' => lex_units i1 f cx' DBrace s') cx rp) as [[m r2]| | | |] eqn:Em;
        try discriminate.
      assert (Hk : nocs_mod m = true).
      { destruct (skip_lc r2) as [|c' r3]; [discriminate|].
        destruct (c' =? c_rbrace); [|discriminate].
        destruct (has_length_prefix s); destruct m; try discriminate; inv H; cbn in Hn; auto. }
      rewrite (lex_suffix_irrelevant f cx rp Hun _ _ Em Hk). exact H.
    - (* lex_text *)
      intros d e. exact (seq_step_irrelevant nocs_tu _ _ _ _ (Htu CText d e) (Htx d e)).
    - (* lex_twp *)
      intros depth s t r H Hn. rewrite lex_twp_eq in H |- *. unfold bind in *.
      destruct (lex_text i1 f DParen EArith s) as [[us r0]| | | |] eqn:E; try discriminate.
      assert (Hus : forall vs x, nocs_text (us ++ x :: vs) = true ->
                     nocs_text us = true /\ nocs_text vs = true).
      { intros vs x Hx. unfold nocs_text in *. rewrite forallb_app in Hx. apply andb_prop in Hx.
        destruct Hx as [A B]. cbn [forallb] in B. apply andb_prop in B. tauto. }
      destruct (skip_lc r0) as [|c r1] eqn:Er0.
      + destruct depth; [|discriminate]. inv H. rewrite (Htx _ _ _ _ _ E Hn), Er0. reflexivity.
      + destruct (c =? c_lparen) eqn:Ec.
        * destruct (lex_twp i1 f (S depth) r1) as [[vs r2]| | | |] eqn:E2; try discriminate. inv H.
          destruct (Hus _ _ Hn) as [A B].
          rewrite (Htx _ _ _ _ _ E A), Er0, Ec, (Htwp _ _ _ _ E2 B). reflexivity.
        * destruct depth as [|dep].
          -- inv H. rewrite (Htx _ _ _ _ _ E Hn), Er0, Ec. reflexivity.
          -- destruct (c =? c_rparen) eqn:Ec2; [|discriminate].
             destruct (lex_twp i1 f dep r1) as [[vs r2]| | | |] eqn:E2; try discriminate. inv H.
             destruct (Hus _ _ Hn) as [A B].
             rewrite (Htx _ _ _ _ _ E A), Er0, Ec, Ec2, (Htwp _ _ _ _ E2 B). reflexivity.
    - (* lex_wu *)
      intros cx d s o r H Hn. rewrite lex_wu_eq in H |- *. unfold bind in *.
      destruct (skip_lc s) as [|c s1]; [exact H|].
      destruct ((c =? c_sq) && match cx with CWord => true | CText => false end); [exact H|].
      destruct (c =? c_dq).
      + destruct (lex_text i1 f DDQuote EDQuote s1) as [[t r1]| | | |] eqn:E; try discriminate.
        destruct (skip_lc r1) as [|c' r'] eqn:Er1; [discriminate|].
        destruct (c' =? c_dq) eqn:Ec; [|discriminate]. inv H. cbn [nocs_wu] in Hn.
        rewrite (Htx _ _ _ _ _ E Hn), Er1, Ec. reflexivity.
      + destruct (lex_tu i1 f cx d (esc_of cx d) (c :: s1)) as [[[tu|] r1]| | | |] eqn:E;
          try discriminate.
        * assert (Hk : nocs_tu tu = true).
          { destruct cx; [|inv H; exact Hn].
            destruct tu; try (inv H; exact Hn). reflexivity. }
          rewrite (Htu _ _ _ _ _ _ E Hk). exact H.
        * rewrite (Htu _ _ _ _ _ _ E eq_refl). exact H.
    - (* lex_units *)
      intros cx d. exact (seq_step_irrelevant nocs_wu _ _ _ _ (Hwu cx d) (Hun cx d)).
  Qed.
End Irrelevant.

Lemma lex_units_irrelevant i1 i2 f cx d s :
  agree nocs_word (lex_units i1 f cx d s) (lex_units i2 f cx d s).
Proof. apply lex_irrelevant. Qed.

(* The word-level round trip without any hypothesis on the parsers of command
   substitutions ([i1] in the first run, [i2] in the second), for words
   without `$(...)`: such a word is read the same way by a parser that refuses
   everything, which reads back what it returned. *)
Theorem lex_units_rt_nocs (i1 i2 : str -> res (str * str)) f cx d s w r :
  lex_units i1 f cx d s = Ok (w, r) -> nocs_word w = true -> d <> DDQuote ->
  seq_rt print_word (last_fo_word cx d) d (lex_units i2 (S (S f)) cx d) s w r.
Proof.
  intros H Hn Hd.
  pose (i0 := fun _ : str => @Err (str * str)).
  assert (R0 : forall s content r0 r0', i0 s = Ok (content, r0) -> skip_lc r0 = c_rparen :: r0' ->
                 forall z, i0 (content ++ c_rparen :: z) = Ok (content, c_rparen :: z))
    by discriminate.
  destruct (lex_units_rt i0 R0 f _ _ _ _ _ (lex_units_irrelevant i1 i0 _ _ _ _ _ _ H Hn)
              (nocs_ok_word _ Hn) Hd) as (A & B & C & D & E).
  split; [exact A|]. split; [exact B|]. split; [exact C|]. split; [exact D|].
  intros z Hz Hs Hl. destruct (E z Hz Hs Hl) as [N L]. split; [exact N|].
  exact (lex_units_irrelevant i0 i2 _ _ _ _ _ _ L Hn).
Qed.
