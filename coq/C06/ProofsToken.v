(* C06 — tokens.  What `lex_token` returns at a printed
   operator, at a word made of plain characters (reserved words, numbers) and
   at the printed form of a word token of an earlier run.  Vocabulary from
   here on: the first run is the parse of the source, which tells facts about
   the tree; the second run reads the printed text. *)
From Yv Require Import Common.Base C06.Ast C06.Print C06.Lex C06.LexEq C06.Parse C06.Spec
  C06.SpecCmd C06.ProofsLen C06.ProofsStop C06.ProofsRtBase C06.ProofsRt C06.ProofsOp.
Local Open Scope N_scope.

Lemma skip_blanks_spec f s :
  (len s <= f)%nat ->
  nolc (skip_blanks f s) /\
  match skip_blanks f s with c :: _ => is_blank c = false | [] => True end.
Proof.
  revert s. induction f as [|f IH]; intros s Hf; cbn [skip_blanks].
  - destruct s; [|cbn in Hf; lia]. cbn. auto using nolc_nil.
  - pose proof (skip_lc_len s) as L. destruct (skip_lc s) as [|c s'] eqn:E.
    + auto using nolc_nil.
    + destruct (is_blank c) eqn:Eb.
      * apply IH. cbn [length] in L. lia.
      * split; [rewrite <- E; apply nolc_skip_lc | exact Eb].
Qed.

Lemma drop_line_spec s :
  match drop_line s with c :: _ => c = c_nl | [] => True end.
Proof.
  induction s as [|c s IH]; cbn [drop_line]; [exact I|].
  destruct (c =? c_nl) eqn:E; [apply N.eqb_eq in E; exact E | exact IH].
Qed.

Lemma skip_blanks_and_comment_spec s :
  nolc (skip_blanks_and_comment s) /\
  match skip_blanks_and_comment s with
  | c :: _ => is_blank c = false /\ (c =? c_hash) = false
  | [] => True
  end.
Proof.
  unfold skip_blanks_and_comment, skip_comment.
  destruct (skip_blanks_spec (len s) s ltac:(lia)) as [N B].
  rewrite N. destruct (skip_blanks (len s) s) as [|c s'] eqn:E; [auto using nolc_nil|].
  destruct (c =? c_hash) eqn:Eh.
  - pose proof (drop_line_spec s') as D. destruct (drop_line s') as [|c' t]; [auto using nolc_nil|].
    subst c'. split; [apply nolc_cons; reflexivity | split; reflexivity].
  - split; [exact N | split; assumption].
Qed.

Lemma skip_blanks_and_comment_id c t :
  nolc (c :: t) -> is_blank c = false -> (c =? c_hash) = false ->
  skip_blanks_and_comment (c :: t) = c :: t.
Proof.
  intros N B H. unfold skip_blanks_and_comment, skip_comment. cbn [length skip_blanks].
  rewrite N, B, N, H. reflexivity.
Qed.

Lemma sbc_blank z : skip_blanks_and_comment (32 :: z) = skip_blanks_and_comment z.
Proof.
  unfold skip_blanks_and_comment. cbn [length skip_blanks].
  rewrite skip_lc_nonbslash by reflexivity. reflexivity.
Qed.

Lemma lex_token_blank i f z : lex_token i f (32 :: z) = lex_token i f z.
Proof. unfold lex_token. rewrite sbc_blank. reflexivity. Qed.

Lemma lex_token_lead i f pre z : is_lead pre -> lex_token i f (pre ++ z) = lex_token i f z.
Proof. intros [-> | ->]; [reflexivity | apply lex_token_blank]. Qed.

Lemma lex_operator_none c t :
  nolc (c :: t) -> lex_operator (c :: t) = None <-> is_operator_char c = false.
Proof.
  intros N. unfold lex_operator, is_operator_char. rewrite N.
  do 8 (destruct (c =? _); [cbn; split; discriminate|]). split; reflexivity.
Qed.

Lemma lex_operator_first c x op r :
  nolc (c :: x) -> lex_operator (c :: x) = Some (op, r) -> exists t, print_op op = c :: t.
Proof.
  (* each leaf of the operator trie holds an operator whose text starts with [c] *)
  intros N. unfold lex_operator. rewrite N.
  repeat (destruct (c =? _) eqn:E; [apply N.eqb_eq in E | clear E]); try discriminate;
    subst c; unfold alt, fin; intros H; injection H as H;
    repeat (first [ match type of H with context [match skip_lc ?y with _ => _ end] => destruct (skip_lc y) end
                  | match type of H with context [if ?b then _ else _] => destruct b end ];
            cbn [find fst] in H);
    first [subst op | injection H as <- _]; eexists; reflexivity.
Qed.

Lemma lex_token_op i f o z :
  nolc z -> op_follow_ok o (hd z) ->
  lex_token i f (print_op o ++ z) = Ok (mkToken [] (TOp o) (print_op o ++ z), z).
Proof.
  intros Hz Hf. unfold lex_token.
  assert (E : skip_blanks_and_comment (print_op o ++ z) = print_op o ++ z).
  { destruct o; apply skip_blanks_and_comment_id; try reflexivity; apply nolc_cons; reflexivity. }
  rewrite E, (lex_operator_print_lemma o z Hz Hf). reflexivity.
Qed.

(* the parentheses are operators whatever follows them *)
Lemma lex_token_paren i f o x :
  o = OpOpenParen \/ o = OpCloseParen ->
  lex_token i f (print_op o ++ x) = Ok (mkToken [] (TOp o) (print_op o ++ x), x).
Proof.
  intros [-> | ->]; unfold lex_token; cbn [print_op app];
    rewrite skip_blanks_and_comment_id by (try reflexivity; apply nolc_cons; reflexivity);
    unfold lex_operator; rewrite skip_lc_nonbslash by reflexivity; reflexivity.
Qed.

Definition word_kw (W : word) : option keyword :=
  match word_literal W with Some l => keyword_of l | None => None end.

Lemma token_id_plain W z :
  W <> [] -> peek_is_redir z = false -> token_id_of W z = TToken (word_kw W).
Proof.
  intros Hw Hp. unfold token_id_of, word_kw. destruct W as [|u us]; [congruence|].
  rewrite Hp. rewrite !Bool.andb_false_r.
  destruct (word_literal (u :: us)) as [l|]; [|reflexivity].
  destruct (keyword_of l); [reflexivity|]. rewrite Bool.andb_false_r. reflexivity.
Qed.

Lemma token_id_kw W z k : word_kw W = Some k -> token_id_of W z = TToken (Some k).
Proof.
  unfold word_kw, token_id_of. destruct W as [|u us]; [discriminate|].
  destruct (word_literal (u :: us)) as [l|]; [|discriminate]. intros ->. reflexivity.
Qed.

Lemma token_id_of_word w z :
  w <> [] ->
  match token_id_of w z with TToken _ | TIoNumber | TIoLocation => True | _ => False end.
Proof.
  intros Hw. unfold token_id_of. destruct w as [|u us]; [congruence|].
  destruct (word_literal (u :: us)) as [l|].
  - destruct (keyword_of l); [exact I|].
    destruct (forallb is_digit l && peek_is_redir z); [exact I|].
    match goal with |- context [if ?b then _ else _] => destruct b end; exact I.
  - match goal with |- context [if ?b then _ else _] => destruct b end; exact I.
Qed.

Definition plain_char (c : N) : bool :=
  negb ((c =? c_bslash) || (c =? c_dollar) || (c =? c_bq) || (c =? c_sq) || (c =? c_dq)
        || is_token_delimiter_char c).

Lemma plain_char_inv c :
  plain_char c = true ->
  (c =? c_bslash) = false /\ (c =? c_dollar) = false /\ (c =? c_bq) = false /\
  (c =? c_sq) = false /\ (c =? c_dq) = false /\ is_token_delimiter_char c = false.
Proof.
  unfold plain_char. intros H. apply Bool.negb_true_iff in H.
  repeat (apply Bool.orb_false_iff in H; destruct H as [H ?]). auto 6.
Qed.

Lemma lex_units_plain inner cs z f :
  forallb plain_char cs = true -> nolc z -> stops DToken z -> (length cs + 3 <= f)%nat ->
  lex_units inner f CWord DToken (cs ++ z) = Ok (wlits cs, z).
Proof.
  revert f. induction cs as [|c cs IH]; intros f Hp Hz Hs Hf;
    (destruct f as [|[|[|f]]]; [cbn in Hf; lia ..|]); cbn [app wlits map];
    rewrite lex_units_eq; unfold bind.
  - rewrite (lex_wu_stop inner f CWord DToken z ltac:(discriminate) Hz Hs). reflexivity.
  - cbn [forallb] in Hp. apply andb_prop in Hp. destruct Hp as [Hc Hp].
    destruct (plain_char_inv c Hc) as (B & D & Q & S1 & S2 & T).
    rewrite lex_wu_eq, (skip_lc_nonbslash _ _ B), S1, S2. cbn [andb]. unfold bind.
    rewrite lex_tu_eq, (skip_lc_nonbslash _ _ B), B, D, Q. cbn [is_delim]. rewrite T, D.
    rewrite (IH (S (S f)) Hp Hz Hs ltac:(cbn [length] in Hf; lia)). reflexivity.
Qed.

Lemma word_literal_wlits cs : word_literal (wlits cs) = Some cs.
Proof.
  induction cs as [|c cs IH]; [reflexivity|]. unfold wlits in *. cbn [map word_literal].
  rewrite IH. reflexivity.
Qed.

(* `#` would start a comment (skip_comment), `~` would be made a [Tilde] unit
   by [tilde_front] *)
Lemma lex_token_lit i f c cs z :
  forallb plain_char (c :: cs) = true -> (c =? c_hash) = false -> (c =? c_tilde) = false ->
  nolc z -> stops DToken z -> (length (c :: cs) + 3 <= f)%nat ->
  lex_token i f (c :: cs ++ z)
  = Ok (mkToken (wlits (c :: cs)) (token_id_of (wlits (c :: cs)) z) (c :: cs ++ z), z).
Proof.
  intros Hp Hh Ht Hz Hs Hf. pose proof Hp as Hp'. cbn [forallb] in Hp'.
  apply andb_prop in Hp'. destruct Hp' as [Hc _].
  destruct (plain_char_inv c Hc) as (B & _ & _ & _ & _ & T).
  apply Bool.orb_false_iff in T. destruct T as [To Tb].
  pose proof (nolc_cons c (cs ++ z) B) as Nc.
  unfold lex_token. rewrite (skip_blanks_and_comment_id _ _ Nc Tb Hh).
  rewrite (proj2 (lex_operator_none c (cs ++ z) Nc) To). unfold bind.
  pose proof (lex_units_plain i (c :: cs) z f Hp Hz Hs Hf) as L. cbn [app] in L. rewrite L.
  unfold tilde_front, parse_tilde. cbn [wlits map]. rewrite Ht. reflexivity.
Qed.

(* used with [eq_refl] for the first premise: a boolean property of the
   reserved words is checked by computation on [keyword_table] *)
Lemma keyword_table_forall (p : str -> bool) l k :
  forallb p (map fst keyword_table) = true -> keyword_of l = Some k -> p l = true.
Proof.
  intros A. rewrite forallb_forall in A. intros H. apply A. unfold keyword_of in H.
  destruct (find (fun p => str_eqb (fst p) l) keyword_table) as [[x k']|] eqn:E; [|discriminate].
  apply find_some in E. destruct E as [E1 E2]. cbn [fst] in E2. apply str_eqb_eq in E2. subst x.
  exact (in_map fst _ _ E1).
Qed.

(* 9 = length of `namespace`, the longest reserved word *)
Lemma keyword_text_plain cs k :
  keyword_of cs = Some k ->
  exists c t, cs = c :: t /\ forallb plain_char cs = true /\ (c =? c_hash) = false /\
              (c =? c_tilde) = false /\ (length cs <= 9)%nat.
Proof.
  intros H.
  apply (keyword_table_forall
           (fun cs => match cs with
                      | c :: _ => forallb plain_char cs && negb (c =? c_hash)
                                  && negb (c =? c_tilde) && (length cs <=? 9)%nat
                      | [] => false
                      end) _ _ eq_refl) in H.
  destruct cs as [|c t]; [discriminate|].
  apply andb_prop in H. destruct H as [H H4]. apply andb_prop in H. destruct H as [H H3].
  apply andb_prop in H. destruct H as [H1 H2]. apply Bool.negb_true_iff in H2, H3.
  apply Nat.leb_le in H4. exists c, t. auto 6.
Qed.

(* 12 = 9 (keyword_text_plain) + 3 (lex_token_lit); the 12 of
   ProofsCommand.token_at *)
Lemma lex_token_kw i f k cs z :
  keyword_of cs = Some k -> nolc z -> stops DToken z -> (12 <= f)%nat ->
  lex_token i f (cs ++ z) = Ok (mkToken (wlits cs) (TToken (Some k)) (cs ++ z), z).
Proof.
  intros Hk Hz Hs Hf. destruct (keyword_text_plain cs k Hk) as (c & t & -> & Hp & Hh & Ht & Hl).
  cbn [app]. rewrite (lex_token_lit i f c t z Hp Hh Ht Hz Hs ltac:(lia)).
  rewrite (token_id_kw _ z k); [reflexivity|].
  unfold word_kw. rewrite word_literal_wlits. exact Hk.
Qed.

Definition inner_t := str -> res (str * str).

(* What the word-level round trip gives for one run of [lex_units] that
   returned [w] and stopped at [r]; [i2] is the parser of command substitutions
   used when the printed word is read again.  [ProofsRt.lex_units_rt] gives it
   for a parser that reads its own content back, [ProofsInner.lex_units_rt_nocs]
   for any two parsers and a word without `$(...)`. *)
Definition units_facts (i2 : inner_t) (f : nat) (cx : ctx) (d : delim) (s : str) (w : word) (r : str)
    : Prop :=
  seq_rt print_word (last_fo_word cx d) d (lex_units i2 (S (S f)) cx d) s w r.

(* what may follow the printed form of a word whose units were [w0] before
   the tilde post-processing *)
Definition good_follow (w0 : word) (z : str) : Prop :=
  nolc z /\ stops DToken z /\ last_fo_word CWord DToken w0 (hd z).

Lemma lex_token_word i f s t r :
  lex_token i f s = Ok (t, r) -> t_word t <> [] ->
  exists w, t_word t = tilde_front w /\ t_id t = token_id_of (t_word t) r /\ w <> [] /\
            lex_operator (skip_blanks_and_comment s) = None /\
            lex_units i f CWord DToken (skip_blanks_and_comment s) = Ok (w, r).
Proof.
  unfold lex_token, bind. intros H Hw.
  destruct (lex_operator (skip_blanks_and_comment s)) as [[op r']|] eqn:Eop.
  { inv H. cbn [t_word] in Hw. congruence. }
  destruct (lex_units i f CWord DToken (skip_blanks_and_comment s)) as [[w r']| | | |] eqn:Eu;
    try discriminate.
  inv H. cbn [t_word t_id] in *. exists w. repeat split; auto.
  intros ->. apply Hw. reflexivity.
Qed.

Lemma lex_token_wordless i f s t r :
  lex_token i f s = Ok (t, r) -> t_word t = [] ->
  match t_id t with TOp _ | TEnd => True | _ => False end.
Proof.
  unfold lex_token, bind. destruct (lex_operator (skip_blanks_and_comment s)) as [[op r']|].
  - intros H. inv H. exact (fun _ => I).
  - destruct (lex_units i f CWord DToken (skip_blanks_and_comment s)) as [[w r']| | | |]; try discriminate.
    intros H. inv H. cbn [t_id t_word]. intros ->. exact I.
Qed.

Lemma lex_token_operator i f s t r op :
  lex_token i f s = Ok (t, r) -> t_id t = TOp op ->
  lex_operator (skip_blanks_and_comment s) = Some (op, r).
Proof.
  unfold lex_token, bind. destruct (lex_operator (skip_blanks_and_comment s)) as [[op' r']|].
  - intros H. inv H. cbn [t_id]. intros H. inv H. reflexivity.
  - destruct (lex_units i f CWord DToken (skip_blanks_and_comment s)) as [[w r']| | | |]; try discriminate.
    intros H. inv H. cbn [t_id]. intros Hid. destruct (tilde_front w) as [|u us] eqn:Ew; [discriminate Hid|].
    pose proof (token_id_of_word (u :: us) r ltac:(discriminate)) as X. rewrite Hid in X. contradiction.
Qed.

(* The printed form starts with the character the first run started the word
   at, so no blank or comment is skipped and no operator is seen in front of
   it; [i2] is any parser of command substitutions for which [units_facts]
   holds. *)
Lemma word_token_print (i2 : inner_t) f s w r :
  w <> [] -> lex_operator (skip_blanks_and_comment s) = None ->
  units_facts i2 f CWord DToken (skip_blanks_and_comment s) w r ->
  (exists c y, print_word w = c :: y /\ is_operator_char c = false /\
               is_blank c = false /\ (c =? c_hash) = false) /\
  forall z, good_follow w z ->
    nolc (print_word w ++ z) /\
    lex_token i2 (S (S f)) (print_word w ++ z)
    = Ok (mkToken (tilde_front w) (token_id_of (tilde_front w) z) (print_word w ++ z), z).
Proof.
  intros Hw Eop (_ & _ & _ & Hd & Rt).
  destruct (skip_blanks_and_comment_spec s) as [N0 B0].
  destruct (Hd Hw) as (c & x & y & Hsx & Hp).
  rewrite N0 in Hsx. rewrite Hsx in B0, Eop, N0. destruct B0 as [B1 B2].
  pose proof (proj1 (lex_operator_none c x N0) Eop) as Hc. split; [eauto 8|].
  intros z (Hz & Hs & Hl). destruct (Rt z Hz Hs Hl) as [N1 L1]. split; [exact N1|].
  unfold lex_token, bind. rewrite Hp in N1, L1 |- *. cbn [app] in N1, L1 |- *.
  rewrite (skip_blanks_and_comment_id _ _ N1 B1 B2).
  rewrite (proj2 (lex_operator_none c (y ++ z) N1) Hc), L1. reflexivity.
Qed.
