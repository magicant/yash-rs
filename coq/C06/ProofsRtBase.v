(* C06 — basic facts for the word-level round trip: line continuations at the
   head of a text, names, backquotes; and, for each kind of unit, what one step
   of the lexer returns on a text that begins like the printed unit, given what
   the lexer of its parts returns on the rest. *)
From Yv Require Import Common.Base C06.Ast C06.Print C06.Lex C06.SpecLex C06.LexEq C06.ProofsLen
  C06.ProofsStop C06.ProofsTilde.
Local Open Scope N_scope.

Lemma nolc_nil : nolc [].
Proof. reflexivity. Qed.

Lemma nolc_cons c z : (c =? c_bslash) = false -> nolc (c :: z).
Proof. intros H. apply skip_lc_nonbslash. exact H. Qed.

Lemma nolc_bslash c z : (c =? c_nl) = false -> nolc (c_bslash :: c :: z).
Proof.
  intros H. unfold nolc. cbn [skip_lc]. rewrite H. rewrite Bool.andb_false_r. reflexivity.
Qed.

Lemma nolc_skip_lc s : nolc (skip_lc s).
Proof. apply skip_lc_idem. Qed.

Lemma skip_lc_head s c1 c2 t :
  skip_lc s = c1 :: c2 :: t -> (c1 =? c_bslash) && (c2 =? c_nl) = false.
Proof.
  intros H. pose proof (skip_lc_idem s) as I. rewrite H in I. cbn [skip_lc] in I.
  destruct ((c1 =? c_bslash) && (c2 =? c_nl)) eqn:E; [|reflexivity].
  exfalso. pose proof (skip_lc_len t) as L. rewrite I in L. cbn [length] in L. lia.
Qed.

Lemma skip_lc_bslash_next s c2 t :
  skip_lc s = c_bslash :: c2 :: t -> (c2 =? c_nl) = false.
Proof. intros H. apply skip_lc_head in H. exact H. Qed.

Lemma lex_name_spec f s n r :
  lex_name f s = (n, r) -> (len s <= f)%nat ->
  forallb is_name_char n = true /\ nolc r /\
  match r with c :: _ => is_name_char c = false | [] => True end.
Proof.
  revert s n r. induction f as [|f IH]; intros s n r H Hf; cbn [lex_name] in H.
  - inv H. destruct s; [|cbn in Hf; lia]. cbn. auto using nolc_nil.
  - pose proof (skip_lc_len s) as L. destruct (skip_lc s) as [|c s'] eqn:E.
    + inv H. cbn. auto using nolc_nil.
    + destruct (is_name_char c) eqn:Ec.
      * destruct (lex_name f s') as [n' r'] eqn:E'. inv H. cbn [length] in L.
        destruct (IH _ _ _ E' ltac:(lia)) as (A & B & C). cbn [forallb]. rewrite Ec. auto.
      * inv H. cbn [forallb]. repeat split; auto. rewrite <- E. apply nolc_skip_lc.
Qed.

Lemma name_char_not_bslash c : is_name_char c = true -> (c =? c_bslash) = false.
Proof.
  unfold is_name_char, is_digit, in_range, c_bslash. intros H.
  apply N.eqb_neq. intros ->. cbn in H. discriminate.
Qed.

Lemma lex_name_print n z f :
  forallb is_name_char n = true -> nolc z ->
  match z with c :: _ => is_name_char c = false | [] => True end ->
  (length n <= f)%nat ->
  lex_name f (n ++ z) = (n, z).
Proof.
  revert f. induction n as [|c n IH]; intros f Hn Hz Hh Hf.
  - destruct f as [|f]; cbn [app lex_name]; rewrite Hz; [reflexivity|].
    destruct z as [|c z']; [reflexivity|]. rewrite Hh. reflexivity.
  - destruct f as [|f]; [cbn in Hf; lia|]. cbn [forallb] in Hn. apply andb_prop in Hn.
    destruct Hn as [Hc Hn]. cbn [app lex_name].
    rewrite (skip_lc_nonbslash _ _ (name_char_not_bslash _ Hc)). rewrite Hc.
    rewrite (IH f Hn Hz Hh ltac:(cbn [length] in Hf; lia)). reflexivity.
Qed.

Lemma bq_escapable_not_nl cx c : bq_escapable cx c = true -> (c =? c_nl) = false.
Proof.
  unfold bq_escapable, c_dollar, c_bq, c_bslash, c_dq, c_nl. intros H.
  apply N.eqb_neq. intros ->. cbn in H. destruct cx; discriminate.
Qed.

Lemma bq_escapable_false cx c :
  bq_escapable cx c = false -> (c =? c_bq) = false /\ (c =? c_bslash) = false.
Proof.
  unfold bq_escapable. intros H. repeat (apply Bool.orb_false_iff in H; destruct H as [H ?]). auto.
Qed.

(* Stated from a first run, not from a predicate on [us]:
   [BqLiteral 92; BqLiteral 36] prints as \$ and reads as [BqBackslashed 36].
   A literal backslash the lexer produced stays one because the unit after it
   is the literal, non-escapable character that followed it in the source. *)
Lemma lex_bq_print f cx s us r :
  lex_bq f cx s = Ok (us, r) -> r <> [] ->
  (exists r', r = c_bq :: r') /\
  forall f' z, (f <= f')%nat ->
    lex_bq f' cx (cat_map print_bq us ++ c_bq :: z) = Ok (us, c_bq :: z).
Proof.
  revert s us r. induction f as [|f IH]; intros s us r H Hr; cbn [lex_bq] in H; [discriminate|].
  unfold bind in H. destruct (skip_lc s) as [|c s1] eqn:E; [inv H; congruence|].
  destruct (c =? c_bslash) eqn:Eb.
  - destruct s1 as [|c2 s2]; [inv H; congruence|]. apply N.eqb_eq in Eb. subst c.
    destruct (bq_escapable cx c2) eqn:Ee.
    + destruct (lex_bq f cx s2) as [[us' r']| | | |] eqn:E'; try discriminate. inv H.
      destruct (IH _ _ _ E' Hr) as [A B]. split; [exact A|]. intros [|f0] z Hle; [lia|].
      pose proof (B f0 z ltac:(lia)) as L. cbn [cat_map print_bq app lex_bq].
      rewrite (nolc_bslash _ _ (bq_escapable_not_nl _ _ Ee)). cbv beta iota.
      rewrite Ee. unfold bind. rewrite L. reflexivity.
    + destruct (lex_bq f cx (c2 :: s2)) as [[us' r']| | | |] eqn:E'; try discriminate. inv H.
      destruct (IH _ _ _ E' Hr) as [A B]. split; [exact A|]. intros [|f0] z Hle; [lia|].
      pose proof (B f0 z ltac:(lia)) as L.
      (* the next unit is the literal c2 *)
      destruct (bq_escapable_false _ _ Ee) as [Hq Hb].
      destruct f as [|f]; [discriminate|]. cbn [lex_bq] in E'. unfold bind in E'.
      rewrite (skip_lc_nonbslash _ _ Hb), Hb, Hq in E'.
      destruct (lex_bq f cx s2) as [[us'' r'']| | | |]; try discriminate. inv E'.
      cbn [cat_map print_bq app lex_bq] in L |- *.
      rewrite (nolc_bslash _ _ (skip_lc_bslash_next _ _ _ E)). cbv beta iota.
      rewrite Ee. unfold bind. rewrite L. reflexivity.
  - destruct (c =? c_bq) eqn:Eq.
    + inv H. split; [apply N.eqb_eq in Eq; subst; eauto|]. intros [|f0] z Hle; [lia|].
      cbn [cat_map app lex_bq]. rewrite skip_lc_nonbslash by reflexivity. reflexivity.
    + destruct (lex_bq f cx s1) as [[us' r']| | | |] eqn:E'; try discriminate. inv H.
      destruct (IH _ _ _ E' Hr) as [A B]. split; [exact A|]. intros [|f0] z Hle; [lia|].
      pose proof (B f0 z ltac:(lia)) as L. cbn [cat_map print_bq app lex_bq].
      rewrite (skip_lc_nonbslash _ _ Eb), Eb, Eq. unfold bind. rewrite L. reflexivity.
Qed.

Lemma lex_single_quote_spec s q r :
  lex_single_quote s = Ok (q, r) ->
  forall z, lex_single_quote (q ++ c_sq :: z) = Ok (q, z).
Proof.
  revert q r. induction s as [|c s IH]; intros q r H z; cbn [lex_single_quote] in H; [discriminate|].
  destruct (c =? c_sq) eqn:E.
  - inv H. cbn [app lex_single_quote]. change (c_sq =? c_sq) with true. reflexivity.
  - unfold bind in H. destruct (lex_single_quote s) as [[q' r']| | | |] eqn:E'; try discriminate.
    inv H. cbn [app lex_single_quote]. rewrite E. unfold bind. rewrite (IH _ _ eq_refl z). reflexivity.
Qed.

Lemma delim_plain d c :
  is_delim d c = true ->
  (c =? c_bslash) = false /\ (c =? c_dollar) = false /\ (c =? c_bq) = false.
Proof.
  intros H. repeat split; apply N.eqb_neq; intros ->; destruct d; cbn in H; discriminate.
Qed.

Lemma dollar_not_delim d : is_delim d c_dollar = false.
Proof. destruct d; reflexivity. Qed.

Lemma bslash_not_delim d : is_delim d c_bslash = false.
Proof. destruct d; reflexivity. Qed.

Lemma special_not_bslash c sp : special_of_char c = Some sp -> (c =? c_bslash) = false.
Proof. intros H. apply N.eqb_neq. intros ->. discriminate. Qed.

Lemma digit_not_bslash c : is_digit c = true -> (c =? c_bslash) = false.
Proof. intros H. apply N.eqb_neq. intros ->. discriminate. Qed.

Section Read.
  Variable inner : str -> res (str * str).

  Lemma lex_dollar_stop f cx z :
    nolc z -> match hd z with Some c => dollar_ok c = true | None => True end ->
    lex_dollar inner (S f) cx z = Ok (None, z).
  Proof.
    intros Hn Hd. rewrite lex_dollar_eq, Hn. destruct z as [|c z']; [reflexivity|].
    cbn [hd] in Hd. unfold dollar_ok in Hd. destruct (special_of_char c); [discriminate|].
    apply Bool.negb_true_iff in Hd. repeat (apply Bool.orb_false_iff in Hd; destruct Hd as [Hd ?]).
    repeat match goal with H : _ = false |- _ => rewrite H; clear H end. reflexivity.
  Qed.

  Lemma lex_dollar_special f cx c sp z :
    special_of_char c = Some sp ->
    lex_dollar inner (S f) cx (c :: z) = Ok (Some (RawParam (mkParam [c] (PtSpecial sp))), z).
  Proof.
    intros H. rewrite lex_dollar_eq, (skip_lc_nonbslash _ _ (special_not_bslash _ _ H)), H. reflexivity.
  Qed.

  Lemma lex_dollar_digit f cx c z :
    special_of_char c = None -> is_digit c = true ->
    lex_dollar inner (S f) cx (c :: z) = Ok (Some (RawParam (mkParam [c] (PtPositional (c - 48)))), z).
  Proof.
    intros Hs H. rewrite lex_dollar_eq, (skip_lc_nonbslash _ _ (digit_not_bslash _ H)), Hs, H. reflexivity.
  Qed.

  Lemma lex_dollar_name f cx c n z :
    special_of_char c = None -> is_digit c = false -> is_name_char c = true ->
    forallb is_name_char n = true -> nolc z ->
    match z with c' :: _ => is_name_char c' = false | [] => True end ->
    lex_dollar inner (S f) cx (c :: n ++ z) = Ok (Some (RawParam (mkParam (c :: n) PtVariable)), z).
  Proof.
    intros Hs Hd Hc Hn Hz Hh.
    rewrite lex_dollar_eq, (skip_lc_nonbslash _ _ (name_char_not_bslash _ Hc)), Hs, Hd, Hc.
    rewrite (lex_name_print n z _ Hn Hz Hh) by (rewrite app_length; lia). reflexivity.
  Qed.

  Lemma lex_dollar_braced f cx z u r :
    lex_braced inner f cx z = Ok (u, r) -> lex_dollar inner (S f) cx (c_lbrace :: z) = Ok (Some u, r).
  Proof.
    intros H. rewrite lex_dollar_eq, skip_lc_nonbslash by reflexivity. cbv beta iota.
    unfold bind. rewrite H. reflexivity.
  Qed.

  (* the second hypothesis keeps the lexer out of the `$((` branch, which
     [lex_dollar] tries first *)
  Lemma lex_dollar_cmdsubst f cx content z :
    inner (content ++ c_rparen :: z) = Ok (content, c_rparen :: z) ->
    match skip_lc (content ++ c_rparen :: z) with c0 :: _ => (c0 =? c_lparen) = false | [] => True end ->
    lex_dollar inner (S f) cx (c_lparen :: content ++ c_rparen :: z) = Ok (Some (CommandSubst content), z).
  Proof.
    intros Hi Hh. rewrite lex_dollar_eq, skip_lc_nonbslash by reflexivity. cbv beta iota zeta.
    unfold bind. rewrite Hi, (skip_lc_nonbslash c_rparen z) by reflexivity.
    destruct (skip_lc (content ++ c_rparen :: z)); [|rewrite Hh]; reflexivity.
  Qed.

  Lemma lex_dollar_arith f cx s t z :
    lex_twp inner f 0 s = Ok (t, c_rparen :: c_rparen :: z) ->
    lex_dollar inner (S f) cx (c_lparen :: c_lparen :: s) = Ok (Some (Arith t), z).
  Proof.
    intros H. rewrite lex_dollar_eq, skip_lc_nonbslash by reflexivity. cbv beta iota zeta.
    rewrite (skip_lc_nonbslash c_lparen s) by reflexivity. cbv beta iota.
    unfold bind. rewrite H, (skip_lc_nonbslash c_rparen (c_rparen :: z)) by reflexivity. cbv beta iota.
    rewrite (skip_lc_nonbslash c_rparen z) by reflexivity. reflexivity.
  Qed.

  Lemma lex_tu_stop f cx d e z :
    nolc z -> stops d z -> lex_tu inner (S f) cx d e z = Ok (None, z).
  Proof.
    intros Hn Hs. rewrite lex_tu_eq, Hn. destruct z as [|c z']; [reflexivity|].
    cbn [stops] in Hs. destruct (delim_plain _ _ Hs) as (A & B & C).
    rewrite A, B, C, Hs. reflexivity.
  Qed.

  (* also yields [nolc (c :: z)], which [ProofsRt.unit_rt] asks of every printed
     unit; fuel 2 because a literal `$` is found by a call of [lex_dollar] *)
  Lemma lex_tu_literal f cx d e c z :
    (c =? c_bq) = false -> is_delim d c = false -> nolc z -> fo_tu e (Literal c) (hd z) ->
    nolc (c :: z) /\ lex_tu inner (S (S f)) cx d e (c :: z) = Ok (Some (Literal c), z).
  Proof.
    intros Hq Hd Hz [Fd Fb]. destruct (c =? c_bslash) eqn:Eb; [|destruct (c =? c_dollar) eqn:Ed].
    - apply N.eqb_eq in Eb. subst c. destruct z as [|c' z']; [split; reflexivity|].
      destruct (Fb eq_refl) as [Fe Fn]. split; [apply nolc_bslash, Fn|].
      rewrite lex_tu_eq, (nolc_bslash _ _ Fn). cbv beta iota. rewrite Fe. reflexivity.
    - split; [apply nolc_cons, Eb|]. apply N.eqb_eq in Ed. subst c.
      rewrite lex_tu_eq, skip_lc_nonbslash by reflexivity. cbv beta iota. unfold bind.
      rewrite (lex_dollar_stop f cx z Hz), Hd by (destruct z; [exact I | exact (Fd eq_refl)]). reflexivity.
    - split; [apply nolc_cons, Eb|]. rewrite lex_tu_eq, (skip_lc_nonbslash _ _ Eb), Eb, Ed, Hq, Hd.
      reflexivity.
  Qed.

  Lemma lex_tu_backslashed f cx d e c z :
    (c =? c_nl) = false -> is_esc e c = true ->
    lex_tu inner (S f) cx d e (c_bslash :: c :: z) = Ok (Some (Backslashed c), z).
  Proof.
    intros Hn He. rewrite lex_tu_eq, (nolc_bslash _ _ Hn). cbv beta iota. rewrite He. reflexivity.
  Qed.

  Lemma lex_tu_dollar f cx d e z u r :
    lex_dollar inner f cx z = Ok (Some u, r) ->
    lex_tu inner (S f) cx d e (c_dollar :: z) = Ok (Some u, r).
  Proof.
    intros H. rewrite lex_tu_eq, skip_lc_nonbslash by reflexivity. cbv beta iota.
    unfold bind. rewrite H. reflexivity.
  Qed.

  Lemma lex_tu_backquote f cx d e z us c r :
    lex_bq f cx z = Ok (us, c :: r) ->
    lex_tu inner (S f) cx d e (c_bq :: z) = Ok (Some (Backquote us), r).
  Proof.
    intros H. rewrite lex_tu_eq, skip_lc_nonbslash by reflexivity. cbv beta iota.
    unfold bind. rewrite H. reflexivity.
  Qed.

  Lemma lex_twp_end f x us y :
    lex_text inner f DParen EArith x = Ok (us, c_rparen :: y) ->
    lex_twp inner (S f) 0 x = Ok (us, c_rparen :: y).
  Proof.
    intros H. rewrite lex_twp_eq. unfold bind. rewrite H, skip_lc_nonbslash by reflexivity. reflexivity.
  Qed.

  Lemma lex_twp_open f depth x us y vs r :
    lex_text inner f DParen EArith x = Ok (us, c_lparen :: y) ->
    lex_twp inner f (S depth) y = Ok (vs, r) ->
    lex_twp inner (S f) depth x = Ok (us ++ Literal c_lparen :: vs, r).
  Proof.
    intros H H2. rewrite lex_twp_eq. unfold bind.
    rewrite H, skip_lc_nonbslash by reflexivity. cbv beta iota. rewrite H2. reflexivity.
  Qed.

  Lemma lex_twp_close f depth x us y vs r :
    lex_text inner f DParen EArith x = Ok (us, c_rparen :: y) ->
    lex_twp inner f depth y = Ok (vs, r) ->
    lex_twp inner (S f) (S depth) x = Ok (us ++ Literal c_rparen :: vs, r).
  Proof.
    intros H H2. rewrite lex_twp_eq. unfold bind.
    rewrite H, skip_lc_nonbslash by reflexivity. cbv beta iota. rewrite H2. reflexivity.
  Qed.

  Lemma lex_wu_stop f cx d z :
    d <> DDQuote -> nolc z -> stops d z -> lex_wu inner (S (S f)) cx d z = Ok (None, z).
  Proof.
    intros Hd Hz Hs. rewrite lex_wu_eq, Hz. destruct z as [|c z']; [reflexivity|].
    cbn [stops] in Hs.
    assert (Hq : (c =? c_sq) = false /\ (c =? c_dq) = false).
    { split; apply N.eqb_neq; intros ->; destruct d; cbn in Hs; congruence. }
    destruct Hq as [-> ->]. unfold bind. rewrite (lex_tu_stop f cx d _ (c :: z') Hz Hs). reflexivity.
  Qed.

  Lemma lex_wu_single_quote f d z q r :
    lex_single_quote z = Ok (q, r) ->
    lex_wu inner (S f) CWord d (c_sq :: z) = Ok (Some (SingleQuote q), r).
  Proof.
    intros H. rewrite lex_wu_eq, skip_lc_nonbslash by reflexivity. cbv beta iota.
    unfold bind. rewrite H. reflexivity.
  Qed.

  Lemma lex_wu_double_quote f cx d z t r :
    lex_text inner f DDQuote EDQuote z = Ok (t, c_dq :: r) ->
    lex_wu inner (S f) cx d (c_dq :: z) = Ok (Some (DoubleQuote t), r).
  Proof.
    intros H. rewrite lex_wu_eq, skip_lc_nonbslash by reflexivity. cbv beta iota.
    unfold bind. rewrite H, (skip_lc_nonbslash c_dq r) by reflexivity. reflexivity.
  Qed.

  Lemma lex_wu_dollar_single_quote f d z es r :
    lex_escaped (S (len z)) z = Ok (es, r) ->
    lex_wu inner (S (S (S f))) CWord d (c_dollar :: c_sq :: z) = Ok (Some (DollarSingleQuote es), r).
  Proof.
    intros H. rewrite lex_wu_eq, skip_lc_nonbslash by reflexivity. cbv beta iota. unfold bind.
    destruct (lex_tu_literal f CWord d (esc_of CWord d) c_dollar (c_sq :: z)) as [_ L];
      [reflexivity | apply dollar_not_delim | apply nolc_cons; reflexivity
      | split; [reflexivity | discriminate] |].
    rewrite L. cbv beta iota. rewrite (skip_lc_nonbslash c_sq z) by reflexivity. cbv beta iota.
    rewrite H. reflexivity.
  Qed.

  (* an unquoted unit; a literal dollar sign must not come to stand before a
     single quote *)
  Lemma lex_wu_unquoted f cx d c z u r :
    nolc (c :: z) -> (c =? c_sq) && match cx with CWord => true | CText => false end = false ->
    (c =? c_dq) = false ->
    lex_tu inner f cx d (esc_of cx d) (c :: z) = Ok (Some u, r) -> nolc r ->
    (cx = CWord -> u = Literal c_dollar -> hd r <> Some c_sq) ->
    lex_wu inner (S f) cx d (c :: z) = Ok (Some (Unquoted u), r).
  Proof.
    intros Hn Hsq Hdq H Hr Hq. rewrite lex_wu_eq, Hn, Hsq, Hdq. unfold bind. rewrite H.
    destruct cx; [|reflexivity]. destruct u as [c0| | | | | |]; try reflexivity.
    destruct (c0 =? c_dollar) eqn:Ed; [|reflexivity]. apply N.eqb_eq in Ed. subst c0.
    rewrite Hr. destruct r as [|c' r']; [reflexivity|].
    destruct (c' =? c_sq) eqn:Eq; [|reflexivity].
    apply N.eqb_eq in Eq. subst c'. destruct (Hq eq_refl eq_refl). reflexivity.
  Qed.
End Read.

(* what follows the parameter inside the braces, without the closing brace *)
Definition print_mod (m : modifier) : str :=
  match m with
  | MNone | MLength => []
  | MSwitch a c w => print_cond c ++ [print_action a] ++ print_word w
  | MTrim sd l w =>
      (print_side sd :: match l with TlShortest => [] | TlLongest => [print_side sd] end)
      ++ print_word w
  end.

Lemma print_braced p m :
  m <> MLength ->
  print_tu (BracedParam p m) = [c_dollar; c_lbrace] ++ p_id p ++ print_mod m ++ [c_rbrace].
Proof.
  intros Hm. destruct m; cbn [print_tu print_mod app]; try congruence;
    unfold print_word; rewrite <- ?app_assoc; reflexivity.
Qed.

(* so that [lex_param] stops at the end of the printed parameter (last clause
   of ProofsRt.lex_param_spec) *)
Lemma print_mod_head m x :
  exists c t, print_mod m ++ c_rbrace :: x = c :: t /\ is_name_char c = false /\ (c =? c_bslash) = false.
Proof.
  destruct m as [| |a [|] w|[|] l w]; try destruct a; eexists _, _; repeat split.
Qed.

Lemma print_mod_switch sym c cx w :
  (sym =? 43) || (sym =? 45) || (sym =? 61) || (sym =? 63) = true ->
  print_mod (MSwitch (switch_action_of sym) c match cx with CWord => tilde_front w | CText => w end)
  = print_cond c ++ sym :: print_word w.
Proof.
  intros H. cbn [print_mod app]. destruct cx; rewrite ?print_tilde_front; do 2 f_equal;
    repeat (apply Bool.orb_true_iff in H; destruct H as [H|H]); apply N.eqb_eq in H; subst; reflexivity.
Qed.

Lemma print_mod_trim sym l w :
  (sym =? 35) || (sym =? 37) = true ->
  print_mod (MTrim (if sym =? 35 then TsPrefix else TsSuffix) l (tilde_front w))
  = sym :: match l with TlShortest => [] | TlLongest => [sym] end ++ print_word w.
Proof.
  intros H. cbn [print_mod app]. rewrite print_tilde_front.
  apply Bool.orb_true_iff in H. destruct H as [H|H]; apply N.eqb_eq in H; subst; reflexivity.
Qed.

Section Suffix.
  Variable lu : ctx -> str -> res (word * str).

  Lemma lex_suffix_none cx z : lex_suffix lu cx (c_rbrace :: z) = Ok (MNone, c_rbrace :: z).
  Proof. unfold lex_suffix. rewrite skip_lc_nonbslash by reflexivity. reflexivity. Qed.

  Lemma lex_suffix_switch cx c sym x w r :
    (sym =? 43) || (sym =? 45) || (sym =? 61) || (sym =? 63) = true ->
    lu cx x = Ok (w, r) ->
    lex_suffix lu cx (print_cond c ++ sym :: x) =
    Ok (MSwitch (switch_action_of sym) c match cx with CWord => tilde_front w | CText => w end, r).
  Proof.
    intros Hs H.
    assert (Hb : (sym =? c_bslash) = false /\ (sym =? 58) = false).
    { repeat (apply Bool.orb_true_iff in Hs; destruct Hs as [Hs|Hs]);
        apply N.eqb_eq in Hs; subst; split; reflexivity. }
    destruct Hb as [Hb Hc]. unfold lex_suffix. cbv zeta. destruct c; cbn [print_cond app].
    - rewrite (skip_lc_nonbslash _ _ Hb), Hc, Hs. unfold bind. rewrite H. reflexivity.
    - rewrite skip_lc_nonbslash by reflexivity. change (58 =? 58) with true. cbv iota.
      rewrite (skip_lc_nonbslash _ _ Hb), Hs. unfold bind. rewrite H. reflexivity.
  Qed.

  (* [hd x <> Some sym]: otherwise `#` followed by a word beginning with `#`
     reads as `##` *)
  Lemma lex_suffix_trim cx sym l x w r :
    (sym =? 35) || (sym =? 37) = true -> nolc x ->
    (l = TlShortest -> hd x <> Some sym) ->
    lu CWord x = Ok (w, r) ->
    lex_suffix lu cx (sym :: match l with TlShortest => [] | TlLongest => [sym] end ++ x) =
    Ok (MTrim (if sym =? 35 then TsPrefix else TsSuffix) l (tilde_front w), r).
  Proof.
    intros Ht Hx Hh H.
    assert (Hb : (sym =? c_bslash) = false /\ (sym =? 58) = false /\
                 (sym =? 43) || (sym =? 45) || (sym =? 61) || (sym =? 63) = false).
    { apply Bool.orb_true_iff in Ht. destruct Ht as [Ht|Ht]; apply N.eqb_eq in Ht; subst;
        repeat split; reflexivity. }
    destruct Hb as (Hb & Hc & Hs). unfold lex_suffix. cbv zeta.
    rewrite (skip_lc_nonbslash _ _ Hb), Hc, Hs, Ht. unfold bind. destruct l; cbn [app].
    - rewrite Hx. destruct x as [|c' t]; [rewrite H; reflexivity|].
      destruct (c' =? sym) eqn:E; [|rewrite H; reflexivity].
      apply N.eqb_eq in E. subst c'. destruct (Hh eq_refl). reflexivity.
    - rewrite (skip_lc_nonbslash _ _ Hb), N.eqb_refl, H. reflexivity.
  Qed.
End Suffix.

(* the text after `${#`: whether the `#` is a length prefix is decided by the
   next two characters *)
Lemma hlp_cons rp :
  has_length_prefix (c_hash :: rp) =
  match skip_lc rp with
  | [] => true
  | c :: s2 =>
      if (c =? 125) || (c =? 43) || (c =? 61) || (c =? 58) || (c =? 37) then false
      else if (c =? 45) || (c =? 63) || (c =? 35) then
        match skip_lc s2 with c3 :: _ => c3 =? 125 | [] => true end
      else true
  end.
Proof.
  unfold has_length_prefix. rewrite skip_lc_nonbslash by reflexivity. reflexivity.
Qed.

Lemma hlp_same_heads rp c sB y :
  skip_lc rp = c :: sB -> nolc (c :: y) -> hd (skip_lc y) = hd (skip_lc sB) ->
  has_length_prefix (c_hash :: c :: y) = has_length_prefix (c_hash :: rp).
Proof.
  intros Er Hn Hh. rewrite !hlp_cons, Er, Hn.
  destruct (skip_lc y), (skip_lc sB); inv Hh; reflexivity.
Qed.
