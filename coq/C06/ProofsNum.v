(* C06 — numbers printed by the escape-unit printer (\OOO, \xHH, \uhhhh,
   \UHHHHHHHH) are read back by the escape-unit lexer. *)
From Yv Require Import Common.Base C06.Print C06.Lex C06.ProofsLen.
Local Open Scope N_scope.

Lemma N_lt_cases (P : N -> Prop) (k : nat) :
  (forall i, (i < k)%nat -> P (N.of_nat i)) -> forall n, n < N.of_nat k -> P n.
Proof.
  intros H n Hn. rewrite <- (N2Nat.id n). apply H. lia.
Qed.

Lemma hex_val_digit_char up d : d < 16 -> hex_val (digit_char up d) = Some d.
Proof.
  revert d. apply (N_lt_cases _ 16). intros i Hi.
  destruct up; do 16 (destruct i as [|i]; [reflexivity|]); lia.
Qed.

Lemma oct_val_digit_char up d : d < 8 -> oct_val (digit_char up d) = Some d.
Proof.
  revert d. apply (N_lt_cases _ 8). intros i Hi.
  destruct up; do 8 (destruct i as [|i]; [reflexivity|]); lia.
Qed.

(* digits, least significant first *)
Fixpoint dig (fuel : nat) (base n : N) : list N :=
  match fuel with
  | O => []
  | S f => (n mod base) :: (if n / base =? 0 then [] else dig f base (n / base))
  end.

Lemma digits_rev_dig fuel base up n :
  digits_rev fuel base up n = map (digit_char up) (dig fuel base n).
Proof.
  revert n. induction fuel as [|f IH]; intros n; cbn [digits_rev dig map]; [reflexivity|].
  f_equal. destruct (n / base =? 0); [reflexivity | apply IH].
Qed.

(* [dig] lists the digits least significant first ([le_val]); the printer
   reverses them, and [hex_more]/[oct_more] accumulate big-endian from [acc]
   ([be_val]); [be_val_rev] ties the two *)
Fixpoint le_val (base : N) (l : list N) : N :=
  match l with
  | [] => 0
  | d :: l => d + base * le_val base l
  end.

Fixpoint be_val (base acc : N) (l : list N) : N :=
  match l with
  | [] => acc
  | d :: l => be_val base (acc * base + d) l
  end.

Lemma dig_spec fuel base n :
  1 < base -> n < base ^ N.of_nat fuel ->
  le_val base (dig fuel base n) = n /\ Forall (fun d => d < base) (dig fuel base n).
Proof.
  intros Hb. revert n. induction fuel as [|f IH]; intros n Hn.
  - cbn in Hn. assert (n = 0) by lia. subst. cbn. auto.
  - cbn [dig le_val].
    assert (Hm : n mod base < base) by (apply N.mod_lt; lia).
    assert (Hdm : n = base * (n / base) + n mod base) by (apply N.div_mod; lia).
    destruct (n / base =? 0) eqn:E.
    + apply N.eqb_eq in E. cbn [le_val]. split; [|repeat constructor; exact Hm].
      rewrite E in Hdm. lia.
    + assert (Hq : n / base < base ^ N.of_nat f).
      { apply N.div_lt_upper_bound; [lia|].
        rewrite Nat2N.inj_succ, N.pow_succ_r' in Hn. exact Hn. }
      destruct (IH _ Hq) as [IH1 IH2]. split; [|constructor; assumption].
      rewrite IH1. lia.
Qed.

Lemma dig_length fuel base n k :
  1 < base -> n < base ^ N.of_nat k -> (1 <= k)%nat -> (length (dig fuel base n) <= k)%nat.
Proof.
  intros Hb. revert n k. induction fuel as [|f IH]; intros n k Hn Hk; cbn [dig length]; [lia|].
  destruct (n / base =? 0) eqn:E; [cbn; lia|].
  apply N.eqb_neq in E.
  destruct k as [|k]; [lia|]. destruct k as [|k].
  - (* n < base: then n / base = 0 *)
    exfalso. apply E. apply N.div_small. change (N.of_nat 1) with 1 in Hn.
    rewrite N.pow_1_r in Hn. exact Hn.
  - assert (Hq : n / base < base ^ N.of_nat (S k)).
    { apply N.div_lt_upper_bound; [lia|].
      rewrite (Nat2N.inj_succ (S k)), N.pow_succ_r' in Hn. exact Hn. }
    specialize (IH _ (S k) Hq ltac:(lia)). lia.
Qed.

Lemma map_repeat' {A B} (g : A -> B) x k : map g (repeat x k) = repeat (g x) k.
Proof. induction k as [|k IH]; cbn [repeat map]; [reflexivity|]. f_equal. exact IH. Qed.

Lemma be_val_app base acc l1 l2 :
  be_val base acc (l1 ++ l2) = be_val base (be_val base acc l1) l2.
Proof. revert acc. induction l1 as [|d l1 IH]; intros acc; cbn [be_val app]; auto. Qed.

Lemma be_val_rev base l : be_val base 0 (rev l) = le_val base l.
Proof.
  induction l as [|d l IH]; cbn [rev le_val be_val]; [reflexivity|].
  rewrite be_val_app, IH. cbn [be_val]. lia.
Qed.

Lemma be_val_zeros base k l : be_val base 0 (repeat 0 k ++ l) = be_val base 0 l.
Proof. induction k as [|k IH]; cbn [repeat app be_val]; [reflexivity|]. exact IH. Qed.

(* the digit list of a printed number: exactly [width] digits below the base
   whose big-endian value is the number ([width <= 64]: [fmt_num] runs
   [digits_rev] on fuel 64) *)
Lemma fmt_num_digits base up width v :
  1 < base -> v < base ^ N.of_nat width -> (1 <= width <= 64)%nat ->
  exists ds, fmt_num base up width v = map (digit_char up) ds /\
             length ds = width /\ Forall (fun d => d < base) ds /\ be_val base 0 ds = v.
Proof.
  intros Hb Hv Hw. unfold fmt_num, pad_left.
  rewrite digits_rev_dig, <- map_rev.
  assert (Hv64 : v < base ^ N.of_nat 64).
  { eapply N.lt_le_trans; [exact Hv|]. apply N.pow_le_mono_r; lia. }
  destruct (dig_spec 64 base v Hb Hv64) as [D1 D2].
  pose proof (dig_length 64 base v width Hb Hv ltac:(lia)) as DL.
  exists (repeat 0 (width - length (dig 64 base v)) ++ rev (dig 64 base v)).
  rewrite map_length, rev_length.
  repeat split.
  - rewrite map_app. f_equal. rewrite map_repeat'. reflexivity.
  - rewrite app_length, repeat_length, rev_length. lia.
  - apply Forall_app. split.
    + apply Forall_forall. intros x Hx. apply repeat_spec in Hx. subst. lia.
    + apply Forall_rev. exact D2.
  - rewrite be_val_zeros, be_val_rev. exact D1.
Qed.

Lemma hex_more_digits up ds z acc k :
  Forall (fun d => d < 16) ds -> length ds = k ->
  hex_more k acc (map (digit_char up) ds ++ z) = (be_val 16 acc ds, z).
Proof.
  revert acc k. induction ds as [|d ds IH]; intros acc k Hf Hl; cbn [length] in Hl; subst k.
  - reflexivity.
  - inv Hf. cbn [map app hex_more be_val]. rewrite hex_val_digit_char by assumption.
    apply IH; auto.
Qed.

Lemma oct_more_digits up ds z acc k :
  Forall (fun d => d < 8) ds -> length ds = k ->
  oct_more k acc (map (digit_char up) ds ++ z) = (be_val 8 acc ds, z).
Proof.
  revert acc k. induction ds as [|d ds IH]; intros acc k Hf Hl; cbn [length] in Hl; subst k.
  - reflexivity.
  - inv Hf. cbn [map app oct_more be_val]. rewrite oct_val_digit_char by assumption.
    apply IH; auto.
Qed.

Lemma hex_digits_fmt up width v z :
  v < 16 ^ N.of_nat width -> (1 <= width <= 64)%nat ->
  hex_digits width (fmt_num 16 up width v ++ z) = Some (v, z).
Proof.
  intros Hv Hw.
  destruct (fmt_num_digits 16 up width v ltac:(lia) Hv Hw) as (ds & E & L & Fa & V).
  rewrite E. destruct ds as [|d ds]; [cbn in L; lia|].
  pose proof (Forall_inv Fa) as Hd. pose proof (Forall_inv_tail Fa) as Hds. cbn beta in Hd.
  cbn [map app hex_digits]. rewrite hex_val_digit_char by assumption.
  cbn [length] in L. replace (width - 1)%nat with (length ds) by lia.
  rewrite (hex_more_digits up ds z d (length ds)) by auto.
  cbn [be_val] in V. rewrite N.mul_0_l, N.add_0_l in V. rewrite V. reflexivity.
Qed.

(* \OOO : the first digit is the character after the backslash *)
Lemma oct_fmt v :
  v <= 255 ->
  exists d0 t, fmt_num 8 false 3 v = digit_char false d0 :: t /\ d0 < 8 /\
               forall z, oct_more 2 d0 (t ++ z) = (v, z).
Proof.
  intros Hv.
  destruct (fmt_num_digits 8 false 3 v ltac:(lia) ltac:(cbn; lia) ltac:(lia)) as (ds & E & L & Fa & V).
  destruct ds as [|d ds]; [cbn in L; lia|].
  pose proof (Forall_inv Fa) as Hd. pose proof (Forall_inv_tail Fa) as Hds. cbn beta in Hd.
  exists d, (map (digit_char false) ds). cbn [map] in E. repeat split; auto.
  intros z. cbn [length] in L. rewrite (oct_more_digits false ds z d 2) by (auto; lia).
  cbn [be_val] in V. rewrite N.mul_0_l, N.add_0_l in V. rewrite V. reflexivity.
Qed.
