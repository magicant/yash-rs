(* C06 — the command-level parser returns a rest no longer than its input
   (lengths only), never runs out of the fuel computed from the input length,
   and never reaches the modelled panic site; with monotonicity in the fuel,
   every larger fuel gives the same answer. *)
From Yv Require Import Common.Base C06.Lex C06.Parse C06.ParseEq C06.Answers C06.ProofsLen
  C06.LexSound C06.ProofsTok C06.ProofsMono.
Local Open Scope N_scope.

(* ranks in the call graph on inputs of the same length; [rk_inner] = 12 *)
Definition rk_low := 3%nat.        (* compound, do_clause, elifs, pipe_rest, and_or_rest,
                                      case_items, simple *)
Definition rk_full_compound := 4%nat.
Definition rk_command := 5%nat.
Definition rk_pipeline := 6%nat.
Definition rk_and_or := 7%nat.
Definition rk_list := 8%nat.
Definition rk_mcl := 9%nat.
#[export] Hint Unfold rk_low rk_full_compound rk_command rk_pipeline rk_and_or rk_list rk_mcl : lens.

Record GSound (f : nat) : Prop := {
  gs_inner : forall s, answers (enough rk_inner f s) (shorter s) (p_inner f s);
  gs_mcl : forall s, answers (enough rk_mcl f s) (shorter s) (p_mcl f s);
  gs_list : forall s, answers (enough rk_list f s) (shorter s) (p_list f s);
  gs_and_or : forall s, answers (enough rk_and_or f s) (shorter s) (p_and_or f s);
  gs_and_or_rest : forall s, answers (enough rk_low f s) (shorter s) (p_and_or_rest f s);
  gs_pipeline : forall s, answers (enough rk_pipeline f s) (shorter s) (p_pipeline f s);
  gs_pipe_rest : forall s, answers (enough rk_low f s) (shorter s) (p_pipe_rest f s);
  gs_command : forall s, answers (enough rk_command f s) (shorter s) (p_command f s);
  gs_simple : forall d b s, answers (enough rk_low f s) (shorter s) (p_simple f d b s);
  gs_full_compound : forall s, answers (enough rk_full_compound f s) (shorter s)
                                       (p_full_compound f s);
  gs_compound : forall s, answers (enough rk_low f s) (shorter s) (p_compound f s);
  gs_do_clause : forall s, answers (enough rk_low f s) (shorter s) (p_do_clause f s);
  gs_elifs : forall s, answers (enough rk_low f s) (shorter s) (p_elifs f s);
  gs_case_items : forall s, answers (enough rk_low f s) (shorter s) (p_case_items f s)
}.

#[export] Hint Resolve gs_inner gs_mcl gs_list gs_and_or gs_and_or_rest gs_pipeline gs_pipe_rest
  gs_command gs_simple gs_full_compound gs_compound gs_do_clause gs_elifs gs_case_items : sound.

Lemma tk_sound f : GSound f ->
  forall s, answers (enough rk_units f s) (tok_ok s) (lex_token (p_inner f) f s).
Proof.
  intros G s.
  eapply answers_weaken; [apply (lex_token_sound _ f), G | |]; [split; [lia | assumption] | auto].
Qed.

(* the `else` part of an `if` command: [s'] is the text after the token [id]
   and [s] the text before it, where the parser goes on when the token is not
   `else` *)
Lemma else_part_sound f id s s' : GSound f ->
  answers (enough rk_mcl f s') (fun x => shorter s x \/ shorter s' x)
          (match id with
           | TToken (Some KElse) =>
               let* (l, r) := p_mcl f s' in match l with [] => Err | _ => Ok (Some l, r) end
           | _ => Ok (None, s)
           end).
Proof. intros G. answers_walk; arith. Qed.
#[export] Hint Resolve else_part_sound : sound.

(* a further parser function needs a field here and in [ProofsMono.GMono], an
   equation in ParseEq.v, a rank in [lens], and the count [1-14:] raised in
   both proofs *)
Lemma parser_sound : forall f, GSound f.
Proof.
  induction f as [|f G]; constructor; intros.
  1-14: hnf; unfold enough; lia.      (* fuel 0 is never enough *)
  all: pose proof (tk_sound f G).
  - rewrite p_inner_eq. cbv zeta. answers_walk; arith.
  - rewrite p_mcl_eq. cbv zeta. answers_walk; arith.
  - rewrite p_list_eq. cbv zeta. answers_walk; arith.
  - rewrite p_and_or_eq. cbv zeta. answers_walk; arith.
  - rewrite p_and_or_rest_eq. cbv zeta. answers_walk; arith.
  - rewrite p_pipeline_eq. cbv zeta. answers_walk; arith.
  - rewrite p_pipe_rest_eq. cbv zeta. answers_walk; arith.
  - rewrite p_command_eq. cbv zeta. answers_walk; arith.
  - rewrite p_simple_eq. cbv zeta. answers_walk; arith.
  - rewrite p_full_compound_eq. cbv zeta. answers_walk; arith.
  - rewrite p_compound_eq. cbv zeta. answers_walk; arith.
  - rewrite p_do_clause_eq. cbv zeta. answers_walk; arith.
  - rewrite p_elifs_eq. cbv zeta. answers_walk; arith.
  - rewrite p_case_items_eq. cbv zeta.
    eapply answers_bind; [eauto with sound | arith |]. intros s0 _ H0. hnf in H0. cbv beta.
    eapply answers_bind; [eauto with sound | arith |]. intros [t s1] _ H1. hnf in H1. cbv beta iota.
    rewrite match_esac. answers_walk; arith.
Qed.

(* soundness gives an answer at [parse_fuel s] (the rank of [p_mcl] is below
   [fuel_k]), monotonicity carries it to every larger fuel;
   ProofsList.program_replay uses this to bring the fuel found for a printed
   text back to [parse_fuel] *)
Theorem parse_more_fuel_lemma : forall s f,
  (parse_fuel s <= f)%nat -> p_mcl f s = p_mcl (parse_fuel s) s.
Proof.
  intros s f Hle.
  apply (gm_mcl _ (parser_mono (parse_fuel s)) f s Hle _ eq_refl).
  apply (answers_fuel _ _ _ (gs_mcl _ (parser_sound (parse_fuel s)) s)).
  unfold enough, parse_fuel, fuel_k, rk_mcl. lia.
Qed.
