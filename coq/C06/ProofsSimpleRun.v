(* C06 — simple commands.  The second run of the loop of
   simple_command.rs on the printed command, item by item, in each of the
   orders in which Display for SimpleCommand prints the items; the round trip
   of a simple command. *)
From Yv Require Import Common.Base C06.Ast C06.Print C06.Lex C06.Parse C06.ParseEq C06.Spec C06.ProofsLen
  C06.ProofsStop C06.ProofsRtBase C06.ProofsToken C06.SpecCmd C06.ProofsCmdBase C06.ProofsSimple
  C06.ProofsSimpleAux C06.ProofsSimpleFirst.
Local Open Scope N_scope.

Inductive sitem := IA (a : assign) | IW (W : word) | IR (rd : redir).

Definition print_sitem (it : sitem) : str :=
  match it with IA a => print_assign a | IW W => print_word W | IR rd => print_redir rd end.

(* the state of the loop after an item *)
Definition step_item (st : option bool * builder) (it : sitem) : option bool * builder :=
  let (decl, b) := st in
  match it with
  | IR rd => (decl, add_redir b rd)
  | IA a => (decl, add_assign b a)
  | IW W =>
      match decl with
      | Some d => (decl, add_word b (if d then determine_expansion_mode W else (W, Multiple)))
      | None => (names_declaration_utility W, add_word b (W, Multiple))
      end
  end.

Definition item_ok (F : nat) (st : option bool * builder) (it : sitem) : Prop :=
  let (decl, b) := st in
  match it with
  | IR rd => R_ok F None rd
  | IA a => A_ok F None a /\ decl = None /\ b_words b = []
  | IW W => W_ok F None W /\ (word_kw W = None \/ builder_is_empty b = false) /\
            (decl = None -> b_words b = [] -> assign_of_word W = None)
  end.

Fixpoint items_ok (F : nat) (st : option bool * builder) (its : list sitem) : Prop :=
  match its with
  | [] => True
  | it :: l => item_ok F st it /\ items_ok F (step_item st it) l
  end.

Lemma settled_none w0 : settled None w0 -> ends_bslash w0 = false.
Proof. intros [H|H]; [exact H | discriminate]. Qed.

(* after an assignment with an empty value: no array value follows *)
Lemma follow_no_array z f' (a : assign) :
  follow z -> (3 <= f')%nat -> array_value (tk2 f') f' a z = Ok (a, z).
Proof.
  intros Hz Hf. unfold array_value.
  assert (Hz' : (exists z', z = 32 :: z') \/ cmd_end z).
  { destruct Hz as [->|[[z' ->]|(c & z' & -> & Hce)]];
      [right; exact I | left; eauto | right; exact (cmd_end_char [] c z' (or_introl eq_refl) Hce)]. }
  destruct Hz' as [[z' ->] | He].
  - (* a blank follows *)
    rewrite skip_lc_nonbslash by reflexivity. cbn [is_blank N.eqb Pos.eqb orb negb].
    rewrite Bool.andb_false_r. reflexivity.
  - (* the token there is not `(` *)
    destruct (cmd_end_token (p_inner f') f' z He Hf) as (t & r & Et & Hid). unfold bind. rewrite Et.
    destruct (_ && _); [|reflexivity]. destruct (t_id t) as [|op| | |]; try reflexivity.
    destruct op; try reflexivity. destruct Hid as [_ X]. congruence.
Qed.

Lemma keyword_no_eq l k : keyword_of l = Some k -> existsb (N.eqb 61) l = false.
Proof.
  intros H. apply Bool.negb_true_iff.
  exact (keyword_table_forall (fun kw => negb (existsb (N.eqb 61) kw)) l k eq_refl H).
Qed.

Lemma find_eq_literal W n l : find_eq W = Some n -> word_literal W = Some l -> existsb (N.eqb 61) l = true.
Proof.
  revert n l. induction W as [|u W IH]; intros n l H Hl; cbn [find_eq] in H; [discriminate|].
  cbn [word_literal] in Hl. destruct u as [t| | | |]; try discriminate. destruct t; try discriminate.
  destruct (word_literal W) as [l'|]; [|discriminate]. inv Hl. cbn [existsb].
  destruct (c =? 61) eqn:Ec.
  - apply N.eqb_eq in Ec. subst. reflexivity.
  - rewrite N.eqb_sym, Ec. cbn [orb]. destruct (find_eq W) as [m|]; [|discriminate]. eapply IH; eauto.
Qed.

Lemma assign_word_kw W a : assign_of_word W = Some a -> word_kw W = None.
Proof.
  intros H. destruct (assign_of_word_spec _ _ H) as (n & name & Ef & _).
  unfold word_kw. destruct (word_literal W) as [l|] eqn:El; [|reflexivity].
  destruct (keyword_of l) as [k|] eqn:Ek; [|reflexivity].
  pose proof (keyword_no_eq _ _ Ek) as X. rewrite (find_eq_literal _ _ _ Ef El) in X. discriminate.
Qed.

Lemma one_item F f' st it z pre :
  item_ok F st it -> (F <= f')%nat -> (3 <= f')%nat -> is_lead pre -> follow z ->
  p_simple (S f') (fst st) (snd st) (pre ++ print_sitem it ++ z)
  = p_simple f' (fst (step_item st it)) (snd (step_item st it)) z.
Proof.
  destruct st as [decl b]. intros Hok HF H3 Hl Hz. cbn [fst snd].
  destruct it as [a | W | rd]; cbn [item_ok step_item print_sitem] in *.
  - destruct Hok as (HA & -> & Hbw). cbn [fst snd]. unfold A_ok in HA.
    destruct (a_value a) as [v | ws] eqn:Ev.
    + destruct HA as (W & (w0 & WI & St) & Ep & Ea). rewrite Ep.
      rewrite (simple_word_unfold F W w0 z f' None b pre WI HF
                 (follow_good _ _ Hz (settled_none _ St)) (follow_peek _ Hz) Hl).
      2:{ left. eapply assign_word_kw; eauto. }
      rewrite Hbw, Ea, (follow_no_array z f' a Hz H3). reflexivity.
    + destruct HA as (Wn & w0n & WI & Ep & Ea & Lf & AI & AL).
      assert (Etxt : pre ++ print_assign a ++ z = pre ++ print_word Wn ++ 40 ::
                (match ws with [] => [] | W :: ws' => print_word W ++ print_array_tail ws' end
                 ++ c_rparen :: z)).
      { unfold print_assign. rewrite Ev, Ep. cbn [print_value]. f_equal. rewrite <- !app_assoc. f_equal.
        cbn [app]. f_equal. f_equal.
        destruct ws as [|W ws']; [reflexivity|]. rewrite print_array_tail_cat, join_map_cons. reflexivity. }
      rewrite Etxt.
      set (z' := match ws with [] => [] | W :: ws' => print_word W ++ print_array_tail ws' end
                 ++ c_rparen :: z).
      assert (Hg : good_follow w0n (40 :: z')).
      { split; [apply nolc_cons; reflexivity|]. split; [reflexivity | exact Lf]. }
      assert (Hp : peek_is_redir (40 :: z') = false).
      { unfold peek_is_redir. rewrite skip_lc_nonbslash by reflexivity. reflexivity. }
      rewrite (simple_word_unfold F Wn w0n (40 :: z') f' None b pre WI HF Hg Hp Hl
                 (or_introl (assign_word_kw _ _ Ea))).
      rewrite Hbw, Ea. unfold array_value. cbn [a_value a_name].
      rewrite skip_lc_nonbslash by reflexivity. cbn [is_blank andb negb N.eqb Pos.eqb orb].
      unfold bind. rewrite (lex_token_paren _ f' OpOpenParen z' (or_introl eq_refl)). cbn [t_id].
      unfold z'. rewrite (p_array_print F ws z f' AI HF ltac:(lia)).
      assert (Ha : a = mkAssign (a_name a) (Array ws)) by (destruct a; cbn in *; subst; reflexivity).
      rewrite <- Ha. reflexivity.
  - destruct Hok as ((w0 & WI & St) & Hk & Hna).
    rewrite (simple_word_unfold F W w0 z f' decl b pre WI HF
               (follow_good _ _ Hz (settled_none _ St)) (follow_peek _ Hz) Hl Hk).
    destruct decl as [d|]; [reflexivity|]. cbn [fst snd].
    destruct (b_words b) as [|e l] eqn:Eb; [rewrite (Hna eq_refl eq_refl)|]; reflexivity.
  - destruct Hok as (w0 & RI & St).
    apply (simple_redir_step F rd w0 z f' decl b pre RI HF); [|exact Hl].
    apply follow_good; [exact Hz | apply settled_none; exact St].
Qed.

Definition step_items (st : option bool * builder) (its : list sitem) := fold_left step_item its st.

Lemma run_items F : forall l it st z f' pre,
  items_ok F st (it :: l) -> follow z -> (F <= f')%nat -> (3 <= f')%nat -> is_lead pre ->
  p_simple (S (length l + f')) (fst st) (snd st) (pre ++ join_map print_sitem [32] (it :: l) ++ z)
  = p_simple f' (fst (step_items st (it :: l))) (snd (step_items st (it :: l))) z.
Proof.
  induction l as [|it2 l IH]; intros it st z f' pre [Hi Hl] Hz HF H3 Hpre.
  - exact (one_item F f' st it z pre Hi HF H3 Hpre Hz).
  - change (join_map print_sitem [32] (it :: it2 :: l))
      with (print_sitem it ++ [32] ++ join_map print_sitem [32] (it2 :: l)).
    rewrite <- !app_assoc.
    rewrite (one_item F (S (length l + f')) st it _ pre Hi ltac:(lia) ltac:(lia) Hpre);
      [|right; left; cbn [app]; eauto].
    exact (IH it2 (step_item st it) z f' [32] Hl Hz HF H3 (or_intror eq_refl)).
Qed.

Lemma items_ok_app F l1 : forall st l2,
  items_ok F st l1 -> items_ok F (step_items st l1) l2 -> items_ok F st (l1 ++ l2).
Proof.
  induction l1 as [|it l IH]; intros st l2 H1 H2; [exact H2|].
  destruct H1 as [A B]. split; [exact A|]. apply IH; assumption.
Qed.

Lemma step_items_app st l1 l2 : step_items st (l1 ++ l2) = step_items (step_items st l1) l2.
Proof. apply fold_left_app. Qed.

Lemma step_redirs rs : forall decl b,
  step_items (decl, b) (map IR rs) = (decl, mkBuilder (b_assigns b) (b_words b) (rev rs ++ b_redirs b)).
Proof.
  induction rs as [|rd rs IH]; intros decl b; [destruct b; reflexivity|].
  cbn [map]. unfold step_items in *. cbn [fold_left step_item]. rewrite IH.
  cbn [add_redir b_assigns b_words b_redirs rev]. rewrite <- app_assoc. reflexivity.
Qed.

Lemma step_assigns l : forall decl b,
  step_items (decl, b) (map IA l) = (decl, mkBuilder (rev l ++ b_assigns b) (b_words b) (b_redirs b)).
Proof.
  induction l as [|a l IH]; intros decl b; [destruct b; reflexivity|].
  cbn [map]. unfold step_items in *. cbn [fold_left step_item]. rewrite IH.
  cbn [add_assign b_assigns b_words b_redirs rev]. rewrite <- app_assoc. reflexivity.
Qed.

Lemma step_words Ws : forall decl b,
  step_items (decl, b) (map IW Ws) =
  (snd (modes decl Ws), mkBuilder (b_assigns b) (rev (fst (modes decl Ws)) ++ b_words b) (b_redirs b)).
Proof.
  induction Ws as [|W Ws IH]; intros decl b; [destruct b; reflexivity|].
  cbn [map]. unfold step_items in *. cbn [fold_left step_item modes]. destruct decl as [d|].
  - rewrite IH. destruct (modes (Some d) Ws) as [l d']. cbn [fst snd add_word b_assigns b_words b_redirs rev].
    rewrite <- app_assoc. reflexivity.
  - rewrite IH. destruct (modes (names_declaration_utility W) Ws) as [l d'].
    cbn [fst snd add_word b_assigns b_words b_redirs rev]. rewrite <- app_assoc. reflexivity.
Qed.

Lemma ok_redirs F rs : Forall (R_ok F None) rs -> forall st, items_ok F st (map IR rs).
Proof.
  induction 1 as [|rd rs H _ IH]; intros st; [exact I|]. cbn [map items_ok]. split; [|apply IH].
  destruct st. exact H.
Qed.

Lemma ok_assigns F l : Forall (A_ok F None) l -> forall b, b_words b = [] -> items_ok F (None, b) (map IA l).
Proof.
  induction 1 as [|a l H _ IH]; intros b Hb; [exact I|]. cbn [map items_ok]. split; [cbn; auto|].
  cbn [step_item]. apply IH. exact Hb.
Qed.

(* words after the first *)
Lemma ok_words_more F Ws : Forall (W_ok F None) Ws -> forall decl b, b_words b <> [] ->
  items_ok F (decl, b) (map IW Ws).
Proof.
  induction 1 as [|W Ws H _ IH]; intros decl b Hb; [exact I|]. cbn [map items_ok]. split.
  - cbn [item_ok]. split; [exact H|]. split; [|intros _ X; congruence].
    right. unfold builder_is_empty. destruct (b_assigns b); [|reflexivity].
    destruct (b_words b); [congruence | reflexivity].
  - cbn [step_item]. destruct decl as [d|]; apply IH; cbn [add_word b_words]; discriminate.
Qed.

Lemma ok_words_first F W1 Ws b :
  Forall (W_ok F None) (W1 :: Ws) -> b_words b = [] -> assign_of_word W1 = None ->
  (word_kw W1 = None \/ builder_is_empty b = false) ->
  items_ok F (None, b) (map IW (W1 :: Ws)).
Proof.
  intros H Hb Ha Hk. cbn [map items_ok]. split.
  - cbn [item_ok]. split; [exact (Forall_inv H)|]. split; [exact Hk | auto].
  - cbn [step_item]. apply ok_words_more; [exact (Forall_inv_tail H)|]. cbn [add_word b_words]. discriminate.
Qed.

Lemma join_map_map {A} (pr : A -> str) sep l :
  join_map (fun x => x) sep (map pr l) = join_map pr sep l.
Proof.
  induction l as [|x l IH]; [reflexivity|]. destruct l as [|y l]; [reflexivity|].
  change (join_map (fun x0 => x0) sep (map pr (x :: y :: l)))
    with (pr x ++ sep ++ join_map (fun x0 => x0) sep (map pr (y :: l))).
  rewrite IH. reflexivity.
Qed.

Lemma print_modes Ws : forall decl,
  map (fun x => print_word (fst x)) (fst (modes decl Ws)) = map print_word Ws.
Proof.
  induction Ws as [|W Ws IH]; intros decl; [reflexivity|]. cbn [modes]. destruct decl as [d|].
  - specialize (IH (Some d)). destruct (modes (Some d) Ws) as [l d']. cbn [fst map] in *. rewrite IH.
    f_equal. destruct d; [apply print_expansion_mode | reflexivity].
  - specialize (IH (names_declaration_utility W)). destruct (modes (names_declaration_utility W) Ws) as [l d'].
    cbn [fst map] in *. rewrite IH. reflexivity.
Qed.

Lemma keyword_is_keyword l k : keyword_of l = Some k -> is_keyword l = true.
Proof.
  exact (keyword_table_forall is_keyword l k eq_refl).
Qed.

Lemma first_kw W1 Ws :
  first_word_is_keyword (fst (modes None (W1 :: Ws))) = false -> word_kw W1 = None.
Proof.
  cbn [modes]. destruct (modes (names_declaration_utility W1) Ws) as [l d']. cbn [fst first_word_is_keyword].
  unfold word_kw. destruct (word_literal W1) as [s|]; [|reflexivity].
  destruct (keyword_of s) as [k|] eqn:Ek; [|reflexivity]. rewrite (keyword_is_keyword _ _ Ek). discriminate.
Qed.

Lemma last_opt_app {A} (w : list A) u : last_opt w = Some u -> exists w', w = w' ++ [u].
Proof.
  induction w as [|x w IH]; [discriminate|]. destruct w as [|y w].
  - cbn. intros H. inv H. exists []. reflexivity.
  - intros H. change (last_opt (x :: y :: w)) with (last_opt (y :: w)) in H.
    destruct (IH H) as [w' E]. exists (x :: w'). rewrite E. reflexivity.
Qed.

Lemma ends92_app p x : ends92 (p ++ x ++ [92]) = true.
Proof. unfold ends92. rewrite !rev_app_distr. reflexivity. Qed.

Lemma ends_bslash_print p w : ends92 (p ++ print_word w) = false -> ends_bslash w = false.
Proof.
  intros H. destruct (ends_bslash w) eqn:E; [|reflexivity]. unfold ends_bslash in E.
  destruct (last_opt w) as [u|] eqn:El; [|discriminate].
  destruct u as [t| | | |]; try discriminate. destruct t; try discriminate.
  apply N.eqb_eq in E. subst c. destruct (last_opt_app _ _ El) as [w' ->].
  rewrite print_word_app in H. change (print_word [Unquoted (Literal c_bslash)]) with [92] in H.
  rewrite ends92_app in H. discriminate.
Qed.

Lemma settle_nobs F b decl pend s :
  inv F b decl pend s -> nobs_res (b_result b) ->
  inv F b decl None s.
Proof.
  intros [IR IA (Ws & HW & E1 & E) _] (NA & NW & NR). cbn [b_result fst snd] in *.
  constructor; [| | |intros w X; discriminate].
  - rewrite Forall_forall in *. intros rd Hin. destruct (IR rd Hin) as (w0 & RI & _).
    exists w0. split; [exact RI|]. left. destruct RI as [[p Ep] _].
    apply (ends_bslash_print p). rewrite <- Ep. apply NR. apply -> in_rev. exact Hin.
  - rewrite Forall_forall in *. intros a Hin. specialize (IA a Hin). unfold A_ok in *.
    destruct (a_value a); [|exact IA]. destruct IA as (W & (w0 & WI & _) & Ep & Ea).
    exists W. split; [|auto]. exists w0. split; [exact WI|]. left.
    apply (ends_bslash_print []). cbn [app]. rewrite <- (wi_print _ _ _ WI), <- Ep.
    apply NA. apply -> in_rev. exact Hin.
  - exists Ws. split; [|auto]. rewrite Forall_forall in *. intros W Hin. destruct (HW W Hin) as (w0 & WI & _).
    exists w0. split; [exact WI|]. left. apply (ends_bslash_print []). cbn [app].
    rewrite <- (wi_print _ _ _ WI).
    apply (in_map print_word) in Hin. rewrite <- (print_modes Ws None) in Hin.
    apply in_map_iff in Hin. destruct Hin as (e & Ee & Hin). rewrite <- Ee. apply NW. rewrite E1. exact Hin.
Qed.

(* the second run on the items in a printed order: some redirections,
   the assignments, the words, the other redirections.  Either all
   redirections come first, or something stands in front of the first word, or
   the first word is no reserved word. *)
Lemma run_segments F b decl s0 r1 r2 z pre :
  inv F b decl None s0 -> builder_is_empty b = false -> rev (b_redirs b) = r1 ++ r2 ->
  r2 = [] \/ b_assigns b <> [] \/ r1 <> [] \/ first_word_is_keyword (rev (b_words b)) = false ->
  follow z -> cmd_end z -> is_lead pre ->
  exists F', forall f', (F' <= f')%nat ->
    p_simple f' None empty_b
      (pre ++ join_map (fun x => x) [32]
         (map print_redir r1 ++ map print_assign (rev (b_assigns b))
          ++ map (fun x => print_word (fst x)) (rev (b_words b)) ++ map print_redir r2) ++ z)
    = Ok (Some (b_result b), z).
Proof.
  intros [HR0 HA0 (Ws & HW & E1 & _ & E3) _] Hne Ers Hcond Hz He Hpre.
  assert (HR : Forall (R_ok F None) r1 /\ Forall (R_ok F None) r2).
  { apply Forall_app. rewrite <- Ers. apply Forall_rev. exact HR0. }
  destruct HR as [HR1 HR2]. apply Forall_rev in HA0.
  rewrite E1, print_modes.
  set (its := map IR r1 ++ map IA (rev (b_assigns b)) ++ map IW Ws ++ map IR r2).
  assert (Etxt : map print_redir r1 ++ map print_assign (rev (b_assigns b)) ++ map print_word Ws
                 ++ map print_redir r2 = map print_sitem its).
  { unfold its. rewrite !map_app, !map_map. reflexivity. }
  rewrite Etxt, join_map_map.
  assert (Hok : items_ok F (None, empty_b) its).
  { apply items_ok_app; [apply ok_redirs; exact HR1|]. rewrite step_redirs.
    apply items_ok_app; [apply ok_assigns; [exact HA0 | reflexivity]|]. rewrite step_assigns.
    apply items_ok_app; [|apply ok_redirs; exact HR2].
    cbn [b_assigns b_words b_redirs empty_b].
    destruct Ws as [|W1 Ws']; [exact I|]. destruct E3 as [E3 E4].
    apply ok_words_first; [exact HW | reflexivity | exact E3|].
    unfold builder_is_empty. cbn [b_assigns b_words b_redirs]. rewrite rev_involutive, !app_nil_r.
    destruct (word_kw W1) as [k|] eqn:Ek; [right | left; reflexivity].
    assert (X : b_assigns b <> [] \/ r1 <> []).
    { destruct Hcond as [-> | [X | [X | X]]]; auto.
      - rewrite app_nil_r in Ers. destruct (E4 ltac:(discriminate)) as [Y|Y]; [auto|].
        right. intros ->. apply Y. rewrite <- (rev_involutive (b_redirs b)), Ers. reflexivity.
      - rewrite E1 in X. rewrite (first_kw _ _ X) in Ek. discriminate. }
    destruct X as [X|X]; [destruct (b_assigns b); [exfalso; apply X; reflexivity | reflexivity]|].
    destruct (b_assigns b); [|reflexivity]. destruct (rev r1) eqn:Er; [|reflexivity].
    apply (f_equal (@rev redir)) in Er. rewrite rev_involutive in Er. destruct (X Er). }
  assert (Est : step_items (None, empty_b) its
                = (snd (modes None Ws), b)).
  { unfold its. rewrite step_items_app, step_redirs, step_items_app, step_assigns, step_items_app,
      step_words, step_redirs. cbn [b_assigns b_words b_redirs empty_b fst snd].
    rewrite !app_nil_r, rev_involutive, <- E1, rev_involutive.
    rewrite <- rev_app_distr, <- Ers, rev_involutive. destruct b; reflexivity. }
  destruct its as [|it l] eqn:Eits.
  { (* no item: then [b] is the empty builder *)
    injection Est as _ <-. discriminate Hne. }
  exists (S (length l + S (max F 3))). intros f' Hf'.
  replace f' with (S (length l + S (f' - length l - 2))) by lia.
  pose proof (run_items F l it (None, empty_b) z (S (f' - length l - 2)) pre Hok Hz ltac:(lia) ltac:(lia) Hpre) as Rn.
  cbn [fst snd] in Rn. rewrite Rn, Est. cbn [fst snd].
  rewrite (simple_finish z (f' - length l - 2) _ _ He ltac:(lia)).
  rewrite Hne. reflexivity.
Qed.

(* Properties.p_simple_print.  [r <> []]: something followed the command in the
   first run, so no item ends with an unquoted backslash; otherwise [nobs_res]
   must say so.  Each branch of Display for SimpleCommand is one call of
   run_segments. *)
Theorem simple_print_lemma f s a w rds r z pre :
  p_simple f None empty_b s = Ok (Some (a, w, rds), r) ->
  r <> [] \/ nobs_res (a, w, rds) -> nocs_res (a, w, rds) -> follow z -> cmd_end z -> is_lead pre ->
  exists F, forall f', (F <= f')%nat ->
    p_simple f' None empty_b (pre ++ print_simple a w rds ++ z) = Ok (Some (a, w, rds), z).
Proof.
  intros H Hr Hn Hz He Hpre.
  set (F0 := max (S (S f)) 13).
  assert (I0 : inv F0 empty_b None None s).
  { constructor; cbn; auto. exists []. cbn. auto. intros w0 X. discriminate. }
  destruct (simple_first F0 _ _ _ _ _ _ None H ltac:(unfold F0; lia) Hn I0)
    as (b & decl & pend & IF & Eres & Hne).
  injection Eres as -> -> ->.
  (* all items are settled *)
  assert (IS : inv F0 b decl None r).
  { destruct Hr as [Hr|Hr]; [|exact (settle_nobs _ _ _ _ _ IF Hr)].
    apply (inv_settle _ _ _ _ _ IF Hr). intros w0 X. discriminate. }
  clear IF Hr.
  (* all redirections first *)
  pose proof (run_segments F0 b decl r (rev (b_redirs b)) [] z pre IS Hne (eq_sym (app_nil_r _))
                (or_introl eq_refl) Hz He Hpre) as HordA.
  unfold b_result in HordA. cbn [map] in HordA. rewrite app_nil_r in HordA.
  unfold print_simple.
  destruct (ends_with_backslash (rev (b_assigns b)) (rev (b_words b))); [exact HordA|].
  destruct (negb match rev (b_assigns b) with [] => true | _ :: _ => false end
            || negb (first_word_is_keyword (rev (b_words b)))) eqn:Ec.
  - (* assignments, words, redirections *)
    apply (run_segments F0 b decl r [] (rev (b_redirs b)) z pre IS Hne eq_refl); try assumption.
    right. apply Bool.orb_true_iff in Ec. destruct Ec as [Ec|Ec].
    + left. intros X. rewrite X in Ec. discriminate.
    + right. right. apply Bool.negb_true_iff in Ec. exact Ec.
  - apply Bool.orb_false_iff in Ec. destruct Ec as [Ec _]. apply Bool.negb_false_iff in Ec.
    destruct (rev (b_assigns b)) as [|? ?] eqn:Eas; [|discriminate].
    destruct (rev (rev (b_redirs b))) as [|lr [|o1 others]] eqn:Erev; try exact HordA.
    destruct (operand_ends_with_backslash lr); [|exact HordA].
    (* all redirections but the last, words, the last redirection *)
    assert (Ers : rev (b_redirs b) = rev (o1 :: others) ++ [lr]).
    { rewrite <- (rev_involutive (rev (b_redirs b))), Erev. reflexivity. }
    destruct (run_segments F0 b decl r (rev (o1 :: others)) [lr] z pre IS Hne Ers) as [F HF]; try assumption.
    + right. right. left. cbn [rev]. intros X. apply app_eq_nil in X. destruct X; discriminate.
    + unfold b_result in HF. rewrite Eas in HF. exists F. exact HF.
Qed.
