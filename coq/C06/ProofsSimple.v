(* C06 — simple commands.  One step of the loop of
   simple_command.rs on the printed form of an item of the first run (a
   word, a redirection, the words of an array value), and at a token that
   ends the command. *)
From Yv Require Import Common.Base C06.Ast C06.Print C06.Lex C06.Parse C06.ParseEq C06.Spec C06.ProofsLen
  C06.ProofsStop C06.ProofsTilde C06.ProofsMono C06.ProofsToken C06.ProofsRedir
  C06.SpecCmd C06.ProofsCmdBase.
Local Open Scope N_scope.

(* the second run uses the model's own parser for command substitutions *)
Notation tk2 f := (lex_token (p_inner f) f).

(* a word-like item of the first run, as it is read back in the second run
   with any fuel >= [F]: [W] is the token's word, [w0] its units before the
   tilde post-processing (the follow condition speaks of [w0]; the printed
   text is the same) *)
Record witem (F : nat) (W : word) (w0 : word) : Prop := {
  wi_ne : W <> [];
  wi_replay : forall z f', (F <= f')%nat -> good_follow w0 z ->
    tk2 f' (print_word W ++ z)
    = Ok (mkToken W (token_id_of W z) (print_word W ++ z), z);
  wi_print : print_word W = print_word w0
}.

Lemma witem_of (i1 : inner_t) f F s t r :
  lex_token i1 f s = Ok (t, r) -> t_word t <> [] -> nocs_word (t_word t) = true -> (S (S f) <= F)%nat ->
  exists w0, witem F (t_word t) w0 /\ good_follow w0 r.
Proof.
  intros H Hw Hn HF. destruct (lex_token_word _ _ _ _ _ H Hw) as (w0 & Ew & _ & Hne & Eop & Eu).
  rewrite Ew in Hn. destruct (nocs_units i1 _ _ _ _ Eu Hn) as [Rest U].
  exists w0. split; [|exact Rest].
  constructor; [exact Hw | | rewrite Ew; apply print_tilde_front].
  intros z f' Hf Hg.
  destruct (word_token_print _ _ _ _ _ Hne Eop (U (p_inner f'))) as [_ Rt].
  destruct (Rt z Hg) as [_ L]. rewrite Ew, print_tilde_front.
  refine (lex_token_mono _ _ _ f' _ _ (ext_refl _) _ L _); [lia | discriminate].
Qed.

(* no redirection starts at a token that is not an IO_NUMBER, an IO_LOCATION
   or one of the operators p_redir looks at *)
Definition no_redir (id : token_id) : Prop :=
  match id with
  | TIoNumber | TIoLocation => False
  | TOp op => redirish op = false
  | _ => True
  end.

Lemma p_redir_none_at tk s t r :
  tk s = Ok (t, r) -> no_redir (t_id t) -> p_redir tk s = Ok (None, s).
Proof.
  intros E H. unfold p_redir, bind. rewrite E.
  destruct (t_id t) as [k|op| | |] eqn:Eid; try contradiction; cbv beta iota; rewrite E, Eid;
    try reflexivity.
  cbn [no_redir] in H. destruct op; try discriminate H; reflexivity.
Qed.

Lemma p_redir_lead tk pre x rd r :
  (forall y, tk (32 :: y) = tk y) -> is_lead pre ->
  p_redir tk x = Ok (Some rd, r) -> p_redir tk (pre ++ x) = Ok (Some rd, r).
Proof.
  intros Hb [-> | ->] H; [exact H|]. cbn [app]. unfold p_redir, bind in *. rewrite Hb.
  destruct (tk x) as [[t s1]| | | |] eqn:E1; try discriminate.
  destruct (t_id t) as [k|op| | |] eqn:Eid; try (rewrite Hb, E1, Eid; rewrite E1, Eid in H);
    try discriminate H; try exact H.
  (* where no redirection starts the two answers differ, but [H] excludes that *)
  destruct (redir_op_of op); [exact H | destruct op; discriminate H].
Qed.

(* no `<` or `>` next, so the token is neither IO_NUMBER nor IO_LOCATION
   (token_id_plain) *)
Lemma witem_token F W w0 z f' pre :
  witem F W w0 -> (F <= f')%nat -> good_follow w0 z -> peek_is_redir z = false -> is_lead pre ->
  tk2 f' (pre ++ print_word W ++ z) = Ok (mkToken W (TToken (word_kw W)) (print_word W ++ z), z).
Proof.
  intros WI Hf Hg Hp Hl.
  rewrite (lex_token_lead _ _ _ _ Hl), (wi_replay _ _ _ WI z f' Hf Hg), (token_id_plain W z (wi_ne _ _ _ WI) Hp).
  reflexivity.
Qed.

Definition add_word (b : builder) (e : word * exp_mode) : builder :=
  mkBuilder (b_assigns b) (e :: b_words b) (b_redirs b).
Definition add_assign (b : builder) (a : assign) : builder :=
  mkBuilder (a :: b_assigns b) (b_words b) (b_redirs b).
Definition add_redir (b : builder) (r : redir) : builder :=
  mkBuilder (b_assigns b) (b_words b) (r :: b_redirs b).

(* the answer of simple_command.rs when the loop ends with [b] *)
Definition b_result (b : builder) : list assign * list (word * exp_mode) * list redir :=
  (rev (b_assigns b), rev (b_words b), rev (b_redirs b)).

Lemma array_value_cases tk f a v s2 a' s3 :
  a_value a = Scalar v -> array_value tk f a s2 = Ok (a', s3) ->
  (a' = a /\ s3 = s2) \/
  (v = [] /\ match skip_lc s2 with c :: _ => is_blank c | [] => false end = false /\
   exists t' s2' ws, tk s2 = Ok (t', s2') /\ t_id t' = TOp OpOpenParen /\
     p_array tk f s2' = Ok (ws, s3) /\ a' = mkAssign (a_name a) (Array ws)).
Proof.
  unfold array_value, bind. intros Ev Eblk. rewrite Ev in Eblk.
  destruct v as [|u v'].
  2:{ cbn [andb] in Eblk. inv Eblk. left. auto. }
  destruct (match skip_lc s2 with c :: _ => is_blank c | [] => false end) eqn:Ebl.
  { cbn [andb negb] in Eblk. inv Eblk. left. auto. }
  cbn [andb negb] in Eblk.
  destruct (tk s2) as [[t' s2']| | | |] eqn:Et'; try discriminate.
  destruct (t_id t') as [|op| | |] eqn:Eid'; try (injection Eblk as <- <-; left; auto; fail).
  destruct op; try (injection Eblk as <- <-; left; auto; fail).
  destruct (p_array tk f s2') as [[ws s3']| | | |] eqn:Earr; try discriminate.
  inv Eblk. right. split; [reflexivity|]. split; [reflexivity|]. eauto 10.
Qed.

Lemma simple_word_unfold F W w0 z f' decl b pre :
  witem F W w0 -> (F <= f')%nat -> good_follow w0 z -> peek_is_redir z = false -> is_lead pre ->
  (word_kw W = None \/ builder_is_empty b = false) ->
  p_simple (S f') decl b (pre ++ print_word W ++ z) =
  match decl with
  | Some d =>
      p_simple f' decl (add_word b (if d then determine_expansion_mode W else (W, Multiple))) z
  | None =>
      match match b_words b with [] => assign_of_word W | _ => None end with
      | None => p_simple f' (names_declaration_utility W) (add_word b (W, Multiple)) z
      | Some a =>
          let* (a', s3) := array_value (tk2 f') f' a z in
          p_simple f' decl (add_assign b a') s3
      end
  end.
Proof.
  intros WI Hf Hg Hp Hl Hk. rewrite p_simple_eq. cbv zeta. unfold bind.
  pose proof (witem_token F W w0 z f' pre WI Hf Hg Hp Hl) as Ht.
  rewrite (p_redir_none_at _ _ _ _ Ht I), Ht. cbn [t_id t_word].
  assert (Htake : match word_kw W with Some _ => negb (builder_is_empty b) | None => true end = true).
  { destruct Hk as [-> | ->]; [reflexivity | destruct (word_kw W); reflexivity]. }
  rewrite Htake. cbn [negb]. reflexivity.
Qed.

(* [witem] for a redirection; [w0] are the units of its operand, which end the
   printed redirection *)
Definition ritem (F : nat) (rd : redir) (w0 : word) : Prop :=
  (exists p, print_redir rd = p ++ print_word w0) /\
  forall z f', (F <= f')%nat -> good_follow w0 z ->
    p_redir (tk2 f') (print_redir rd ++ z) = Ok (Some rd, z).

Lemma ritem_of (i1 : inner_t) f F s rd r :
  p_redir (lex_token i1 f) s = Ok (Some rd, r) -> nocs_redir rd = true -> (max (S (S f)) 13 <= F)%nat ->
  exists w0, ritem F rd w0 /\ good_follow w0 r.
Proof.
  intros H Hn HF. destruct (redir_print i1 f s rd r H) as (rop & w0 & s3 & Eb & Eu & Rt).
  unfold nocs_redir in Hn. rewrite Eb in Hn. destruct (nocs_units i1 _ _ _ _ Eu Hn) as [Rest U].
  exists w0. split; [|exact Rest]. split.
  - unfold print_redir. rewrite Eb. cbn [print_rbody]. rewrite print_tilde_front.
    eexists. rewrite !app_assoc. reflexivity.
  - intros z f' Hf Hg. apply (Rt _ (U (p_inner f')) z f' Hg); lia.
Qed.

Lemma simple_redir_step F rd w0 z f' decl b pre :
  ritem F rd w0 -> (F <= f')%nat -> good_follow w0 z -> is_lead pre ->
  p_simple (S f') decl b (pre ++ print_redir rd ++ z) = p_simple f' decl (add_redir b rd) z.
Proof.
  intros [_ RI] Hf Hg Hl. rewrite p_simple_eq. cbv zeta. unfold bind.
  assert (Hr : p_redir (tk2 f') (pre ++ print_redir rd ++ z) = Ok (Some rd, z)).
  { apply p_redir_lead; [intros y; apply lex_token_blank | exact Hl | apply RI; assumption]. }
  rewrite Hr. reflexivity.
Qed.

(* the loop of simple_command.rs ends at an operator, at the end of the input,
   and at a reserved word when nothing has been collected yet *)
Definition ends_simple (b : builder) (id : token_id) : Prop :=
  match id with
  | TToken (Some _) => builder_is_empty b = true
  | TToken None => False
  | _ => no_redir id
  end.

Lemma p_simple_stop f' decl b s t r :
  tk2 f' s = Ok (t, r) -> ends_simple b (t_id t) ->
  p_simple (S f') decl b s =
  if builder_is_empty b then Ok (None, s)
  else Ok (Some (b_result b), s).
Proof.
  intros E H. rewrite p_simple_eq. cbv zeta. unfold bind.
  rewrite (p_redir_none_at _ _ _ _ E), E.
  - destruct (t_id t) as [[k|]|op| | |]; try contradiction; try reflexivity.
    cbn [ends_simple] in H. rewrite H. reflexivity.
  - destruct (t_id t) as [[k|]|op| | |]; try contradiction; try exact I; exact H.
Qed.

Lemma simple_finish z f' decl b :
  cmd_end z -> (3 <= f')%nat ->
  p_simple (S f') decl b z =
  if builder_is_empty b then Ok (None, z)
  else Ok (Some (b_result b), z).
Proof.
  intros He Hf. destruct (cmd_end_token (p_inner f') f' z He Hf) as (t & r & Et & Hid).
  apply (p_simple_stop _ _ _ _ _ _ Et).
  destruct (t_id t) as [|op| | |]; try contradiction; [apply Hid | exact I].
Qed.

(* the words of an array value of the first run, each with its units before
   the tilde post-processing; none ends with an unquoted backslash *)
Definition aitems (F : nat) (ws : list word) : Prop :=
  Forall (fun W => exists w0, witem F W w0 /\ ends_bslash w0 = false) ws.

Fixpoint print_array_tail (ws : list word) : str :=
  match ws with
  | [] => []
  | W :: ws' => 32 :: print_word W ++ print_array_tail ws'
  end.

Lemma join_map_cons {A} (pr : A -> str) sep x l :
  join_map pr sep (x :: l) = pr x ++ cat_map (fun y => sep ++ pr y) l.
Proof.
  revert x. induction l as [|y l IH]; intros x.
  - cbn [join_map cat_map]. rewrite app_nil_r. reflexivity.
  - change (join_map pr sep (x :: y :: l)) with (pr x ++ sep ++ join_map pr sep (y :: l)).
    rewrite IH. cbn [cat_map]. rewrite <- app_assoc. reflexivity.
Qed.

Lemma print_array_tail_cat ws : print_array_tail ws = cat_map (fun y => [32] ++ print_word y) ws.
Proof. induction ws as [|W ws IH]; cbn [print_array_tail cat_map app]; [reflexivity|]. rewrite IH. reflexivity. Qed.

(* what follows a word of an array value: the next word after a blank, or `)` *)
Lemma array_tail_follow w0 ws z :
  ends_bslash w0 = false ->
  good_follow w0 (print_array_tail ws ++ c_rparen :: z) /\
  peek_is_redir (print_array_tail ws ++ c_rparen :: z) = false.
Proof.
  intros Hb. unfold peek_is_redir.
  destruct ws as [|W2 ws2]; cbn [print_array_tail app]; rewrite skip_lc_nonbslash by reflexivity.
  - split; [apply good_follow_end; [reflexivity | exact Hb] | reflexivity].
  - split; [apply good_follow_blank; exact Hb | reflexivity].
Qed.

Lemma p_array_step F W w0 ws z f' k pre :
  witem F W w0 -> ends_bslash w0 = false -> (F <= f')%nat -> is_lead pre ->
  p_array (tk2 f') (S k) (pre ++ print_word W ++ print_array_tail ws ++ c_rparen :: z)
  = let* (ws', s2) := p_array (tk2 f') k (print_array_tail ws ++ c_rparen :: z) in Ok (W :: ws', s2).
Proof.
  intros WI Hb Hf Hl. destruct (array_tail_follow w0 ws z Hb) as [Hg Hp].
  cbn [p_array]. unfold bind. rewrite (witem_token F W w0 _ f' pre WI Hf Hg Hp Hl). reflexivity.
Qed.

Lemma p_array_tail F z f' : forall ws k,
  aitems F ws -> (F <= f')%nat -> (length ws < k)%nat ->
  p_array (tk2 f') k (print_array_tail ws ++ c_rparen :: z) = Ok (ws, z).
Proof.
  induction ws as [|W ws IH]; intros k Ha Hf Hk; (destruct k as [|k]; [cbn in Hk; lia|]).
  - cbn [print_array_tail app p_array]. unfold bind.
    rewrite (lex_token_paren _ f' OpCloseParen z (or_intror eq_refl)). reflexivity.
  - pose proof (Forall_inv Ha) as (w0 & WI & Hb). cbn [print_array_tail app]. rewrite <- app_assoc.
    pose proof (p_array_step F W w0 ws z f' k [32] WI Hb Hf (or_intror eq_refl)) as St.
    cbn [app] in St. rewrite St.
    rewrite (IH k (Forall_inv_tail Ha) Hf ltac:(cbn [length] in Hk; lia)). reflexivity.
Qed.

(* after the opening parenthesis: words separated by blanks, then `)` *)
Lemma p_array_print F ws z f' :
  aitems F ws -> (F <= f')%nat -> (length ws < f')%nat ->
  p_array (tk2 f') f' (match ws with
                        | [] => []
                        | W :: ws' => print_word W ++ print_array_tail ws'
                        end ++ c_rparen :: z) = Ok (ws, z).
Proof.
  intros Ha Hf Hl. destruct ws as [|W ws]; [exact (p_array_tail F z f' [] f' Ha Hf Hl)|].
  destruct f' as [|k]; [lia|]. pose proof (Forall_inv Ha) as (w0 & WI & Hb).
  rewrite <- app_assoc.
  pose proof (p_array_step F W w0 ws z (S k) k [] WI Hb Hf (or_introl eq_refl)) as St.
  cbn [app] in St. rewrite St.
  rewrite (p_array_tail F z (S k) ws k (Forall_inv_tail Ha) Hf ltac:(cbn [length] in Hl; lia)). reflexivity.
Qed.
