(* C06 — more fuel never changes an answer.  If a lexer or parser function
   answers (with anything but [Fuel]) on some fuel, it gives the same answer on
   every larger fuel: each function body is monotone for [fuel_le] in the
   calls it makes, so the answers on growing fuel form a chain. *)
From Yv Require Import Common.Base C06.Lex C06.LexEq C06.Parse C06.ParseEq C06.Answers.
Local Open Scope N_scope.

(* pointwise [fuel_le], for statements applied by hand in later files
   ([lex_token_mono], ProofsRedir.ext_refl); inside this file the hypothesis is
   written out because [auto] does not unfold [ext] *)
Definition ext {A B} (i1 i2 : A -> res B) : Prop := forall s, fuel_le (i1 s) (i2 s).

(* a function that recurses on its fuel alone is monotone in it as soon as
   its step is *)
Lemma fuel_le_ind {A B} (p1 p2 : nat -> A -> res B) :
  (forall a, p1 O a = Fuel) ->
  (forall f f', (forall a, fuel_le (p1 f a) (p2 f' a)) ->
                forall a, fuel_le (p1 (S f) a) (p2 (S f') a)) ->
  forall f f', (f <= f')%nat -> forall a, fuel_le (p1 f a) (p2 f' a).
Proof.
  intros H0 HS. induction f as [|f IH]; intros f' Hle a.
  - rewrite H0. apply fuel_le_fuel.
  - destruct f' as [|f']; [lia|]. apply HS, IH. lia.
Qed.

Lemma lex_bq_mono cx : forall f f', (f <= f')%nat ->
  forall s, fuel_le (lex_bq f cx s) (lex_bq f' cx s).
Proof.
  apply (fuel_le_ind (fun f => lex_bq f cx) (fun f => lex_bq f cx)); [reflexivity|].
  intros f f' IH s. cbn [lex_bq]. fuel_le_walk.
Qed.

Lemma lex_escaped_mono f f' s R :
  (f <= f')%nat -> lex_escaped f s = R -> R <> Fuel -> lex_escaped f' s = R.
Proof.
  intros Hle. revert R.
  apply (fuel_le_ind lex_escaped lex_escaped); [reflexivity | | exact Hle].
  clear. intros f f' IH s. cbn [lex_escaped]. fuel_le_walk.
Qed.

Lemma lex_suffix_mono lu1 lu2 cx r :
  (forall cx' s, fuel_le (lu1 cx' s) (lu2 cx' s)) ->
  fuel_le (lex_suffix lu1 cx r) (lex_suffix lu2 cx r).
Proof. intros H. unfold lex_suffix. cbv zeta. fuel_le_walk. Qed.

#[export] Hint Resolve lex_bq_mono lex_suffix_mono : mono.

Section LexMono.
  Variables i1 i2 : str -> res (str * str).
  Hypothesis i_ext : forall s, fuel_le (i1 s) (i2 s).

  Definition M_all (f f' : nat) :=
    (forall cx d e s, fuel_le (lex_tu i1 f cx d e s) (lex_tu i2 f' cx d e s)) /\
    (forall cx s, fuel_le (lex_dollar i1 f cx s) (lex_dollar i2 f' cx s)) /\
    (forall cx s, fuel_le (lex_braced i1 f cx s) (lex_braced i2 f' cx s)) /\
    (forall d e s, fuel_le (lex_text i1 f d e s) (lex_text i2 f' d e s)) /\
    (forall depth s, fuel_le (lex_twp i1 f depth s) (lex_twp i2 f' depth s)) /\
    (forall cx d s, fuel_le (lex_wu i1 f cx d s) (lex_wu i2 f' cx d s)) /\
    (forall cx d s, fuel_le (lex_units i1 f cx d s) (lex_units i2 f' cx d s)).

  Lemma lex_mono : forall f f', (f <= f')%nat -> M_all f f'.
  Proof.
    induction f as [|f IH]; intros f' Hle.
    { repeat split; intros; apply fuel_le_fuel. }
    destruct f' as [|f']; [lia|]. apply le_S_n in Hle.
    destruct (IH f' Hle) as (Htu & Hdol & Hbr & Htx & Htwp & Hwu & Hun). clear IH.
    repeat split; intros.
    - rewrite !lex_tu_eq. fuel_le_walk.
    - rewrite !lex_dollar_eq. cbv zeta. fuel_le_walk.
    - rewrite !lex_braced_eq. cbv zeta. fuel_le_walk.
    - rewrite !lex_text_eq. fuel_le_walk.
    - rewrite !lex_twp_eq. fuel_le_walk.
    - rewrite !lex_wu_eq. fuel_le_walk.
    - rewrite !lex_units_eq. fuel_le_walk.
  Qed.
End LexMono.

Lemma lex_token_mono i1 i2 f f' s R :
  ext i1 i2 -> (f <= f')%nat -> lex_token i1 f s = R -> R <> Fuel -> lex_token i2 f' s = R.
Proof.
  intros Hi Hle. revert R. change (fuel_le (lex_token i1 f s) (lex_token i2 f' s)).
  destruct (lex_mono i1 i2 Hi f f' Hle) as (_ & _ & _ & _ & _ & _ & Hun).
  unfold lex_token. cbv zeta. fuel_le_walk.
Qed.

Section LoopMono.
  Variables tk1 tk2 : str -> res (token * str).
  Hypothesis tk_ext : forall s, fuel_le (tk1 s) (tk2 s).

  Lemma skip_newlines_mono : forall f f', (f <= f')%nat ->
    forall s, fuel_le (skip_newlines tk1 f s) (skip_newlines tk2 f' s).
  Proof.
    apply fuel_le_ind; [reflexivity|]. intros f f' IH s. cbn [skip_newlines]. fuel_le_walk.
  Qed.

  Lemma p_redir_mono s : fuel_le (p_redir tk1 s) (p_redir tk2 s).
  Proof. unfold p_redir. fuel_le_walk. Qed.

  Lemma p_redirs_mono : forall f f', (f <= f')%nat ->
    forall s, fuel_le (p_redirs tk1 f s) (p_redirs tk2 f' s).
  Proof.
    apply fuel_le_ind; [reflexivity|]. intros f f' IH s. cbn [p_redirs].
    pose proof p_redir_mono. fuel_le_walk.
  Qed.

  Lemma p_array_mono : forall f f', (f <= f')%nat ->
    forall s, fuel_le (p_array tk1 f s) (p_array tk2 f' s).
  Proof.
    apply fuel_le_ind; [reflexivity|]. intros f f' IH s. cbn [p_array]. fuel_le_walk.
  Qed.

  Lemma p_for_words_mono : forall f f', (f <= f')%nat ->
    forall s, fuel_le (p_for_words tk1 f s) (p_for_words tk2 f' s).
  Proof.
    apply fuel_le_ind; [reflexivity|]. intros f f' IH s. cbn [p_for_words]. fuel_le_walk.
  Qed.

  Lemma p_for_values_mono : forall f f', (f <= f')%nat ->
    forall b s, fuel_le (p_for_values tk1 f b s) (p_for_values tk2 f' b s).
  Proof.
    induction f as [|f IH]; intros f' Hle b s; [apply fuel_le_fuel|].
    destruct f' as [|f']; [lia|]. apply le_S_n in Hle. pose proof p_for_words_mono.
    cbn [p_for_values]. fuel_le_walk.
  Qed.

  Lemma p_patterns_mono : forall f f', (f <= f')%nat ->
    forall s, fuel_le (p_patterns tk1 f s) (p_patterns tk2 f' s).
  Proof.
    apply fuel_le_ind; [reflexivity|]. intros f f' IH s. cbn [p_patterns]. fuel_le_walk.
  Qed.
End LoopMono.

#[export] Hint Resolve skip_newlines_mono p_redir_mono p_redirs_mono p_array_mono
  p_for_values_mono p_patterns_mono : mono.

Record GMono (f : nat) : Prop := {
  gm_inner : forall f' s, (f <= f')%nat -> fuel_le (p_inner f s) (p_inner f' s);
  gm_mcl : forall f' s, (f <= f')%nat -> fuel_le (p_mcl f s) (p_mcl f' s);
  gm_list : forall f' s, (f <= f')%nat -> fuel_le (p_list f s) (p_list f' s);
  gm_and_or : forall f' s, (f <= f')%nat -> fuel_le (p_and_or f s) (p_and_or f' s);
  gm_and_or_rest : forall f' s, (f <= f')%nat -> fuel_le (p_and_or_rest f s) (p_and_or_rest f' s);
  gm_pipeline : forall f' s, (f <= f')%nat -> fuel_le (p_pipeline f s) (p_pipeline f' s);
  gm_pipe_rest : forall f' s, (f <= f')%nat -> fuel_le (p_pipe_rest f s) (p_pipe_rest f' s);
  gm_command : forall f' s, (f <= f')%nat -> fuel_le (p_command f s) (p_command f' s);
  gm_simple : forall f' d b s, (f <= f')%nat -> fuel_le (p_simple f d b s) (p_simple f' d b s);
  gm_full_compound : forall f' s, (f <= f')%nat ->
                     fuel_le (p_full_compound f s) (p_full_compound f' s);
  gm_compound : forall f' s, (f <= f')%nat -> fuel_le (p_compound f s) (p_compound f' s);
  gm_do_clause : forall f' s, (f <= f')%nat -> fuel_le (p_do_clause f s) (p_do_clause f' s);
  gm_elifs : forall f' s, (f <= f')%nat -> fuel_le (p_elifs f s) (p_elifs f' s);
  gm_case_items : forall f' s, (f <= f')%nat -> fuel_le (p_case_items f s) (p_case_items f' s)
}.

#[export] Hint Resolve gm_inner gm_mcl gm_list gm_and_or gm_and_or_rest gm_pipeline gm_pipe_rest
  gm_command gm_simple gm_full_compound gm_compound gm_do_clause gm_elifs gm_case_items : mono.

Lemma tk_mono f f' : GMono f -> (f <= f')%nat ->
  forall s, fuel_le (lex_token (p_inner f) f s) (lex_token (p_inner f') f' s).
Proof. intros G Hle s R. apply lex_token_mono; [|exact Hle]. intros x. apply G, Hle. Qed.

Lemma parser_mono : forall f, GMono f.
Proof.
  induction f as [|f G]; constructor; intros f'; intros until 1.
  1-14: apply fuel_le_fuel.     (* on fuel 0 the answer is [Fuel] *)
  all: destruct f' as [|f']; [lia | apply le_S_n in H].
  all: pose proof (tk_mono f f' G H).
  - rewrite !p_inner_eq. cbv zeta. fuel_le_walk.
  - rewrite !p_mcl_eq. cbv zeta. fuel_le_walk.
  - rewrite !p_list_eq. cbv zeta. fuel_le_walk.
  - rewrite !p_and_or_eq. cbv zeta. fuel_le_walk.
  - rewrite !p_and_or_rest_eq. cbv zeta. fuel_le_walk.
  - rewrite !p_pipeline_eq. cbv zeta. fuel_le_walk.
  - rewrite !p_pipe_rest_eq. cbv zeta. fuel_le_walk.
  - rewrite !p_command_eq. cbv zeta. fuel_le_walk.
  - rewrite !p_simple_eq. unfold array_value. cbv zeta. fuel_le_walk.
  - rewrite !p_full_compound_eq. cbv zeta. fuel_le_walk.
  - rewrite !p_compound_eq. cbv zeta. fuel_le_walk.
  - rewrite !p_do_clause_eq. cbv zeta. fuel_le_walk.
  - rewrite !p_elifs_eq. cbv zeta. fuel_le_walk.
  - rewrite !p_case_items_eq. cbv zeta.
    apply fuel_le_bind; [auto with mono | intros s0].
    apply fuel_le_bind; [auto with mono | intros [t s1]]. cbv beta iota.
    rewrite !match_esac. fuel_le_walk.
Qed.

Theorem parse_fuel_irrelevant : forall f f' s R R',
  p_mcl f s = R -> R <> Fuel -> p_mcl f' s = R' -> R' <> Fuel -> R = R'.
Proof.
  intros f f' s R R' H HR H' HR'.
  pose proof (gm_mcl f (parser_mono f) (max f f') s ltac:(lia) R H HR) as A.
  pose proof (gm_mcl f' (parser_mono f') (max f f') s ltac:(lia) R' H' HR') as B.
  congruence.
Qed.
