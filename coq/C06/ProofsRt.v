(* C06 — the word-level round trip.  For every word (text) the lexer produces,
   the printed text followed by any text that does not extend it is lexed back
   to the same units and the same rest.  By induction on the fuel of the first
   run, over all seven functions of the lexer at once: each step analyses what
   the first run read and hands the printed form to the lemma of ProofsRtBase
   for that kind of unit. *)
From Yv Require Import Common.Base C06.Ast C06.Print C06.Lex C06.SpecLex C06.LexEq C06.ProofsLen
  C06.ProofsStop C06.ProofsTilde C06.ProofsEscape C06.ProofsRtBase.
Local Open Scope N_scope.

Lemma hd_nolc_cons c z : nolc (c :: z) -> hd (c :: z) = Some c.
Proof. reflexivity. Qed.

Lemma ok_tilde_front w : ok_word (tilde_front w) = true -> ok_word w = true.
Proof. apply tilde_front_forallb. reflexivity. Qed.

(* A unit [u] was read from [s], leaving [r].  (1) Its printed form begins with
   the character [s] begins with: in a sequence this makes the head of the next
   printed unit what followed [u] in the source, so that (2) the follow
   condition [fo], known of the source rest, passes to the printed text;
   (3) before any text that may follow it, the printed form has no leading line
   continuation and is read back by [lx] as [u]. *)
Definition unit_rt {U} (pr : U -> str) (fo : U -> option N -> Prop)
    (lx : str -> res (option U * str)) (s : str) (u : U) (r : str) : Prop :=
  (exists c t t', skip_lc s = c :: t /\ pr u = c :: t') /\
  fo u (hd (skip_lc r)) /\
  (forall z, nolc z -> fo u (hd z) -> nolc (pr u ++ z) /\ lx (pr u ++ z) = Ok (Some u, z)).

(* The same for a sequence [t] of units read up to a delimiter of [d]; [lfo]
   is the follow condition of its last unit. *)
Definition seq_rt {U} (prs : list U -> str) (lfo : list U -> option N -> Prop) (d : delim)
    (lx : str -> res (list U * str)) (s : str) (t : list U) (r : str) : Prop :=
  nolc r /\ stops d r /\ lfo t (hd r) /\
  (t <> [] -> exists c x y, skip_lc s = c :: x /\ prs t = c :: y) /\
  (forall z, nolc z -> stops d z -> lfo t (hd z) ->
     nolc (prs t ++ z) /\ lx (prs t ++ z) = Ok (t, z)).

(* [lex_text] and [lex_units] are the same loop over a unit lexer; a sequence
   is read back when its units are.  Both bodies are convertible with
   [seq_step] of their unit lexer at the previous fuel, and [last_fo_text],
   [last_fo_word] with [last_fo]: the instances S_text_S and S_units_S are
   closed by [exact] on that conversion. *)
Section Seq.
  Context {U : Type} (pr : U -> str) (fo : U -> option N -> Prop) (ok : U -> bool) (d : delim).

  Definition seq_step (lu : str -> res (option U * str)) (ls : str -> res (list U * str)) (s : str)
      : res (list U * str) :=
    let* (o, r) := lu s in
    match o with
    | None => Ok ([], r)
    | Some u => let* (us, r') := ls r in Ok (u :: us, r')
    end.

  Definition last_fo (t : list U) (h : option N) : Prop :=
    match last_opt t with Some u => fo u h | None => True end.

  Variables (lu lu' : str -> res (option U * str)) (ls ls' : str -> res (list U * str)).
  Hypothesis lu_none : forall s r, lu s = Ok (None, r) -> r = skip_lc s /\ stops d r.

  Lemma seq_step_nil s r : seq_step lu ls s = Ok ([], r) -> r = skip_lc s.
  Proof.
    unfold seq_step, bind. destruct (lu s) as [[[u|] r1]| | | |] eqn:E; try discriminate.
    - destruct (ls r1) as [[? ?]| | | |]; discriminate.
    - intros H. inv H. apply (lu_none _ _ E).
  Qed.

  Hypothesis lu_rt : forall s u r, lu s = Ok (Some u, r) -> ok u = true -> unit_rt pr fo lu' s u r.
  Hypothesis lu_stop : forall z, nolc z -> stops d z -> lu' z = Ok (None, z).
  Hypothesis ls_rt : forall s t r, ls s = Ok (t, r) -> forallb ok t = true ->
    seq_rt (cat_map pr) last_fo d ls' s t r.
  Hypothesis ls_nil : forall s r, ls s = Ok ([], r) -> r = skip_lc s.

  Lemma seq_step_rt s t r :
    seq_step lu ls s = Ok (t, r) -> forallb ok t = true ->
    seq_rt (cat_map pr) last_fo d (seq_step lu' ls') s t r.
  Proof.
    unfold seq_step at 1, bind. intros H Hok.
    destruct (lu s) as [[[u|] r1]| | | |] eqn:E1; try discriminate.
    - destruct (ls r1) as [[us r']| | | |] eqn:E2; try discriminate. inv H.
      cbn [forallb] in Hok. apply andb_prop in Hok. destruct Hok as [Hk1 Hk2].
      destruct (lu_rt _ _ _ E1 Hk1) as ((c & x & y & Hs & Hp) & Bu & Ru).
      destruct (ls_rt _ _ _ E2 Hk2) as (Nr & St & Lf & Hd & Rus).
      (* what follows [u] in the printed text: the head of the next unit, which
         is the character that followed [u] in the source, or else the rest *)
      assert (Hfu : forall z, last_fo (u :: us) (hd z) -> fo u (hd (cat_map pr us ++ z))).
      { intros z Hl. destruct us as [|u2 us']; [exact Hl|].
        destruct (Hd ltac:(discriminate)) as (c2 & x2 & y2 & Hs2 & Hp2).
        rewrite Hp2. rewrite Hs2 in Bu. exact Bu. }
      assert (Hlast : forall h, last_fo (u :: us) h -> last_fo us h).
      { intros h. destruct us; [intros _; exact I | exact (fun H => H)]. }
      split; [exact Nr|]. split; [exact St|]. split; [|split].
      + destruct us as [|u2 us']; [|exact Lf]. rewrite (ls_nil _ _ E2). exact Bu.
      + intros _. exists c, x, (y ++ cat_map pr us). split; [exact Hs|].
        cbn [cat_map]. rewrite Hp. reflexivity.
      + intros z Hz Hsz Hl. destruct (Rus z Hz Hsz (Hlast _ Hl)) as [N2 L2].
        destruct (Ru _ N2 (Hfu z Hl)) as [N1 L1].
        cbn [cat_map]. rewrite <- app_assoc. split; [exact N1|].
        unfold seq_step, bind. rewrite L1, L2. reflexivity.
    - inv H. destruct (lu_none _ _ E1) as [-> St].
      split; [apply nolc_skip_lc|]. split; [exact St|]. split; [exact I|]. split; [congruence|].
      intros z Hz Hsz _. split; [exact Hz|]. unfold seq_step, bind. cbn [cat_map app].
      rewrite (lu_stop z Hz Hsz). reflexivity.
  Qed.
End Seq.

Section Rt.
  Variable inner : str -> res (str * str).
  (* assumed of [inner]; not proved of [Parse.p_inner] in C06 ([fun _ => Err]
     has it).  ProofsInner.lex_units_rt_nocs does without it for words without
     `$(...)`. *)
  Hypothesis inner_rt : forall s content r0 r0',
    inner s = Ok (content, r0) -> skip_lc r0 = c_rparen :: r0' ->
    forall z, inner (content ++ c_rparen :: z) = Ok (content, c_rparen :: z).

  (* the second run gets fuel [S (S f)]: slack, not a tight bound
     (lex_tu_literal and lex_wu_stop need two units whatever [f] was) *)
  Definition S_tu (f : nat) := forall cx d e s u r,
    lex_tu inner f cx d e s = Ok (Some u, r) -> ok_tu u = true ->
    unit_rt print_tu (fo_tu e) (lex_tu inner (S (S f)) cx d e) s u r.

  (* the units that begin with a dollar sign, read after it *)
  Definition S_dollar (f : nat) := forall cx e s u r,
    lex_dollar inner f cx s = Ok (Some u, r) -> ok_tu u = true ->
    exists t', print_tu u = c_dollar :: t' /\ fo_tu e u (hd (skip_lc r)) /\
      forall z, nolc z -> fo_tu e u (hd z) ->
        lex_dollar inner (S (S f)) cx (t' ++ z) = Ok (Some u, z).

  Definition S_braced (f : nat) := forall cx s u r,
    lex_braced inner f cx s = Ok (u, r) -> ok_tu u = true ->
    exists t', print_tu u = c_dollar :: c_lbrace :: t' /\
      (forall e h, fo_tu e u h) /\
      forall z, lex_braced inner (S (S f)) cx (t' ++ z) = Ok (u, z).

  Definition S_text (f : nat) := forall d e s t r,
    lex_text inner f d e s = Ok (t, r) -> ok_text t = true ->
    seq_rt print_text (last_fo_text e) d (lex_text inner (S (S f)) d e) s t r.

  Definition S_twp (f : nat) := forall depth s t r,
    lex_twp inner f depth s = Ok (t, r) -> ok_text t = true ->
    forall z, lex_twp inner (S (S f)) depth (print_text t ++ c_rparen :: z) = Ok (t, c_rparen :: z).

  Definition S_wu (f : nat) := forall cx d s u r,
    lex_wu inner f cx d s = Ok (Some u, r) -> ok_wu u = true ->
    unit_rt print_wu (fo_wu cx d) (lex_wu inner (S (S f)) cx d) s u r.

  Definition S_units (f : nat) := forall cx d s w r,
    lex_units inner f cx d s = Ok (w, r) -> ok_word w = true -> d <> DDQuote ->
    seq_rt print_word (last_fo_word cx d) d (lex_units inner (S (S f)) cx d) s w r.

  Definition S_all f :=
    S_tu f /\ S_dollar f /\ S_braced f /\ S_text f /\ S_twp f /\ S_wu f /\ S_units f.

  Lemma lex_dollar_none f cx s r :
    lex_dollar inner f cx s = Ok (None, r) ->
    match hd (skip_lc s) with Some c => dollar_ok c = true | None => True end.
  Proof.
    destruct f as [|f]; [discriminate|]. rewrite lex_dollar_eq. unfold bind. intros H.
    destruct (skip_lc s) as [|c s1] eqn:E; [exact I|].
    cbn [hd]. unfold dollar_ok. cbv zeta in H.
    dmall; clean; try discriminate. reflexivity.
  Qed.

  Lemma literal_rt f cx d e s c t r :
    skip_lc s = c :: t -> (c =? c_bq) = false -> is_delim d c = false ->
    fo_tu e (Literal c) (hd (skip_lc r)) ->
    unit_rt print_tu (fo_tu e) (lex_tu inner (S (S f)) cx d e) s (Literal c) r.
  Proof.
    intros Es Hq Hd Hf. split; [eexists _, _, _; split; [exact Es | reflexivity]|].
    split; [exact Hf|]. intros z. apply lex_tu_literal; assumption.
  Qed.

  Lemma S_tu_S f : S_all f -> S_tu (S f).
  Proof.
    intros (_ & Hdol & _) cx d e s u r H Hok.
    rewrite lex_tu_eq in H. unfold bind in H.
    destruct (skip_lc s) as [|c s1] eqn:Es; [discriminate|].
    destruct (c =? c_bslash) eqn:Eb.
    { apply N.eqb_eq in Eb. subst c. destruct s1 as [|c2 s2].
      - inv H. apply (literal_rt _ _ _ _ _ _ _ _ Es eq_refl (bslash_not_delim d)).
        split; intros _; exact I.
      - pose proof (skip_lc_bslash_next _ _ _ Es) as Hnl. destruct (is_esc e c2) eqn:Ee; inv H.
        + split; [eexists _, _, _; split; [exact Es | reflexivity]|]. split; [exact I|].
          intros z _ _. split; [apply nolc_bslash, Hnl | apply lex_tu_backslashed; assumption].
        + (* the backslash stays a literal: what follows is not escapable, so not a backslash *)
          apply (literal_rt _ _ _ _ _ _ _ _ Es eq_refl (bslash_not_delim d)).
          rewrite skip_lc_nonbslash by (destruct e; apply N.eqb_neq; intros ->; discriminate).
          split; [discriminate | intros _; split; assumption]. }
    destruct (c =? c_dollar) eqn:Ed.
    { apply N.eqb_eq in Ed. subst c.
      destruct (lex_dollar inner f cx s1) as [[[u'|] r']| | | |] eqn:E1; try discriminate.
      - inv H. destruct (Hdol _ e _ _ _ E1 Hok) as (t' & Ep & Hfo & Hrt).
        split; [rewrite Ep; eexists _, _, _; split; [exact Es | reflexivity]|]. split; [exact Hfo|].
        intros z Hz Hf. rewrite Ep. cbn [app]. split; [apply nolc_cons; reflexivity|].
        apply lex_tu_dollar, Hrt; assumption.
      - destruct (is_delim d c_dollar) eqn:Edl; [discriminate|]. inv H.
        apply (literal_rt _ _ _ _ _ _ _ _ Es eq_refl Edl).
        split; [intros _; exact (lex_dollar_none _ _ _ _ E1) | discriminate]. }
    destruct (c =? c_bq) eqn:Eq.
    { apply N.eqb_eq in Eq. subst c.
      destruct (lex_bq f cx s1) as [[us r']| | | |] eqn:E1; try discriminate.
      destruct r' as [|c' r'']; [discriminate|]. inv H.
      destruct (lex_bq_print _ _ _ _ _ E1 ltac:(discriminate)) as (_ & Rt).
      split; [eexists _, _, _; split; [exact Es | reflexivity]|]. split; [exact I|].
      intros z _ _. cbn [print_tu]. rewrite <- !app_assoc. cbn [app]. split; [apply nolc_cons; reflexivity|].
      apply (lex_tu_backquote _ _ _ _ _ _ _ c_bq), Rt. lia. }
    destruct (is_delim d c) eqn:Edl; [discriminate|]. inv H.
    apply (literal_rt _ _ _ _ _ _ _ _ Es Eq Edl). split; congruence.
  Qed.

  Lemma skip_lc_app_rparen content z :
    match skip_lc content with c0 :: _ => (c0 =? c_lparen) = false | [] => True end ->
    match skip_lc (content ++ c_rparen :: z) with
    | c0 :: _ => (c0 =? c_lparen) = false
    | [] => True
    end.
  Proof.
    remember (len content) as n eqn:E. revert content E.
    induction n as [n IH] using lt_wf_ind. intros content E H.
    destruct content as [|c1 [|c2 t]].
    - cbn [app]. rewrite skip_lc_nonbslash by reflexivity. reflexivity.
    - cbn [app]. cbn [skip_lc] in H |- *.
      destruct ((c1 =? c_bslash) && (c_rparen =? c_nl)) eqn:X.
      + apply andb_prop in X. destruct X as [_ X]. discriminate.
      + exact H.
    - cbn [app skip_lc] in H |- *.
      destruct ((c1 =? c_bslash) && (c2 =? c_nl)) eqn:X.
      + apply (IH (len t)); [subst; cbn [length]; lia | reflexivity | exact H].
      + exact H.
  Qed.

  (* the hypothesis is the let-bound [cmdsubst] of lex_dollar_eq, which its body
     uses three times *)
  Lemma cmdsubst_rt f cx e s u r :
    (let* (content, r) := inner s in
     match skip_lc r with
     | c' :: r' => if c' =? c_rparen then Ok (Some (CommandSubst content), r') else Err
     | [] => Err
     end) = Ok (Some u, r) ->
    ok_tu u = true ->
    exists t', print_tu u = c_dollar :: t' /\ fo_tu e u (hd (skip_lc r)) /\
      forall z, nolc z -> fo_tu e u (hd z) ->
        lex_dollar inner (S f) cx (t' ++ z) = Ok (Some u, z).
  Proof.
    unfold bind. intros H Hok.
    destruct (inner s) as [[content r0]| | | |] eqn:Ei; try discriminate.
    destruct (skip_lc r0) as [|c' r'] eqn:Er; [discriminate|].
    destruct (c' =? c_rparen) eqn:Ec; [|discriminate]. inv H. apply N.eqb_eq in Ec. subst c'.
    exists (c_lparen :: content ++ [c_rparen]). split; [reflexivity|]. split; [exact I|].
    intros z _ _. cbn [app]. rewrite <- app_assoc.
    apply lex_dollar_cmdsubst; [exact (inner_rt _ _ _ _ Ei Er z)|].
    apply skip_lc_app_rparen. cbn [ok_tu] in Hok. apply Bool.negb_true_iff in Hok.
    destruct (skip_lc content); [exact I | exact Hok].
  Qed.

  Lemma S_dollar_S f : S_all f -> S_dollar (S f).
  Proof.
    intros (_ & _ & Hbr & _ & Htwp & _) cx e s u r H Hok.
    rewrite lex_dollar_eq in H. unfold bind in H. cbv zeta in H.
    destruct (skip_lc s) as [|c s1] eqn:Es; [discriminate|].
    destruct (special_of_char c) as [sp|] eqn:Esp.
    { inv H. exists [c]. split; [reflexivity|]. split; [discriminate|].
      intros z _ _. apply lex_dollar_special, Esp. }
    destruct (is_digit c) eqn:Edg.
    { inv H. exists [c]. split; [reflexivity|]. split; [discriminate|].
      intros z _ _. apply lex_dollar_digit; assumption. }
    destruct (is_name_char c) eqn:Enm.
    { destruct (lex_name (len s1) s1) as [n r'] eqn:En. inv H.
      destruct (lex_name_spec _ _ _ _ En ltac:(lia)) as (A & B & C).
      exists (c :: n). split; [reflexivity|]. split.
      - intros _. rewrite B. destruct r; [exact I | exact C].
      - intros z Hz Hf. apply lex_dollar_name; try assumption.
        specialize (Hf eq_refl). destruct z; [exact I | exact Hf]. }
    destruct (c =? c_lbrace) eqn:Elb.
    { destruct (lex_braced inner f cx s1) as [[u' r']| | | |] eqn:E1; try discriminate. inv H.
      destruct (Hbr _ _ _ _ E1 Hok) as (t' & Ep & Hfo & Hrt).
      exists (c_lbrace :: t'). split; [exact Ep|]. split; [apply Hfo|].
      intros z _ _. apply lex_dollar_braced, Hrt. }
    destruct (c =? c_lparen) eqn:Elp; [|inv H].
    destruct (skip_lc s1) as [|c' s2] eqn:Es1; [exact (cmdsubst_rt _ _ _ _ _ _ H Hok)|].
    destruct (c' =? c_lparen) eqn:Ec'; [|exact (cmdsubst_rt _ _ _ _ _ _ H Hok)].
    (* `$((`: an arithmetic expansion, or else the command substitution *)
    destruct (lex_twp inner f 0 s2) as [[content r1]| | | |] eqn:Et; try discriminate.
    destruct (skip_lc r1) as [|c1 r1'] eqn:Er1; [discriminate|].
    destruct (c1 =? c_rparen) eqn:Ec1; [|discriminate].
    destruct (skip_lc r1') as [|c2 r2] eqn:Er2; [discriminate|].
    destruct (c2 =? c_rparen) eqn:Ec2; [|exact (cmdsubst_rt _ _ _ _ _ _ H Hok)].
    inv H. exists (c_lparen :: c_lparen :: print_text content ++ [c_rparen; c_rparen]).
    split; [reflexivity|]. split; [exact I|].
    intros z _ _. cbn [app]. rewrite <- app_assoc.
    apply lex_dollar_arith, (Htwp _ _ _ _ Et Hok (c_rparen :: z)).
  Qed.

  Definition param_start (c : N) : bool :=
    is_name_char c || match special_of_char c with Some _ => true | None => false end.

  Lemma param_start_not_bslash c : param_start c = true -> (c =? c_bslash) = false.
  Proof. intros H. apply N.eqb_neq. intros ->. discriminate. Qed.

  (* [c] is none of `}` `+` `=` `:` `%`, the characters at which
     [has_length_prefix] answers false after `#` *)
  Lemma param_start_not_mod c :
    param_start c = true -> (c =? 125) || (c =? 43) || (c =? 61) || (c =? 58) || (c =? 37) = false.
  Proof.
    intros H.
    destruct ((c =? 125) || (c =? 43) || (c =? 61) || (c =? 58) || (c =? 37)) eqn:E; [|reflexivity].
    repeat (apply Bool.orb_true_iff in E; destruct E as [E|E]); apply N.eqb_eq in E; subst c;
      discriminate.
  Qed.

  Lemma minus_question_hash_not_name c :
    (c =? 45) || (c =? 63) || (c =? 35) = true -> is_name_char c = false.
  Proof.
    intros E. repeat (apply Bool.orb_true_iff in E; destruct E as [E|E]); apply N.eqb_eq in E; subst c;
      reflexivity.
  Qed.

  (* A parameter begins with the character the source begins with; one that
     does not begin with a name character is that character alone; and it is
     read back before a text that does not continue a name. *)
  Lemma lex_param_spec s0 p r :
    lex_param s0 = Ok (p, r) ->
    exists c t t', skip_lc s0 = c :: t /\ p_id p = c :: t' /\ param_start c = true /\
      (is_name_char c = false -> t' = [] /\ r = t) /\
      forall x, nolc x -> match x with c' :: _ => is_name_char c' = false | [] => True end ->
        lex_param (p_id p ++ x) = Ok (p, x).
  Proof.
    unfold lex_param, param_start. destruct (skip_lc s0) as [|c s1] eqn:E; [discriminate|].
    destruct (is_name_char c) eqn:En.
    - destruct (lex_name (len s1) s1) as [n r'] eqn:El.
      destruct (type_of_id (c :: n)) as [t|] eqn:Et; [|discriminate].
      intros H. inv H. destruct (lex_name_spec _ _ _ _ El ltac:(lia)) as (A & B & C).
      exists c, s1, n. do 2 (split; [reflexivity|]). split; [rewrite En; reflexivity|].
      split; [congruence|].
      intros x Hx Hh. cbn [p_id app].
      rewrite (skip_lc_nonbslash _ _ (name_char_not_bslash _ En)), En.
      rewrite (lex_name_print n x (len (n ++ x)) A Hx Hh) by (rewrite app_length; lia).
      rewrite Et. reflexivity.
    - destruct (special_of_char c) as [sp|] eqn:Es; [|discriminate].
      intros H. inv H. exists c, r, []. do 2 (split; [reflexivity|]). split; [rewrite En, Es; reflexivity|].
      split; [split; reflexivity|].
      intros x Hx Hh. cbn [p_id app].
      rewrite (skip_lc_nonbslash _ _ (special_not_bslash _ _ Es)), En, Es. reflexivity.
  Qed.

  Lemma lex_units_nil f cx d s r : lex_units inner f cx d s = Ok ([], r) -> r = skip_lc s.
  Proof.
    destruct f as [|f]; [discriminate|]. exact (seq_step_nil d _ _ (lex_wu_none inner f cx d) s r).
  Qed.

  (* the word of a modifier, which ends at the closing brace: it is read back
     before a closing brace, and its printed form followed by the brace
     begins like the source *)
  Lemma nested_word f cx' s' w r' r3 :
    S_units f ->
    lex_units inner f cx' DBrace s' = Ok (w, r') -> ok_word w = true ->
    skip_lc r' = c_rbrace :: r3 ->
    r' = c_rbrace :: r3 /\
    forall z,
      nolc (print_word w ++ c_rbrace :: z) /\
      lex_units inner (S (S f)) cx' DBrace (print_word w ++ c_rbrace :: z) = Ok (w, c_rbrace :: z) /\
      hd (print_word w ++ c_rbrace :: z) = hd (skip_lc s').
  Proof.
    intros Hun E Hk Er. destruct (Hun _ _ _ _ _ E Hk ltac:(discriminate)) as (N1 & St & Lf & Hd & Rt).
    rewrite N1 in Er. subst r'. split; [reflexivity|]. intros z.
    destruct (Rt (c_rbrace :: z) ltac:(apply nolc_cons; reflexivity) eq_refl Lf) as [Rn Rl].
    split; [exact Rn|]. split; [exact Rl|]. destruct w as [|u w'].
    - rewrite <- (lex_units_nil _ _ _ _ _ E). reflexivity.
    - destruct (Hd ltac:(discriminate)) as (c0 & x & y & -> & ->). reflexivity.
  Qed.

  Definition mod_ok (m : modifier) : Prop :=
    match m with
    | MSwitch _ _ w | MTrim _ _ w => ok_word w = true
    | _ => True
    end.

  (* `#` or `##` (`%` or `%%`) of a trim: what the lexer's look at the character
     after the symbol decides *)
  Lemma trim_length_spec sym sB l x :
    match skip_lc sB with
    | c' :: t => if c' =? sym then (TlLongest, t) else (TlShortest, c' :: t)
    | [] => (TlShortest, [])
    end = (l, x) ->
    match l with
    | TlLongest => skip_lc sB = sym :: x
    | TlShortest => x = skip_lc sB /\ hd x <> Some sym
    end.
  Proof.
    destruct (skip_lc sB) as [|c' t]; [intros H; inv H; split; [reflexivity | discriminate]|].
    destruct (c' =? sym) eqn:E; intros H; inv H.
    - apply N.eqb_eq in E. subst. reflexivity.
    - split; [reflexivity|]. intros X. inv X. rewrite N.eqb_refl in E. discriminate.
  Qed.

  (* The modifier is read back from its printed form before the closing brace;
     and after `${#` the printed form decides for or against a length prefix
     as the source did. *)
  Lemma lex_suffix_rt f cx rp m r2 r3 :
    S_units f ->
    lex_suffix (fun cx' s' => lex_units inner f cx' DBrace s') cx rp = Ok (m, r2) ->
    skip_lc r2 = c_rbrace :: r3 -> mod_ok m ->
    m <> MLength /\
    forall z,
      lex_suffix (fun cx' s' => lex_units inner (S (S f)) cx' DBrace s') cx
                 (print_mod m ++ c_rbrace :: z) = Ok (m, c_rbrace :: z) /\
      has_length_prefix (c_hash :: print_mod m ++ c_rbrace :: z) = has_length_prefix (c_hash :: rp).
  Proof.
    intros Hun Em Er Hk. unfold lex_suffix in Em. cbv zeta in Em. unfold bind in Em.
    destruct (skip_lc rp) as [|cB sB] eqn:Er0; [inv Em; discriminate|].
    assert (Hkw : forall w, mod_ok (MSwitch SaError ScUnset match cx with CWord => tilde_front w | CText => w end) ->
                            ok_word w = true).
    { intros w. destruct cx; [apply ok_tilde_front | exact (fun H => H)]. }
    destruct (cB =? 58) eqn:Ecolon.
    - (* `:` and a switch *)
      apply N.eqb_eq in Ecolon. subst cB.
      destruct (skip_lc sB) as [|sym x] eqn:Er1; [discriminate|].
      destruct ((sym =? 43) || (sym =? 45) || (sym =? 61) || (sym =? 63)) eqn:Esw;
        [|destruct ((sym =? 35) || (sym =? 37)); discriminate].
      destruct (lex_units inner f cx DBrace x) as [[w r']| | | |] eqn:Ew; try discriminate.
      inv Em. split; [discriminate|]. intros z.
      destruct (nested_word _ _ _ _ _ _ Hun Ew (Hkw _ Hk) Er) as (-> & Rt).
      destruct (Rt z) as (_ & Rl & _).
      rewrite (print_mod_switch _ _ _ _ Esw), <- app_assoc. cbn [app print_cond].
      split; [apply (lex_suffix_switch _ cx ScUnsetOrEmpty sym); [exact Esw | exact Rl]|].
      rewrite !hlp_cons, Er0, skip_lc_nonbslash by reflexivity. reflexivity.
    - destruct ((cB =? 43) || (cB =? 45) || (cB =? 61) || (cB =? 63)) eqn:Esw.
      + (* a switch *)
        destruct (lex_units inner f cx DBrace sB) as [[w r']| | | |] eqn:Ew; try discriminate.
        inv Em. split; [discriminate|]. intros z.
        destruct (nested_word _ _ _ _ _ _ Hun Ew (Hkw _ Hk) Er) as (-> & Rt).
        destruct (Rt z) as (Rn & Rl & Rh).
        rewrite (print_mod_switch _ _ _ _ Esw), <- app_assoc. cbn [app print_cond].
        split; [apply (lex_suffix_switch _ cx ScUnset cB); [exact Esw | exact Rl]|].
        assert (Hb : (cB =? c_bslash) = false).
        { repeat (apply Bool.orb_true_iff in Esw; destruct Esw as [Esw|Esw]);
            apply N.eqb_eq in Esw; subst; reflexivity. }
        apply (hlp_same_heads _ _ _ _ Er0 (nolc_cons _ _ Hb)). rewrite Rn. exact Rh.
      + destruct ((cB =? 35) || (cB =? 37)) eqn:Etr.
        * (* a trim *)
          match type of Em with context [let (_, _) := ?p in _] => destruct p as [l x] eqn:El end.
          apply trim_length_spec in El.
          destruct (lex_units inner f CWord DBrace x) as [[w r']| | | |] eqn:Ew; try discriminate.
          inv Em. split; [discriminate|]. intros z.
          destruct (nested_word _ _ _ _ _ _ Hun Ew (ok_tilde_front _ Hk) Er) as (-> & Rt).
          destruct (Rt z) as (Rn & Rl & Rh).
          rewrite (print_mod_trim _ _ _ Etr). cbn [app]. rewrite <- app_assoc.
          assert (Hb : (cB =? c_bslash) = false).
          { apply Bool.orb_true_iff in Etr. destruct Etr as [X|X]; apply N.eqb_eq in X; subst; reflexivity. }
          split.
          -- apply (lex_suffix_trim _ cx cB l); [exact Etr | exact Rn | | exact Rl].
             intros ->. rewrite Rh. destruct El as [-> El]. rewrite skip_lc_idem. exact El.
          -- apply (hlp_same_heads _ _ _ _ Er0 (nolc_cons _ _ Hb)).
             destruct l; cbn [app].
             ++ destruct El as [-> _]. rewrite Rn, Rh. rewrite skip_lc_idem. reflexivity.
             ++ rewrite (skip_lc_nonbslash _ _ Hb), El. reflexivity.
        * (* no modifier: the closing brace *)
          inv Em. rewrite <- Er0, skip_lc_idem, Er0 in Er. inv Er. split; [discriminate|]. intros z.
          split; [apply lex_suffix_none|].
          cbn [print_mod app]. rewrite !hlp_cons, Er0, skip_lc_nonbslash by reflexivity. reflexivity.
  Qed.

  Lemma S_braced_S f : S_all f -> S_braced (S f).
  Proof.
    intros (_ & _ & _ & _ & _ & _ & Hun) cx s u r H Hok.
    rewrite lex_braced_eq in H. unfold bind in H. cbv zeta in H.
    match type of H with context [lex_param ?x] =>
      destruct (lex_param x) as [[p rp]| | | |] eqn:Ep; try discriminate end.
    match type of H with context [lex_suffix ?a ?b ?c] =>
      destruct (lex_suffix a b c) as [[m r2]| | | |] eqn:Em; try discriminate end.
    destruct (skip_lc r2) as [|c' r3] eqn:Er2; [discriminate|].
    destruct (c' =? c_rbrace) eqn:Ec'; [|discriminate]. apply N.eqb_eq in Ec'. subst c'.
    destruct (lex_param_spec _ _ _ Ep) as (c & t & t' & Es0 & Eid & Hst & Hsp & Prt).
    pose proof (param_start_not_bslash _ Hst) as Hcb.
    destruct (has_length_prefix s) eqn:Epre.
    - (* ${#param} *)
      destruct m; try discriminate. inv H.
      exists (c_hash :: p_id p ++ [c_rbrace]). split; [reflexivity|]. split; [intros; exact I|].
      intros z. cbn [app]. rewrite <- app_assoc. cbn [app]. rewrite lex_braced_eq. cbv zeta.
      (* the length prefix is recognised again *)
      assert (Hp : has_length_prefix (c_hash :: p_id p ++ c_rbrace :: z) = true).
      { rewrite hlp_cons, Eid. cbn [app]. rewrite (skip_lc_nonbslash _ _ Hcb), (param_start_not_mod _ Hst).
        destruct ((c =? 45) || (c =? 63) || (c =? 35)) eqn:X; [|reflexivity].
        destruct (Hsp (minus_question_hash_not_name _ X)) as [-> _]. cbn [app].
        rewrite skip_lc_nonbslash by reflexivity. reflexivity. }
      rewrite Hp, (skip_lc_nonbslash c_hash) by reflexivity.
      rewrite (Prt (c_rbrace :: z)) by (try apply nolc_cons; reflexivity).
      unfold bind. rewrite lex_suffix_none, skip_lc_nonbslash by reflexivity. reflexivity.
    - (* ${param modifier} *)
      inv H.
      assert (Hk : mod_ok m) by (cbn [ok_tu] in Hok; destruct m; cbn [mod_ok]; auto).
      destruct (lex_suffix_rt _ _ _ _ _ _ Hun Em Er2 Hk) as (Hm & Srt).
      exists (p_id p ++ print_mod m ++ [c_rbrace]). split; [apply print_braced; exact Hm|].
      split; [intros; exact I|].
      intros z. rewrite <- !app_assoc. cbn [app]. destruct (Srt z) as (Sl & Sh).
      destruct (print_mod_head m z) as (c0 & t0 & E0 & Hname & Hb0).
      rewrite lex_braced_eq. cbv zeta.
      (* no length prefix *)
      assert (Hp : has_length_prefix (p_id p ++ print_mod m ++ c_rbrace :: z) = false).
      { destruct (c =? c_hash) eqn:Ech.
        - (* the parameter is `#`: the source had no length prefix either *)
          apply N.eqb_eq in Ech. subst c. destruct (Hsp eq_refl) as [-> ->].
          rewrite Eid. cbn [app]. rewrite Sh, <- Epre, hlp_cons.
          unfold has_length_prefix. rewrite Es0. reflexivity.
        - unfold has_length_prefix. rewrite Eid. cbn [app].
          rewrite (skip_lc_nonbslash _ _ Hcb), Ech. reflexivity. }
      rewrite Hp, Prt by (rewrite E0; first [apply nolc_cons, Hb0 | exact Hname]).
      unfold bind. rewrite Sl, skip_lc_nonbslash by reflexivity. reflexivity.
  Qed.

  Lemma lex_text_nil f d e s r : lex_text inner f d e s = Ok ([], r) -> r = skip_lc s.
  Proof.
    destruct f as [|f]; [discriminate|]. exact (seq_step_nil d _ _ (lex_tu_none inner f CText d e) s r).
  Qed.

  Lemma S_text_S f : S_all f -> S_text (S f).
  Proof.
    intros (Htu & _ & _ & Htx & _) d e.
    exact (seq_step_rt print_tu (fo_tu e) ok_tu d _ _ _ _
             (lex_tu_none inner f CText d e) (Htu CText d e) (lex_tu_stop inner (S f) CText d e)
             (Htx d e) (lex_text_nil f d e)).
  Qed.

  Lemma last_fo_rparen t : last_fo_text EArith t (Some c_rparen).
  Proof.
    unfold last_fo_text. destruct (last_opt t) as [u|]; [|exact I]. destruct u; cbn [fo_tu]; auto.
  Qed.

  Lemma S_twp_S f : S_all f -> S_twp (S f).
  Proof.
    intros (_ & _ & _ & Htx & Htwp & _) depth s t r H Hok z.
    rewrite lex_twp_eq in H. unfold bind in H.
    destruct (lex_text inner f DParen EArith s) as [[us r0]| | | |] eqn:E1; try discriminate.
    assert (Rus : ok_text us = true -> forall c y,
              is_delim DParen c = true -> last_fo_text EArith us (Some c) ->
              lex_text inner (S (S f)) DParen EArith (print_text us ++ c :: y) = Ok (us, c :: y)).
    { intros Hk c y Hc Hl. destruct (Htx _ _ _ _ _ E1 Hk) as (_ & _ & _ & _ & Rus).
      apply Rus; [apply nolc_cons, (delim_plain _ _ Hc) | exact Hc | exact Hl]. }
    assert (Happ : forall c vs, t = us ++ Literal c :: vs ->
              ok_text us = true /\ ok_text vs = true /\
              print_text t ++ c_rparen :: z = print_text us ++ c :: print_text vs ++ c_rparen :: z).
    { intros c vs ->. unfold ok_text, print_text in *. rewrite forallb_app in Hok.
      apply andb_prop in Hok. rewrite cat_map_app, <- app_assoc. tauto. }
    destruct (skip_lc r0) as [|c r1] eqn:Er0.
    { destruct depth; [|discriminate]. inv H.
      apply lex_twp_end, Rus; [exact Hok | reflexivity | apply last_fo_rparen]. }
    destruct (c =? c_lparen) eqn:Ec.
    - destruct (lex_twp inner f (S depth) r1) as [[vs r2]| | | |] eqn:E2; try discriminate. inv H.
      apply N.eqb_eq in Ec. subst c. destruct (Happ _ _ eq_refl) as (Hk1 & Hk2 & ->).
      apply (lex_twp_open _ _ _ _ _ (print_text vs ++ c_rparen :: z));
        [apply Rus; [exact Hk1 | reflexivity |] | exact (Htwp _ _ _ _ E2 Hk2 z)].
      (* the opening parenthesis followed the text in the source *)
      destruct (Htx _ _ _ _ _ E1 Hk1) as (Nr & _ & Lf & _). rewrite Nr in Er0. subst r0. exact Lf.
    - destruct depth as [|dep].
      { inv H. apply lex_twp_end, Rus; [exact Hok | reflexivity | apply last_fo_rparen]. }
      destruct (c =? c_rparen) eqn:Ec2; [|discriminate].
      destruct (lex_twp inner f dep r1) as [[vs r2]| | | |] eqn:E2; try discriminate. inv H.
      destruct (Happ _ _ eq_refl) as (Hk1 & Hk2 & ->).
      apply (lex_twp_close _ _ _ _ _ (print_text vs ++ c_rparen :: z));
        [apply Rus; [exact Hk1 | reflexivity | apply last_fo_rparen] | exact (Htwp _ _ _ _ E2 Hk2 z)].
  Qed.

  Lemma S_wu_S f : S_all f -> S_wu (S f).
  Proof.
    intros (Htu & _ & _ & Htx & _) cx d s u r H Hok.
    rewrite lex_wu_eq in H. unfold bind in H.
    destruct (skip_lc s) as [|c s1] eqn:Es; [discriminate|].
    destruct ((c =? c_sq) && match cx with CWord => true | CText => false end) eqn:Esq.
    { (* single quotes *)
      destruct (lex_single_quote s1) as [[q r']| | | |] eqn:E1; try discriminate. inv H.
      apply andb_prop in Esq. destruct Esq as [Ec Ecx]. apply N.eqb_eq in Ec. subst c.
      destruct cx; [|discriminate].
      split; [eexists _, _, _; split; [exact Es | reflexivity]|]. split; [exact I|].
      intros z _ _. cbn [print_wu]. rewrite <- !app_assoc. cbn [app].
      split; [apply nolc_cons; reflexivity|].
      apply lex_wu_single_quote, (lex_single_quote_spec _ _ _ E1). }
    destruct (c =? c_dq) eqn:Edq.
    { (* double quotes *)
      destruct (lex_text inner f DDQuote EDQuote s1) as [[t r1]| | | |] eqn:E1; try discriminate.
      destruct (skip_lc r1) as [|c' r'] eqn:Er1; [discriminate|].
      destruct (c' =? c_dq) eqn:Ec'; [|discriminate]. inv H.
      apply N.eqb_eq in Edq, Ec'. subst c c'. cbn [ok_wu] in Hok.
      destruct (Htx _ _ _ _ _ E1 Hok) as (Nr & _ & Lf & _ & Rt). rewrite Nr in Er1. subst r1.
      split; [eexists _, _, _; split; [exact Es | reflexivity]|]. split; [exact I|].
      intros z _ _. cbn [print_wu]. rewrite <- !app_assoc. cbn [app].
      split; [apply nolc_cons; reflexivity|].
      apply lex_wu_double_quote, Rt; [apply nolc_cons; reflexivity | reflexivity | exact Lf]. }
    (* an unquoted unit, or a dollar-single-quoted string *)
    destruct (lex_tu inner f cx d (esc_of cx d) (c :: s1)) as [[[tu|] r1]| | | |] eqn:E1;
      try discriminate.
    assert (Hc : nolc (c :: s1)) by exact (skip_lc_cons_not_lc _ _ _ Es).
    (* an unquoted unit, when the rest [r0] begins like the rest of the text unit
       and does not turn a literal dollar sign into the opening of $'...' *)
    assert (Gen : forall r0, ok_tu tu = true -> hd (skip_lc r0) = hd (skip_lc r1) ->
              (cx = CWord -> tu = Literal c_dollar -> hd (skip_lc r0) <> Some c_sq) ->
              unit_rt print_wu (fo_wu cx d) (lex_wu inner (S (S (S f))) cx d) s (Unquoted tu) r0).
    { intros r0 Hk Hr0 Hq.
      destruct (Htu _ _ _ _ _ _ E1 Hk) as ((c0 & t0 & t' & Hs & Hp) & Bu & Ru).
      rewrite Hc in Hs. inv Hs.
      split; [eexists _, _, _; split; [exact Es | exact Hp]|].
      split; [split; [rewrite Hr0; exact Bu | exact Hq]|].
      intros z Hz [Hf1 Hf2]. destruct (Ru z Hz Hf1) as [N1 L1]. cbn [print_wu]. split; [exact N1|].
      rewrite Hp in N1, L1 |- *. apply lex_wu_unquoted; assumption. }
    destruct cx.
    - destruct tu as [c0| | | | | |];
        try (inv H; cbn [ok_wu] in Hok; apply (Gen _ Hok eq_refl); intros _ X; discriminate).
      destruct (c0 =? c_dollar) eqn:Ed.
      + apply N.eqb_eq in Ed. subst c0.
        destruct (skip_lc r1) as [|c' r'] eqn:Er1.
        * inv H. apply (Gen [] eq_refl); [reflexivity | discriminate].
        * destruct (c' =? c_sq) eqn:Eq.
          -- (* $'...' *)
             destruct (lex_escaped (S (len r')) r') as [[es r'']| | | |] eqn:Ee; try discriminate.
             inv H. apply N.eqb_eq in Eq. subst c'.
             destruct (Htu _ _ _ _ _ _ E1 eq_refl) as ((c0 & t0 & t' & Hs & Hp) & _).
             rewrite Hc in Hs. inv Hs. inv Hp.
             split; [eexists _, _, _; split; [exact Es | reflexivity]|]. split; [exact I|].
             intros z _ _. cbn [print_wu]. rewrite <- !app_assoc. cbn [app].
             split; [apply nolc_cons; reflexivity|].
             apply lex_wu_dollar_single_quote, escaped_roundtrip_len, (lex_escaped_wf _ _ _ _ Ee).
          -- inv H. apply (Gen (c' :: r') eq_refl); rewrite (skip_lc_cons_not_lc _ _ _ Er1); [reflexivity|].
             intros _ _ X. inv X. rewrite N.eqb_refl in Eq. discriminate.
      + inv H. cbn [ok_wu] in Hok. apply (Gen _ Hok eq_refl).
        intros _ X. inv X. rewrite N.eqb_refl in Ed. discriminate.
    - inv H. cbn [ok_wu] in Hok. apply (Gen _ Hok eq_refl). discriminate.
  Qed.

  Lemma S_units_S f : S_all f -> S_units (S f).
  Proof.
    intros (_ & _ & _ & _ & _ & Hwu & Hun) cx d s w r H Hok Hd.
    exact (seq_step_rt print_wu (fo_wu cx d) ok_wu d _ _ _ _
             (lex_wu_none inner f cx d) (Hwu cx d) (fun z => lex_wu_stop inner f cx d z Hd)
             (fun s w r H Hk => Hun cx d s w r H Hk Hd) (lex_units_nil f cx d) s w r H Hok).
  Qed.

  Lemma lex_rt : forall f, S_all f.
  Proof.
    induction f as [|f IH]; [repeat split; hnf; intros; discriminate|].
    unfold S_all.
    pose proof (S_tu_S f IH). pose proof (S_dollar_S f IH). pose proof (S_braced_S f IH).
    pose proof (S_text_S f IH). pose proof (S_twp_S f IH). pose proof (S_wu_S f IH).
    pose proof (S_units_S f IH). tauto.
  Qed.

  (* A word the lexer produced ends before a delimiter, at a text that may
     follow its last unit; its printed form begins like the source; and the
     printed form followed by any text [z] that does not extend the word is
     read back as the same word and the rest [z]: [z] does not begin with a
     line continuation, it is empty or starts with a delimiter, and it is
     compatible with the last unit of the word ([last_fo_word]: after a
     trailing literal `$` nothing that would begin an expansion or, in a word,
     a quoted string; after a trailing `$name` no name character; after a
     trailing unquoted backslash nothing the lexer would take as escaped, so in
     a word nothing at all).  [d <> DDQuote]: at a double quote [lex_wu] opens
     a quoted text instead of stopping, and the lexer never calls [lex_units]
     with that delimiter.  [ok_word]: see SpecLex.v and ProofsF14.v. *)
  Lemma lex_units_rt f : S_units f.
  Proof. apply lex_rt. Qed.

  (* the tree holds [tilde_front w]; it prints like [w] (print_tilde_front); the
     lexer returns [w], to which its caller applies [tilde_front] again *)
  Corollary lex_word_print f cx d s w r :
    lex_units inner f cx d s = Ok (w, r) -> ok_word w = true -> d <> DDQuote ->
    forall z, nolc z -> stops d z -> last_fo_word cx d w (hd z) ->
    lex_units inner (S (S f)) cx d (print_word (tilde_front w) ++ z) = Ok (w, z).
  Proof.
    intros H Hk Hd z Hz Hs Hl. rewrite print_tilde_front.
    apply (lex_units_rt _ _ _ _ _ _ H Hk Hd); assumption.
  Qed.
End Rt.
