(* C06 — the property theorems.  Each is a statement of the proof files or a
   corollary of a few lines of one; the driver pins the statements with
   [Check] and prints the assumptions on every run. *)
From Yv Require Import Common.Base C06.Model C06.Spec.
From Yv Require Import C06.LexEq C06.ParseEq C06.Answers C06.ProofsLen C06.ProofsStop C06.LexSound
  C06.ProofsTok C06.ProofsParse C06.ProofsTilde C06.ProofsNum C06.ProofsEscape C06.ProofsRtBase
  C06.ProofsRt C06.ProofsF14 C06.ProofsMono C06.ProofsOp C06.ProofsToken C06.ProofsInner
  C06.ProofsRedir C06.SpecCmd C06.ProofsCmdBase C06.ProofsSimple C06.ProofsSimpleAux C06.ProofsSimpleFirst
  C06.ProofsSimpleRun C06.ProofsCommand C06.ProofsList C06.SpecCompound C06.ProofsCompound.
From Yv Require Import C06.GenTie Gen.Gen_Keywords.
From Coq Require Ascii String.
Import Coq.Strings.String.StringSyntax.

(* The parser model is total: with the fuel computed from the length of the
   text (16 * length + 16) it answers with a tree or a syntax error -- or
   "outside the model" when it meets a here-document operator -- for every
   text; the fuel is never exhausted and the modelled panic site
   (`unreachable!()` in lex/arith.rs) is never reached. *)
Theorem parse_total : forall s,
  (exists t, parse_program s = Ok t) \/ parse_program s = Err \/ parse_program s = Unsupp.
Proof.
  intros s. pose proof (gs_mcl _ (parser_sound (parse_fuel s)) s) as H.
  assert (HF : p_mcl (parse_fuel s) s <> Fuel).
  { apply (answers_fuel _ _ _ H). unfold enough, parse_fuel, fuel_k, rk_mcl. lia. }
  apply answers_nopanic in H. unfold parse_program, bind.
  destruct (p_mcl (parse_fuel s) s) as [[l r]| | | |]; eauto; exfalso; auto.
Qed.

(* Dollar-single-quoted strings: the escape units the lexer produces are
   printed (EscapeUnit re-encoding: \OOO, \xHH, \uhhhh, \UHHHHHHHH, \cX, \c\\ ...)
   in a form that is lexed back to the same units, whatever follows the
   closing quote. *)
Theorem escape_print_relex : forall f s es r,
  lex_escaped f s = Ok (es, r) ->
  forall z, lex_escaped (S (length es)) (cat_map print_eu es ++ c_sq :: z) = Ok (es, z).
Proof.
  intros f s es r H z. apply escaped_roundtrip_wf; [exact (lex_escaped_wf _ _ _ _ H) | lia].
Qed.

(* The tilde post-processing (Word::parse_tilde_front / parse_tilde_everywhere)
   does not change the printed text of a word. *)
Theorem tilde_front_print : forall w, print_word (tilde_front w) = print_word w.
Proof. exact print_tilde_front. Qed.

Theorem tilde_everywhere_print : forall fuel w,
  print_word (tilde_everywhere fuel w) = print_word w.
Proof. exact print_tilde_everywhere. Qed.

(* lex_word_print: lexing the printed form of any word in the lexer's image
   (for every context, delimiter set and source text, line continuations
   included), followed by any text [z] that does not extend the word, returns
   that word and the rest [z].  [z] does not extend the word when it does not
   start with a line continuation, is empty or starts with a delimiter, and is
   compatible with the last unit ([last_fo_word]): after a trailing literal
   `$` nothing that would begin an expansion (a name or special-parameter
   character, `{`, `(`) nor, in a word, `'`; after a trailing `$name` no name
   character; after a trailing unquoted backslash no newline and nothing
   escapable, so in a word nothing at all.
   Covered: literals, backslash escapes, single/double/dollar-single quotes,
   $name, ${name} with every modifier and nested words, `...`, $((...)), and
   $(...) for any parser [inner] of the content that reads its own content
   back; not covered ([ok_word]): a $(...) whose content starts with `(`
   (known finding F14). *)
Theorem lex_word_print : forall inner : str -> res (str * str),
  (forall s content r0 r0', inner s = Ok (content, r0) -> skip_lc r0 = c_rparen :: r0' ->
     forall z, inner (content ++ c_rparen :: z) = Ok (content, c_rparen :: z)) ->
  forall f cx d s w r,
  lex_units inner f cx d s = Ok (w, r) -> ok_word w = true -> d <> DDQuote ->
  forall z, nolc z -> stops d z -> last_fo_word cx d w (hd z) ->
  lex_units inner (S (S f)) cx d (print_word (tilde_front w) ++ z) = Ok (w, z).
Proof. exact lex_word_print. Qed.

(* without any hypothesis on the parser of command substitutions (so in
   particular for the model's own parser p_inner, with any fuel), for words
   that contain no `$(...)` *)
Theorem lex_word_print_nocs : forall (i1 i2 : str -> res (str * str)) f cx d s w r,
  lex_units i1 f cx d s = Ok (w, r) -> nocs_word w = true -> d <> DDQuote ->
  forall z, nolc z -> stops d z -> last_fo_word cx d w (hd z) ->
  lex_units i2 (S (S f)) cx d (print_word (tilde_front w) ++ z) = Ok (w, z).
Proof.
  intros i1 i2 f cx d s w r H Hn Hd z Hz Hs Hl. rewrite print_tilde_front.
  apply (lex_units_rt_nocs i1 i2 _ _ _ _ _ _ H Hn Hd); assumption.
Qed.

(* in particular the rest the lexer stopped at is such a text *)
Theorem lex_word_print_same : forall inner : str -> res (str * str),
  (forall s content r0 r0', inner s = Ok (content, r0) -> skip_lc r0 = c_rparen :: r0' ->
     forall z, inner (content ++ c_rparen :: z) = Ok (content, c_rparen :: z)) ->
  forall f cx d s w r,
  lex_units inner f cx d s = Ok (w, r) -> ok_word w = true -> d <> DDQuote ->
  lex_units inner (S (S f)) cx d (print_word w ++ r) = Ok (w, r).
Proof.
  intros inner Hi f cx d s w r H Hk Hd.
  destruct (lex_units_rt inner Hi _ _ _ _ _ _ H Hk Hd) as (Nr & St & Lf & _ & Rt). apply Rt; assumption.
Qed.

(* the restriction [ok_word] cannot be dropped (known finding F14): with the
   model of the real parser as [inner], the word `$(('(' ) )` is lexed to a
   command substitution, but its printed form followed by `)` is not lexed
   back to it *)
Theorem lex_word_print_refuted :
  let inner := p_inner 200 in
  let s := lit "$(('(' ) ) " in
  let z := lit ")" in
  exists w r,
    lex_units inner 200 CWord DToken s = Ok (w, r) /\ ok_word w = false /\
    nolc z /\ stops DToken z /\ last_fo_word CWord DToken w (hd z) /\
    lex_units inner 202 CWord DToken (print_word w ++ z) <> Ok (w, z).
Proof.
  cbv zeta. eexists _, _. split; [lazy; reflexivity|].
  split; [lazy; reflexivity|]. split; [reflexivity|]. split; [reflexivity|].
  split; [lazy; split; [exact I | intros _ X; discriminate X]|]. lazy. discriminate.
Qed.

(* lex_token_print: a word token (any token that is not an operator or the end
   of input) is read back from its printed form followed by a text that does
   not extend it; its kind (keyword, IO_NUMBER, IO_LOCATION, plain word) is
   then decided by the word and the first character of that text alone (the
   token id is recomputed from [z]; it need not be [t_id t]).  The premise on
   [inner] is not proved of [p_inner]; the command layer uses
   ProofsToken.word_token_print with ProofsCmdBase.nocs_units instead. *)
Theorem lex_token_print : forall inner : str -> res (str * str),
  (forall s content r0 r0', inner s = Ok (content, r0) -> skip_lc r0 = c_rparen :: r0' ->
     forall z, inner (content ++ c_rparen :: z) = Ok (content, c_rparen :: z)) ->
  forall f s t r,
  lex_token inner f s = Ok (t, r) -> t_word t <> [] ->
  exists w,
    t_word t = tilde_front w /\
    (ok_word w = true ->
     forall z, nolc z -> stops DToken z -> last_fo_word CWord DToken w (hd z) ->
       lex_token inner (S (S f)) (print_word (t_word t) ++ z)
       = Ok (mkToken (t_word t) (token_id_of (t_word t) z) (print_word (t_word t) ++ z), z)).
Proof.
  intros inner inner_rt f s t r H Hw.
  destruct (lex_token_word _ _ _ _ _ H Hw) as (w & Ew & _ & Hne & Eop & Eu).
  exists w. split; [exact Ew|]. intros Hk z Hz Hs Hl.
  pose proof (lex_units_rt inner inner_rt _ _ _ _ _ _ Eu Hk ltac:(discriminate)) as U.
  destruct (word_token_print inner _ _ _ _ Hne Eop U) as [_ Rt].
  rewrite Ew, print_tilde_front. apply Rt. repeat split; assumption.
Qed.

(* redirection placement: a redirection (optional file-descriptor number,
   operator, operand) is read back from its printed form, in which the three
   parts are adjacent; [w0] are the operand's units before the tilde
   post-processing.  Here-document operators are outside the model.
   13 = the ten digits of an i32 + 3 (ProofsRedir.io_number_token).  The
   premise on [inner] is not proved of [p_inner]; the command layer uses
   ProofsRedir.redir_print with ProofsCmdBase.nocs_units. *)
Theorem p_redir_print : forall inner : str -> res (str * str),
  (forall s content r0 r0', inner s = Ok (content, r0) -> skip_lc r0 = c_rparen :: r0' ->
     forall z, inner (content ++ c_rparen :: z) = Ok (content, c_rparen :: z)) ->
  forall f s rd r,
  p_redir (lex_token inner f) s = Ok (Some rd, r) ->
  exists rop w0,
    r_body rd = RNormal rop (tilde_front w0) /\
    (ok_word w0 = true ->
     forall z f', nolc z -> stops DToken z -> last_fo_word CWord DToken w0 (hd z) ->
       (S (S f) <= f')%nat -> (13 <= f')%nat ->
       p_redir (lex_token inner f') (print_redir rd ++ z) = Ok (Some rd, z)).
Proof.
  intros inner inner_rt f s rd r H.
  destruct (redir_print inner f s rd r H) as (rop & w0 & s3 & Eb & Eu & Rt).
  exists rop, w0. split; [exact Eb|]. intros Hk z f' Hz Hs Hl.
  apply (Rt inner); [|repeat split; assumption].
  exact (lex_units_rt inner inner_rt _ _ _ _ _ _ Eu Hk ltac:(discriminate)).
Qed.

(* simple commands (simple_command.rs) without `$(...)`: if the loop of
   simple_command.rs, started at any text [s], returns the assignments [a],
   words [w] and redirections [rds], then it returns the same three lists
   from the text printed by Display for SimpleCommand -- in whichever of its
   four orders (redirections first when the command ends with a backslash;
   assignments, words, redirections; redirections before a keyword; all
   redirections but the last before a keyword when the last one ends with a
   backslash) -- followed by any text [z] that starts with nothing, a blank
   or an operator character ending a command, provided something followed the
   command in [s] or no printed item ends with a backslash.  Covers the
   recomputation of the expansion modes of declaration utilities, array
   assignments, keywords after a redirection and IO numbers. *)
Theorem p_simple_print : forall f s a w rds r z pre,
  p_simple f None empty_b s = Ok (Some (a, w, rds), r) ->
  r <> [] \/ nobs_res (a, w, rds) -> nocs_res (a, w, rds) -> follow z -> cmd_end z -> is_lead pre ->
  exists F, forall f', (F <= f')%nat ->
    p_simple f' None empty_b (pre ++ print_simple a w rds ++ z) = Ok (Some (a, w, rds), z).
Proof. exact simple_print_lemma. Qed.

(* the same one level up (command.rs): the printed simple command is read
   back as that simple command -- not as a function definition or a compound
   command *)
Theorem p_command_print : forall f s a w rds r z pre,
  p_command f s = Ok (Some (CSimple a w rds), r) ->
  r <> [] \/ nobs_res (a, w, rds) -> nocs_res (a, w, rds) -> follow z -> cmd_end z -> is_lead pre ->
  exists F, forall f', (F <= f')%nat ->
    p_command f' (pre ++ print_command (CSimple a w rds) ++ z) = Ok (Some (CSimple a w rds), z).
Proof.
  intros f s a w rds r z pre H Hb Hn Hz He Hl. destruct (command_parts _ _ _ _ H) as [f0 H0].
  destruct (simple_print_lemma _ _ _ _ _ _ z pre H0 Hb Hn Hz He Hl) as [F HF].
  exists (S (max F 3)). intros f' Hf'. destruct f' as [|f']; [lia|].
  apply command_of_simple; [apply HF; lia | exact He | lia].
Qed.

(* parse_print_list for the lists made of simple commands: a text whose tree
   consists of pipelines (with `!`), and-or lists (`&&`, `||`) and sequences
   (`;`, `&`, newlines) of simple commands without `$(...)`, none of whose
   printed words ends with a backslash, is printed by Display for List as a
   text that the parser reads back as the same tree.  [clean_list] says
   exactly that about the tree; compound commands and function definitions are
   not covered. *)
Theorem parse_print_simple_lists : forall s l,
  parse_program s = Ok l -> clean_list l -> parse_program (print_list false l) = Ok l.
Proof.
  intros s l H Hc. exact (parse_print_compound_lists_lemma s l 0 H (clean_list_0 l Hc)).
Qed.

(* parse_print_list for lists with groupings, subshells and while/until loops:
   the commands of the pipelines may also be groupings `{ ...; }`, subshells
   `( ... )` and loops `while ...; do ...; done` / `until ...; do ...; done`
   without redirections of their own, whose bodies and conditions are again
   such lists, to any depth.
   [clean_list_n n] describes these trees level by level ([n] levels of
   nesting; [clean_n] in SpecCompound.v); the statement holds for every [n],
   so for every such tree.  Covers the alternate form of Display for List
   inside `{ }` and between `while` / `do` / `done` (every item carries its
   `;` or `&`), `&)` and `;` before ` }`, `! ` before `{`, `(` and `while`,
   and `((`. *)
Theorem parse_print_compound_lists : forall s l n,
  parse_program s = Ok l -> clean_list_n n l -> parse_program (print_list false l) = Ok l.
Proof. exact parse_print_compound_lists_lemma. Qed.

(* operator spacing: an operator is read back from its text whenever the next
   character does not turn it into a longer operator *)
Theorem lex_operator_print : forall o z,
  nolc z -> op_follow_ok o (hd z) -> lex_operator (print_op o ++ z) = Some (o, z).
Proof. exact lex_operator_print_lemma. Qed.

(* the answer of the parser model is a function of the text alone: every fuel
   above the one computed from the length gives the same answer *)
Theorem parse_more_fuel : forall s f,
  (parse_fuel s <= f)%nat -> p_mcl f s = p_mcl (parse_fuel s) s.
Proof. exact parse_more_fuel_lemma. Qed.

(* known finding F14 at the level of programs: the statement "the printed text
   of a parsed tree parses back to the tree" is false of the model (which
   mirrors the implementation) for a tree of the class [f14_class] *)
Theorem parse_print_refuted :
  exists s t, parse_program s = Ok t /\ f14_class t = true /\
              parse_program (print_list false t) <> Ok t.
Proof.
  destruct f14_witness_paren as (t & A & B & _ & C).
  eexists _, t. split; [exact A|]. split; [exact B|]. rewrite C. discriminate.
Qed.

(* a syntax error on the source text is accepted by the oracle whatever the
   second observation: the property speaks of parsed trees only *)
Theorem oracle_err : forall s, oracle PErr s = None.
Proof. reflexivity. Qed.

(* TIE BY TRANSLATION: the reserved words of the parser and printer models are
   those of yash-syntax/src/parser/lex/keyword.rs, which translator/keywords.py
   reads on every run *)
(* the parser model's table is the table of FromStr for Keyword *)
Theorem parser_keyword_table_is_source_table :
  map (fun p => (fst p, keyword_index (snd p))) keyword_table = gen_keyword_from_str.
Proof. reflexivity. Qed.
(* the printer model's list of reserved words is the texts of Keyword::as_str *)
Theorem printer_keywords_are_source_texts : keywords = map snd gen_keyword_as_str.
Proof. reflexivity. Qed.
(* the clause delimiters among the reserved words are those of is_clause_delimiter *)
Theorem keyword_clause_delimiters_are_source :
  forall k, is_clause_delimiter (TToken (Some k)) = existsb (N.eqb (keyword_index k)) gen_clause_delimiters.
Proof. intros k; destruct k; reflexivity. Qed.
Print Assumptions parser_keyword_table_is_source_table.
Print Assumptions printer_keywords_are_source_texts.
Print Assumptions keyword_clause_delimiters_are_source.
