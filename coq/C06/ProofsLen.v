(* C06 — what it means for a function of the lexer or parser to be sound on a
   text: it does not panic, the rest it returns is no longer than the text (a
   produced unit or token consumed at least one character), and fuel
   proportional to the length of the text is enough.  Here: the vocabulary, and
   the loops below the mutually recursive lexer. *)
From Yv Require Import Common.Base C06.Lex C06.Parse C06.Answers.
Local Open Scope N_scope.

Notation len := (@length N).

Ltac inv H := inversion H; subst; clear H.

Ltac dmh H :=
  match type of H with
  | context [match ?x with _ => _ end] => destruct x eqn:?
  end.
Ltac dmall :=
  repeat match goal with
  | H : context [match ?x with _ => _ end] |- _ =>
      match type of H with
      | _ = _ => destruct x eqn:?; try discriminate
      end
  end.
Ltac clean :=
  repeat match goal with
  | H : Ok _ = Ok _ |- _ => inv H
  | H : (_, _) = (_, _) |- _ => inv H
  | H : _ :: _ = _ :: _ |- _ => inv H
  | H : Some _ = Some _ |- _ => inv H
  | H : [] = _ :: _ |- _ => discriminate H
  | H : _ :: _ = [] |- _ => discriminate H
  end.

Lemma skip_lc_len s : (len (skip_lc s) <= len s)%nat.
Proof.
  remember (len s) as n eqn:E. revert s E.
  induction n as [n IH] using lt_wf_ind. intros s E.
  destruct s as [|c1 [|c2 s']]; cbn [skip_lc]; try lia.
  destruct ((c1 =? c_bslash) && (c2 =? c_nl)); [|lia].
  cbn [length] in *. specialize (IH (len s') ltac:(lia) s' eq_refl). lia.
Qed.

Lemma skip_lc_idem s : skip_lc (skip_lc s) = skip_lc s.
Proof.
  remember (len s) as n eqn:E. revert s E.
  induction n as [n IH] using lt_wf_ind. intros s E.
  destruct s as [|c1 [|c2 s']]; try reflexivity.
  cbn [skip_lc]. destruct ((c1 =? c_bslash) && (c2 =? c_nl)) eqn:B.
  - cbn [length] in *. apply (IH (len s')); [lia | reflexivity].
  - cbn [skip_lc]. rewrite B. reflexivity.
Qed.

Lemma skip_lc_eq_len s r : skip_lc s = r -> (len r <= len s)%nat.
Proof. intros <-. apply skip_lc_len. Qed.

Definition shorter {A} (s : str) (x : A * list N) : Prop := (len (snd x) <= len s)%nat.

(* characters certainly consumed when something was produced *)
Definition took {A} (o : option A) : nat := if o then 1 else 0.
Definition width (id : token_id) : nat := match id with TEnd => 0 | _ => 1 end.

(* the measure of the soundness inductions, carried in the [E] of [answers]
   (the inductions themselves are on the fuel): a callee on the same text must
   have a lower rank [rk] (tables in LexSound.v, ProofsParse.v); after a
   consumed character any rank will do, all being below [fuel_k] *)
Definition enough (rk f : nat) (s : str) : Prop := (fuel_k * len s + rk < f)%nat.

(* [arith] unfolds the names of [lens] before [lia]: a rank or length predicate
   that is not in it stays opaque to [lia] *)
Create HintDb lens discriminated.
#[export] Hint Unfold shorter enough fuel_k : lens.

Lemma lex_name_len f s n r : lex_name f s = (n, r) -> (len r <= len s)%nat.
Proof.
  revert s n r. induction f as [|f IH]; intros s n r H; cbn [lex_name] in H.
  - inv H. apply skip_lc_len.
  - pose proof (skip_lc_len s) as L. destruct (skip_lc s) as [|c s'] eqn:E.
    + inv H. cbn. lia.
    + destruct (is_name_char c).
      * destruct (lex_name f s') as [n' r'] eqn:E'. inv H.
        apply IH in E'. cbn [length] in L. lia.
      * inv H. exact L.
Qed.

Lemma hex_more_len k acc s v r : hex_more k acc s = (v, r) -> (len r <= len s)%nat.
Proof.
  revert acc s v r. induction k as [|k IH]; intros acc s v r H; cbn [hex_more] in H.
  - inv H. lia.
  - destruct s as [|c s']; [inv H; lia|]. destruct (hex_val c).
    + apply IH in H. cbn. lia.
    + inv H. lia.
Qed.

Lemma oct_more_len k acc s v r : oct_more k acc s = (v, r) -> (len r <= len s)%nat.
Proof.
  revert acc s v r. induction k as [|k IH]; intros acc s v r H; cbn [oct_more] in H.
  - inv H. lia.
  - destruct s as [|c s']; [inv H; lia|]. destruct (oct_val c).
    + apply IH in H. cbn. lia.
    + inv H. lia.
Qed.

Lemma hex_digits_len k s v r : hex_digits k s = Some (v, r) -> (len r < len s)%nat.
Proof.
  unfold hex_digits. destruct s as [|c s']; [discriminate|]. destruct (hex_val c); [|discriminate].
  intros H. inv H. destruct (hex_more (k - 1) n s') as [v' r'] eqn:E. inv H1.
  apply hex_more_len in E. cbn. lia.
Qed.

(* The side conditions a walk along a body leaves are linear arithmetic over
   lengths, once the equations about the functions that cannot fail are
   turned into the length facts they stand for. *)
Ltac arith :=
  intros;
  repeat match goal with
  | H : skip_lc _ = _ |- _ => apply skip_lc_eq_len in H
  | H : lex_name _ _ = _ |- _ => apply lex_name_len in H
  | H : hex_digits _ _ = _ |- _ => apply hex_digits_len in H
  | H : oct_more _ _ _ = _ |- _ => apply oct_more_len in H
  | a : _ * _ |- _ => destruct a
  end;
  autounfold with lens in *; cbn [fst snd t_at t_id] in *;
  repeat match goal with
  | E : t_id ?t = _, H : context [width (t_id ?t)] |- _ => rewrite E in H
  end;
  cbn [took width length hd_error] in *; lia.

Lemma lex_single_quote_sound s :
  answers True (fun x => len (snd x) < len s)%nat (lex_single_quote s).
Proof. induction s as [|c s IH]; cbn [lex_single_quote]; answers_walk; arith. Qed.

Lemma lex_bq_sound f cx s : answers (len s < f)%nat (shorter s) (lex_bq f cx s).
Proof.
  revert s. induction f as [|f IH]; intros s; [cbn; lia|]. cbn [lex_bq]. answers_walk; arith.
Qed.

Lemma lex_escape_sound c2 s : answers True (shorter s) (lex_escape c2 s).
Proof. unfold lex_escape. answers_walk; arith. Qed.

Lemma lex_escaped_sound f s :
  answers (len s < f)%nat (fun x => len (snd x) < len s)%nat (lex_escaped f s).
Proof.
  revert s. induction f as [|f IH]; intros s; [cbn; lia|]. cbn [lex_escaped].
  pose proof lex_escape_sound. answers_walk; arith.
Qed.

#[export] Hint Resolve lex_single_quote_sound lex_bq_sound lex_escaped_sound : sound.
