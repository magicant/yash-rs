(* C06 — simple commands.  What the first run of the loop of
   simple_command.rs tells about the items it collected. *)
From Yv Require Import Common.Base C06.Ast C06.Print C06.Lex C06.Parse C06.ParseEq C06.Spec
  C06.ProofsLen C06.ProofsToken C06.SpecCmd C06.ProofsCmdBase C06.ProofsSimple C06.ProofsSimpleAux.
Local Open Scope N_scope.

(* expansion modes recomputed from the words in order (is_declaration_utility) *)
Fixpoint modes (decl : option bool) (Ws : list word) : list (word * exp_mode) * option bool :=
  match Ws with
  | [] => ([], decl)
  | W :: Ws' =>
      match decl with
      | Some d =>
          let (l, d') := modes decl Ws' in
          ((if d then determine_expansion_mode W else (W, Multiple)) :: l, d')
      | None =>
          let (l, d') := modes (names_declaration_utility W) Ws' in ((W, Multiple) :: l, d')
      end
  end.

Lemma modes_app decl Ws W :
  modes decl (Ws ++ [W]) =
  let (l, d) := modes decl Ws in
  (l ++ [match d with
         | Some true => determine_expansion_mode W
         | _ => (W, Multiple)
         end],
   match d with Some _ => d | None => names_declaration_utility W end).
Proof.
  revert decl. induction Ws as [|X Ws IH]; intros decl; cbn [app modes].
  - destruct decl as [[|]|]; reflexivity.
  - destruct decl as [d|].
    + rewrite IH. destruct (modes (Some d) Ws) as [l d']. reflexivity.
    + rewrite IH. destruct (modes (names_declaration_utility X) Ws) as [l d']. reflexivity.
Qed.

(* In the second run every item is followed by a blank, which may follow a
   word only if the word does not end with an unquoted backslash.  That is
   known of an item once something was seen after it (not_ends_bslash); [pend]
   is the item consumed last, of which it is not yet known. *)
Definition settled (pend : option word) (w0 : word) : Prop :=
  ends_bslash w0 = false \/ pend = Some w0.

Definition R_ok (F : nat) (pend : option word) (rd : redir) : Prop :=
  exists w0, ritem F rd w0 /\ settled pend w0.

Definition W_ok (F : nat) (pend : option word) (W : word) : Prop :=
  exists w0, witem F W w0 /\ settled pend w0.

Definition A_ok (F : nat) (pend : option word) (a : assign) : Prop :=
  match a_value a with
  | Scalar _ =>
      exists W, W_ok F pend W /\ print_assign a = print_word W /\ assign_of_word W = Some a
  | Array ws =>
      exists Wn w0n, witem F Wn w0n /\ print_word Wn = a_name a ++ [61] /\
        assign_of_word Wn = Some (mkAssign (a_name a) (Scalar [])) /\
        last_fo_word CWord DToken w0n (Some 40) /\ aitems F ws /\ (length ws < F)%nat
  end.

(* the first run at text [s] with builder [b]: every collected item is read
   back with fuel >= [F] (witem/ritem); the words are [modes None Ws] of the
   token words, so the second run recomputes the same expansion modes; a
   reserved word was taken as first word only after an assignment or
   redirection (Display then prints the redirections first); the pending item
   may be followed by [s] *)
Record inv (F : nat) (b : builder) (decl : option bool) (pend : option word) (s : str) : Prop := {
  inv_redirs : Forall (R_ok F pend) (b_redirs b);
  inv_assigns : Forall (A_ok F pend) (b_assigns b);
  inv_words : exists Ws, Forall (W_ok F pend) Ws /\
                rev (b_words b) = fst (modes None Ws) /\ decl = snd (modes None Ws) /\
                match Ws with
                | W1 :: _ => assign_of_word W1 = None /\
                             (word_kw W1 <> None -> b_assigns b <> [] \/ b_redirs b <> [])
                | [] => True
                end;
  inv_pend : forall w0, pend = Some w0 -> good_follow w0 s
}.

Lemma settled_step pend w0 s :
  settled pend w0 -> (forall w, pend = Some w -> good_follow w s) ->
  s <> [] -> forall pend', settled pend' w0.
Proof.
  intros [H|H] Hp Hs pend'; [left; exact H|].
  left. destruct (Hp _ H) as (_ & _ & L). eapply not_ends_bslash; eauto.
Qed.

Definition nocs_b (b : builder) : Prop :=
  (forall a, In a (b_assigns b) -> nocs_assign a = true) /\
  (forall e, In e (b_words b) -> nocs_word (fst e) = true) /\
  (forall rd, In rd (b_redirs b) -> nocs_redir rd = true).

Lemma nocs_sub f decl b s res r :
  p_simple f decl b s = Ok (Some res, r) -> nocs_res res -> nocs_b b.
Proof.
  intros H (A & B & C). destruct (simple_result _ _ _ _ _ _ H) as (b' & (S1 & S2 & S3) & ->).
  cbn [fst snd] in *. repeat split; intros x Hx;
    [apply A | apply B | apply C]; apply -> in_rev; auto.
Qed.

Lemma open_paren_head i f c x t r :
  nolc (c :: x) -> is_blank c = false -> stops DToken (c :: x) ->
  lex_token i f (c :: x) = Ok (t, r) -> t_id t = TOp OpOpenParen -> c = 40.
Proof.
  intros N B S H Hid. cbn [stops is_delim] in S.
  assert (Hh : (c =? c_hash) = false).
  { destruct (c =? c_hash) eqn:E; [|reflexivity]. apply N.eqb_eq in E. subst. discriminate. }
  pose proof (lex_token_operator _ _ _ _ _ _ H Hid) as Eo.
  rewrite (skip_blanks_and_comment_id _ _ N B Hh) in Eo.
  destruct (lex_operator_first _ _ _ _ N Eo) as [y Ey]. injection Ey as <- _. reflexivity.
Qed.

Lemma W_ok_settle F pend W s :
  (forall w, pend = Some w -> good_follow w s) ->
  s <> [] -> W_ok F pend W -> forall pend', W_ok F pend' W.
Proof.
  intros Hp Hs (w0 & WI & St) pend'. exists w0. split; [exact WI|]. eapply settled_step; eauto.
Qed.

(* once something follows the item consumed last, no item is pending, and
   the next one may be *)
Lemma inv_settle F b decl pend s :
  inv F b decl pend s -> s <> [] -> forall pend' s',
  (forall w0, pend' = Some w0 -> good_follow w0 s') -> inv F b decl pend' s'.
Proof.
  intros [IR IA (Ws & HW & E) IP] Hs pend' s' IP'. constructor; [| | |exact IP'].
  - eapply Forall_impl; [|exact IR]. intros rd (w0 & RI & St). exists w0. split; [exact RI|].
    exact (settled_step pend w0 s St IP Hs pend').
  - eapply Forall_impl; [|exact IA]. intros a. unfold A_ok. destruct (a_value a); [|auto].
    intros (W & WO & X). exists W. split; [|exact X]. exact (W_ok_settle F pend W s IP Hs WO pend').
  - exists Ws. split; [|exact E]. eapply Forall_impl; [|exact HW]. intros W HWo.
    exact (W_ok_settle F pend W s IP Hs HWo pend').
Qed.

Lemma modes_nil_inv Ws : fst (modes None Ws) = [] -> Ws = [].
Proof.
  destruct Ws as [|W Ws]; [reflexivity|]. cbn [modes].
  destruct (modes (names_declaration_utility W) Ws). discriminate.
Qed.

Lemma inv_add_redir F b decl pend s rd :
  inv F b decl pend s -> R_ok F pend rd -> inv F (add_redir b rd) decl pend s.
Proof.
  intros [IR IA (Ws & HW & E1 & E2 & E3) IP] RO.
  constructor; cbn [add_redir b_redirs b_assigns b_words]; [constructor; assumption | exact IA | | exact IP].
  exists Ws. split; [exact HW|]. split; [exact E1|]. split; [exact E2|].
  destruct Ws as [|W1 Ws']; [exact I|]. destruct E3 as [E3 E4]. split; [exact E3|].
  intros _. right. discriminate.
Qed.

Lemma inv_add_assign F b decl pend s a :
  inv F b decl pend s -> A_ok F pend a -> inv F (add_assign b a) decl pend s.
Proof.
  intros [IR IA (Ws & HW & E1 & E2 & E3) IP] AO.
  constructor; cbn [add_assign b_redirs b_assigns b_words]; [exact IR | constructor; assumption | | exact IP].
  exists Ws. split; [exact HW|]. split; [exact E1|]. split; [exact E2|].
  destruct Ws as [|W1 Ws']; [exact I|]. destruct E3 as [E3 E4]. split; [exact E3|].
  intros _. left. discriminate.
Qed.

(* the entry made for a word and what is known of the declaration utility
   afterwards (simple_command.rs; [modes_app]) *)
Definition word_entry (decl : option bool) (W : word) : word * exp_mode :=
  match decl with Some true => determine_expansion_mode W | _ => (W, Multiple) end.
Definition next_decl (decl : option bool) (W : word) : option bool :=
  match decl with Some _ => decl | None => names_declaration_utility W end.

Lemma inv_add_word F b decl pend s W :
  inv F b decl pend s -> W_ok F pend W ->
  (b_words b = [] -> assign_of_word W = None /\
                     (word_kw W <> None -> b_assigns b <> [] \/ b_redirs b <> [])) ->
  inv F (add_word b (word_entry decl W)) (next_decl decl W) pend s.
Proof.
  intros [IR IA (Ws & HW & E1 & E2 & E3) IP] WO Hfirst.
  constructor; cbn [add_word b_redirs b_assigns b_words]; [exact IR | exact IA | | exact IP].
  exists (Ws ++ [W]). split; [apply Forall_app; auto|].
  rewrite modes_app. destruct (modes None Ws) as [l d'] eqn:Em. cbn [fst snd] in *. subst d'.
  split; [cbn [rev]; rewrite E1; reflexivity|]. split; [reflexivity|].
  destruct Ws as [|W1 Ws']; [|exact E3]. cbn [app]. apply Hfirst.
  cbn in Em. injection Em as <- _. destruct (b_words b) as [|e l]; [reflexivity|].
  cbn [rev] in E1. apply app_eq_nil in E1. destruct E1; discriminate.
Qed.

Lemma simple_first F : forall f decl b s res r pend,
  p_simple f decl b s = Ok (Some res, r) -> (max (S (S f)) 13 <= F)%nat -> nocs_res res ->
  inv F b decl pend s ->
  exists b' decl' pend', inv F b' decl' pend' r /\
    res = (b_result b') /\ builder_is_empty b' = false.
Proof.
  induction f as [|f IH]; intros decl b s res r pend H HF Hn I; [discriminate|].
  rewrite p_simple_eq in H. cbv zeta in H. unfold bind in H.
  (* the item read here, [w0], is pending at [s']; the others are settled since [s] is not empty *)
  assert (Hnext : s <> [] -> forall w0 s', good_follow w0 s' -> inv F b decl (Some w0) s').
  { intros Hs w0 s' Hg. apply (inv_settle _ _ _ _ _ I Hs). intros w X. inv X. exact Hg. }
  destruct (p_redir (tk2 f) s) as [[[rd|] s1]| | | |] eqn:Er; try discriminate.
  - (* a redirection *)
    assert (Hs : s <> []).
    { intros ->. apply p_redir_nil in Er. destruct Er; discriminate. }
    change (mkBuilder (b_assigns b) (b_words b) (rd :: b_redirs b)) with (add_redir b rd) in H.
    destruct (nocs_sub _ _ _ _ _ _ H Hn) as (_ & _ & NR).
    destruct (ritem_of _ _ F _ _ _ Er (NR rd (or_introl eq_refl)) ltac:(lia)) as (w0 & RI & Rest).
    apply (IH _ _ _ _ _ (Some w0) H); [lia | exact Hn|].
    apply inv_add_redir; [exact (Hnext Hs w0 s1 Rest)|].
    exists w0. split; [exact RI | right; reflexivity].
  - (* no redirection here *)
    apply p_redir_none in Er. subst s1.
    destruct (tk2 f s) as [[t s2]| | | |] eqn:Et; try discriminate.
    destruct (negb match t_id t with
                   | TToken (Some _) => negb (builder_is_empty b)
                   | TToken None => true
                   | _ => false
                   end) eqn:Etake.
    { (* the end of the command *)
      destruct (builder_is_empty b) eqn:Eb; inv H.
      exists b, decl, pend. split; [exact I|]. split; [reflexivity | exact Eb]. }
    apply Bool.negb_false_iff in Etake.
    destruct (t_id t) as [kw| | | |] eqn:Eid; try discriminate.
    pose proof (token_ttoken_ne _ _ _ _ _ _ Et Eid) as Hne.
    assert (Hs : s <> []).
    { intros ->. apply lex_token_nil in Et. destruct Et as (X & _). congruence. }
    destruct (lex_token_word _ _ _ _ _ Et Hne) as (w00 & _ & Hid & _).
    assert (Hkw : word_kw (t_word t) <> None -> builder_is_empty b = false).
    { intros X. destruct (word_kw (t_word t)) as [k|] eqn:Ek; [|congruence].
      rewrite (token_id_kw _ s2 _ Ek) in Hid. rewrite Hid in Eid. inv Eid.
      apply Bool.negb_true_iff in Etake. exact Etake. }
    (* the word is an item that is pending at [s2] *)
    assert (Wnew : nocs_word (t_word t) = true -> exists w0,
              good_follow w0 s2 /\ W_ok F (Some w0) (t_word t) /\ witem F (t_word t) w0).
    { intros X. destruct (witem_of _ _ F _ _ _ Et Hne X ltac:(lia)) as (w0 & WI & Rest).
      exists w0. split; [exact Rest|]. split; [exists w0; split; [exact WI | right; reflexivity] | exact WI]. }
    (* a word entered in the list of words *)
    assert (Hword : p_simple f (next_decl decl (t_word t))
                      (add_word b (word_entry decl (t_word t))) s2 = Ok (Some res, r) ->
                    (b_words b = [] -> assign_of_word (t_word t) = None) ->
                    exists b' decl' pend', inv F b' decl' pend' r /\
                      res = (b_result b') /\
                      builder_is_empty b' = false).
    { intros H' Ha. destruct (nocs_sub _ _ _ _ _ _ H' Hn) as (_ & NW & _).
      assert (NWt : nocs_word (t_word t) = true).
      { specialize (NW _ (or_introl eq_refl)). unfold word_entry in NW.
        destruct decl as [[|]|]; [apply nocs_expansion_mode| |]; exact NW. }
      destruct (Wnew NWt) as (w0 & Rest & WO & _).
      apply (IH _ _ _ _ _ (Some w0) H'); [lia | exact Hn|].
      apply inv_add_word; [exact (Hnext Hs w0 s2 Rest) | exact WO|].
      intros Eb. split; [exact (Ha Eb)|]. intros X. specialize (Hkw X). unfold builder_is_empty in Hkw.
      rewrite Eb in Hkw. destruct (b_assigns b); [|left; discriminate].
      destruct (b_redirs b); [discriminate | right; discriminate]. }
    destruct decl as [d|].
    + (* declaration utility known *)
      apply Hword; [destruct d; exact H|]. intros Eb. exfalso.
      destruct I as [_ _ (Ws & _ & E1 & E2 & _) _]. rewrite Eb in E1. symmetry in E1.
      apply modes_nil_inv in E1. subst Ws. discriminate E2.
    + destruct (match b_words b with [] => assign_of_word (t_word t) | _ :: _ => None end) as [a0|] eqn:Ea.
      2:{ (* a word, the declaration utility not yet known *)
          apply Hword; [exact H|]. intros Eb. rewrite Eb in Ea. exact Ea. }
      (* an assignment *)
      destruct (b_words b) as [|e0 l0] eqn:Ebw; [|discriminate].
      match type of H with
      | match ?x with _ => _ end = _ => destruct x as [[a' s3]| | | |] eqn:Eblk; try discriminate
      end.
      assert (Hb : mkBuilder (a' :: b_assigns b) [] (b_redirs b) = add_assign b a').
      { unfold add_assign. rewrite Ebw. reflexivity. }
      rewrite Hb in H.
      destruct (assign_scalar _ _ Ea) as [v Ev].
      destruct (nocs_sub _ _ _ _ _ _ H Hn) as (NA & _ & _).
      pose proof (NA a' (or_introl eq_refl)) as NAa.
      pose proof (array_value_cases (tk2 f) f a0 v s2 a' s3 Ev Eblk) as Hcases.
      destruct Hcases as [[-> ->] | (-> & Ebl & t' & s2' & ws & Et' & Eid' & Earr & ->)].
      * (* a scalar value *)
        destruct (Wnew (nocs_assign_of_word _ _ Ea NAa)) as (w0 & Rest & WO & _).
        apply (IH _ _ _ _ _ (Some w0) H); [lia | exact Hn|].
        apply inv_add_assign; [exact (Hnext Hs w0 s2 Rest)|]. unfold A_ok. rewrite Ev.
        exists (t_word t). split; [exact WO|]. split; [apply print_assign_of_word; exact Ea | exact Ea].
      * (* an array value: nothing is pending after the closing parenthesis *)
        assert (NWt : nocs_word (t_word t) = true).
        { apply (nocs_assign_of_word _ _ Ea). unfold nocs_assign. rewrite Ev. reflexivity. }
        destruct (Wnew NWt) as (w0 & (R1 & R2 & R3) & _ & WI).
        assert (Hhd : exists x, s2 = 40 :: x).
        { destruct s2 as [|c x].
          - apply lex_token_nil in Et'. destruct Et' as (X & _). congruence.
          - rewrite R1 in Ebl. rewrite (open_paren_head _ _ _ _ _ _ R1 Ebl R2 Et' Eid'). eauto. }
        destruct Hhd as [x ->]. cbn [hd] in R3.
        unfold nocs_assign in NAa. cbn [a_value] in NAa.
        destruct (p_array_first (p_inner f) f F ltac:(lia) _ _ _ _ Earr NAa) as [AI AL].
        apply (IH _ _ _ _ _ None H); [lia | exact Hn|].
        apply inv_add_assign; [apply (inv_settle _ _ _ _ _ I Hs); intros w X; discriminate|].
        unfold A_ok. cbn [a_value a_name]. exists (t_word t), w0. split; [exact WI|].
        assert (Ha0 : a0 = mkAssign (a_name a0) (Scalar [])).
        { destruct a0. cbn in *. subst. reflexivity. }
        split.
        { rewrite <- (print_assign_of_word _ _ Ea). rewrite Ha0 at 1. unfold print_assign.
          cbn [a_name a_value print_value]. reflexivity. }
        split; [rewrite <- Ha0; exact Ea|]. split; [exact R3|]. split; [exact AI | lia].
Qed.
