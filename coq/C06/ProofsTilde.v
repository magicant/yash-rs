(* C06 — the tilde post-processing of tilde.rs does not change the printed text
   of a word: a tilde expansion stands for the literal units of `~name`. *)
From Yv Require Import Common.Base C06.Ast C06.Print C06.Lex C06.ProofsLen.
Local Open Scope N_scope.

Lemma cat_map_app {A} (f : A -> str) (l1 l2 : list A) :
  cat_map f (l1 ++ l2) = cat_map f l1 ++ cat_map f l2.
Proof.
  induction l1 as [|x l1 IH]; cbn [cat_map app]; [reflexivity|]. rewrite IH, app_assoc. reflexivity.
Qed.

Lemma print_wlits l : cat_map print_wu (wlits l) = l.
Proof.
  induction l as [|c l IH]; [reflexivity|]. cbn [wlits map cat_map print_wu print_tu app]. f_equal. exact IH.
Qed.

Lemma forallb_wlits (P : word_unit -> bool) l :
  (forall c, P (Unquoted (Literal c)) = true) -> forallb P (wlits l) = true.
Proof.
  intros HP. induction l as [|c l IH]; [reflexivity|]. cbn [wlits map forallb]. rewrite HP. exact IH.
Qed.

Lemma tilde_name_firstn colon w n name sl :
  tilde_name colon w = Some (n, name, sl) -> firstn n w = wlits name.
Proof.
  revert n name sl. induction w as [|u w IH]; intros n name sl H; cbn [tilde_name] in H.
  - inv H. reflexivity.
  - destruct u as [[c| | | | | |]| | | |]; try discriminate.
    destruct (c =? 47); [inv H; reflexivity|].
    destruct (colon && (c =? 58)); [inv H; reflexivity|].
    destruct (tilde_name colon w) as [[[n' name'] sl']|] eqn:E; [|discriminate].
    inv H. cbn [firstn wlits map]. f_equal. apply (IH _ _ _ eq_refl).
Qed.

Lemma parse_tilde_split colon w n name sl :
  parse_tilde colon w = Some (n, name, sl) -> w = wlits (c_tilde :: name) ++ skipn n w.
Proof.
  unfold parse_tilde. destruct w as [|[[c| | | | | |]| | | |] w]; try discriminate.
  destruct (c =? c_tilde) eqn:Ec; [|discriminate].
  destruct (tilde_name colon w) as [[[n' name'] sl']|] eqn:E; [|discriminate].
  intros H. inv H. apply N.eqb_eq in Ec. subst c.
  change (wlits (c_tilde :: name)) with (Unquoted (Literal c_tilde) :: wlits name). cbn [skipn app]. f_equal.
  rewrite <- (tilde_name_firstn _ _ _ _ _ E). symmetry. apply firstn_skipn.
Qed.

Lemma print_tilde_front w : print_word (tilde_front w) = print_word w.
Proof.
  unfold tilde_front. destruct (parse_tilde false w) as [[[n name] sl]|] eqn:E; [|reflexivity].
  rewrite (f_equal print_word (parse_tilde_split _ _ _ _ _ E)).
  unfold print_word. rewrite cat_map_app, print_wlits. reflexivity.
Qed.

(* used backwards: the tree holds [tilde_front w], the induction hypotheses
   speak of [w] *)
Lemma tilde_front_forallb (P : word_unit -> bool) w :
  (forall c, P (Unquoted (Literal c)) = true) -> forallb P (tilde_front w) = true -> forallb P w = true.
Proof.
  intros HP. unfold tilde_front.
  destruct (parse_tilde false w) as [[[n name] sl]|] eqn:E; [|exact (fun H => H)].
  intros H. cbn [forallb] in H. apply andb_prop in H.
  rewrite (parse_tilde_split _ _ _ _ _ E), forallb_app, (forallb_wlits _ _ HP). apply H.
Qed.

Lemma skip_to_colon_app w a b : skip_to_colon w = Some (a, b) -> w = a ++ b.
Proof.
  revert a b. induction w as [|u w IH]; intros a b H; cbn [skip_to_colon] in H; [discriminate|].
  destruct u as [[c| | | | | |]| | | |]; try (destruct (c =? 58); [inv H; reflexivity|]);
    (destruct (skip_to_colon w) as [[a' b']|]; [|discriminate]; inv H; cbn [app]; f_equal;
     apply IH; reflexivity).
Qed.

Lemma print_tilde_everywhere fuel w : print_word (tilde_everywhere fuel w) = print_word w.
Proof.
  revert w. induction fuel as [|fuel IH]; intros w; cbn [tilde_everywhere]; [reflexivity|].
  assert (Hc : forall x, print_word match skip_to_colon x with
                                    | Some (a, b) => a ++ tilde_everywhere fuel b
                                    | None => x
                                    end = print_word x).
  { intros x. destruct (skip_to_colon x) as [[a b]|] eqn:E2; [|reflexivity].
    rewrite (skip_to_colon_app _ _ _ E2). unfold print_word in *. rewrite !cat_map_app, IH. reflexivity. }
  destruct (parse_tilde true w) as [[[n name] sl]|] eqn:E; [|apply Hc].
  rewrite (f_equal print_word (parse_tilde_split _ _ _ _ _ E)).
  unfold print_word in *. rewrite cat_map_app, print_wlits. cbn [cat_map print_wu app]. rewrite Hc. reflexivity.
Qed.
