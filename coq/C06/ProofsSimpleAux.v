(* C06 — from the tree back to the tokens: a word of the result without
   `$(...)` comes from a token word without `$(...)` and prints like it
   (assign_of_word, determine_expansion_mode, tilde_everywhere); the result of
   simple_command.rs extends every builder on the way (simple_result), so a
   hypothesis on the result holds of every item; what an answer of redir.rs
   and of array_values tells about the text it was given. *)
From Yv Require Import Common.Base C06.Ast C06.Print C06.Lex C06.LexEq C06.Parse C06.ParseEq
  C06.Spec C06.ProofsLen C06.ProofsTilde C06.ProofsRtBase C06.ProofsToken C06.ProofsInner
  C06.SpecCmd C06.ProofsCmdBase C06.ProofsSimple.
Local Open Scope N_scope.

Lemma nocs_app a b : nocs_word (a ++ b) = nocs_word a && nocs_word b.
Proof. apply forallb_app. Qed.

Lemma nocs_firstn n w : nocs_word w = true -> nocs_word (firstn n w) = true.
Proof.
  intros H. rewrite <- (firstn_skipn n w), nocs_app in H. apply andb_prop in H. tauto.
Qed.

Lemma nocs_skipn n w : nocs_word w = true -> nocs_word (skipn n w) = true.
Proof.
  intros H. rewrite <- (firstn_skipn n w), nocs_app in H. apply andb_prop in H. tauto.
Qed.

Lemma parse_tilde_nocs colon w n name sl :
  parse_tilde colon w = Some (n, name, sl) -> nocs_word (firstn n w) = true.
Proof.
  unfold parse_tilde. destruct w as [|u w']; [discriminate|].
  destruct u as [t| | | |]; try discriminate. destruct t; try discriminate.
  destruct (c =? c_tilde); [|discriminate].
  destruct (tilde_name colon w') as [[[n' name'] sl']|] eqn:E2; [|discriminate]. intros H. inv H.
  cbn [firstn]. unfold nocs_word. cbn [forallb nocs_wu nocs_tu andb]. eapply tilde_name_nocs; eauto.
Qed.

Lemma nocs_tilde_everywhere k w : nocs_word (tilde_everywhere k w) = true -> nocs_word w = true.
Proof.
  revert w. induction k as [|k IH]; intros w; cbn [tilde_everywhere]; [auto|].
  destruct (parse_tilde true w) as [[[n name] sl]|] eqn:E.
  - pose proof (parse_tilde_nocs _ _ _ _ _ E) as Hf.
    intros H. rewrite <- (firstn_skipn n w), nocs_app, Hf. cbn [andb].
    change (nocs_word (Tilde name sl :: ?x)) with (nocs_word x) in H.
    destruct (skip_to_colon (skipn n w)) as [[a b]|] eqn:Es; [|exact H].
    rewrite (skip_to_colon_app _ _ _ Es). rewrite nocs_app in H |- *.
    apply andb_prop in H. destruct H as [H1 H2]. rewrite H1, (IH _ H2). reflexivity.
  - destruct (skip_to_colon w) as [[a b]|] eqn:Es; [|auto].
    intros H. rewrite (skip_to_colon_app _ _ _ Es). rewrite nocs_app in H |- *.
    apply andb_prop in H. destruct H as [H1 H2]. rewrite H1, (IH _ H2). reflexivity.
Qed.

Lemma nocs_expansion_mode W :
  nocs_word (fst (determine_expansion_mode W)) = true -> nocs_word W = true.
Proof.
  unfold determine_expansion_mode. destruct (find_eq W) as [eq|]; [|auto].
  destruct (word_literal (firstn eq W)) as [[|c l]|]; auto.
  cbn [fst]. rewrite nocs_app. intros H. apply andb_prop in H. destruct H as [H1 H2].
  apply nocs_tilde_everywhere in H2.
  rewrite <- (firstn_skipn (S eq) W), nocs_app, H1, H2. reflexivity.
Qed.

Lemma word_literal_nocs w l : word_literal w = Some l -> nocs_word w = true.
Proof.
  revert l. induction w as [|u w IH]; intros l H; [reflexivity|].
  cbn [word_literal] in H. destruct u as [t| | | |]; try discriminate. destruct t; try discriminate.
  destruct (word_literal w) as [l'|]; [|discriminate]. unfold nocs_word. cbn [forallb nocs_wu nocs_tu andb].
  eapply IH; eauto.
Qed.

Lemma assign_of_word_spec W a :
  assign_of_word W = Some a ->
  exists n name, find_eq W = Some (S n) /\ word_literal (firstn (S n) W) = Some name /\
    a = mkAssign name (Scalar (tilde_everywhere (S (length (skipn (S (S n)) W))) (skipn (S (S n)) W))).
Proof.
  unfold assign_of_word. destruct (find_eq W) as [[|n]|]; try discriminate.
  destruct (word_literal (firstn (S n) W)) as [name|] eqn:El; [|discriminate].
  intros H. exists n, name. split; [reflexivity|]. split; [exact El|].
  symmetry. injection H. exact (fun x => x).
Qed.

Lemma find_eq_spec W n : find_eq W = Some n -> exists v, skipn n W = Unquoted (Literal 61) :: v.
Proof.
  revert n. induction W as [|u W IH]; intros n H; cbn [find_eq] in H; [discriminate|].
  destruct u as [t| | | |].
  1: destruct t.
  1: destruct (c =? 61) eqn:Ec; [apply N.eqb_eq in Ec; subst; inv H; cbn [skipn]; eauto|].
  all: destruct (find_eq W) as [k|]; [|discriminate]; inv H; cbn [skipn]; apply IH; reflexivity.
Qed.

Lemma skipn_S_cons {A} n (W : list A) u v : skipn n W = u :: v -> skipn (S n) W = v.
Proof.
  revert W. induction n as [|n IH]; intros W H.
  - cbn [skipn] in H. subst. reflexivity.
  - destruct W as [|x W]; [discriminate|]. cbn [skipn] in H. change (skipn (S (S n)) (x :: W)) with (skipn (S n) W).
    apply IH. exact H.
Qed.

Lemma nocs_assign_of_word W a :
  assign_of_word W = Some a -> nocs_assign a = true -> nocs_word W = true.
Proof.
  intros H. destruct (assign_of_word_spec _ _ H) as (n & name & Ef & El & ->).
  unfold nocs_assign. cbn [a_value]. intros Hn. apply nocs_tilde_everywhere in Hn.
  destruct (find_eq_spec _ _ Ef) as [v Ev].
  rewrite <- (firstn_skipn (S n) W), nocs_app, (word_literal_nocs _ _ El), Ev. cbn [andb].
  rewrite (skipn_S_cons _ _ _ _ Ev) in Hn. exact Hn.
Qed.

Lemma word_literal_print w l : word_literal w = Some l -> print_word w = l.
Proof.
  revert l. induction w as [|u w IH]; intros l H; cbn [word_literal] in H; [inv H; reflexivity|].
  destruct u as [t| | | |]; try discriminate. destruct t; try discriminate.
  destruct (word_literal w) as [l'|]; [|discriminate]. inv H.
  unfold print_word. cbn [cat_map print_wu print_tu app]. f_equal. apply IH. reflexivity.
Qed.

Lemma print_word_app a b : print_word (a ++ b) = print_word a ++ print_word b.
Proof. apply cat_map_app. Qed.

Lemma print_expansion_mode W : print_word (fst (determine_expansion_mode W)) = print_word W.
Proof.
  unfold determine_expansion_mode. destruct (find_eq W) as [eq|]; [|reflexivity].
  destruct (word_literal (firstn eq W)) as [[|c l]|]; try reflexivity.
  cbn [fst]. rewrite print_word_app, print_tilde_everywhere, <- print_word_app, firstn_skipn. reflexivity.
Qed.

Lemma print_assign_of_word W a : assign_of_word W = Some a -> print_assign a = print_word W.
Proof.
  intros H. destruct (assign_of_word_spec _ _ H) as (n & name & Ef & El & ->).
  destruct (find_eq_spec _ _ Ef) as [v Ev].
  unfold print_assign. cbn [a_name a_value print_value]. rewrite print_tilde_everywhere.
  rewrite (skipn_S_cons _ _ _ _ Ev).
  transitivity (print_word (firstn (S n) W ++ skipn (S n) W)); [|rewrite firstn_skipn; reflexivity].
  rewrite print_word_app, Ev, (word_literal_print _ _ El).
  reflexivity.
Qed.

Lemma assign_scalar W a : assign_of_word W = Some a -> exists v, a_value a = Scalar v.
Proof. intros H. destruct (assign_of_word_spec _ _ H) as (n & name & Ef & El & ->). cbn [a_value]. eauto. Qed.

Lemma token_ttoken_ne i f s t r k : lex_token i f s = Ok (t, r) -> t_id t = TToken k -> t_word t <> [].
Proof. intros H Eid X. apply (lex_token_wordless _ _ _ _ _ H) in X. rewrite Eid in X. exact X. Qed.

Lemma lex_token_nil i f t r : lex_token i f [] = Ok (t, r) -> t_id t = TEnd /\ t_word t = [] /\ r = [].
Proof.
  unfold lex_token. cbn [skip_blanks_and_comment length skip_blanks skip_lc lex_operator]. unfold bind.
  destruct f as [|f]; [cbn; discriminate|].
  rewrite lex_units_eq. unfold bind.
  destruct f as [|f]; [cbn; discriminate|].
  rewrite lex_wu_eq. cbn [skip_lc].
  intros H. inv H. auto.
Qed.

Lemma p_redir_nil i f o r : p_redir (lex_token i f) [] = Ok (o, r) -> o = None /\ r = [].
Proof.
  unfold p_redir, bind. destruct (lex_token i f []) as [[t s1]| | | |] eqn:E; try discriminate.
  destruct (lex_token_nil _ _ _ _ E) as (A & B & ->). rewrite A, E, A. intros H. inv H. auto.
Qed.

Lemma p_array_first (i1 : inner_t) f F : (S (S f) <= F)%nat ->
  forall k s ws r,
  p_array (lex_token i1 f) k s = Ok (ws, r) -> forallb nocs_word ws = true ->
  aitems F ws /\ (length ws < k)%nat.
Proof.
  intros HF. induction k as [|k IH]; intros s ws r H Hn; [discriminate|].
  cbn [p_array] in H. unfold bind in H.
  destruct (lex_token i1 f s) as [[t s1]| | | |] eqn:Et; try discriminate.
  destruct (t_id t) as [kw | op | | |] eqn:Eid; try discriminate.
  - destruct (p_array (lex_token i1 f) k s1) as [[ws' s2]| | | |] eqn:Ea; try discriminate.
    inv H. cbn [forallb] in Hn. apply andb_prop in Hn. destruct Hn as [Hn1 Hn2].
    destruct (IH _ _ _ Ea Hn2) as [A B]. split; [|cbn [length]; lia].
    constructor; [|exact A].
    destruct (witem_of i1 f F s t s1 Et (token_ttoken_ne _ _ _ _ _ _ Et Eid) Hn1 HF) as (w0 & WI & _ & _ & L).
    exists w0. split; [exact WI|].
    eapply not_ends_bslash; [exact L|]. intros ->.
    destruct k as [|k']; [discriminate|]. cbn [p_array] in Ea. unfold bind in Ea.
    destruct (lex_token i1 f []) as [[t2 s2']| | | |] eqn:E2; try discriminate.
    destruct (lex_token_nil _ _ _ _ E2) as (X & _). rewrite X in Ea. discriminate.
  - destruct op; try discriminate.
    + destruct (IH _ _ _ H Hn) as [A B]. split; [exact A | lia].
    + inv H. split; [constructor | cbn; lia].
Qed.

(* [b'] holds at least the items of [b]; with [simple_result] a hypothesis on
   the final result reaches every intermediate builder
   (ProofsSimpleFirst.nocs_sub) *)
Definition sub (b b' : builder) : Prop :=
  incl (b_assigns b) (b_assigns b') /\ incl (b_words b) (b_words b') /\ incl (b_redirs b) (b_redirs b').

Lemma sub_refl b : sub b b.
Proof. repeat split; apply incl_refl. Qed.

Lemma sub_trans a b c : sub a b -> sub b c -> sub a c.
Proof. intros (A & B & C) (D & E & G). repeat split; eapply incl_tran; eauto. Qed.

Lemma simple_result f : forall decl b s res r,
  p_simple f decl b s = Ok (Some res, r) ->
  exists b', sub b b' /\ res = (b_result b').
Proof.
  induction f as [|f IH]; intros decl b s res r H; [discriminate|].
  rewrite p_simple_eq in H. cbv zeta in H. unfold bind in H.
  assert (Hfin : forall s', (if builder_is_empty b then Ok (None, s')
                      else Ok (Some (b_result b), s'))
                     = Ok (Some res, r) ->
                 exists b', sub b b' /\ res = (b_result b')).
  { intros s' X. destruct (builder_is_empty b); inv X. exists b. split; [apply sub_refl | reflexivity]. }
  assert (Hrec : forall decl' b1 s', sub b b1 -> p_simple f decl' b1 s' = Ok (Some res, r) ->
                 exists b', sub b b' /\ res = (b_result b')).
  { intros decl' b1 s' Hs X. destruct (IH _ _ _ _ _ X) as (b' & S1 & E). exists b'. split; [|exact E].
    eapply sub_trans; eauto. }
  assert (S1 : forall x, sub b (add_redir b x)).
  { intros x. repeat split; cbn; try apply incl_refl. apply incl_tl, incl_refl. }
  assert (S2 : forall x, sub b (add_word b x)).
  { intros x. repeat split; cbn; try apply incl_refl. apply incl_tl, incl_refl. }
  assert (S3 : forall x, sub b (add_assign b x)).
  { intros x. repeat split; cbn; try apply incl_refl. apply incl_tl, incl_refl. }
  repeat match type of H with
         | context [match ?a with _ => _ end] => destruct a eqn:?; try discriminate
         end;
    try (eapply Hfin; eassumption);
    try (eapply Hrec; [|eassumption]; first [apply S1 | apply S2 | apply S3]).
Qed.

Lemma ionumber_peek i f s t r : lex_token i f s = Ok (t, r) -> t_id t = TIoNumber -> peek_is_redir r = true.
Proof.
  unfold lex_token, bind. destruct (lex_operator (skip_blanks_and_comment s)) as [[op r']|].
  - intros H. inv H. discriminate.
  - destruct (lex_units i f CWord DToken (skip_blanks_and_comment s)) as [[w r']| | | |]; try discriminate.
    intros H. inv H. cbn [t_id]. unfold token_id_of.
    destruct (tilde_front w) as [|u us]; [discriminate|].
    destruct (word_literal (u :: us)) as [l|].
    + destruct (keyword_of l); [discriminate|].
      destruct (forallb is_digit l && peek_is_redir r) eqn:E.
      * apply andb_prop in E. tauto.
      * intros H. repeat (dmh H; try discriminate).
    + intros H. repeat (dmh H; try discriminate).
Qed.

(* the token at `<` or `>` is one of the operators p_redir looks at *)
Lemma peek_redir_token i f r t s3 :
  peek_is_redir r = true -> lex_token i f r = Ok (t, s3) -> exists op, t_id t = TOp op /\ redirish op = true.
Proof.
  unfold peek_is_redir. intros Hp.
  destruct (skip_lc r) as [|c x] eqn:E; [discriminate|].
  assert (Hc : c = 60 \/ c = 62).
  { apply Bool.orb_true_iff in Hp. destruct Hp as [X|X]; apply N.eqb_eq in X; auto. }
  assert (N : nolc (c :: x)) by (destruct Hc; subst; apply nolc_cons; reflexivity).
  assert (Hs : skip_blanks_and_comment r = c :: x).
  { unfold skip_blanks_and_comment. destruct r as [|c0 r0]; [discriminate|].
    cbn [length skip_blanks]. rewrite E.
    unfold skip_comment. destruct Hc; subst; cbn [is_blank]; rewrite N; reflexivity. }
  unfold lex_token. rewrite Hs.
  destruct (lex_operator (c :: x)) as [[op r']|] eqn:Eo.
  - destruct (lex_operator_first c x op r' N Eo) as [y Et].
    intros H. inv H. exists op. split; [reflexivity|].
    destruct op; injection Et as <- _; destruct Hc as [Hc|Hc]; try discriminate Hc; reflexivity.
  - apply (lex_operator_none c x N) in Eo. destruct Hc; subst; discriminate Eo.
Qed.

Lemma p_redir_none i f s s1 : p_redir (lex_token i f) s = Ok (None, s1) -> s1 = s.
Proof.
  unfold p_redir, bind. destruct (lex_token i f s) as [[t s1']| | | |] eqn:E; try discriminate.
  destruct (t_id t) eqn:Eid.
  1,2,5: rewrite E, Eid; intros H; repeat (dmh H; try discriminate); injection H as <-; reflexivity.
  - destruct (fd_of_word (t_word t)); [|discriminate].
    destruct (lex_token i f s1') as [[t' s3]| | | |] eqn:E2; try discriminate.
    destruct (peek_redir_token _ _ _ _ _ (ionumber_peek _ _ _ _ _ E Eid) E2) as (op & Eop & Hr).
    rewrite Eop. intros H. destruct (redir_op_of op) eqn:Er.
    + repeat (dmh H; try discriminate).
    + destruct op; try discriminate Hr; try discriminate Er; discriminate H.
  - discriminate.
Qed.
