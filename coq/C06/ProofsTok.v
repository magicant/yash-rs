(* C06 — the token layer is sound: the operator and word tokens, and the
   token-level loops of the parser. *)
From Yv Require Import Common.Base C06.Ast C06.Lex C06.Parse C06.ParseEq C06.Answers C06.ProofsLen C06.LexSound.
Local Open Scope N_scope.

Lemma skip_blanks_len f s : (len (skip_blanks f s) <= len s)%nat.
Proof.
  revert s. induction f as [|f IH]; intros s; cbn [skip_blanks].
  - apply skip_lc_len.
  - pose proof (skip_lc_len s) as L. destruct (skip_lc s) as [|c s']; [cbn; lia|].
    cbn [length] in L. destruct (is_blank c); [specialize (IH s'); lia | exact L].
Qed.

Lemma drop_line_len s : (len (drop_line s) <= len s)%nat.
Proof.
  induction s as [|c s IH]; cbn [drop_line]; [lia|].
  destruct (c =? c_nl); cbn [length]; lia.
Qed.

Lemma skip_comment_len s : (len (skip_comment s) <= len s)%nat.
Proof.
  unfold skip_comment. pose proof (skip_lc_len s) as L.
  destruct (skip_lc s) as [|c s']; [cbn; lia|]. cbn [length] in L.
  destruct (c =? c_hash); [pose proof (drop_line_len s'); lia | exact L].
Qed.

Lemma skip_blanks_and_comment_len s : (len (skip_blanks_and_comment s) <= len s)%nat.
Proof.
  unfold skip_blanks_and_comment.
  pose proof (skip_comment_len (skip_blanks (len s) s)). pose proof (skip_blanks_len (len s) s). lia.
Qed.

Definition good_k (k : str -> operator * str) : Prop :=
  forall s o r, k s = (o, r) -> (len r <= len s)%nat.

Lemma fin_good o : good_k (fin o).
Proof. intros s o' r H. inv H. lia. Qed.

Lemma alt_good cases dflt :
  Forall (fun p => good_k (snd p)) cases -> good_k (fun s => alt s cases dflt).
Proof.
  intros Hk s o r H. unfold alt in H. pose proof (skip_lc_len s) as L.
  destruct (skip_lc s) as [|c s']; [inv H; cbn; lia|]. cbn [length] in L.
  dmh H.
  - destruct p as [c' k].
    rewrite Forall_forall in Hk.
    match goal with F : find _ _ = Some _ |- _ =>
      apply find_some in F; destruct F as [F _]; apply Hk in F; cbn [snd] in F; apply F in H end.
    lia.
  - inv H. exact L.
Qed.

Lemma lex_operator_len s o r : lex_operator s = Some (o, r) -> (len r < len s)%nat.
Proof.
  unfold lex_operator. pose proof (skip_lc_len s) as L.
  destruct (skip_lc s) as [|c s1]; [discriminate|]. cbn [length] in L. intros H.
  repeat (dmh H; try discriminate); inv H; try lia.
  all: match goal with E : alt ?s ?cases ?d = _ |- _ =>
         apply (alt_good cases d) in E; [lia|] end.
  all: repeat constructor; cbn [snd]; try apply fin_good.
  all: apply alt_good; repeat constructor; cbn [snd]; apply fin_good.
Qed.

Lemma tilde_front_nil w : tilde_front w = [] -> w = [].
Proof.
  unfold tilde_front. destruct (parse_tilde false w) as [[[n name] sl]|]; [discriminate | auto].
Qed.

(* lengths only: [t_at] is no longer than [s], and the rest is shorter than
   [t_at] by at least one character unless the token is [TEnd] *)
Definition tok_ok (s : str) (x : token * str) : Prop :=
  (len (t_at (fst x)) <= len s /\ len (snd x) + width (t_id (fst x)) <= len (t_at (fst x)))%nat.
#[export] Hint Unfold tok_ok : lens.

Lemma width_token_id_of w r : (width (token_id_of (tilde_front w) r) <= took (hd_error w))%nat.
Proof.
  destruct w as [|u w]; [reflexivity|]. cbn [hd_error took].
  destruct (token_id_of _ _); cbn [width]; lia.
Qed.

Lemma lex_token_sound inner F f s :
  (forall s, answers (enough rk_inner F s) (shorter s) (inner s)) ->
  answers ((f <= F)%nat /\ enough rk_units f s) (tok_ok s) (lex_token inner f s).
Proof.
  intros Hi. destruct (lex_sound inner F Hi f) as (_ & _ & _ & _ & _ & _ & Hun).
  unfold lex_token. cbv zeta. pose proof (skip_blanks_and_comment_len s) as L.
  destruct (lex_operator _) as [[op r]|] eqn:Eo.
  - apply lex_operator_len in Eo. cbn [answers]. arith.
  - eapply answers_bind; [apply Hun | arith |]. intros [w r] _ H. cbn [answers].
    pose proof (width_token_id_of w r). arith.
Qed.

(* the token-level loops: each iteration consumes a token, so fuel beyond the
   length of the text is enough *)

Section LoopSound.
  Variable tk : str -> res (token * str).
  Variable F : nat.
  Hypothesis tk_sound : forall s, answers (enough rk_units F s) (tok_ok s) (tk s).
  Hint Resolve tk_sound : sound.

  Lemma skip_newlines_sound f s :
    answers (enough rk_units F s /\ len s + 1 < f)%nat (fun r => len r <= len s)%nat
            (skip_newlines tk f s).
  Proof.
    revert s. induction f as [|f IH]; intros s; [cbn; lia|]. cbn [skip_newlines].
    answers_walk; arith.
  Qed.

  Lemma p_redir_sound s :
    answers (enough rk_units F s) (fun x => len (snd x) + took (fst x) <= len s)%nat
            (p_redir tk s).
  Proof. unfold p_redir. answers_walk; arith. Qed.
  Hint Resolve p_redir_sound : sound.

  Lemma p_redirs_sound f s :
    answers (enough rk_units F s /\ len s + 1 < f)%nat (shorter s) (p_redirs tk f s).
  Proof.
    revert s. induction f as [|f IH]; intros s; [cbn; lia|]. cbn [p_redirs].
    answers_walk; arith.
  Qed.

  Lemma p_array_sound f s :
    answers (enough rk_units F s /\ len s + 1 < f)%nat (fun x => len (snd x) < len s)%nat
            (p_array tk f s).
  Proof.
    revert s. induction f as [|f IH]; intros s; [cbn; lia|]. cbn [p_array].
    answers_walk; arith.
  Qed.
  Hint Resolve p_array_sound : sound.

  Lemma array_value_sound f a s :
    answers (enough rk_units F s /\ len s + 1 < f)%nat (shorter s) (array_value tk f a s).
  Proof. unfold array_value. cbv zeta. answers_walk; arith. Qed.

  Lemma p_for_words_sound f s :
    answers (enough rk_units F s /\ len s + 1 < f)%nat (shorter s) (p_for_words tk f s).
  Proof.
    revert s. induction f as [|f IH]; intros s; [cbn; lia|]. cbn [p_for_words].
    answers_walk; arith.
  Qed.
  Hint Resolve p_for_words_sound : sound.

  Lemma p_for_values_sound f b s :
    answers (enough rk_units F s /\ len s + 2 < f)%nat (shorter s)
            (p_for_values tk f b s).
  Proof.
    revert b s. induction f as [|f IH]; intros b s; [cbn; lia|]. cbn [p_for_values].
    answers_walk; arith.
  Qed.

  Lemma p_patterns_sound f s :
    answers (enough rk_units F s /\ len s + 1 < f)%nat (fun x => len (snd x) < len s)%nat
            (p_patterns tk f s).
  Proof.
    revert s. induction f as [|f IH]; intros s; [cbn; lia|]. cbn [p_patterns].
    answers_walk; arith.
  Qed.
End LoopSound.

#[export] Hint Resolve skip_newlines_sound p_redir_sound p_redirs_sound p_array_sound array_value_sound
  p_for_values_sound p_patterns_sound : sound.
