(* C05 — the property theorems: each is a result of the proof files taken at the
   virtual file system.  The driver compares the statements with [Check] and prints
   the assumptions on every run. *)
From Yv Require Import Common.Base C05.Model C05.Spec C05.ProofsMatch C05.ProofsSearch C05.ProofsFs C05.ProofsOracle.
From Coq Require Import Sorting.Sorted.

(* the pathnames glob finds are exactly the expected ones: one name per component (a literal component stands for its quote-removed text; a pattern component is an entry, other than . and .., of the directory named by the text before it, matched with the leading-period rule), and, when the last component is not a pattern, a pathname that exists (fstatat without following the final link, so a dangling link exists) *)
Theorem glob_exact : forall (t : fs) (cwd : str) (field : list achar) (p : str), In p (glob_paths t cwd field) <-> ExpectedL t cwd field p.
Proof. intros t cwd field p. unfold glob_paths. rewrite in_sort_strs. apply search_expected. Qed.

(* never a nonexistent or non-matching pathname: every result exists (final link not followed) and matches the field component by component *)
Theorem glob_sound : forall (t : fs) (cwd : str) (field : list achar) (p : str), In p (glob_paths t cwd field) -> ExpectedL t cwd field p.
Proof. apply glob_exact. Qed.

(* never omits an existing matching pathname *)
Theorem glob_complete : forall (t : fs) (cwd : str) (field : list achar) (p : str), ExpectedL t cwd field p -> In p (glob_paths t cwd field).
Proof. apply glob_exact. Qed.

(* a dangling symbolic link (following it fails: first conjunct) exists: it is found both when its name is written out and when it is matched; glob.rs file_exists asks fstatat not to follow the link (commit 7d0a5f7 of /repo) *)
Theorem dangling_found_both_ways : fs_stat dangling_tree [] dangling_path = false /\ ExpectedL dangling_tree [] dangling_field dangling_path /\ glob_paths dangling_tree [] dangling_field = [dangling_path] /\ glob_paths dangling_tree [] (soft_field [115; 117; 98; 47; 100; 42]%N) = [dangling_path].
Proof.
  assert (glob_paths dangling_tree [] dangling_field = [dangling_path]) as E by (vm_compute; reflexivity).
  split; [vm_compute; reflexivity|]. split; [|split; [exact E | vm_compute; reflexivity]].
  apply glob_exact. rewrite E. left; reflexivity.
Qed.

(* the result is in strictly increasing code-point (= UTF-8 byte) order, without duplicates *)
Theorem glob_sorted_nodup : forall (t : fs) (cwd : str) (field : list achar), wf_fs t = true -> StronglySorted (fun a b : str => str_ltb a b = true) (glob_paths t cwd field) /\ NoDup (glob_paths t cwd field).
Proof. intros t cwd field Hwf. apply sort_strs_strictly, search_nodup, fs_listing_ok, Hwf. Qed.

(* the i-th name of a result is never . or .. when the i-th component of the field is a pattern (the model's directory listings do contain . and ..) *)
Theorem glob_no_dot_dotdot_from_wildcard : forall (t : fs) (cwd : str) (field : list achar) (p : str) (i : nat), wf_fs t = true -> In p (glob_paths t cwd field) -> is_pat (compile_comp (nth i (split_slash field) [])) = true -> nth i (split_on c_slash p) [] <> s_dot /\ nth i (split_on c_slash p) [] <> s_dotdot.
Proof.
  intros t cwd field p i Hwf Hin. apply (expected_pattern_name (fs_opendir t cwd) (fs_lstat t cwd)).
  - apply fs_listing_ok, Hwf.
  - apply glob_exact, Hin.
Qed.

(* a field all of whose characters are quoting, quoted or from a hard expansion expands to itself with the quotes removed, whatever the tree contains *)
Theorem glob_quoted_literal : forall (t : fs) (cwd : str) (noglob : bool) (field : list achar), (forall c : achar, In c field -> lit_char c) -> (forall c : achar, In c field -> a_quoting c = true -> a_val c <> c_slash) -> glob_model t cwd noglob field = GFields [unquote field].
Proof.
  intros t cwd noglob field Hq Hs. unfold glob_model, glob_paths. destruct noglob; [reflexivity|].
  destruct (search_quoted (fs_opendir t cwd) (fs_lstat t cwd) field Hq Hs) as [-> | ->]; reflexivity.
Qed.

(* a quoted or hard-expansion character is handed to the pattern parser as a literal pattern character *)
Theorem quoted_chars_are_literal : forall (nq : bool) (c : achar) (l : list achar), a_quoting c = false -> a_quoted c = true \/ a_origin c = OHard -> to_pchars nq (c :: l) = Literal (a_val c) :: to_pchars false l.
Proof.
  intros nq c l Hq H. cbn [to_pchars]. rewrite Hq.
  destruct H as [H|H]; rewrite H; cbn [is_hard]; rewrite ?orb_true_r; reflexivity.
Qed.

(* a literal pattern character at the top level of a component is an ordinary character whatever it is (with quoted_chars_are_literal: quoted text never acts as a pattern) *)
Theorem literal_char_is_literal_atom : forall (c : N) (l : list pchar), parse_atoms 0 (Literal c :: l) = AChar c :: parse_atoms 0 l.
Proof. exact parse_literal_head. Qed.

(* a component that is not scanned (no pattern, or an invalid one) stands for its own text with the quotes removed *)
Theorem literal_component_is_text : forall (c : list achar) (l : str), compile_comp c = CLit l -> l = unquote c.
Proof. exact literal_is_text. Qed.

(* with noglob, or when nothing is expected, the result is the field itself with quotes removed; otherwise it is the non-empty list of pathnames *)
Theorem glob_fallback_iff_empty_or_noglob : forall (t : fs) (cwd : str) (field : list achar), glob_model t cwd true field = GFields [unquote field] /\ ((forall p : str, ~ ExpectedL t cwd field p) -> glob_model t cwd false field = GFields [unquote field]) /\ (forall p : str, ExpectedL t cwd field p -> glob_model t cwd false field = GFields (glob_paths t cwd field) /\ In p (glob_paths t cwd field)).
Proof.
  intros t cwd field. unfold glob_model. split; [reflexivity|]. split.
  - intros Hn. destruct (glob_paths t cwd field) as [|x l] eqn:E; [reflexivity|].
    destruct (Hn x). apply glob_exact. rewrite E. left; reflexivity.
  - intros p Hp. apply glob_exact in Hp. split; [|exact Hp].
    destruct (glob_paths t cwd field); [destruct Hp | reflexivity].
Qed.

(* the model's matcher (backtracking, leading-period test of Pattern::is_match) decides the declarative matching relation *)
Theorem pattern_matcher_decides : forall (p : list atom) (name : str), pat_is_match p name = true <-> PMatch p name.
Proof. exact pat_is_match_spec. Qed.

(* so does the oracle's matcher (enumeration of split points) *)
Theorem oracle_matcher_decides : forall (p : list atom) (name : str), pmatchb p name = true <-> PMatch p name.
Proof. exact pmatchb_spec. Qed.

(* character classes, collating symbols and equivalence classes in bracket expressions: [[:digit:]] matches 7 and not a; [[.ab.]x] matches the two characters ab, and x, but not a alone; in a complemented list the element ab is dropped (a list of nothing else matches any character); an undefined class, an empty symbol, a class as range endpoint are not patterns (the component is literal); [[=a=]-c] is the range a-c *)
Theorem bracket_elements_examples : (let pat s := compile_comp (soft_field s) in let m s n := match pat s with CPat p => Some (pat_is_match p n) | CLit _ => None end in m [91; 91; 58; 100; 105; 103; 105; 116; 58; 93; 93] [55] = Some true /\ m [91; 91; 58; 100; 105; 103; 105; 116; 58; 93; 93] [97] = Some false /\ m [91; 91; 46; 97; 98; 46; 93; 120; 93] [97; 98] = Some true /\ m [91; 91; 46; 97; 98; 46; 93; 120; 93] [120] = Some true /\ m [91; 91; 46; 97; 98; 46; 93; 120; 93] [97] = Some false /\ m [91; 33; 91; 46; 97; 98; 46; 93; 120; 93] [97] = Some true /\ m [91; 33; 91; 46; 97; 98; 46; 93; 93] [97] = Some true /\ m [91; 91; 58; 102; 111; 111; 58; 93; 93] [97] = None /\ m [91; 91; 46; 46; 93; 93] [97] = None /\ m [91; 97; 45; 91; 58; 97; 108; 112; 104; 97; 58; 93; 93] [97] = None /\ m [91; 91; 61; 97; 61; 93; 45; 99; 93] [98] = Some true /\ m [91; 91; 61; 97; 61; 93; 45; 99; 93] [100] = Some false)%N.
Proof. vm_compute. repeat split. Qed.

(* the oracle's generate-and-test enumeration yields exactly the expected pathnames *)
Theorem oracle_enumeration_exact : forall (t : fs) (cwd : str) (field : list achar) (p : str), In p (spec_paths (fs_opendir t cwd) (fs_lstat t cwd) (fs_universe t) field) <-> ExpectedL t cwd field p.
Proof. intros t cwd. apply spec_paths_correct, fs_universe_covers. Qed.

(* oracle soundness: the run-time oracle accepts the model's output on every well-formed tree and every field (it asks no more than the theorems give) *)
Theorem oracle_accepts_model : forall (t : fs) (cwd : str) (noglob : bool) (field : list achar), wf_fs t = true -> fs_oracle t cwd noglob field (glob_model t cwd noglob field) = None.
Proof.
  intros t cwd noglob field Hwf. apply oracle_accepts.
  - apply fs_universe_covers.
  - apply glob_exact.
  - apply glob_sorted_nodup, Hwf.
Qed.

(* The hypotheses of the theorems above can be met: instances on a small tree (sub/, sub/a, sub/.a, a). *)
Definition ex_tree : fs :=
  [([[115; 117; 98]%N], KDir true); ([[115; 117; 98]%N; [97]%N], KFile);
   ([[115; 117; 98]%N; [46; 97]%N], KFile); ([[97]%N], KFile)].

Example ex_tree_wf : wf_fs ex_tree = true /\ wf_fs dangling_tree = true.
Proof. split; vm_compute; reflexivity. Qed.

(* glob_complete / glob_fallback_iff_empty_or_noglob / oracle_accepts_model: an expected pathname, last component literal *)
Example ex_expected :
  ExpectedL ex_tree [] (soft_field [42; 47; 97]%N) [115; 117; 98; 47; 97]%N
  /\ fs_lstat ex_tree [] [115; 117; 98; 47; 97]%N = true.
Proof.
  split; [apply oracle_enumeration_exact; vm_compute; left; reflexivity | vm_compute; reflexivity].
Qed.

(* glob_no_dot_dotdot_from_wildcard: `.*` is a pattern that matches the entries . and .. of the listing *)
Example ex_dot_pattern :
  is_pat (compile_comp (nth 1 (split_slash (soft_field [115; 117; 98; 47; 46; 42]%N)) [])) = true
  /\ pat_is_match [AChar c_dot; AStar] s_dotdot = true
  /\ glob_paths ex_tree [] (soft_field [115; 117; 98; 47; 46; 42]%N) = [[115; 117; 98; 47; 46; 97]%N].
Proof. repeat split; vm_compute; reflexivity. Qed.

(* glob_quoted_literal: '*/a' with a tree in which */a would match sub/a *)
Example ex_quoted :
  let f := [AC 39 OLiteral false true; AC 42 OLiteral true false; AC 47 OLiteral true false;
            AC 97 OLiteral true false; AC 39 OLiteral false true]%N in
  (forall c, In c f -> lit_char c) /\ (forall c, In c f -> a_quoting c = true -> a_val c <> c_slash)
  /\ glob_paths ex_tree [] (soft_field [42; 47; 97]%N) = [[115; 117; 98; 47; 97]%N]
  /\ glob_model ex_tree [] false f = GFields [[42; 47; 97]%N].
Proof.
  cbn zeta. split; [|split; [|split; vm_compute; reflexivity]].
  - intros c [<-|[<-|[<-|[<-|[<-|[]]]]]]; unfold lit_char; cbn; auto.
  - intros c [<-|[<-|[<-|[<-|[<-|[]]]]]]; cbn; intros; try discriminate.
Qed.

Print Assumptions glob_exact.
Print Assumptions glob_sound.
Print Assumptions glob_complete.
Print Assumptions dangling_found_both_ways.
Print Assumptions glob_sorted_nodup.
Print Assumptions glob_no_dot_dotdot_from_wildcard.
Print Assumptions glob_quoted_literal.
Print Assumptions quoted_chars_are_literal.
Print Assumptions literal_char_is_literal_atom.
Print Assumptions literal_component_is_text.
Print Assumptions glob_fallback_iff_empty_or_noglob.
Print Assumptions pattern_matcher_decides.
Print Assumptions oracle_matcher_decides.
Print Assumptions bracket_elements_examples.
Print Assumptions oracle_enumeration_exact.
Print Assumptions oracle_accepts_model.
