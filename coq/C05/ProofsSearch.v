(* C05 — for any behaviour of the two system calls: the directory search finds exactly
   the expected pathnames, and finds none twice if no listing has a duplicate or a
   name with a slash; an expected pathname splits back into its names, so none at a
   pattern position is `.` or `..`; a field of literal characters is found without a
   scan.  Insertion sort by [str_ltb] of a list without duplicates is strictly
   increasing. *)
From Yv Require Import Common.Base C05.Model C05.Spec C05.ProofsMatch.
From Coq Require Import Sorting.Sorted.

Local Open Scope N_scope.

Lemma str_eqb_refl s : str_eqb s s = true.
Proof. apply str_eqb_eq. reflexivity. Qed.

Lemma str_eqb_neq a b : str_eqb a b = false <-> a <> b.
Proof.
  split.
  - intros H E. apply str_eqb_eq in E. congruence.
  - intros H. destruct (str_eqb a b) eqn:E; [|reflexivity]. apply str_eqb_eq in E. contradiction.
Qed.

(* [split_slash] as a relation: a slash opens a new, empty component in front of
   the others; any other character joins the first component of what follows
   (there always is one, so the last branch of the definition is never taken) *)
Inductive Split : list achar -> list (list achar) -> Prop :=
| Split_nil : Split [] [[]]
| Split_slash c l cur rest :
    a_val c = c_slash -> Split l (cur :: rest) -> Split (c :: l) ([] :: cur :: rest)
| Split_char c l cur rest :
    a_val c <> c_slash -> Split l (cur :: rest) -> Split (c :: l) ((c :: cur) :: rest).

Lemma split_slash_graph l : Split l (split_slash l).
Proof.
  induction l as [|c l IH]; cbn [split_slash]; [constructor|].
  destruct (split_slash l) as [|cur rest]; [inversion IH|].
  destruct (N.eqb_spec (a_val c) c_slash); constructor; assumption.
Qed.

Lemma split_slash_nonempty l : split_slash l <> [].
Proof. destruct (split_slash_graph l); discriminate. Qed.

Lemma split_slash_chars field : forall comp x,
  In comp (split_slash field) -> In x comp -> In x field /\ a_val x <> c_slash.
Proof.
  induction (split_slash_graph field) as [|c l cur rest _ _ IH|c l cur rest E _ IH];
    intros comp x [<-|Hc] Hx.
  - destruct Hx.
  - destruct Hc.
  - destruct Hx.
  - destruct (IH _ _ Hc Hx). split; [right|]; assumption.
  - destruct Hx as [<-|Hx]; [split; [left; reflexivity | exact E]|].
    destruct (IH cur x (or_introl eq_refl) Hx). split; [right|]; assumption.
  - destruct (IH comp x (or_intror Hc) Hx). split; [right|]; assumption.
Qed.

Lemma unquote_cons c l :
  unquote (c :: l) = if a_quoting c then unquote l else a_val c :: unquote l.
Proof. unfold unquote. cbn [filter]. destruct (a_quoting c); reflexivity. Qed.

Lemma unquote_no_slash c :
  (forall x, In x c -> a_val x <> c_slash) -> ~ In c_slash (unquote c).
Proof.
  unfold unquote. intros H Hin. apply in_map_iff in Hin as (x & Hx & Hin).
  apply filter_In in Hin as [Hin _]. exact (H x Hin Hx).
Qed.

Lemma join_cons n n2 ns : join (n :: n2 :: ns) = n ++ c_slash :: join (n2 :: ns).
Proof. reflexivity. Qed.

Lemma join_app_head x y r : join ((x ++ y) :: r) = x ++ join (y :: r).
Proof.
  destruct r as [|z r]; cbn [join]; [reflexivity|]. rewrite <- app_assoc. reflexivity.
Qed.

(* [split_slash] looks at values only: a quoting character of value `/` would
   split the field and be dropped by [unquote]; hence the hypothesis (quoting
   characters are quotation marks and backslashes) *)
Lemma join_unquote_split field :
  (forall c, In c field -> a_quoting c = true -> a_val c <> c_slash) ->
  join (map unquote (split_slash field)) = unquote field.
Proof.
  induction (split_slash_graph field) as [|c l cur rest E _ IH|c l cur rest _ _ IH]; intros H.
  - reflexivity.
  - cbn [map]. rewrite join_cons, unquote_cons, <- IH by (intros y Hy; apply H; right; exact Hy).
    destruct (a_quoting c) eqn:Q; [destruct (H c (or_introl eq_refl) Q E)|]. rewrite E. reflexivity.
  - cbn [map]. rewrite !unquote_cons, <- IH by (intros y Hy; apply H; right; exact Hy).
    destruct (a_quoting c); [reflexivity | apply (join_app_head [a_val c])].
Qed.

Lemma to_pchars_vals nq l : map pc_val (to_pchars nq l) = unquote l.
Proof.
  revert nq. induction l as [|c l IH]; intros nq; [reflexivity|].
  rewrite unquote_cons. cbn [to_pchars]. destruct (a_quoting c); [apply IH|].
  destruct (nq || a_quoted c || is_hard (a_origin c)); cbn [map pc_val]; rewrite IH; reflexivity.
Qed.

Lemma is_normal_eq pc c : is_normal pc c = true -> pc = Normal c.
Proof. destruct pc; cbn; [intros H; apply N.eqb_eq in H; subst; reflexivity | discriminate]. Qed.

Lemma parse_literal_text : forall l s,
  to_literal (parse_atoms 0 l) = Some s -> s = map pc_val l.
Proof.
  induction l as [|pc l IH]; intros s Hl; cbn [parse_atoms] in Hl.
  - cbn in Hl. injection Hl as <-. reflexivity.
  - (* an unclosed `[` is the character `[`: the head is the character of [pc] either way *)
    assert (Hc : to_literal (AChar (pc_val pc) :: parse_atoms 0 l) = Some s).
    { destruct (is_normal pc c_qm); [discriminate|]. destruct (is_normal pc c_star); [discriminate|].
      destruct (is_normal pc c_lbr) eqn:El; [|exact Hl]. apply is_normal_eq in El. subst pc.
      destruct (bracket_loop false [] false 0 0 l); [discriminate | exact Hl]. }
    cbn [to_literal] in Hc. destruct (to_literal (parse_atoms 0 l)) as [s'|]; [|discriminate].
    injection Hc as <-. cbn [map]. f_equal. apply IH. reflexivity.
Qed.

Lemma literal_is_text c l : compile_comp c = CLit l -> l = unquote c.
Proof.
  unfold compile_comp.
  destruct (to_literal (parse_atoms 0 (to_pchars false c))) as [s|] eqn:Es.
  - intros H. injection H as <-. rewrite <- (to_pchars_vals false c). apply parse_literal_text. exact Es.
  - destruct (existsb atom_invalid _); [intros H; injection H as <-; reflexivity | discriminate].
Qed.

Lemma to_pchars_lit nq c :
  (forall x, In x c -> lit_char x) -> to_pchars nq c = map Literal (unquote c).
Proof.
  revert nq. induction c as [|x c IH]; intros nq H; [reflexivity|].
  specialize (IH false (fun y Hy => H y (or_intror Hy))).
  rewrite unquote_cons. cbn [to_pchars]. destruct (a_quoting x) eqn:Eq; [exact IH|].
  destruct (H x (or_introl eq_refl)) as [Hq|[Hq|Hq]]; [congruence| |];
    rewrite Hq; cbn [is_hard]; rewrite orb_true_r; cbn [orb map]; rewrite IH; reflexivity.
Qed.

Lemma parse_literal_head c l :
  parse_atoms 0 (Literal c :: l) = AChar c :: parse_atoms 0 l.
Proof. reflexivity. Qed.

Lemma parse_literals s : parse_atoms 0 (map Literal s) = map AChar s.
Proof.
  induction s as [|c s IH]; [reflexivity|]. cbn [map]. rewrite parse_literal_head, IH. reflexivity.
Qed.

Lemma to_literal_chars s : to_literal (map AChar s) = Some s.
Proof. induction s as [|c s IH]; [reflexivity|]. cbn [map to_literal]. rewrite IH. reflexivity. Qed.

Lemma quoted_comp_literal c :
  (forall x, In x c -> lit_char x) -> compile_comp c = CLit (unquote c).
Proof.
  intros H. unfold compile_comp. rewrite (to_pchars_lit false c H), parse_literals, to_literal_chars.
  reflexivity.
Qed.

Section Search.
  Variable opendir : str -> option (list str).
  Variable ex : str -> bool.

  Lemma scan_ok_spec pat name :
    scan_ok pat name = true <-> name <> s_dot /\ name <> s_dotdot /\ PMatch pat name.
  Proof.
    unfold scan_ok. rewrite !andb_true_iff, !negb_true_iff, !str_eqb_neq, pat_is_match_spec. tauto.
  Qed.

  (* the local [push] of [Model.search], its [file_exists] flag read off the
     component: a name that comes out of a scan is not looked up again *)
  Definition push (prefix : str) (c : list achar) (rest : list (list achar)) (name : str)
    : list str :=
    match rest with
    | [] => if is_pat (compile_comp c) || ex (prefix ++ name) then [prefix ++ name] else []
    | _ :: _ => search opendir ex ((prefix ++ name) ++ [c_slash]) rest
    end.

  Lemma search_step prefix c rest p :
    In p (search opendir ex prefix (c :: rest)) <->
    exists name, comp_ok opendir prefix c name /\ In p (push prefix c rest name).
  Proof.
    unfold push, comp_ok. cbn [search].
    destruct (compile_comp c) as [l|pat] eqn:Ec; cbn [is_pat orb].
    - split.
      + intros H. exists l. split; [reflexivity|]. destruct rest; exact H.
      + intros (name & -> & H). destruct rest; exact H.
    - destruct (opendir (dir_of prefix)) as [ents|] eqn:Eo.
      + rewrite in_flat_map. split.
        * intros (name & Hin & H). destruct (scan_ok pat name) eqn:Es; [|destruct H].
          apply scan_ok_spec in Es. exists name. split.
          -- split; [exists ents; auto | exact Es].
          -- destruct rest; exact H.
        * intros (name & ((ents' & Ee & Hin) & Hs) & H).
          injection Ee as <-. exists name. split; [exact Hin|].
          apply scan_ok_spec in Hs. rewrite Hs. destruct rest; exact H.
      + split; [intros [] | intros (name & ((ents' & Ee & _) & _) & _); discriminate].
  Qed.

  Lemma prefix_of_0 names : prefix_of names 0 = [].
  Proof. reflexivity. Qed.

  Lemma prefix_of_S n ns i : prefix_of (n :: ns) (S i) = (n ++ [c_slash]) ++ prefix_of ns i.
  Proof. reflexivity. Qed.

  (* [Expected], for a search that has already put [prefix] in front *)
  Definition pointwise (prefix : str) (comps : list (list achar)) (names : list str) (p : str)
    : Prop :=
    length names = length comps /\
    p = prefix ++ join names /\
    (forall i, (i < length comps)%nat ->
               comp_ok opendir (prefix ++ prefix_of names i) (nth i comps []) (nth i names [])) /\
    (last_is_pat comps = false -> ex p = true).

  Lemma pointwise_one prefix c names p :
    pointwise prefix [c] names p <->
    exists n, names = [n] /\ comp_ok opendir prefix c n /\ p = prefix ++ n /\
              (is_pat (compile_comp c) = false -> ex p = true).
  Proof.
    unfold pointwise. split.
    - intros (L & -> & A & E). destruct names as [|n [|? ?]]; try discriminate. exists n.
      specialize (A 0%nat (Nat.lt_0_succ 0)). rewrite prefix_of_0, app_nil_r in A. auto.
    - intros (n & -> & Hc & -> & E). repeat split; [|exact E].
      intros [|i] Hi; [|cbn in Hi; lia]. rewrite prefix_of_0, app_nil_r. exact Hc.
  Qed.

  (* the first name is chosen against [prefix]; the others see it, and a slash, in front of them *)
  Lemma pointwise_cons prefix c c2 rest n ns p :
    pointwise prefix (c :: c2 :: rest) (n :: ns) p <->
    comp_ok opendir prefix c n /\ pointwise ((prefix ++ n) ++ [c_slash]) (c2 :: rest) ns p.
  Proof.
    assert (forall i, prefix ++ prefix_of (n :: ns) (S i)
                      = ((prefix ++ n) ++ [c_slash]) ++ prefix_of ns i) as Epre
      by (intros i; rewrite prefix_of_S, <- !app_assoc; reflexivity).
    unfold pointwise. change (last_is_pat (c :: c2 :: rest)) with (last_is_pat (c2 :: rest)).
    destruct ns as [|n2 ns]; [split; [intros (L & _) | intros (_ & L & _)]; discriminate|].
    replace (prefix ++ join (n :: n2 :: ns)) with (((prefix ++ n) ++ [c_slash]) ++ join (n2 :: ns))
      by (rewrite join_cons, <- !app_assoc; reflexivity).
    cbn [length]. split.
    - intros (L & Hp & A & E). repeat split; [|lia|exact Hp| |exact E].
      + specialize (A 0%nat (Nat.lt_0_succ _)). rewrite prefix_of_0, app_nil_r in A. exact A.
      + intros i Hi. rewrite <- Epre. apply (A (S i)). lia.
    - intros (Hc & L & Hp & A & E). repeat split; [lia|exact Hp| |exact E].
      intros [|i] Hi.
      + rewrite prefix_of_0, app_nil_r. exact Hc.
      + rewrite Epre. apply A. lia.
  Qed.

  Lemma search_pointwise : forall rest c prefix p,
    In p (search opendir ex prefix (c :: rest)) <->
    exists names, pointwise prefix (c :: rest) names p.
  Proof.
    induction rest as [|c2 rest IH]; intros c prefix p; rewrite search_step; unfold push.
    - split.
      + intros (n & Hc & H). exists [n]. apply pointwise_one. exists n.
        destruct (is_pat (compile_comp c) || ex (prefix ++ n)) eqn:E; [|destruct H].
        destruct H as [<-|[]]. repeat split; [exact Hc|]. intros Hp. rewrite Hp in E. exact E.
      + intros (names & H). apply pointwise_one in H as (n & -> & Hc & -> & Hex).
        exists n. split; [exact Hc|].
        destruct (is_pat (compile_comp c)); cbn [orb]; [|rewrite (Hex eq_refl)]; left; reflexivity.
    - split.
      + intros (n & Hc & H). apply IH in H as (ns & H). exists (n :: ns). apply pointwise_cons. auto.
      + intros ([|n ns] & H); [destruct H; discriminate|]. apply pointwise_cons in H as (Hc & H).
        exists n. split; [exact Hc|]. apply IH. exists ns. exact H.
  Qed.

  Theorem search_expected field p :
    In p (search opendir ex [] (split_slash field)) <-> Expected opendir ex field p.
  Proof.
    destruct (split_slash field) as [|c rest] eqn:E; [destruct (split_slash_nonempty field E)|].
    unfold Expected. rewrite E. exact (search_pointwise rest c [] p).
  Qed.

  (* what [search_nodup] and [expected_pattern_name] need of opendir;
     [ProofsFs.fs_listing_ok] gives it for a well-formed tree *)
  Definition listing_ok : Prop :=
    forall d ents, opendir d = Some ents ->
                   NoDup ents /\ (forall n, In n ents -> ~ In c_slash n).

  Lemma search_has_prefix : forall comps prefix p,
    In p (search opendir ex prefix comps) -> exists q, p = prefix ++ q.
  Proof.
    induction comps as [|c rest IH]; intros prefix p H; [destruct H|].
    apply search_step in H as (name & _ & H). unfold push in H. destruct rest.
    - destruct (_ || _); [|destruct H]. destruct H as [<-|[]]. eauto.
    - apply IH in H as (q & ->). exists (name ++ [c_slash] ++ q). rewrite <- !app_assoc. reflexivity.
  Qed.

  Lemma app_slash_inj : forall (a b x y : str),
    ~ In c_slash a -> ~ In c_slash b -> a ++ c_slash :: x = b ++ c_slash :: y -> a = b.
  Proof.
    induction a as [|h a IH]; intros [|k b] x y Ha Hb E; cbn in E.
    - reflexivity.
    - injection E as E _. exfalso. apply Hb. left. auto.
    - injection E as E _. exfalso. apply Ha. left. auto.
    - injection E as -> E. f_equal. eapply IH; eauto; intros H; [apply Ha | apply Hb]; right; exact H.
  Qed.

  Lemma NoDup_app_disjoint {A} (l1 l2 : list A) :
    NoDup l1 -> NoDup l2 -> (forall x, In x l1 -> ~ In x l2) -> NoDup (l1 ++ l2).
  Proof.
    induction l1 as [|a l1 IH]; intros H1 H2 Hd; cbn [app]; [exact H2|].
    inversion H1 as [|? ? Hna H1']; subst. constructor.
    - rewrite in_app_iff. intros [H|H]; [contradiction | exact (Hd a (or_introl eq_refl) H)].
    - apply IH; auto. intros x Hx. apply Hd. right. exact Hx.
  Qed.

  Lemma NoDup_flat_map {A B} (f : A -> list B) (l : list A) :
    NoDup l -> (forall x, In x l -> NoDup (f x)) ->
    (forall x y, In x l -> In y l -> x <> y -> forall z, In z (f x) -> ~ In z (f y)) ->
    NoDup (flat_map f l).
  Proof.
    induction l as [|a l IH]; intros Hl Hf Hd; cbn [flat_map]; [constructor|].
    inversion Hl as [|? ? Hna Hl']; subst.
    apply NoDup_app_disjoint.
    - apply Hf. left; reflexivity.
    - apply IH; auto.
      + intros x Hx. apply Hf. right; exact Hx.
      + intros x y Hx Hy. apply Hd; right; assumption.
    - intros z Hz Hin. apply in_flat_map in Hin as (y & Hy & Hzy).
      apply (Hd a y (or_introl eq_refl) (or_intror Hy)) with (z := z); auto.
      intros ->. contradiction.
  Qed.

  Lemma search_nodup :
    listing_ok -> forall comps prefix, NoDup (search opendir ex prefix comps).
  Proof.
    intros Hok. induction comps as [|c rest IH]; intros prefix; [constructor|].
    cbn [search]. destruct (compile_comp c) as [l|pat].
    - destruct rest; [|apply IH]. destruct (false || ex (prefix ++ l)); repeat constructor. intros [].
    - destruct (opendir (dir_of prefix)) as [ents|] eqn:Eo; [|constructor].
      destruct (Hok _ _ Eo) as [Hnd Hsl].
      apply NoDup_flat_map; [exact Hnd| |].
      + intros name _. destruct (scan_ok pat name); [|constructor].
        destruct rest; [repeat constructor; intros [] | apply IH].
      + intros x y Hx Hy Hne z Hzx Hzy.
        destruct (scan_ok pat x); [|destruct Hzx]. destruct (scan_ok pat y); [|destruct Hzy].
        destruct rest.
        * cbn [orb] in Hzx, Hzy. destruct Hzx as [<-|[]]. destruct Hzy as [E|[]].
          apply app_inv_head in E. congruence.
        * (* what is found below [x] starts with x/, below [y] with y/, and neither name has a slash *)
          apply search_has_prefix in Hzx as (q1 & ->). apply search_has_prefix in Hzy as (q2 & E).
          rewrite <- !app_assoc in E. apply app_inv_head in E. cbn [app] in E.
          apply app_slash_inj in E; [congruence | apply Hsl; exact Hx | apply Hsl; exact Hy].
  Qed.
End Search.

Lemma split_on_noslash d s : ~ In d s -> split_on d s = [s].
Proof.
  induction s as [|c s IH]; intros H; cbn [split_on]; [reflexivity|].
  destruct (N.eqb c d) eqn:E.
  - apply N.eqb_eq in E. subst. exfalso. apply H. left; reflexivity.
  - rewrite IH; [reflexivity|]. intros Hin. apply H. right; exact Hin.
Qed.

Lemma split_on_app d a b : ~ In d a -> split_on d (a ++ d :: b) = a :: split_on d b.
Proof.
  induction a as [|c a IH]; intros H; cbn [app split_on].
  - rewrite N.eqb_refl. reflexivity.
  - destruct (N.eqb c d) eqn:E.
    + apply N.eqb_eq in E. subst. exfalso. apply H. left; reflexivity.
    + rewrite IH; [reflexivity|]. intros Hin. apply H. right; exact Hin.
Qed.

Lemma split_join names :
  names <> [] -> Forall (fun n => ~ In c_slash n) names -> split_on c_slash (join names) = names.
Proof.
  induction names as [|n ns IH]; intros Hne Hf; [contradiction|].
  inversion Hf as [|? ? Hn Hns]; subst. destruct ns as [|n2 ns].
  - cbn [join]. apply split_on_noslash. exact Hn.
  - rewrite join_cons, split_on_app by exact Hn. f_equal. apply IH; [discriminate | exact Hns].
Qed.

Lemma expected_names_noslash od field names :
  listing_ok od ->
  length names = length (split_slash field) ->
  (forall i, (i < length (split_slash field))%nat ->
             comp_ok od (prefix_of names i) (nth i (split_slash field) []) (nth i names [])) ->
  Forall (fun n => ~ In c_slash n) names.
Proof.
  intros Hok L A. apply (Forall_nth (A:=str)). intros i d Hi. rewrite (nth_indep _ d [] Hi).
  rewrite L in Hi. specialize (A i Hi). unfold comp_ok in A.
  destruct (compile_comp (nth i (split_slash field) [])) as [l|pat] eqn:Ec.
  - rewrite A. apply literal_is_text in Ec. subst l. apply unquote_no_slash.
    intros x Hx. exact (proj2 (split_slash_chars field _ x (nth_In _ _ Hi) Hx)).
  - destruct A as ((ents & Ho & Hin) & _). destruct (Hok _ _ Ho) as [_ Hs]. apply Hs. exact Hin.
Qed.

(* [p] is the join of names without a slash (a scanned name by [listing_ok], a
   literal one because [split_slash] left none), so splitting [p] gives the names back *)
Theorem expected_pattern_name od ex field p i :
  listing_ok od -> Expected od ex field p ->
  is_pat (compile_comp (nth i (split_slash field) [])) = true ->
  nth i (split_on c_slash p) [] <> s_dot /\ nth i (split_on c_slash p) [] <> s_dotdot.
Proof.
  intros Hok (names & L & -> & A & _) Hp.
  assert (i < length (split_slash field))%nat as Hi.
  { destruct (Nat.lt_ge_cases i (length (split_slash field))) as [H|H]; [exact H|].
    rewrite nth_overflow in Hp by exact H. discriminate. }
  rewrite split_join.
  - specialize (A i Hi). unfold comp_ok in A.
    destruct (compile_comp (nth i (split_slash field) [])); [discriminate | tauto].
  - intros ->. apply (split_slash_nonempty field), length_zero_iff_nil. symmetry. exact L.
  - exact (expected_names_noslash od field names Hok L A).
Qed.

Lemma search_all_literal od ex : forall comps prefix,
  (forall c, In c comps -> compile_comp c = CLit (unquote c)) ->
  search od ex prefix comps = [] \/
  search od ex prefix comps = [prefix ++ join (map unquote comps)].
Proof.
  induction comps as [|c rest IH]; intros prefix H; [left; reflexivity|].
  cbn [search]. rewrite (H c (or_introl eq_refl)).
  destruct rest as [|c2 rest].
  - cbn [map join]. destruct (false || ex (prefix ++ unquote c)); [right | left]; reflexivity.
  - destruct (IH ((prefix ++ unquote c) ++ [c_slash]) (fun x Hx => H x (or_intror Hx))) as [E|E];
      rewrite E; [left; reflexivity|right].
    cbn [map]. rewrite join_cons. rewrite <- !app_assoc. reflexivity.
Qed.

Theorem search_quoted od ex field :
  (forall c, In c field -> lit_char c) ->
  (forall c, In c field -> a_quoting c = true -> a_val c <> c_slash) ->
  search od ex [] (split_slash field) = [] \/ search od ex [] (split_slash field) = [unquote field].
Proof.
  intros Hq Hs. rewrite <- (join_unquote_split field Hs). apply (search_all_literal od ex _ []).
  intros c Hc. apply quoted_comp_literal. intros x Hx. apply Hq. exact (proj1 (split_slash_chars _ _ _ Hc Hx)).
Qed.

Definition slt (a b : str) : Prop := str_ltb a b = true.

Lemma str_ltb_irrefl a : str_ltb a a = false.
Proof.
  induction a as [|x a IH]; cbn [str_ltb]; [reflexivity|].
  rewrite N.ltb_irrefl, N.eqb_refl, IH. reflexivity.
Qed.

Lemma str_ltb_trans : forall a b c, str_ltb a b = true -> str_ltb b c = true -> str_ltb a c = true.
Proof.
  induction a as [|x a IH]; intros [|y b] [|z c] H1 H2; cbn [str_ltb] in *; try discriminate; auto.
  apply orb_true_iff in H1. apply orb_true_iff in H2. apply orb_true_iff.
  destruct H1 as [H1|H1]; destruct H2 as [H2|H2].
  - left. apply N.ltb_lt in H1, H2. apply N.ltb_lt. lia.
  - apply andb_true_iff in H2 as [E _]. apply N.eqb_eq in E. subst. auto.
  - apply andb_true_iff in H1 as [E _]. apply N.eqb_eq in E. subst. auto.
  - apply andb_true_iff in H1 as [E1 H1]. apply andb_true_iff in H2 as [E2 H2].
    apply N.eqb_eq in E1, E2. subst. right. rewrite N.eqb_refl. cbn. eapply IH; eauto.
Qed.

Lemma str_ltb_total : forall a b, str_ltb a b = false -> str_ltb b a = false -> a = b.
Proof.
  induction a as [|x a IH]; intros [|y b] H1 H2; cbn [str_ltb] in *; try discriminate; auto.
  apply orb_false_iff in H1 as [L1 A1]. apply orb_false_iff in H2 as [L2 A2].
  apply N.ltb_ge in L1, L2. assert (x = y) by lia. subst y.
  rewrite N.eqb_refl in A1, A2. cbn in A1, A2. f_equal. auto.
Qed.

Lemma in_insert_sorted x y l : In y (insert_sorted x l) <-> y = x \/ In y l.
Proof.
  induction l as [|z l IH]; cbn [insert_sorted].
  - cbn. intuition.
  - destruct (str_ltb z x); cbn [In]; [rewrite IH|]; intuition.
Qed.

Lemma in_sort_strs y l : In y (sort_strs l) <-> In y l.
Proof.
  induction l as [|x l IH]; cbn [sort_strs fold_right]; [tauto|].
  fold (sort_strs l). rewrite in_insert_sorted, IH. cbn. intuition.
Qed.

(* an element below [x] stays below everything after the insertion; where [x]
   stops, it is below the element it stops at (the order is total) and so, by
   transitivity, below the rest *)
Lemma insert_sorted_sorted x l :
  StronglySorted slt l -> ~ In x l -> StronglySorted slt (insert_sorted x l).
Proof.
  induction l as [|z l IH]; intros Hs Hn; cbn [insert_sorted].
  - repeat constructor.
  - inversion Hs as [|? ? Hs' Hz]; subst. destruct (str_ltb z x) eqn:E.
    + constructor; [apply IH; [exact Hs' | intros H; apply Hn; right; exact H]|].
      rewrite Forall_forall in *. intros y Hy.
      apply in_insert_sorted in Hy as [->|Hy]; [exact E | exact (Hz y Hy)].
    + assert (Hxz : slt x z).
      { unfold slt. destruct (str_ltb x z) eqn:E2; [reflexivity|]. exfalso. apply Hn. left.
        symmetry. apply str_ltb_total; assumption. }
      constructor; [exact Hs|]. constructor; [exact Hxz|].
      eapply Forall_impl; [|exact Hz]. intros y Hzy. exact (str_ltb_trans _ _ _ Hxz Hzy).
Qed.

Lemma sort_strs_sorted l : NoDup l -> StronglySorted slt (sort_strs l).
Proof.
  induction 1 as [|x l Hn _ IH]; cbn [sort_strs fold_right]; [constructor|].
  fold (sort_strs l). apply insert_sorted_sorted; [exact IH|]. rewrite in_sort_strs. exact Hn.
Qed.

Lemma strictly_sorted_nodup l : StronglySorted slt l -> NoDup l.
Proof.
  induction 1 as [|x l _ IH Hx]; constructor; [|exact IH].
  intros Hin. rewrite Forall_forall in Hx. specialize (Hx x Hin). unfold slt in Hx.
  rewrite str_ltb_irrefl in Hx. discriminate.
Qed.

Theorem sort_strs_strictly l :
  NoDup l -> StronglySorted slt (sort_strs l) /\ NoDup (sort_strs l).
Proof.
  intros H. apply sort_strs_sorted in H. split; [exact H | apply strictly_sorted_nodup, H].
Qed.

Lemma sort_strs_nil l : sort_strs l = [] <-> l = [].
Proof.
  split; [|intros ->; reflexivity].
  destruct l as [|x l]; [reflexivity|]. intros H. exfalso.
  assert (In x (sort_strs (x :: l))) as Hin by (apply in_sort_strs; left; reflexivity).
  rewrite H in Hin. destruct Hin.
Qed.
