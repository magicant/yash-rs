(* C05 — what the search and the oracle ask of opendir holds of a well-formed tree:
   a listing has no duplicates and no name with a slash, and lies within [fs_universe]. *)
From Yv Require Import Common.Base C05.Model C05.Spec C05.ProofsSearch.

Local Open Scope N_scope.

Lemma key_eqb_eq a b : key_eqb a b = true <-> a = b.
Proof. apply list_eqb_spec. intros; apply str_eqb_eq. Qed.

Lemma assoc_key_in t k v : assoc_key t k = Some v -> In (k, v) t.
Proof.
  induction t as [|[k' v'] t IH]; cbn [assoc_key]; [discriminate|].
  destruct (key_eqb k' k) eqn:E.
  - apply key_eqb_eq in E. subst. intros H. injection H as <-. left; reflexivity.
  - intros H. right. auto.
Qed.

Lemma children_eq t k :
  children t k =
  map (fun kv => last (fst kv) [])
      (filter (fun kv => match fst kv with [] => false | _ => key_eqb (removelast (fst kv)) k end) t).
Proof.
  induction t as [|[[|x k'] v] t IH]; cbn [children filter map fst]; [reflexivity | exact IH |].
  destruct (key_eqb (removelast (x :: k')) k); cbn [map fst]; rewrite IH; reflexivity.
Qed.

Lemma children_in t k n :
  In n (children t k) <->
  exists k' v, In (k', v) t /\ k' <> [] /\ removelast k' = k /\ last k' [] = n.
Proof.
  rewrite children_eq, in_map_iff. split.
  - intros ([k' v] & <- & H). apply filter_In in H as [Hin H]. cbn [fst] in *.
    destruct k' as [|x k']; [discriminate|]. apply key_eqb_eq in H.
    exists (x :: k'), v. repeat split; [exact Hin | discriminate | exact H].
  - intros (k' & v & Hin & Hne & <- & <-). exists (k', v). split; [reflexivity|].
    apply filter_In. split; [exact Hin|]. cbn [fst].
    destruct k'; [contradiction | apply key_eqb_eq; reflexivity].
Qed.

Lemma keys_distinct_head k v t :
  keys_distinct ((k, v) :: t) = true -> (forall v', ~ In (k, v') t) /\ keys_distinct t = true.
Proof.
  cbn [keys_distinct]. rewrite andb_true_iff, negb_true_iff. intros [H1 H2]. split; [|exact H2].
  intros v' Hin. assert (existsb (fun kv => key_eqb (fst kv) k) t = true) as E.
  { apply existsb_exists. exists (k, v'). split; [exact Hin|]. apply key_eqb_eq. reflexivity. }
  congruence.
Qed.

Lemma children_nodup t k : keys_distinct t = true -> NoDup (children t k).
Proof.
  induction t as [|[k' v] t IH]; intros Hd; cbn [children]; [constructor|].
  apply keys_distinct_head in Hd as [Hh Hd].
  destruct k' as [|x k'']; [auto|].
  destruct (key_eqb (removelast (x :: k'')) k) eqn:E; [|auto].
  apply key_eqb_eq in E. constructor; [|auto].
  intros Hin. apply children_in in Hin as (k2 & v2 & Hin & Hne & R1 & R2).
  assert (k2 = x :: k'') as ->.
  { transitivity (removelast k2 ++ [last k2 []]); [apply app_removelast_last; exact Hne|].
    rewrite R1, R2, <- E. symmetry. apply app_removelast_last. discriminate. }
  exact (Hh _ Hin).
Qed.

Lemma wf_fs_entry t k v :
  wf_fs t = true -> In (k, v) t -> k <> [] /\ forallb name_ok k = true.
Proof.
  unfold wf_fs. rewrite andb_true_iff. intros [H _] Hin.
  rewrite forallb_forall in H. specialize (H _ Hin). cbn [fst snd] in H.
  rewrite !andb_true_iff in H. destruct H as [[[H1 H2] _] _]. split; [|exact H2].
  intros ->. discriminate.
Qed.

Lemma wf_fs_distinct t : wf_fs t = true -> keys_distinct t = true.
Proof. unfold wf_fs. rewrite andb_true_iff. tauto. Qed.

Lemma name_ok_spec n :
  name_ok n = true -> n <> s_dot /\ n <> s_dotdot /\ ~ In c_slash n.
Proof.
  unfold name_ok. rewrite !andb_true_iff, !negb_true_iff, !str_eqb_neq.
  intros [[[[_ H1] H2] H3] _]. repeat split; auto.
  intros Hin. assert (existsb (N.eqb c_slash) n = true) as E.
  { apply existsb_exists. exists c_slash. split; [exact Hin | apply N.eqb_refl]. }
  congruence.
Qed.

Lemma children_names t k n :
  wf_fs t = true -> In n (children t k) -> n <> s_dot /\ n <> s_dotdot /\ ~ In c_slash n.
Proof.
  intros Hwf Hin. apply name_ok_spec. apply children_in in Hin as (k' & v & Hin & Hne & _ & <-).
  destruct (wf_fs_entry _ _ _ Hwf Hin) as [_ Hn]. rewrite forallb_forall in Hn. apply Hn.
  rewrite (app_removelast_last [] Hne) at 2. apply in_or_app. right. left. reflexivity.
Qed.

Lemma fs_opendir_entries t cwd d ents :
  fs_opendir t cwd d = Some ents -> exists k, ents = s_dot :: s_dotdot :: children t k.
Proof.
  unfold fs_opendir. destruct (get_path t cwd d) as [k|]; [|discriminate].
  destruct (is_dir_kind (lookup t k)); [|discriminate]. intros H. injection H as <-. eauto.
Qed.

Theorem fs_listing_ok t cwd : wf_fs t = true -> listing_ok (fs_opendir t cwd).
Proof.
  intros Hwf d ents Ho. apply fs_opendir_entries in Ho as (k & ->).
  pose proof (fun n => children_names t k n Hwf) as Hn. split.
  - constructor; [|constructor].
    + intros [H|H]; [discriminate | apply Hn in H; tauto].
    + intros H. apply Hn in H. tauto.
    + apply children_nodup, wf_fs_distinct, Hwf.
  - intros n [<-|[<-|H]].
    + cbn. intros [H|[]]. discriminate.
    + cbn. intros [H|[H|[]]]; discriminate.
    + apply Hn in H. tauto.
Qed.

Lemma in_dedup x l : In x (dedup l) <-> In x l.
Proof.
  induction l as [|y l IH]; cbn [dedup]; [tauto|].
  destruct (existsb (str_eqb y) l) eqn:E.
  - rewrite IH. split; [intros H; right; exact H|]. intros [<-|H]; [|exact H].
    apply existsb_exists in E as (z & Hz & Ez). apply str_eqb_eq in Ez. subst. exact Hz.
  - cbn [In]. rewrite IH. tauto.
Qed.

Theorem fs_universe_covers t cwd d ents :
  fs_opendir t cwd d = Some ents -> incl ents (fs_universe t).
Proof.
  intros Ho. apply fs_opendir_entries in Ho as (k & ->). unfold fs_universe.
  intros n Hin. apply in_dedup. destruct Hin as [<-|[<-|H]].
  - left; reflexivity.
  - right; left; reflexivity.
  - right; right. apply children_in in H as (k' & v & Hin & _ & _ & <-).
    apply in_map_iff. exists (k', v). auto.
Qed.
