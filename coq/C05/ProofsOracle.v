(* C05 — for any behaviour [od], [ex] of the two system calls: the boolean form of the
   specification is exact ([spec_paths] lists the [Expected] pathnames when every
   listing lies within the universe), and the oracle accepts whatever is exact and
   strictly sorted. *)
From Yv Require Import Common.Base C05.Model C05.Spec C05.ProofsMatch C05.ProofsSearch.
From Coq Require Import Sorting.Sorted.

Local Open Scope N_scope.

Lemma mem_spec x l : mem x l = true <-> In x l.
Proof.
  unfold mem. rewrite existsb_exists. split.
  - intros (y & Hy & E). apply str_eqb_eq in E. subst. exact Hy.
  - intros H. exists x. split; [exact H | apply str_eqb_refl].
Qed.

Lemma comp_okb_spec od prefix c n : comp_okb od prefix c n = true <-> comp_ok od prefix c n.
Proof.
  unfold comp_okb, comp_ok. destruct (compile_comp c) as [l|pat].
  - apply str_eqb_eq.
  - rewrite !andb_true_iff, !negb_true_iff, !str_eqb_neq, pmatchb_spec.
    destruct (od (dir_of prefix)) as [ents|].
    + rewrite mem_spec. split.
      * intros [[[H1 H2] H3] H4]. eauto 6.
      * intros ((ents' & E & Hin) & H2 & H3 & H4). injection E as <-. auto.
    + split; [intros [[[H _] _] _]; discriminate | intros ((ents' & E & _) & _); discriminate].
Qed.

Lemma names_okb_spec od ex comps names :
  names_okb od ex comps names = true <->
  (forall i, (i < length comps)%nat ->
             comp_ok od (prefix_of names i) (nth i comps []) (nth i names [])) /\
  (last_is_pat comps = false -> ex (join names) = true).
Proof.
  unfold names_okb. rewrite andb_true_iff, forallb_forall. split.
  - intros [H1 H2]. split.
    + intros i Hi. apply comp_okb_spec, H1, in_seq. lia.
    + intros Hl. rewrite Hl in H2. exact H2.
  - intros [H1 H2]. split.
    + intros i Hi. apply in_seq in Hi. apply comp_okb_spec, H1. lia.
    + destruct (last_is_pat comps); [reflexivity | apply H2; reflexivity].
Qed.

Lemma in_product : forall ls names,
  In names (product ls) <->
  length names = length ls /\ forall i, (i < length ls)%nat -> In (nth i names []) (nth i ls []).
Proof.
  induction ls as [|l ls IH]; intros names; cbn [product].
  - split.
    + intros [<-|[]]. split; [reflexivity | intros i Hi; inversion Hi].
    + intros [L _]. destruct names; [left; reflexivity | discriminate].
  - rewrite in_flat_map. split.
    + intros (x & Hx & H). apply in_map_iff in H as (ns & <- & Hns). apply IH in Hns as [L A].
      split; [cbn [length]; congruence|]. intros [|i] Hi; [exact Hx | apply A; cbn in Hi; lia].
    + intros [L A]. destruct names as [|x ns]; [discriminate|]. exists x.
      split; [exact (A 0%nat (Nat.lt_0_succ _))|]. apply in_map_iff. exists ns. split; [reflexivity|].
      apply IH. split; [cbn in L; lia|]. intros i Hi. apply (A (S i)). cbn [length]. lia.
Qed.

Section Enumeration.
  Variable od : str -> option (list str).
  Variable ex : str -> bool.
  Variable universe : list str.
  Hypothesis covers : forall d ents, od d = Some ents -> incl ents universe.

  Lemma comp_ok_cands prefix c n : comp_ok od prefix c n -> In n (cands universe c).
  Proof.
    unfold comp_ok, cands. destruct (compile_comp c) as [l|pat].
    - intros ->. left; reflexivity.
    - intros ((ents & Ho & Hin) & _ & _ & Hm). apply filter_In. split.
      + eapply covers; eauto.
      + apply pmatchb_spec. exact Hm.
  Qed.

  Theorem spec_paths_correct field p :
    In p (spec_paths od ex universe field) <-> Expected od ex field p.
  Proof.
    unfold spec_paths, Expected. rewrite in_map_iff. split.
    - intros (names & <- & H). apply filter_In in H as [Hp Hok].
      apply in_product in Hp as [Hp _]. rewrite map_length in Hp.
      apply names_okb_spec in Hok as [H1 H2]. exists names. repeat split; auto.
    - intros (names & L & -> & A & E). exists names. split; [reflexivity|].
      apply filter_In. split.
      + apply in_product. rewrite map_length. split; [exact L|]. intros i Hi.
        rewrite (nth_indep _ [] (cands universe [])) by (rewrite map_length; exact Hi).
        rewrite map_nth. eapply comp_ok_cands. apply (A i Hi).
      + apply names_okb_spec. auto.
  Qed.
End Enumeration.

(* the oracle compares neighbours only, hence [Sorted]; what the theorems give is
   [StronglySorted], which implies it *)
Lemma strictly_sorted_spec l : strictly_sorted l = true <-> Sorted slt l.
Proof.
  induction l as [|x l IH]; cbn [strictly_sorted].
  - split; [constructor | reflexivity].
  - destruct l as [|y l].
    + split; [repeat constructor | reflexivity].
    + rewrite andb_true_iff, IH. split.
      * intros [H1 H2]. constructor; auto.
      * intros H. inversion H as [|? ? Hs Hh]; subst. inversion Hh; subst. auto.
Qed.

Lemma strs_eqb_refl l : strs_eqb l l = true.
Proof. apply (list_eqb_spec str_eqb str_eqb_eq). reflexivity. Qed.

(* [r] stands for [glob_paths]: the oracle asks for the expected members, in strictly
   increasing order, and for the field itself when there are none *)
Theorem oracle_accepts od ex universe noglob field r :
  (forall d ents, od d = Some ents -> incl ents universe) ->
  (forall p, In p r <-> Expected od ex field p) -> StronglySorted slt r ->
  oracle od ex universe noglob field
    (if noglob then GFields [unquote field]
     else match r with [] => GFields [unquote field] | g :: gs => GFields (g :: gs) end) = None.
Proof.
  intros Hcov Hexp Hsorted. unfold oracle.
  destruct noglob; [rewrite strs_eqb_refl; reflexivity|].
  assert (forall p, In p r <-> In p (spec_paths od ex universe field)) as Heq.
  { intros p. rewrite (spec_paths_correct od ex universe Hcov). apply Hexp. }
  destruct r as [|g gs]; destruct (spec_paths od ex universe field) as [|e es].
  - rewrite strs_eqb_refl. reflexivity.
  - destruct (proj2 (Heq e)). left; reflexivity.
  - destruct (proj1 (Heq g)). left; reflexivity.
  - assert (strs_eqb (g :: gs) [unquote field] && negb (mem (unquote field) (e :: es)) = false) as ->.
    { destruct (strs_eqb (g :: gs) [unquote field]) eqn:Es; [|reflexivity]. cbn [andb].
      apply (list_eqb_spec str_eqb str_eqb_eq) in Es.
      assert (mem (unquote field) (e :: es) = true) as ->; [|reflexivity].
      apply mem_spec, Heq. rewrite Es. left; reflexivity. }
    assert (forallb (fun x => mem x (e :: es)) (g :: gs) = true) as ->.
    { apply forallb_forall. intros x Hx. apply mem_spec, Heq. exact Hx. }
    assert (forallb (fun x => mem x (g :: gs)) (e :: es) = true) as ->.
    { apply forallb_forall. intros x Hx. apply mem_spec, Heq. exact Hx. }
    cbn [negb]. apply StronglySorted_Sorted, strictly_sorted_spec in Hsorted. rewrite Hsorted. reflexivity.
Qed.
