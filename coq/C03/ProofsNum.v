(* C03 — numerals.  Rust's from_str_radix (Horner) against positional
   notation; the radix rule of constant tokens against the C grammar of integer
   constants; parse_integer against the specified value of a variable. *)
From Yv Require Import Common.Base C03.Defs C03.Model C03.Spec C03.ProofsArith.
From Coq Require Import ZArith NArith Lia ZifyBool.

Definition digit_corr (radix : N) (dig : N -> option Z) : Prop :=
  forall c, match to_digit radix c with
            | Some d => dig c = Some (Z.of_N d)
            | None => dig c = None end.

(* both sides are interval tests on the character code: split every test, then arithmetic *)
Ltac dig_tac :=
  intros c; unfold to_digit, hex_digit, oct_digit, dec_digit, ascii_digit, ascii_lower, ascii_upper;
  repeat match goal with |- context [if ?b then _ else _] => destruct b eqn:? end;
  try reflexivity; try (f_equal; lia); try lia.

Lemma digit_corr_16 : digit_corr 16 hex_digit.
Proof. dig_tac. Qed.
Lemma digit_corr_8 : digit_corr 8 oct_digit.
Proof. dig_tac. Qed.
Lemma digit_corr_10 : digit_corr 10 dec_digit.
Proof. dig_tac. Qed.

Local Open Scope Z_scope.

Lemma positional_nonneg dig base s v :
  0 <= base -> (forall c d, dig c = Some d -> 0 <= d) ->
  positional dig base s = Some v -> 0 <= v.
Proof.
  intros Hb Hd. revert v. induction s as [|c r IH]; cbn [positional]; intros v H.
  - injection H as <-. lia.
  - destruct (dig c) as [d|] eqn:Ed; [|discriminate].
    destruct (positional dig base r) as [w|]; [|discriminate].
    injection H as <-. specialize (IH _ eq_refl). specialize (Hd _ _ Ed).
    assert (0 <= base ^ Z.of_nat (length r)) by (apply Z.pow_nonneg; lia). nia.
Qed.

(* one more digit at the end: the decimal rendering produces its digits from the
   least significant one ([dec_digits_rev_spec] in ProofsVar.v) *)
Lemma positional_snoc dig base a b va d :
  positional dig base a = Some va -> dig b = Some d ->
  positional dig base (a ++ [b]) = Some (va * base + d).
Proof.
  revert va. induction a as [|x a IH]; intros va Ha Hb.
  - injection Ha as <-. cbn [app positional length Z.of_nat]. rewrite Hb, Z.pow_0_r. f_equal. lia.
  - cbn [app positional] in *. destruct (dig x) as [dx|]; [|discriminate].
    destruct (positional dig base a) as [v|]; [|discriminate]. injection Ha as <-.
    rewrite (IH v eq_refl Hb). f_equal. rewrite app_length. cbn [length].
    rewrite Nat.add_1_r, Nat2Z.inj_succ, Z.pow_succ_r by lia. ring.
Qed.

Lemma positional_bad dig base c r : dig c = None -> positional dig base (c :: r) = None.
Proof. intros H. cbn [positional]. now rewrite H. Qed.

Lemma positional_oct_0 r : positional oct_digit 8 (48%N :: r) = positional oct_digit 8 r.
Proof.
  cbn [positional]. change (oct_digit 48) with (Some 0).
  destruct (positional oct_digit 8 r); [|reflexivity]. f_equal; lia.
Qed.

Lemma digits_value_positional radix dig :
  digit_corr radix dig ->
  forall s acc,
    match positional dig (Z.of_N radix) s with
    | Some v => exists m, digits_value radix acc s = Some m /\
                          Z.of_N m = Z.of_N acc * Z.of_N radix ^ Z.of_nat (length s) + v
    | None => digits_value radix acc s = None
    end.
Proof.
  intros Hc. induction s as [|c r IH]; intros acc; cbn [positional digits_value].
  - exists acc. split; [reflexivity|]. cbn. lia.
  - specialize (Hc c). destruct (to_digit radix c) as [d|]; rewrite Hc; [|reflexivity].
    specialize (IH (acc * radix + d)%N).
    destruct (positional dig (Z.of_N radix) r) as [v|]; [|exact IH].
    destruct IH as [m [Hm Hv]]. exists m. split; [exact Hm|].
    rewrite Hv. cbn [length]. rewrite Nat2Z.inj_succ, Z.pow_succ_r by lia. lia.
Qed.

Lemma digit_corr_nonneg radix dig : digit_corr radix dig -> forall c d, dig c = Some d -> 0 <= d.
Proof.
  intros H c d E. specialize (H c). destruct (to_digit radix c); rewrite H in E; [|discriminate].
  injection E as <-. lia.
Qed.

Lemma representable_nonneg v : 0 <= v -> (if v <=? i64_max then Some v else None) = representable v.
Proof.
  intros H. unfold representable, in_i64. replace (i64_min <=? v) with true by (unfold i64_min; lia).
  reflexivity.
Qed.

Definition no_leading_sign (s : str) : Prop :=
  match s with c :: _ => c <> 45%N /\ c <> 43%N | [] => True end.

Lemma from_str_radix_pos radix dig s :
  digit_corr radix dig -> no_leading_sign s ->
  from_str_radix s radix =
    match s with
    | [] => None
    | _ => match positional dig (Z.of_N radix) s with
           | Some v => representable v
           | None => None
           end
    end.
Proof.
  intros Hc Hs. destruct s as [|c r]; [reflexivity|]. destruct Hs as [H45 H43].
  unfold from_str_radix.
  replace (c =? 45)%N with false by lia. replace (c =? 43)%N with false by lia.
  pose proof (digits_value_positional radix dig Hc (c :: r) 0%N) as H.
  destruct (positional dig (Z.of_N radix) (c :: r)) as [v|] eqn:Ep; [|now rewrite H].
  destruct H as [m [-> Hv]]. change (Z.of_N 0) with 0 in Hv. rewrite Z.mul_0_l, Z.add_0_l in Hv.
  now rewrite Hv.
Qed.

Lemma from_str_radix_neg radix dig s :
  digit_corr radix dig ->
  from_str_radix (45%N :: s) radix =
    match s with
    | [] => None
    | _ => match positional dig (Z.of_N radix) s with
           | Some v => representable (- v)
           | None => None
           end
    end.
Proof.
  intros Hc. unfold from_str_radix. change (45 =? 45)%N with true. cbv iota.
  destruct s as [|c r]; [reflexivity|].
  pose proof (digits_value_positional radix dig Hc (c :: r) 0%N) as H.
  destruct (positional dig (Z.of_N radix) (c :: r)) as [v|].
  - destruct H as [m [-> Hv]]. change (Z.of_N 0) with 0 in Hv. rewrite Z.mul_0_l, Z.add_0_l in Hv.
    rewrite Hv. reflexivity.
  - rewrite H. reflexivity.
Qed.

(* from_str_radix accepts a sign of its own; parse_integer has split one sign off
   and tests for a second one before the call.  With that test the digits are read
   by positional notation. *)
Lemma from_str_radix_after_sign (digits : str) (radix : N) (dig : N -> option Z) (neg : bool) :
  digit_corr radix dig -> dig 43%N = None -> dig 45%N = None ->
  (if starts_with lit_plus digits || starts_with lit_minus digits then None
   else from_str_radix ((if neg then lit_minus else []) ++ digits) radix) =
  match digits with
  | [] => None
  | _ => match positional dig (Z.of_N radix) digits with
         | Some v => representable (if neg then - v else v)
         | None => None
         end
  end.
Proof.
  intros Hc H43 H45. unfold starts_with, lit_plus, lit_minus.
  destruct digits as [|c r].
  - destruct neg; reflexivity.
  - cbn [strip_prefix]. rewrite (N.eqb_sym 43 c), (N.eqb_sym 45 c).
    destruct (N.eqb_spec c 43) as [->|N43].
    { cbn [orb]. now rewrite positional_bad. }
    destruct (N.eqb_spec c 45) as [->|N45].
    { cbn [orb]. now rewrite positional_bad. }
    cbn [orb]. destruct neg.
    + cbn [app]. now rewrite (from_str_radix_neg radix dig).
    + cbn [app]. now rewrite (from_str_radix_pos radix dig).
Qed.

Lemma from_str_radix_I64 s r z : from_str_radix s r = Some z -> I64 z.
Proof.
  unfold from_str_radix. destruct s as [|c s']; [discriminate|].
  destruct (if (c =? 45)%N then _ else _) as [neg ds]. destruct ds; [discriminate|].
  destruct (digits_value r 0 (n :: ds)); [|discriminate].
  destruct (in_i64 _) eqn:E; [|discriminate]. intros [= <-]. now apply in_i64_iff.
Qed.

Lemma constant_magnitude_nonneg w m : constant_magnitude w = Some m -> 0 <= m.
Proof.
  unfold constant_magnitude. destruct w as [|c r]; [discriminate|]. destruct (c =? 48)%N.
  - destruct r as [|x ds]; [intros [= <-]; lia|]. destruct ((x =? 120) || (x =? 88))%N.
    + destruct ds; [discriminate|].
      apply positional_nonneg; [lia|exact (digit_corr_nonneg _ _ digit_corr_16)].
    + apply positional_nonneg; [lia|exact (digit_corr_nonneg _ _ digit_corr_8)].
  - apply positional_nonneg; [lia|exact (digit_corr_nonneg _ _ digit_corr_10)].
Qed.

Lemma constant_value_representable w :
  constant_value w = match constant_magnitude w with Some m => representable m | None => None end.
Proof.
  unfold constant_value. destruct (constant_magnitude w) as [m|] eqn:E; [|reflexivity].
  apply representable_nonneg. exact (constant_magnitude_nonneg _ _ E).
Qed.

(* No character is a sign.  Stronger than [no_leading_sign] because parse_constant hands
   suffixes of the token (after 0x) to from_str_radix, which would accept a sign of
   its own there: `0x-1` is no token only because the tokenizer cuts words out of
   alphanumerics and underscores ([word_plain] in ProofsLex.v). *)
Definition plain (s : str) : Prop := Forall (fun c => c <> 45%N /\ c <> 43%N) s.

Lemma plain_no_leading_sign s : plain s -> no_leading_sign s.
Proof. intros H. destruct s; [exact I|]. now inversion H. Qed.

(* the radix rule of constant tokens = the C grammar of integer constants *)
Lemma parse_constant_spec tok : plain tok -> parse_constant tok = constant_value tok.
Proof.
  intros Hp. rewrite constant_value_representable.
  unfold parse_constant, constant_magnitude, lit_0X, lit_0x, lit_0, starts_with.
  destruct tok as [|c r]; [reflexivity|].
  cbn [strip_prefix]. rewrite (N.eqb_sym 48 c).
  destruct (N.eqb_spec c 48) as [->|Hc].
  - destruct r as [|x ds]; [reflexivity|].
    cbn [strip_prefix]. rewrite (N.eqb_sym 88 x), (N.eqb_sym 120 x).
    assert (Hds : no_leading_sign ds)
      by (apply plain_no_leading_sign; inversion Hp as [|? ? ? H2]; now inversion H2).
    destruct (N.eqb_spec x 88) as [->|H88]; [|destruct (N.eqb_spec x 120) as [->|H120]]; cbn [orb].
    1,2: (rewrite (from_str_radix_pos 16 hex_digit) by (apply digit_corr_16 || assumption);
          now destruct ds).
    rewrite (from_str_radix_pos 8 oct_digit) by (apply digit_corr_8 || now apply plain_no_leading_sign).
    change (Z.of_N 8) with 8. now rewrite positional_oct_0.
  - now rewrite (from_str_radix_pos 10 dec_digit) by (apply digit_corr_10 || now apply plain_no_leading_sign).
Qed.

Lemma parse_constant_I64 w z : parse_constant w = Some z -> I64 z.
Proof.
  unfold parse_constant. destruct (strip_prefix lit_0X w); [apply from_str_radix_I64|].
  destruct (strip_prefix lit_0x w); [apply from_str_radix_I64|].
  destruct (starts_with lit_0 w); apply from_str_radix_I64.
Qed.

(* a constant token is a C integer constant with that value, which is not negative *)
Lemma parse_constant_magnitude w z :
  plain w -> parse_constant w = Some z -> constant_magnitude w = Some z /\ (0 <= z <= i64_max)%Z.
Proof.
  intros Hp H. rewrite parse_constant_spec in H by assumption. unfold constant_value in H.
  destruct (constant_magnitude w) as [m|] eqn:Em; [|discriminate].
  destruct (Z.leb_spec m i64_max); [|discriminate]. injection H as ->.
  split; [reflexivity|]. split; [exact (constant_magnitude_nonneg _ _ Em)|assumption].
Qed.

Lemma constant_first_digit c r z : constant_value (c :: r) = Some z -> ascii_digit c = true.
Proof.
  unfold constant_value, constant_magnitude, ascii_digit. destruct (N.eqb_spec c 48) as [->|H]; [reflexivity|].
  cbn [positional]. unfold dec_digit. destruct ((48 <=? c) && (c <=? 57))%N; [reflexivity|discriminate].
Qed.

(* the part of parse_integer after the sign has been split off *)
Definition pi_tail (neg : bool) (magnitude : str) : option Z :=
  let '(digits, radix) :=
    match strip_prefix lit_0x magnitude with
    | Some d => (d, 16%N)
    | None =>
        match strip_prefix lit_0X magnitude with
        | Some d => (d, 16%N)
        | None => if starts_with lit_0 magnitude then (magnitude, 8%N) else (magnitude, 10%N)
        end
    end in
  if starts_with lit_plus digits || starts_with lit_minus digits then None
  else from_str_radix ((if neg then lit_minus else []) ++ digits) radix.

Lemma pi_tail_spec neg magnitude :
  pi_tail neg magnitude =
  match constant_magnitude magnitude with
  | Some z => representable (if neg then - z else z)
  | None => None
  end.
Proof.
  unfold pi_tail, constant_magnitude, lit_0x, lit_0X, lit_0, starts_with at 1.
  destruct magnitude as [|c r].
  - cbn. destruct neg; reflexivity.
  - cbn [strip_prefix]. rewrite (N.eqb_sym 48 c).
    destruct (N.eqb_spec c 48) as [->|Hc].
    + destruct r as [|x ds].
      * cbn. destruct neg; reflexivity.
      * cbn [strip_prefix]. rewrite (N.eqb_sym 88 x), (N.eqb_sym 120 x).
        destruct (N.eqb_spec x 120) as [->|H120]; [|destruct (N.eqb_spec x 88) as [->|H88]]; cbn [orb].
        1,2: (rewrite (from_str_radix_after_sign ds 16 hex_digit neg) by (apply digit_corr_16 || reflexivity);
              destruct ds; reflexivity).
        rewrite (from_str_radix_after_sign (48%N :: x :: ds) 8 oct_digit neg) by
            (apply digit_corr_8 || reflexivity).
        change (Z.of_N 8) with 8. now rewrite positional_oct_0.
    + rewrite (from_str_radix_after_sign (c :: r) 10 dec_digit neg) by
            (apply digit_corr_10 || reflexivity).
      reflexivity.
Qed.

(* expand_variable reads a value as the specification says *)
Lemma parse_integer_spec v : parse_integer v = variable_value v.
Proof.
  unfold parse_integer, variable_value. fold (pi_tail).
  destruct v as [|c m].
  - reflexivity.
  - unfold lit_minus at 1, lit_plus at 1. cbn [strip_prefix].
    rewrite (N.eqb_sym 45 c), (N.eqb_sym 43 c).
    destruct (N.eqb_spec c 45) as [->|N45].
    + change (pi_tail true m = match option_map Z.opp (constant_magnitude m) with
                               | Some z => representable z | None => None end).
      rewrite pi_tail_spec. destruct (constant_magnitude m); reflexivity.
    + destruct (N.eqb_spec c 43) as [->|N43].
      * change (pi_tail false m = match constant_magnitude m with
                                  | Some z => representable z | None => None end).
        now rewrite pi_tail_spec.
      * change (pi_tail false (c :: m) = match constant_magnitude (c :: m) with
                                  | Some z => representable z | None => None end).
        now rewrite pi_tail_spec.
Qed.

Lemma variable_value_I64 v z : variable_value v = Some z -> I64 z.
Proof.
  unfold variable_value. destruct (match v with [] => None | _ => _ end); [|discriminate].
  intros H. now apply representable_I64 in H.
Qed.
