(* C03 — the tables read from the Rust source by
   translator/c03_tables.py (coq/Gen/Gen_Arith.v, regenerated on every run) are
   the tables of the model. *)
From Yv Require Import Common.Base C03.Defs C03.Model C03.Spec C03.ProofsLex C03.ProofsParse.
From Yv Require Import Gen.Gen_Arith.
From Coq Require String.

Module GenNames.
  Import String.
  Local Open Scope string_scope.

  (* the Rust names of the variants *)
  Definition oper_name (o : oper) : string :=
    match o with
    | OQuestion => "Question" | OColon => "Colon" | OBar => "Bar" | OBarBar => "BarBar"
    | OBarEqual => "BarEqual" | OCaret => "Caret" | OCaretEqual => "CaretEqual"
    | OAnd => "And" | OAndAnd => "AndAnd" | OAndEqual => "AndEqual" | OEqual => "Equal"
    | OEqualEqual => "EqualEqual" | OBang => "Bang" | OBangEqual => "BangEqual"
    | OLess => "Less" | OLessEqual => "LessEqual" | OLessLess => "LessLess"
    | OLessLessEqual => "LessLessEqual" | OGreater => "Greater"
    | OGreaterEqual => "GreaterEqual" | OGreaterGreater => "GreaterGreater"
    | OGreaterGreaterEqual => "GreaterGreaterEqual" | OPlus => "Plus" | OPlusPlus => "PlusPlus"
    | OPlusEqual => "PlusEqual" | OMinus => "Minus" | OMinusMinus => "MinusMinus"
    | OMinusEqual => "MinusEqual" | OAsterisk => "Asterisk" | OAsteriskEqual => "AsteriskEqual"
    | OSlash => "Slash" | OSlashEqual => "SlashEqual" | OPercent => "Percent"
    | OPercentEqual => "PercentEqual" | OTilde => "Tilde" | OOpenParen => "OpenParen"
    | OCloseParen => "CloseParen"
    end.

  Definition aop_name (a : aop) : string :=
    match a with
    | AOr => "BitwiseOr" | AXor => "BitwiseXor" | AAnd => "BitwiseAnd"
    | AEq => "EqualTo" | ANe => "NotEqualTo" | ALt => "LessThan" | AGt => "GreaterThan"
    | ALe => "LessThanOrEqualTo" | AGe => "GreaterThanOrEqualTo"
    | AShl => "ShiftLeft" | AShr => "ShiftRight" | AAdd => "Add" | ASub => "Subtract"
    | AMul => "Multiply" | ADiv => "Divide" | ARem => "Remainder"
    end.

  Definition binop_name (b : binop) : string :=
    match b with
    | BLogOr => "LogicalOr" | BLogAnd => "LogicalAnd"
    | BArith a => aop_name a
    | BAssign => "Assign"
    | BCompound a => aop_name a ++ "Assign"
    end.

  Definition assoc_name (a : assoc) : string :=
    match a with Left => "Left" | Right => "Right" end.

  Definition preop_name (p : preop) : string :=
    match p with
    | PreInc => "Increment" | PreDec => "Decrement" | PrePlus => "NumericCoercion"
    | PreNeg => "NumericNegation" | PreNot => "LogicalNegation" | PreBitNot => "BitwiseNegation"
    end.

  Definition postop_name (p : postop) : string :=
    match p with PostInc => "Increment" | PostDec => "Decrement" end.
End GenNames.
Import GenNames.

Definition some_list {A B} (f : A -> option B) (l : list A) : list B :=
  flat_map (fun a => match f a with Some b => [b] | None => [] end) l.

(* what the translator read = the model's tables *)
Definition gen_tables_are_model : Prop :=
  gen_operator_names = map oper_name all_opers /\
  map (fun p => (L (fst p), snd p)) gen_operators
    = map (fun p => (fst p, oper_name (snd p))) operators /\
  gen_precedence = map (fun o => (oper_name o, precedence o)) all_opers /\
  gen_as_binary =
    some_list (fun o => match as_binary o with
                        | Some (b, a) => Some (oper_name o, (binop_name b, assoc_name a))
                        | None => None end) all_opers /\
  gen_as_prefix =
    some_list (fun o => match as_prefix o with
                        | Some p => Some (oper_name o, preop_name p) | None => None end) all_opers /\
  gen_as_postfix =
    some_list (fun o => match as_postfix o with
                        | Some p => Some (oper_name o, postop_name p) | None => None end) all_opers.

Lemma gen_tables_are_model_holds : gen_tables_are_model.
Proof. unfold gen_tables_are_model. repeat split; vm_compute; reflexivity. Qed.
