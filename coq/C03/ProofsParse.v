(* C03 — the precedence-climbing parser of ast.rs against the
   recursive-descent parser through the levels of the C grammar.  The fuel of the three
   parsing functions is dealt with once: their successful runs are the derivations
   [Leaf] / [Tree] / [Loop] ([parse_runs], [derives_parse]); shape, soundness with respect
   to the grammar and the other facts are inductions on derivations.  A loop of minimum
   precedence [m] corresponds to the grammar levels 1 .. [lvl_of m] applied in turn ([tails]). *)
From Yv Require Import Common.Base C03.Defs C03.Model C03.Spec C03.ProofsArith C03.ProofsNum C03.ProofsLex C03.ProofsEval.
From Coq Require Import ZArith NArith Lia ZifyBool.

Definition stail (g : nat) : nat -> expr -> parser :=
  tail (sp g assignment_level) (sp g conditional_level) (sp g assignment_level) (chain g).

Lemma sp_0 g ts : sp (S g) 0 ts = unary (sp g assignment_level) (sp g 0) ts.
Proof. reflexivity. Qed.

Lemma sp_S g l ts :
  sp (S g) (S l) ts =
  match sp (S g) l ts with
  | Some (a, r) => stail g (S l) a r
  | None => None
  end.
Proof. reflexivity. Qed.

Lemma sp_O lvl ts : sp 0 lvl ts = None.
Proof. reflexivity. Qed.

Lemma chain_S g lvl a ts :
  chain (S g) lvl a ts =
  match ts with
  | SOp o :: r =>
      match op_assoc o (binary_level lvl) with
      | Some b =>
          match sp g (pred lvl) r with
          | Some (c, r') => chain g lvl (EBin b a c) r'
          | None => None
          end
      | None => Some (a, ts)
      end
  | _ => Some (a, ts)
  end.
Proof. reflexivity. Qed.

Lemma unary_prefix ex un o p r :
  prefix_operator o = Some p ->
  unary ex un (SOp o :: r) =
  match un r with Some (e, r') => Some (EPre p e, r') | None => None end.
Proof. destruct o; try discriminate; intros [= <-]; reflexivity. Qed.

(* levels lo+1 .. lo+n applied in turn *)
Fixpoint tails (g : nat) (lo n : nat) (a : expr) (ts : list stok) : option (expr * list stok) :=
  match n with
  | O => Some (a, ts)
  | S n' =>
      match tails g lo n' a ts with
      | Some (a', r) => stail g (lo + n) a' r
      | None => None
      end
  end.

Lemma sp_tails g lvl ts :
  sp (S g) lvl ts =
  match sp (S g) 0 ts with
  | Some (a, r) => tails g 0 lvl a r
  | None => None
  end.
Proof.
  induction lvl as [|l IH].
  - cbn [tails]. destruct (sp (S g) 0 ts) as [[a r]|]; reflexivity.
  - rewrite sp_S, IH. cbn [tails]. destruct (sp (S g) 0 ts) as [[a r]|]; reflexivity.
Qed.

Lemma tails_split g lo n1 n2 a ts :
  tails g lo (n1 + n2) a ts =
  match tails g lo n1 a ts with
  | Some (a', r) => tails g (lo + n1) n2 a' r
  | None => None
  end.
Proof.
  induction n2 as [|n2 IH].
  - rewrite Nat.add_0_r. cbn [tails]. destruct (tails g lo n1 a ts) as [[a' r]|]; reflexivity.
  - rewrite Nat.add_succ_r. cbn [tails]. rewrite IH.
    destruct (tails g lo n1 a ts) as [[a' r]|]; [|reflexivity].
    replace (lo + S (n1 + n2))%nat with (lo + n1 + S n2)%nat by lia. reflexivity.
Qed.

(* the level of the grammar of Spec.v at which [o] is an infix operator: 1 .. 10 by
   [binary_level], 11 for `?`, 12 for the assignment operators *)
Definition op_level (o : oper) : option nat :=
  match find (fun j => match op_assoc o (binary_level j) with Some _ => true | None => false end)
             (seq 1 10) with
  | Some j => Some j
  | None =>
      if oper_eqb o OQuestion then Some 11%nat
      else match op_assoc o assignment_operators with Some _ => Some 12%nat | None => None end
  end.

(* Operator::precedence and as_binary against the C grammar levels.  13 - j: ast.rs
   numbers from the loosest binding (assignment 1) to the tightest (multiplicative 12),
   Spec.v from the tightest; 0 is what ends an operand (`)` `:`), 13 the tokens that
   are no infix operators (`~` `!` `++` `--` `(`). *)
Lemma precedence_level o :
  match op_level o with
  | Some j => precedence o = N.of_nat (13 - j) /\ (1 <= j <= 12)%nat
  | None => precedence o = 0%N \/ precedence o = 13%N
  end.
Proof. destruct o; vm_compute; auto; split; (reflexivity || lia). Qed.

Lemma op_level_bound o j : op_level o = Some j -> (1 <= j <= 12)%nat.
Proof. intros E. pose proof (precedence_level o) as H. rewrite E in H. tauto. Qed.

(* the grammar level whose operators have precedence [m] ([precedence_level]) *)
Definition lvl_of (m : N) : nat := 13 - N.to_nat m.

Lemma as_binary_level o :
  as_binary o =
  match op_level o with
  | Some j =>
      if Nat.leb j 10 then option_map (fun b => (b, Left)) (op_assoc o (binary_level j))
      else if Nat.eqb j 12 then option_map (fun b => (b, Right)) (op_assoc o assignment_operators)
      else None
  | None => None
  end.
Proof. destruct o; reflexivity. Qed.

(* no operator stands in two of the levels 1..10 *)
Definition levels_disjoint : bool :=
  forallb (fun o => forallb (fun j =>
    match op_assoc o (binary_level j), op_level o with
    | Some _, Some j' => Nat.eqb j' j
    | Some _, None => false
    | None, _ => true
    end) (seq 1 10)) all_opers.

Lemma op_level_binary o j :
  (1 <= j <= 10)%nat ->
  (op_level o = Some j <-> op_assoc o (binary_level j) <> None).
Proof.
  intros Hj. split.
  - unfold op_level. destruct (find _ (seq 1 10)) as [j'|] eqn:F.
    + intros [= ->]. apply find_some in F. now destruct (op_assoc o (binary_level j)).
    + destruct (oper_eqb o OQuestion); [intros [= <-]; lia|].
      destruct (op_assoc o assignment_operators); intros [= <-]; lia.
  - intros H. assert (T : levels_disjoint = true) by reflexivity.
    unfold levels_disjoint in T. rewrite forallb_forall in T.
    specialize (T o (all_opers_complete o)). rewrite forallb_forall in T.
    specialize (T j ltac:(apply in_seq; lia)).
    destruct (op_assoc o (binary_level j)); [|congruence].
    destruct (op_level o) as [j'|]; [|discriminate]. apply Nat.eqb_eq in T. now subst.
Qed.

Lemma op_level_question o : op_level o = Some 11%nat <-> o = OQuestion.
Proof. destruct o; vm_compute; split; congruence. Qed.

Lemma op_level_assign o : op_level o = Some 12%nat <-> op_assoc o assignment_operators <> None.
Proof. destruct o; vm_compute; split; congruence. Qed.

Lemma binary_level_out j : (j = 0 \/ 11 <= j)%nat -> binary_level j = [].
Proof. intros H. do 11 (destruct j as [|j]; [try reflexivity; lia|]). reflexivity. Qed.

Lemma prefix_tables o : as_prefix o = prefix_operator o /\ as_postfix o = postfix_operator o.
Proof. destruct o; split; reflexivity. Qed.

(* the next token is not an infix operator of the levels lo+1 .. lo+n *)
Definition not_in_levels (lo n : nat) (ts : list stok) : Prop :=
  match ts with
  | SOp o :: _ => forall j, op_level o = Some j -> (j <= lo \/ lo + n < j)%nat
  | _ => True
  end.

Lemma op_not_in_levels lo n o j r :
  op_level o = Some j -> (j <= lo \/ lo + n < j)%nat -> not_in_levels lo n (SOp o :: r).
Proof. intros E H j' E'. rewrite E in E'. now injection E' as <-. Qed.

Lemma not_in_levels_sub lo n lo' n' ts :
  (lo <= lo')%nat -> (lo' + n' <= lo + n)%nat -> not_in_levels lo n ts -> not_in_levels lo' n' ts.
Proof.
  intros H1 H2 H. destruct ts as [|[z|x|o] r]; try exact I. cbn in *. intros j E. specialize (H j E). lia.
Qed.

(* the next token is not an operator of precedence [m] or more: the loop stops *)
Definition nohigh (m : N) (r : list stok) : Prop :=
  match r with SOp o :: _ => (precedence o < m)%N | _ => True end.

(* a loop of minimum precedence [m] stops in front of what no level up to [lvl_of m] takes *)
Lemma nohigh_levels m r j :
  nohigh m r -> (j <= lvl_of m)%nat -> not_in_levels 0 j r.
Proof.
  unfold lvl_of. intros Hn Hj. destruct r as [|[z|x|o] r]; try exact I.
  cbn [nohigh not_in_levels] in *. intros j2 E. pose proof (precedence_level o) as Hp. rewrite E in Hp. lia.
Qed.

(* the converse of [nohigh_levels], up to the tokens that are no infix operators *)
Lemma nohigh_follow p r :
  not_in_levels 0 (lvl_of p) r ->
  (forall o ts, r = SOp o :: ts -> op_level o = None -> (precedence o < p)%N) ->
  nohigh p r.
Proof.
  intros Hfol Hno. destruct r as [|[z|x|o] ts]; try exact I. cbn [nohigh not_in_levels] in *.
  pose proof (precedence_level o) as P. destruct (op_level o) as [j|] eqn:E; [|eauto].
  specialize (Hfol j eq_refl). unfold lvl_of in Hfol. lia.
Qed.

(* a level does nothing when the next token is not one of its operators *)
Lemma stail_noop g j a ts :
  (1 <= g)%nat -> (1 <= j)%nat -> not_in_levels (j - 1) 1 ts -> stail g j a ts = Some (a, ts).
Proof.
  intros Hg Hj Hn. unfold stail, tail. destruct g as [|g]; [lia|].
  destruct ts as [|[z|x|o] r].
  1-3: destruct (Nat.eqb j conditional_level); try reflexivity;
       destruct (Nat.eqb j assignment_level); reflexivity.
  assert (Hl : op_level o <> Some j) by (intros E; specialize (Hn j E); lia).
  destruct (Nat.eqb_spec j conditional_level) as [->|H11].
  - destruct o; try reflexivity. exfalso. apply Hl. reflexivity.
  - destruct (Nat.eqb_spec j assignment_level) as [->|H12].
    + destruct (op_assoc o assignment_operators) eqn:E; [|reflexivity].
      exfalso. apply Hl. apply op_level_assign. congruence.
    + rewrite chain_S.
      destruct (op_assoc o (binary_level j)) eqn:E; [|reflexivity].
      exfalso. unfold conditional_level, assignment_level in *.
      destruct (Nat.le_gt_cases j 10).
      * apply Hl. apply op_level_binary; [lia|congruence].
      * rewrite binary_level_out in E by lia. discriminate.
Qed.

Lemma tails_noop g lo n a ts :
  (1 <= g)%nat -> not_in_levels lo n ts -> tails g lo n a ts = Some (a, ts).
Proof.
  intros Hg. induction n as [|n IH]; intros Hn; [reflexivity|].
  cbn [tails]. rewrite IH by (eapply not_in_levels_sub; [| |exact Hn]; lia).
  apply stail_noop; [assumption|lia|]. eapply not_in_levels_sub; [| |exact Hn]; lia.
Qed.

Lemma tails_skip g L j a ts :
  (1 <= g)%nat -> (j <= L)%nat -> not_in_levels 0 j ts ->
  tails g 0 L a ts = tails g j (L - j) a ts.
Proof.
  intros Hg Hj Hn. replace L with (j + (L - j))%nat at 1 by lia.
  now rewrite tails_split, tails_noop.
Qed.

Lemma tails_from_level g L j a ts :
  (1 <= g)%nat -> (1 <= j <= L)%nat -> not_in_levels 0 (j - 1) ts ->
  tails g 0 L a ts =
  match stail g j a ts with
  | Some (a2, r3) => tails g j (L - j) a2 r3
  | None => None
  end.
Proof.
  intros Hg Hj Hn. rewrite (tails_skip g L (j - 1)) by (assumption || lia).
  replace (L - (j - 1))%nat with (1 + (L - j))%nat by lia.
  rewrite tails_split. cbn [tails]. replace (j - 1 + 1)%nat with j by lia.
  now destruct (stail g j a ts) as [[a2 r3]|].
Qed.

Lemma stail_chain g j a ts : (j <= 10)%nat -> stail g j a ts = chain g j a ts.
Proof.
  intros Hj. unfold stail, tail, conditional_level, assignment_level.
  replace (Nat.eqb j 11) with false by (symmetry; apply Nat.eqb_neq; lia).
  replace (Nat.eqb j 12) with false by (symmetry; apply Nat.eqb_neq; lia). reflexivity.
Qed.

Lemma stail_cond g a r :
  stail g 11 a (SOp OQuestion :: r) =
  match sp g 12 r with
  | Some (t, SOp OColon :: r') =>
      match sp g 11 r' with
      | Some (f, r'') => Some (ECond a t f, r'')
      | None => None
      end
  | _ => None
  end.
Proof. reflexivity. Qed.

Lemma stail_assign g a o r :
  stail g 12 a (SOp o :: r) =
  match op_assoc o assignment_operators with
  | Some b => match sp g 12 r with
              | Some (v, r') => Some (EBin b a v, r')
              | None => None
              end
  | None => Some (a, SOp o :: r)
  end.
Proof. reflexivity. Qed.

(* More fuel does not change a successful parse of the grammar function.  Needed
   where a turn of [chain] has cost one unit and the induction hypothesis speaks of
   the rest of the loop with the smaller fuel ([derives_sound], [C_loop_of]). *)
Definition pmono (p q : parser) : Prop := forall ts x, p ts = Some x -> q ts = Some x.

Lemma unary_mono e1 e2 u1 u2 :
  pmono e1 e2 -> pmono u1 u2 -> pmono (unary e1 u1) (unary e2 u2).
Proof.
  intros He Hu ts x. unfold unary. destruct ts as [|[z|v|o] r]; auto.
  destruct o; auto;
    try (destruct (u1 r) as [[e r']|] eqn:E; [|discriminate]; rewrite (Hu _ _ E); auto).
  destruct (e1 r) as [[e r']|] eqn:E; [|discriminate]. rewrite (He _ _ E). auto.
Qed.

Lemma tail_mono e1 e2 c1 c2 a1 a2 (ch1 ch2 : nat -> expr -> parser) :
  pmono e1 e2 -> pmono c1 c2 -> pmono a1 a2 ->
  (forall l x, pmono (ch1 l x) (ch2 l x)) ->
  forall lvl x, pmono (tail e1 c1 a1 ch1 lvl x) (tail e2 c2 a2 ch2 lvl x).
Proof.
  intros He Hc Ha Hch lvl x ts y. unfold tail.
  destruct (Nat.eqb lvl conditional_level).
  - destruct ts as [|[z|v|o] r]; auto. destruct o; auto.
    destruct (e1 r) as [[t r']|] eqn:E; [|discriminate]. rewrite (He _ _ E).
    destruct r' as [|[z|v|o] r'']; auto. destruct o; auto.
    destruct (c1 r'') as [[f r3]|] eqn:E2; [|discriminate]. rewrite (Hc _ _ E2). auto.
  - destruct (Nat.eqb lvl assignment_level).
    + destruct ts as [|[z|v|o] r]; auto.
      destruct (op_assoc o assignment_operators); auto.
      destruct (a1 r) as [[v r']|] eqn:E; [|discriminate]. rewrite (Ha _ _ E). auto.
    + apply Hch.
Qed.

Lemma sp_chain_mono g :
  (forall lvl, pmono (sp g lvl) (sp (S g) lvl)) /\
  (forall lvl a, pmono (chain g lvl a) (chain (S g) lvl a)).
Proof.
  induction g as [|g [IHs IHc]].
  - split; intros; intros ts x H; discriminate H.
  - assert (Hs : forall lvl, pmono (sp (S g) lvl) (sp (S (S g)) lvl)).
    { induction lvl as [|l IHl].
      - intros ts x. rewrite !sp_0. apply unary_mono; apply IHs.
      - intros ts x. rewrite !sp_S.
        destruct (sp (S g) l ts) as [[a r]|] eqn:E; [|discriminate].
        rewrite (IHl _ _ E). unfold stail. apply tail_mono; auto. }
    split; [exact Hs|].
    intros lvl a ts x. rewrite (chain_S (S g)), (chain_S g).
    destruct ts as [|[z|v|o] r]; auto.
    destruct (op_assoc o (binary_level lvl)); auto.
    destruct (sp g (pred lvl) r) as [[c r']|] eqn:E; [|discriminate].
    rewrite (IHs _ _ _ E). apply IHc.
Qed.

Lemma stail_mono g lvl a : pmono (stail g lvl a) (stail (S g) lvl a).
Proof.
  destruct (sp_chain_mono g) as [Hs Hc]. unfold stail. apply tail_mono; auto.
Qed.

Lemma tails_mono g lo n a ts x : tails g lo n a ts = Some x -> tails (S g) lo n a ts = Some x.
Proof.
  revert x. induction n as [|n IH]; intros x; cbn [tails]; [auto|].
  destruct (tails g lo n a ts) as [[a' r]|]; [|discriminate].
  rewrite (IH _ eq_refl). apply stail_mono.
Qed.

Lemma chain_mono g lvl a ts x : chain g lvl a ts = Some x -> chain (S g) lvl a ts = Some x.
Proof. apply sp_chain_mono. Qed.

Definition toks := list (tokval * range).

(* The runs of parse_leaf / parse_tree / parse_loop that succeed, as derivations over the
   token list (the [fin] of the stream is never looked at by a run that succeeds):
   [Leaf ts ns ts'] = from [ts] the function pushes the nodes [ns] and leaves [ts'];
   [Loop m acc ts ns ts'] = the `while let` loop entered with the nodes [acc]. *)
Inductive Leaf : toks -> list ast -> toks -> Prop :=
| Leaf_term t loc ts ps ts' :
    parse_postfix_l ts = (ps, ts') -> Leaf ((TkTerm t, loc) :: ts) (ATerm t :: ps) ts'
| Leaf_paren loc ts ns cl ts2 ps ts' :
    Tree 1 ts ns ((TkOp OCloseParen, cl) :: ts2) -> parse_postfix_l ts2 = (ps, ts') ->
    Leaf ((TkOp OOpenParen, loc) :: ts) (ns ++ ps) ts'
| Leaf_prefix o p loc ts ns ts' :
    as_prefix o = Some p -> Leaf ts ns ts' ->
    Leaf ((TkOp o, loc) :: ts) (ns ++ [APrefix p loc]) ts'
with Tree : N -> toks -> list ast -> toks -> Prop :=
| Tree_loop m ts ns ts1 ns' ts' : Leaf ts ns ts1 -> Loop m ns ts1 ns' ts' -> Tree m ts ns' ts'
with Loop : N -> list ast -> toks -> list ast -> toks -> Prop :=
| Loop_stop m acc ts : nohigh m (erase ts) -> Loop m acc ts acc ts
| Loop_cond m acc loc ts nt cl ts2 ne ts4 ns ts' :
    (m <= precedence OQuestion)%N ->
    Tree 1 ts nt ((TkOp OColon, cl) :: ts2) -> Tree (precedence OQuestion) ts2 ne ts4 ->
    Loop m (acc ++ nt ++ ne ++ [ACond (length nt) (length ne)]) ts4 ns ts' ->
    Loop m acc ((TkOp OQuestion, loc) :: ts) ns ts'
| Loop_binary m acc o loc ts b a nr ts2 ns ts' :
    (m <= precedence o)%N -> as_binary o = Some (b, a) ->
    Tree (match a with Left => precedence o + 1 | Right => precedence o end) ts nr ts2 ->
    Loop m (acc ++ nr ++ [ABinary b (length nr) loc]) ts2 ns ts' ->
    Loop m acc ((TkOp o, loc) :: ts) ns ts'.

Scheme Leaf_mut := Minimality for Leaf Sort Prop
  with Tree_mut := Minimality for Tree Sort Prop
  with Loop_mut := Minimality for Loop Sort Prop.
Combined Scheme derivation_ind from Leaf_mut, Tree_mut, Loop_mut.

(* One step of each function, with the tests on the operator token as the tables
   [as_prefix], [as_binary] state them. *)
Lemma parse_leaf_S f st :
  parse_leaf (S f) st =
  let '(k, loc, st1) := next st in
  match k with
  | KErr e => PErr (SETok e) loc
  | KTerm t => let '(ps, st2) := parse_postfix st1 in POk (ATerm t :: ps) st2
  | KOp o =>
      match as_prefix o with
      | Some p =>
          match parse_leaf f st1 with
          | POk ns st2 => POk (ns ++ [APrefix p loc]) st2
          | r => r
          end
      | None =>
          if oper_eqb o OOpenParen then
            match parse_tree f 1 st1 with
            | POk ns st2 =>
                match parse_close_paren st2 loc with
                | inl st3 => let '(ps, st4) := parse_postfix st3 in POk (ns ++ ps) st4
                | inr (e, l) => PErr e l
                end
            | r => r
            end
          else PErr InvalidOperator loc
      end
  | KEnd => PErr IncompleteExpression loc
  end.
Proof.
  cbn [parse_leaf]. destruct (next st) as [[[t|o| |e] loc] st1]; try reflexivity.
  destruct o; reflexivity.
Qed.

Lemma parse_tree_S f m st :
  parse_tree (S f) m st =
  match parse_leaf f st with
  | POk ns st1 => parse_loop f m ns st1
  | r => r
  end.
Proof. reflexivity. Qed.

Lemma parse_loop_S f m acc st :
  parse_loop (S f) m acc st =
  match peek_op st with
  | None => POk acc st
  | Some (o, loc, st1) =>
      if (precedence o <? m)%N then POk acc st
      else
        match as_binary o with
        | Some (b, a) =>
            match parse_tree f (match a with Left => precedence o + 1 | Right => precedence o end) st1 with
            | POk nr st2 => parse_loop f m (acc ++ nr ++ [ABinary b (length nr) loc]) st2
            | r => r
            end
        | None =>
            if oper_eqb o OQuestion then
              match parse_tree f 1 st1 with
              | POk nt st2 =>
                  let '(k, cl, st3) := next st2 in
                  match k with
                  | KErr e => PErr (SETok e) cl
                  | KOp OColon =>
                      match parse_tree f 2 st3 with
                      | POk ne st4 =>
                          parse_loop f m (acc ++ nt ++ ne ++ [ACond (length nt) (length ne)]) st4
                      | r => r
                      end
                  | _ => PErr (QuestionWithoutColon loc) cl
                  end
              | r => r
              end
            else PErr InvalidOperator loc
        end
  end.
Proof.
  cbn [parse_loop]. destruct (peek_op st) as [[[o loc] st1]|]; [|reflexivity].
  destruct o; reflexivity.
Qed.

Lemma parse_postfix_eq ts fi :
  parse_postfix (ts, fi) = (fst (parse_postfix_l ts), (snd (parse_postfix_l ts), fi)).
Proof. unfold parse_postfix. cbn [fst snd]. now destruct (parse_postfix_l ts). Qed.

Lemma parse_close_paren_inl st op st' :
  parse_close_paren st op = inl st' ->
  exists cl, st = ((TkOp OCloseParen, cl) :: fst st', snd st').
Proof.
  unfold parse_close_paren. destruct st as [[|[[t|o] cl] ts] fi]; cbn [next].
  - destruct fi; discriminate.
  - discriminate.
  - destruct o; try discriminate. intros [= <-]. now exists cl.
Qed.

Lemma parse_postfix_l_length ts : (length (snd (parse_postfix_l ts)) <= length ts)%nat.
Proof.
  induction ts as [|[[t|o] loc] ts IH]; cbn [parse_postfix_l]; try (cbn; lia).
  destruct (as_postfix o); [|cbn; lia].
  destruct (parse_postfix_l ts) as [ns r]. cbn [snd length] in *. lia.
Qed.

Lemma derives_shape :
  (forall ts ns ts', Leaf ts ns ts' -> (length ts' < length ts)%nat) /\
  (forall m ts ns ts', Tree m ts ns ts' ->
     (length ts' < length ts)%nat /\ nohigh m (erase ts')) /\
  (forall m acc ts ns ts', Loop m acc ts ns ts' ->
     (length ts' <= length ts)%nat /\ nohigh m (erase ts')).
Proof.
  apply derivation_ind; cbn [length].
  - intros t loc ts ps ts' Hp. pose proof (parse_postfix_l_length ts) as H. rewrite Hp in H. cbn in H. lia.
  - intros loc ts ns cl ts2 ps ts' _ [IH _] Hp.
    pose proof (parse_postfix_l_length ts2) as H. rewrite Hp in H. cbn in *. lia.
  - intros o p loc ts ns ts' _ _ IH. lia.
  - intros m ts ns ts1 ns' ts' _ IH1 _ [IH2 Hn]. split; [lia|exact Hn].
  - intros m acc ts Hn. split; [lia|exact Hn].
  - intros m acc loc ts nt cl ts2 ne ts4 ns ts' _ _ [IH1 _] _ [IH2 _] _ [IH3 Hn].
    split; [cbn in *; lia|exact Hn].
  - intros m acc o loc ts b a nr ts2 ns ts' _ _ _ [IH1 _] _ [IH2 Hn]. split; [lia|exact Hn].
Qed.

(* What a run with fuel [f] can be: a success, which is a derivation [D] and leaves the
   [fin] of the stream alone; an error; or out of fuel, and then [f] is below [bound]
   (two units of fuel for each token are enough). *)
Definition run_is (f bound : nat) (D : list ast -> toks -> Prop) (fi : fin) (r : pres) : Prop :=
  match r with
  | POk ns st' => snd st' = fi /\ D ns (fst st')
  | PErr _ _ => True
  | PFuel => (f < bound)%nat
  end.

Lemma parse_runs f :
  (forall st, run_is f (2 * length (fst st) + 1) (Leaf (fst st)) (snd st) (parse_leaf f st)) /\
  (forall m st, run_is f (2 * length (fst st) + 2) (Tree m (fst st)) (snd st) (parse_tree f m st)) /\
  (forall m acc st,
     run_is f (2 * length (fst st) + 1) (Loop m acc (fst st)) (snd st) (parse_loop f m acc st)).
Proof.
  destruct derives_shape as [SHleaf [SHtree _]].
  induction f as [|f [IHleaf [IHtree IHloop]]]; [repeat split; intros; cbn; lia|].
  split; [|split].
  - intros [[|[[t|o] loc] ts] fi]; rewrite parse_leaf_S; cbn [next fst snd length].
    + destruct fi; exact I.
    + rewrite parse_postfix_eq. split; [reflexivity|]. constructor. apply surjective_pairing.
    + destruct (as_prefix o) as [p|] eqn:Ep.
      * specialize (IHleaf (ts, fi)).
        destruct (parse_leaf f (ts, fi)) as [ns0 st2| |]; cbn [run_is fst snd] in *; [|exact I|lia].
        destruct IHleaf as [E1 E2]. split; [exact E1|]. now apply Leaf_prefix.
      * destruct (oper_eqb o OOpenParen) eqn:Eo; [|exact I]. apply oper_eqb_eq in Eo. subst o.
        specialize (IHtree 1%N (ts, fi)).
        destruct (parse_tree f 1 (ts, fi)) as [ns0 st2| |]; cbn [run_is fst snd] in *; [|exact I|lia].
        destruct IHtree as [E1 E2].
        destruct (parse_close_paren st2 loc) as [[ts3 fi3]|[e l]] eqn:Ec; [|exact I].
        apply parse_close_paren_inl in Ec. destruct Ec as [cl ->].
        rewrite parse_postfix_eq. split; [exact E1|].
        eapply Leaf_paren; [exact E2|apply surjective_pairing].
  - intros m st. rewrite parse_tree_S. specialize (IHleaf st).
    destruct (parse_leaf f st) as [ns0 st1| |]; cbn [run_is] in *; [|exact I|lia].
    destruct IHleaf as [E1 E2]. specialize (IHloop m ns0 st1).
    destruct (parse_loop f m ns0 st1) as [ns st'| |]; cbn [run_is] in *; [|exact I|].
    + destruct IHloop as [H1 H2]. split; [exact (eq_trans H1 E1)|]. now apply Tree_loop with ns0 (fst st1).
    + apply SHleaf in E2. lia.
  - intros m acc [[|[[[z|x l]|o] loc] ts] fi]; rewrite parse_loop_S; cbn [peek_op fst snd length];
      try (split; [reflexivity|]; apply Loop_stop; exact I).
    destruct (N.ltb_spec (precedence o) m) as [Hlt|Hge].
    { split; [reflexivity|]. now apply Loop_stop. }
    destruct (as_binary o) as [[b a]|] eqn:Eb.
    + set (mm := match a with Left => (precedence o + 1)%N | Right => precedence o end).
      specialize (IHtree mm (ts, fi)).
      destruct (parse_tree f mm (ts, fi)) as [nr st2| |]; cbn [run_is fst snd] in *; [|exact I|lia].
      destruct IHtree as [E1 E2]. apply SHtree in E2 as HS.
      specialize (IHloop m (acc ++ nr ++ [ABinary b (length nr) loc]) st2).
      destruct (parse_loop f m _ st2) as [ns st'| |]; cbn [run_is] in *; [|exact I|lia].
      destruct IHloop as [H1 H2]. split; [exact (eq_trans H1 E1)|].
      now apply Loop_binary with b a nr (fst st2).
    + destruct (oper_eqb o OQuestion) eqn:Eo; [|exact I]. apply oper_eqb_eq in Eo. subst o.
      pose proof (IHtree 1%N (ts, fi)) as IH1.
      destruct (parse_tree f 1 (ts, fi)) as [nt st2| |]; cbn [run_is fst snd] in *; [|exact I|lia].
      destruct IH1 as [E1 E2]. apply SHtree in E2 as HS1.
      destruct st2 as [[|[[t|o] cl] ts2] fi2]; cbn [next fst snd length] in *; try exact I.
      { destruct fi2; exact I. }
      destruct o; try exact I.
      pose proof (IHtree 2%N (ts2, fi2)) as IH2.
      destruct (parse_tree f 2 (ts2, fi2)) as [ne st4| |]; cbn [run_is fst snd] in *; [|exact I|lia].
      destruct IH2 as [E41 E42]. apply SHtree in E42 as HS2.
      specialize (IHloop m (acc ++ nt ++ ne ++ [ACond (length nt) (length ne)]) st4).
      destruct (parse_loop f m _ st4) as [ns st'| |]; cbn [run_is] in *; [|exact I|lia].
      destruct IHloop as [H1 H2]. split; [exact (eq_trans H1 (eq_trans E41 E1))|].
      now apply Loop_cond with nt cl ts2 ne (fst st4).
Qed.

Lemma parse_derives f :
  (forall st ns st', parse_leaf f st = POk ns st' ->
     snd st' = snd st /\ Leaf (fst st) ns (fst st')) /\
  (forall m st ns st', parse_tree f m st = POk ns st' ->
     snd st' = snd st /\ Tree m (fst st) ns (fst st')) /\
  (forall m acc st ns st', parse_loop f m acc st = POk ns st' ->
     snd st' = snd st /\ Loop m acc (fst st) ns (fst st')).
Proof.
  destruct (parse_runs f) as [L [T Lo]]. split; [|split].
  - intros st ns st' H. specialize (L st). rewrite H in L. exact L.
  - intros m st ns st' H. specialize (T m st). rewrite H in T. exact T.
  - intros m acc st ns st' H. specialize (Lo m acc st). rewrite H in Lo. exact Lo.
Qed.

Lemma parse_end_empty st1 : parse_end_of_input st1 = None -> fst st1 = [].
Proof.
  unfold parse_end_of_input. destruct st1 as [[|[[t|o] l] ts] fi]; cbn [next]; [reflexivity| |].
  - discriminate.
  - destruct o; discriminate.
Qed.

(* what ast::parse accepts is a tree of minimum precedence 1 that leaves no token *)
Lemma parse_ok st ns st' : parse st = POk ns st' -> Tree 1 (fst st) ns [].
Proof.
  unfold parse. destruct (parse_tree (parse_fuel st) 1 st) as [ns0 st1| |] eqn:E; try discriminate.
  destruct (parse_end_of_input st1) as [[e l]|] eqn:Ee; [discriminate|]. intros [= <- <-].
  apply parse_end_empty in Ee. apply parse_derives in E as [_ HT]. now rewrite Ee in HT.
Qed.

(* a partial result: the run with fuel [f] has not been cut short, or gives [res] *)
Definition upto (r res : pres) : Prop := r = PFuel \/ r = res.

Lemma upto_bind r ns st (k : list ast -> stream -> pres) res :
  upto r (POk ns st) -> upto (k ns st) res ->
  upto (match r with POk a b => k a b | PErr e l => PErr e l | PFuel => PFuel end) res.
Proof. intros [->| ->] H; [now left|exact H]. Qed.

(* a derivation is what the functions return, whatever fuel they get *)
Lemma derives_parse fi :
  (forall ts ns ts', Leaf ts ns ts' ->
     forall f, upto (parse_leaf f (ts, fi)) (POk ns (ts', fi))) /\
  (forall m ts ns ts', Tree m ts ns ts' ->
     forall f, upto (parse_tree f m (ts, fi)) (POk ns (ts', fi))) /\
  (forall m acc ts ns ts', Loop m acc ts ns ts' ->
     forall f, upto (parse_loop f m acc (ts, fi)) (POk ns (ts', fi))).
Proof.
  apply derivation_ind.
  - intros t loc ts ps ts' Hp [|f]; [now left|right]. rewrite parse_leaf_S. cbn [next].
    now rewrite parse_postfix_eq, Hp.
  - intros loc ts ns cl ts2 ps ts' _ IH Hp [|f]; [now left|]. rewrite parse_leaf_S. cbn [next as_prefix oper_eqb].
    apply upto_bind with (1 := IH f). right. unfold parse_close_paren. cbn [next].
    now rewrite parse_postfix_eq, Hp.
  - intros o p loc ts ns ts' Hp _ IH [|f]; [now left|]. rewrite parse_leaf_S. cbn [next]. rewrite Hp.
    apply upto_bind with (1 := IH f). now right.
  - intros m ts ns ts1 ns' ts' _ IH1 _ IH2 [|f]; [now left|]. rewrite parse_tree_S.
    apply upto_bind with (1 := IH1 f). apply IH2.
  - intros m acc ts Hn [|f]; [now left|right]. rewrite parse_loop_S.
    destruct ts as [|[[t|o] loc] ts]; try reflexivity. cbn [peek_op]. cbn in Hn.
    now apply N.ltb_lt in Hn as ->.
  - intros m acc loc ts nt cl ts2 ne ts4 ns ts' Hm _ IH1 _ IH2 _ IH3 [|f]; [now left|].
    rewrite parse_loop_S. cbn [peek_op as_binary oper_eqb].
    replace (precedence OQuestion <? m)%N with false by (symmetry; apply N.ltb_ge; exact Hm).
    apply upto_bind with (1 := IH1 f). cbn [next].
    apply upto_bind with (1 := IH2 f). apply IH3.
  - intros m acc o loc ts b a nr ts2 ns ts' Hm Hb _ IH1 _ IH2 [|f]; [now left|].
    rewrite parse_loop_S. cbn [peek_op]. rewrite Hb.
    replace (precedence o <? m)%N with false by (symmetry; apply N.ltb_ge; exact Hm).
    apply upto_bind with (1 := IH1 f). apply IH2.
Qed.

Lemma parse_postfix_l_ok ts :
  Forall tok_ok ts ->
  Forall node_ok (fst (parse_postfix_l ts)) /\ Forall tok_ok (snd (parse_postfix_l ts)).
Proof.
  induction ts as [|[[t|o] loc] ts IH]; cbn [parse_postfix_l]; intros H;
    try (split; [constructor|exact H]).
  destruct (as_postfix o); [|split; [constructor|exact H]].
  inversion H as [|? ? _ Hts]; subst. apply IH in Hts.
  destruct (parse_postfix_l ts). cbn [fst snd] in *. split; [constructor; [exact I|]|]; apply Hts.
Qed.

Lemma derives_ok :
  (forall ts ns ts', Leaf ts ns ts' -> Forall tok_ok ts -> Forall node_ok ns /\ Forall tok_ok ts') /\
  (forall m ts ns ts', Tree m ts ns ts' ->
     Forall tok_ok ts -> Forall node_ok ns /\ Forall tok_ok ts') /\
  (forall m acc ts ns ts', Loop m acc ts ns ts' -> Forall node_ok acc ->
     Forall tok_ok ts -> Forall node_ok ns /\ Forall tok_ok ts').
Proof.
  apply derivation_ind.
  - intros t loc ts ps ts' Hp H. inversion H as [|? ? Ht Hts]; subst.
    apply parse_postfix_l_ok in Hts. rewrite Hp in Hts. split; [constructor; [now destruct t|]|]; apply Hts.
  - intros loc ts ns cl ts2 ps ts' _ IH Hp H. inversion H as [|? ? _ Hts]; subst.
    destruct (IH Hts) as [Hns H2]. inversion H2 as [|? ? _ Hts2]; subst.
    apply parse_postfix_l_ok in Hts2. rewrite Hp in Hts2. rewrite Forall_app. tauto.
  - intros o p loc ts ns ts' _ _ IH H. inversion H as [|? ? _ Hts]; subst.
    destruct (IH Hts) as [Hns H2]. rewrite Forall_app. repeat split; try assumption. now constructor.
  - intros m ts ns ts1 ns' ts' _ IH1 _ IH2 H. destruct (IH1 H). now apply IH2.
  - auto.
  - intros m acc loc ts nt cl ts2 ne ts4 ns ts' _ _ IH1 _ IH2 _ IH3 Hacc H.
    inversion H as [|? ? _ Hts]; subst. destruct (IH1 Hts) as [Hnt H2].
    inversion H2 as [|? ? _ Hts2]; subst. destruct (IH2 Hts2) as [Hne H4].
    apply IH3; [|exact H4]. rewrite !Forall_app. repeat split; try assumption. now constructor.
  - intros m acc o loc ts b a nr ts2 ns ts' _ _ _ IH1 _ IH2 Hacc H.
    inversion H as [|? ? _ Hts]; subst. destruct (IH1 Hts) as [Hnr H2].
    apply IH2; [|exact H2]. rewrite !Forall_app. repeat split; try assumption. now constructor.
Qed.

Lemma parse_postfix_l_spec ts e ns :
  Repr e ns ->
  exists e', postfix_ops e (erase ts) = (e', erase (snd (parse_postfix_l ts))) /\
             Repr e' (ns ++ fst (parse_postfix_l ts)).
Proof.
  revert e ns. induction ts as [|[[[z|x l]|o] loc] ts IH]; intros e ns HR;
    try (exists e; rewrite app_nil_r; now split).
  cbn [parse_postfix_l erase map erase_tok fst postfix_ops].
  destruct (prefix_tables o) as [_ <-].
  destruct (as_postfix o) as [p|]; [|exists e; rewrite app_nil_r; now split].
  destruct (IH _ _ (RPost p loc e ns HR)) as [e' [H1 H2]].
  destruct (parse_postfix_l ts) as [ps r]. exists e'. split; [exact H1|].
  now rewrite <- app_assoc in H2.
Qed.

Definition ets (st : stream) : list stok := erase (fst st).

Lemma erase_cons t ts : erase (t :: ts) = erase_tok t :: erase ts.
Proof. reflexivity. Qed.

(* What the model parser accepts, the grammar derives, with the same tree: a [Tree m]
   is an expression of level [lvl_of m]; a [Loop m] entered with the nodes of the tree
   [a] applies the levels 1 .. [lvl_of m] to [a].  The fuel [g] of the grammar
   function exceeds the number of tokens, as in [spec_parse]. *)
Lemma derives_sound :
  (forall ts ns ts', Leaf ts ns ts' ->
     forall g, (length ts < g)%nat ->
     exists e, sp g 0 (erase ts) = Some (e, erase ts') /\ Repr e ns) /\
  (forall m ts ns ts', Tree m ts ns ts' -> (1 <= m <= 13)%N ->
     forall g, (length ts < g)%nat ->
     exists e, sp g (lvl_of m) (erase ts) = Some (e, erase ts') /\ Repr e ns) /\
  (forall m acc ts ns ts', Loop m acc ts ns ts' -> (1 <= m <= 13)%N ->
     forall a g, Repr a acc -> (length ts < g)%nat ->
     exists e, tails g 0 (lvl_of m) a (erase ts) = Some (e, erase ts') /\ Repr e ns).
Proof.
  destruct derives_shape as [SHleaf [SHtree _]].
  apply derivation_ind; cbn [length].
  - intros t loc ts ps ts' Hp [|g] Hg; [lia|]. rewrite sp_0.
    destruct t as [z|x l];
      [destruct (parse_postfix_l_spec ts _ _ (RNum z)) as [e' [H1 H2]]
      |destruct (parse_postfix_l_spec ts _ _ (RVar x l)) as [e' [H1 H2]]];
      rewrite Hp in H1, H2; exists e'; rewrite erase_cons; cbn [erase_tok fst unary]; rewrite H1; auto.
  - intros loc ts ns cl ts2 ps ts' _ IH Hp [|g] Hg; [lia|]. rewrite sp_0.
    destruct (IH ltac:(lia) g ltac:(lia)) as [e [He HR]].
    destruct (parse_postfix_l_spec ts2 _ _ HR) as [e' [H1 H2]]. rewrite Hp in H1, H2.
    exists e'. change (lvl_of 1) with assignment_level in He.
    rewrite erase_cons in *. cbn [erase_tok fst unary snd] in *. rewrite He, H1. auto.
  - intros o p loc ts ns ts' Hp _ IH [|g] Hg; [lia|]. rewrite sp_0.
    destruct (IH g ltac:(lia)) as [e [He HR]].
    exists (EPre p e). split; [|now constructor]. rewrite erase_cons. cbn [erase_tok fst].
    rewrite (proj1 (prefix_tables o)) in Hp. now rewrite (unary_prefix _ _ o p), He.
  - intros m ts ns ts1 ns' ts' HL IH1 _ IH2 Hm [|g] Hg; [lia|].
    destruct (IH1 (S g) Hg) as [e0 [He0 HR0]].
    apply SHleaf in HL.
    destruct (IH2 Hm e0 g HR0 ltac:(lia)) as [e [He HRe]].
    exists e. split; [|exact HRe]. now rewrite sp_tails, He0.
  - intros m acc ts Hn Hm a g HR Hg. exists a. split; [|exact HR].
    apply tails_noop; [lia|]. now apply (nohigh_levels m).
  - intros m acc loc ts nt cl ts2 ne ts4 ns ts' Hm2 HT1 IH1 HT2 IH2 _ IH3 Hm a g HR Hg.
    change (precedence OQuestion) with 2%N in *.
    apply SHtree in HT1. apply SHtree in HT2. destruct HT1 as [Hl1 _], HT2 as [Hl2 Hn4].
    cbn [length] in Hl1.
    destruct (IH1 ltac:(lia) g ltac:(lia)) as [t [Ht HRt]].
    destruct (IH2 ltac:(lia) g ltac:(lia)) as [fe [Hfe HRf]].
    destruct (IH3 Hm (ECond a t fe) g (RCond _ _ _ _ _ _ HR HRt HRf) ltac:(lia)) as [e [He HRe]].
    exists e. split; [|exact HRe].
    assert (HL : (11 <= lvl_of m)%nat) by (unfold lvl_of; lia).
    rewrite erase_cons. cbn [erase_tok fst].
    rewrite (tails_from_level g (lvl_of m) 11) by
      (try lia; apply op_not_in_levels with 11%nat; reflexivity || lia).
    change (lvl_of 1) with 12%nat in Ht. change (lvl_of 2) with 11%nat in Hfe.
    rewrite erase_cons in Ht. rewrite stail_cond, Ht. cbn [erase_tok fst]. rewrite Hfe.
    rewrite (tails_skip g (lvl_of m) 11) in He; try lia; [exact He|].
    now apply (nohigh_levels 2).
  - intros m acc o loc ts b a nr ts2 ns ts' Hmo Hb HT IH1 _ IH2 Hm e0 g HR Hg.
    apply SHtree in HT. destruct HT as [Hl2 Hn2].
    pose proof (precedence_level o) as Hprec.
    rewrite as_binary_level in Hb.
    destruct (op_level o) as [j|] eqn:Ej; try discriminate. destruct Hprec as [Hp Hj].
    assert (HL : (j <= lvl_of m)%nat) by (unfold lvl_of; lia).
    rewrite erase_cons. cbn [erase_tok fst].
    rewrite (tails_from_level g (lvl_of m) j) by
      (try lia; apply op_not_in_levels with j; assumption || lia).
    destruct (Nat.leb_spec j 10) as [Hj10|Hj10].
    + (* left-associative level j: one more turn of [chain] *)
      destruct (op_assoc o (binary_level j)) as [b'|] eqn:Eo; try discriminate.
      injection Hb as -> <-.
      destruct g as [|g]; [lia|].
      destruct (IH1 ltac:(lia) g ltac:(lia)) as [c [Hc HRc]].
      replace (lvl_of (precedence o + 1)) with (pred j) in Hc by (unfold lvl_of; lia).
      destruct (IH2 Hm (EBin b e0 c) g (RBin _ loc _ _ _ _ HR HRc) ltac:(lia)) as [e [He HRe]].
      exists e. split; [|exact HRe].
      rewrite stail_chain, chain_S, Eo, Hc by assumption.
      rewrite (tails_from_level g (lvl_of m) j), stail_chain in He; try lia.
      2:{ apply (nohigh_levels (precedence o + 1)); [exact Hn2|unfold lvl_of; lia]. }
      destruct (chain g j (EBin b e0 c) (erase ts2)) as [[a2 r3]|]; [|discriminate].
      now apply tails_mono.
    + (* assignment: the right operand is a whole assignment-expression *)
      destruct (Nat.eqb_spec j 12) as [->|]; try discriminate.
      destruct (op_assoc o assignment_operators) as [b'|] eqn:Eo; try discriminate.
      injection Hb as -> <-.
      destruct (IH1 ltac:(lia) g ltac:(lia)) as [v [Hv HRv]].
      replace (lvl_of (precedence o)) with 12%nat in Hv by (unfold lvl_of; lia).
      destruct (IH2 Hm (EBin b e0 v) g (RBin _ loc _ _ _ _ HR HRv) ltac:(lia)) as [e [He HRe]].
      exists e. split; [|exact HRe].
      rewrite stail_assign, Eo, Hv.
      rewrite (tails_skip g (lvl_of m) 12) in He; try lia; [exact He|].
      apply (nohigh_levels (precedence o)); [exact Hn2|unfold lvl_of; lia].
Qed.
