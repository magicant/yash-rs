(* C03 — the arithmetic expansion `$(( ))` of the shell against
   SpecShell.v: model and specification go through the units of the text in step
   ([xy]), each nested expansion by [run_mode_correct]. *)
From Yv Require Import Common.Base C03.Defs C03.Model C03.ModelShell C03.SpecShell C03.Proofs.

Definition xy (x : xres) (y : yres) : Prop :=
  match x, y with
  | XOk s e, YOk s' e' => s = s' /\ e = e'
  | XErr e, YErr e' => e = e'
  | _, _ => False
  end.

Lemma arith_of_text_xy m cls x y : xy x y -> xy (arith_of_text m cls x) (spec_arith_of_text m cls y).
Proof.
  destruct x as [s e|e|], y as [s' e'|e']; cbn [xy]; try contradiction.
  - intros [<- <-]. cbn [arith_of_text spec_arith_of_text].
    pose proof (run_mode_correct m cls s e) as H.
    destruct (run_mode m cls s e) as [z e2|c l e2| |]; try contradiction; rewrite H; cbn; auto.
  - intros <-. exact eq_refl.
Qed.

Lemma xappend_xy a b k k' :
  xy a b -> (forall e, xy (k e) (k' e)) -> xy (xappend a k) (yappend b k').
Proof.
  destruct a as [s e|e|], b as [s' e'|e']; cbn [xy]; try contradiction.
  - intros [<- <-] Hk. cbn [xappend yappend]. specialize (Hk e).
    destruct (k e) as [s2 e2|e2|], (k' e) as [s2' e2'|e2']; cbn [xy] in *; try contradiction.
    + destruct Hk as [<- <-]. auto.
    + exact Hk.
  - intros <- _. exact eq_refl.
Qed.

Fixpoint expand_unit_xy m cls (u : tunit) {struct u} :
  forall e, xy (expand_unit m cls u e) (spec_expand_unit m cls u e).
Proof.
  destruct u as [c|x|us]; intros e.
  - cbn. auto.
  - cbn [expand_unit spec_expand_unit]. destruct (lookup x e); [cbn; auto|].
    destruct (nounset m); cbn; auto.
  - cbn [expand_unit spec_expand_unit]. apply arith_of_text_xy.
    revert e. induction us as [|u r IH]; intros e; [cbn; auto|].
    apply xappend_xy; [apply expand_unit_xy|exact IH].
Qed.

Lemma expand_units_xy m cls us : forall e, xy (expand_units m cls us e) (spec_expand_units m cls us e).
Proof.
  induction us as [|u r IH]; intros e; [cbn; auto|].
  cbn [expand_units spec_expand_units]. apply xappend_xy; [apply expand_unit_xy|exact IH].
Qed.
