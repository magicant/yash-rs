(* C03 — the arithmetic of eval.rs (checked operations, the shift filter, bit
   operations on the representation) against the mathematical definitions of
   Spec.v. *)
From Yv Require Import Common.Base C03.Defs C03.Model C03.Spec.
From Coq Require Import ZArith Lia ZifyBool.
Local Open Scope Z_scope.

(* [in_i64] as a proposition, the bounds written out so that lia sees them *)
Definition I64 (z : Z) : Prop := -9223372036854775808 <= z <= 9223372036854775807.

Lemma in_i64_iff z : in_i64 z = true <-> I64 z.
Proof. unfold in_i64, I64, i64_min, i64_max. lia. Qed.

Lemma in_i64_false z : in_i64 z = false <-> ~ I64 z.
Proof. rewrite <- in_i64_iff. destruct (in_i64 z); split; congruence. Qed.

Lemma representable_I64 x y : representable x = Some y -> x = y /\ I64 y.
Proof.
  unfold representable. destruct (in_i64 x) eqn:E; [|discriminate].
  intros [= <-]. split; [reflexivity|now apply in_i64_iff].
Qed.

Lemma representable_ok z : I64 z -> representable z = Some z.
Proof. intros H. unfold representable. now apply in_i64_iff in H as ->. Qed.

Lemma I64_b2z b : I64 (b2z b).
Proof. destruct b; unfold I64; cbn; lia. Qed.

Lemma two63 : 2 ^ 63 = 9223372036854775808. Proof. reflexivity. Qed.
Lemma two64_eq : 2 ^ 64 = 18446744073709551616. Proof. reflexivity. Qed.

Lemma checked_representable z : checked z = representable z.
Proof. reflexivity. Qed.

Lemma trunc_div_quot a b : b <> 0 -> trunc_div a b = Z.quot a b.
Proof. intros H. unfold trunc_div. symmetry. apply Z.quot_div, H. Qed.

Lemma quot_abs_le a b : b <> 0 -> Z.abs (Z.quot a b) <= Z.abs a.
Proof.
  intros Hb. rewrite Z.quot_div by exact Hb.
  assert (0 <= Z.abs a / Z.abs b <= Z.abs a).
  { split; [apply Z.div_pos; lia|].
    apply Z.div_le_upper_bound; [lia|]. nia. }
  destruct (Z.sgn_spec a) as [[? ->]|[[? ->]|[? ->]]],
           (Z.sgn_spec b) as [[? ->]|[[? ->]|[? ->]]]; lia.
Qed.

Lemma quot_m1 a : Z.quot a (-1) = - a.
Proof.
  change (-1) with (- (1)). rewrite Z.quot_opp_r by lia. now rewrite Z.quot_1_r.
Qed.

Lemma quot_abs_half a b : 2 <= Z.abs b -> 2 * Z.abs (Z.quot a b) <= Z.abs a.
Proof.
  intros Hb. assert (b <> 0) by lia. rewrite Z.quot_div by assumption.
  assert (0 <= Z.abs a / Z.abs b /\ 2 * (Z.abs a / Z.abs b) <= Z.abs a).
  { split; [apply Z.div_pos; lia|].
    pose proof (Z.mul_div_le (Z.abs a) (Z.abs b) ltac:(lia)).
    assert (0 <= Z.abs a / Z.abs b) by (apply Z.div_pos; lia). nia. }
  destruct (Z.sgn_spec a) as [[? ->]|[[? ->]|[? ->]]],
           (Z.sgn_spec b) as [[? ->]|[[? ->]|[? ->]]]; lia.
Qed.

(* checked_div / checked_rem overflow exactly for MIN / -1 *)
Lemma quot_overflow a b :
  I64 a -> I64 b -> b <> 0 ->
  (a =? i64_min) && (b =? -1) = negb (in_i64 (Z.quot a b)).
Proof.
  intros Ha Hb Hz. destruct (in_i64 (Z.quot a b)) eqn:E; [apply in_i64_iff in E|apply in_i64_false in E];
    unfold I64, i64_min in *; cbn [negb].
  - destruct (Z.eq_dec b (-1)) as [->|Hm1]; [rewrite quot_m1 in E|]; lia.
  - destruct (Z.eq_dec b (-1)) as [->|Hm1]; [rewrite quot_m1 in E; lia|]. exfalso. apply E.
    destruct (Z.eq_dec b 1) as [->|H1]; [rewrite Z.quot_1_r; lia|].
    pose proof (quot_abs_half a b ltac:(lia)). lia.
Qed.

Lemma wrap64_small z : - 2 ^ 63 <= z < 2 ^ 63 -> wrap64 z = z.
Proof.
  intros H. unfold wrap64. rewrite Z.mod_small; lia.
Qed.

Lemma wrap64_range z : - 2 ^ 63 <= wrap64 z < 2 ^ 63.
Proof.
  unfold wrap64. pose proof (Z.mod_pos_bound (z + 2 ^ 63) (2 ^ 64) ltac:(lia)). lia.
Qed.

Lemma wrap64_congr z : exists k, wrap64 z = z + k * 2 ^ 64.
Proof.
  unfold wrap64. exists (- ((z + 2 ^ 63) / 2 ^ 64)).
  pose proof (Z.div_mod (z + 2 ^ 63) (2 ^ 64) ltac:(lia)). lia.
Qed.

(* the bit trick of ShiftLeft: `checked_shl` then
   `.filter(|&result| result >= 0 && result >> rhs == lhs)`
   accepts exactly when lhs * 2^rhs is representable, and then yields it *)
Lemma shl_filter_exact_lemma l r :
  0 <= l -> I64 l -> 0 <= r < 64 ->
  let result := wrap64 (Z.shiftl l r) in
  ((0 <=? result) && (Z.shiftr result r =? l) = true <-> I64 (l * 2 ^ r))
  /\ (I64 (l * 2 ^ r) -> result = l * 2 ^ r).
Proof.
  intros Hl Hl' Hr result. subst result.
  rewrite Z.shiftl_mul_pow2 by lia.
  assert (Hp : 0 < 2 ^ r) by (apply Z.pow_pos_nonneg; lia).
  assert (Hx : 0 <= l * 2 ^ r) by nia.
  split; [split|].
  - intros H. apply andb_prop in H. destruct H as [H0 H1].
    rewrite Z.shiftr_div_pow2 in H1 by lia.
    set (R := wrap64 (l * 2 ^ r)) in *.
    assert (HR : R / 2 ^ r = l) by lia.
    pose proof (wrap64_range (l * 2 ^ r)) as Hrng. fold R in Hrng.
    pose proof (Z.mul_div_le R (2 ^ r) Hp) as Hle. rewrite HR in Hle.
    unfold I64. rewrite two63 in Hrng. lia.
  - intros H. unfold I64 in H. rewrite wrap64_small by (rewrite two63; lia).
    rewrite Z.shiftr_div_pow2 by lia. rewrite Z.div_mul by lia. lia.
  - intros H. unfold I64 in H. apply wrap64_small. rewrite two63. lia.
Qed.

(* | ^ & ~: the model applies Z.lor / Z.lxor / Z.land / Z.lnot to the signed
   integers (Coq's infinite two's complement), the specification the same
   operations to the 64-bit patterns [to_bits].  They agree because the
   operations commute with taking the low 64 bits ([to_bits_bitwise]) and keep
   the range ([I64_shiftr]: a number is in range iff all its bits from bit 63
   upwards are equal). *)

Lemma of_to_bits z : I64 z -> of_bits (to_bits z) = z.
Proof.
  unfold I64, of_bits, to_bits, two64. intros H. rewrite two64_eq, two63.
  destruct (Z.ltb_spec z 0).
  - replace (z mod 18446744073709551616) with (z + 18446744073709551616).
    + destruct (Z.ltb_spec (z + 18446744073709551616) 9223372036854775808); lia.
    + apply Z.mod_unique with (q := -1); lia.
  - rewrite Z.mod_small by lia.
    destruct (Z.ltb_spec z 9223372036854775808); lia.
Qed.

Lemma I64_shiftr z : I64 z <-> (Z.shiftr z 63 = 0 \/ Z.shiftr z 63 = -1).
Proof.
  rewrite Z.shiftr_div_pow2 by lia. rewrite two63. unfold I64.
  pose proof (Z.div_mod z 9223372036854775808 ltac:(lia)).
  pose proof (Z.mod_pos_bound z 9223372036854775808 ltac:(lia)). lia.
Qed.

Lemma I64_lor a b : I64 a -> I64 b -> I64 (Z.lor a b).
Proof.
  rewrite !I64_shiftr, Z.shiftr_lor. intros [->| ->] [->| ->]; cbn; auto.
Qed.
Lemma I64_land a b : I64 a -> I64 b -> I64 (Z.land a b).
Proof.
  rewrite !I64_shiftr, Z.shiftr_land. intros [->| ->] [->| ->]; cbn; auto.
Qed.
Lemma I64_lxor a b : I64 a -> I64 b -> I64 (Z.lxor a b).
Proof.
  rewrite !I64_shiftr, Z.shiftr_lxor. intros [->| ->] [->| ->]; cbn; auto.
Qed.

Lemma to_bits_land_ones z : to_bits z = Z.land z (Z.ones 64).
Proof. unfold to_bits, two64. now rewrite Z.land_ones by lia. Qed.

(* a bitwise operation commutes with taking the low 64 bits *)
Lemma to_bits_bitwise (op : Z -> Z -> Z) (f : bool -> bool -> bool) a b :
  (forall x y n, Z.testbit (op x y) n = f (Z.testbit x n) (Z.testbit y n)) -> f false false = false ->
  op (to_bits a) (to_bits b) = to_bits (op a b).
Proof.
  intros Hop Hf. rewrite !to_bits_land_ones. apply Z.bits_inj'. intros n Hn.
  rewrite Hop, !Z.land_spec, Hop.
  destruct (Z.testbit (Z.ones 64) n); [now rewrite !andb_true_r|now rewrite !andb_false_r].
Qed.

Lemma bits_lor a b : I64 a -> I64 b -> of_bits (Z.lor (to_bits a) (to_bits b)) = Z.lor a b.
Proof.
  intros Ha Hb. rewrite (to_bits_bitwise Z.lor orb) by (apply Z.lor_spec || reflexivity).
  apply of_to_bits, I64_lor; assumption.
Qed.

Lemma bits_land a b : I64 a -> I64 b -> of_bits (Z.land (to_bits a) (to_bits b)) = Z.land a b.
Proof.
  intros Ha Hb. rewrite (to_bits_bitwise Z.land andb) by (apply Z.land_spec || reflexivity).
  apply of_to_bits, I64_land; assumption.
Qed.

Lemma bits_lxor a b : I64 a -> I64 b -> of_bits (Z.lxor (to_bits a) (to_bits b)) = Z.lxor a b.
Proof.
  intros Ha Hb. rewrite (to_bits_bitwise Z.lxor xorb) by (apply Z.lxor_spec || reflexivity).
  apply of_to_bits, I64_lxor; assumption.
Qed.

Lemma bits_lnot a : I64 a -> of_bits (Z.lxor (to_bits a) (two64 - 1)) = Z.lnot a.
Proof.
  intros Ha. change (two64 - 1) with (to_bits (-1)).
  rewrite bits_lxor by (assumption || (unfold I64; lia)).
  apply Z.lxor_m1_r.
Qed.

Lemma I64_lnot a : I64 a -> I64 (Z.lnot a).
Proof. unfold Z.lnot, I64. lia. Qed.

(* [arith_result] is the match of eval.rs binary_result on the operators other
   than || && =: it computes the mathematically exact value, and reports an error
   exactly when the specification gives no value *)
Lemma arith_result_exact o a b :
  I64 a -> I64 b ->
  match arith_result o a b with
  | inl z => arith o a b = Some z
  | inr _ => arith o a b = None
  end.
Proof.
  intros Ha Hb. pose proof Ha as Ha'. pose proof Hb as Hb'. unfold I64 in Ha', Hb'.
  destruct o; cbn [arith_result arith].
  (* the comparisons; then + - * *)
  4-9: (rewrite ?Z.gtb_ltb, ?Z.geb_leb; reflexivity).
  6-8: (unfold checked, representable; destruct (in_i64 _); reflexivity).
  - now rewrite bits_lor.
  - now rewrite bits_lxor.
  - now rewrite bits_land.
  - (* <<: split on the specification's condition; the tests of the code follow from it *)
    destruct ((0 <=? a) && (0 <=? b) && (b <? 64)) eqn:Eab.
    + replace (a <? 0) with false by lia. replace (b <? 0) with false by lia.
      replace (4294967295 <? b) with false by lia. replace (64 <=? b) with false by lia.
      destruct (shl_filter_exact_lemma a b ltac:(lia) Ha ltac:(lia)) as [Hiff Hval].
      destruct ((0 <=? wrap64 (Z.shiftl a b)) && (Z.shiftr (wrap64 (Z.shiftl a b)) b =? a)).
      * pose proof (proj1 Hiff eq_refl) as E. rewrite (Hval E). now apply representable_ok.
      * unfold representable. destruct (in_i64 (a * 2 ^ b)) eqn:E'; [|reflexivity].
        apply in_i64_iff, Hiff in E'. discriminate.
    + destruct (a <? 0) eqn:?; [reflexivity|]. destruct (b <? 0) eqn:?; [reflexivity|].
      destruct (4294967295 <? b) eqn:?; [reflexivity|]. replace (64 <=? b) with true by lia. reflexivity.
  - (* >> *)
    destruct ((0 <=? b) && (b <? 64)) eqn:Eb.
    + replace (b <? 0) with false by lia. replace (4294967295 <? b) with false by lia.
      replace (64 <=? b) with false by lia. now rewrite Z.shiftr_div_pow2 by lia.
    + destruct (b <? 0) eqn:?; [reflexivity|]. destruct (4294967295 <? b) eqn:?; [reflexivity|].
      replace (64 <=? b) with true by lia. reflexivity.
  - (* / *)
    destruct (Z.eqb_spec b 0) as [Hz|Hz]; [reflexivity|].
    rewrite trunc_div_quot, quot_overflow by assumption. unfold representable.
    destruct (in_i64 (Z.quot a b)); reflexivity.
  - (* % *)
    destruct (Z.eqb_spec b 0) as [Hz|Hz]; [reflexivity|].
    rewrite trunc_div_quot, quot_overflow by assumption. unfold representable.
    destruct (in_i64 (Z.quot a b)); [|reflexivity]. cbn [negb]. rewrite Z.rem_eq by assumption. f_equal. lia.
Qed.

Lemma arith_I64 o a b z : I64 a -> I64 b -> arith o a b = Some z -> I64 z.
Proof.
  intros Ha Hb. unfold I64 in Ha, Hb.
  assert (Hrep : forall x y, representable x = Some y -> I64 y)
    by (intros x y E; now apply representable_I64 in E).
  destruct o; cbn [arith]; intros H.
  (* the comparisons; then + - * *)
  4-9: (injection H as <-; apply I64_b2z).
  6-8: eauto.
  - injection H as <-. rewrite bits_lor by assumption. now apply I64_lor.
  - injection H as <-. rewrite bits_lxor by assumption. now apply I64_lxor.
  - injection H as <-. rewrite bits_land by assumption. now apply I64_land.
  - destruct ((0 <=? a) && (0 <=? b) && (b <? 64)); [eauto|discriminate].
  - (* >>: the quotient of a division with remainder by 2^b >= 1 lies between a and 0 *)
    destruct ((0 <=? b) && (b <? 64)) eqn:E; [|discriminate]. injection H as <-.
    assert (0 < 2 ^ b) by (apply Z.pow_pos_nonneg; lia).
    pose proof (Z.div_mod a (2 ^ b) ltac:(lia)). pose proof (Z.mod_pos_bound a (2 ^ b) ltac:(lia)).
    unfold I64. nia.
  - destruct (b =? 0); [discriminate|eauto].
  - destruct (b =? 0) eqn:Eb; [discriminate|].
    destruct (representable (trunc_div a b)) eqn:E; [|discriminate]. injection H as <-.
    assert (Hz : b <> 0) by lia.
    rewrite trunc_div_quot in E by assumption.
    unfold representable in E. destruct (in_i64 (Z.quot a b)); [|discriminate].
    injection E as <-. replace (a - Z.quot a b * b) with (Z.rem a b) by (rewrite Z.rem_eq; lia).
    pose proof (Z.rem_bound_abs a b Hz). unfold I64. lia.
Qed.
