(* C03 — completeness of the precedence-climbing parser with respect to
   the grammar, and ast::parse = the grammar. *)
From Yv Require Import Common.Base C03.Defs C03.Model C03.Spec C03.ProofsArith C03.ProofsNum C03.ProofsLex C03.ProofsEval C03.ProofsParse.
From Coq Require Import ZArith NArith Lia ZifyBool.

Lemma postfix_ops_length e ts : (length (snd (postfix_ops e ts)) <= length ts)%nat.
Proof.
  revert e. induction ts as [|[z|x|o] ts IH]; intros e; cbn [postfix_ops]; try (cbn; lia).
  destruct (postfix_operator o); [|cbn; lia]. specialize (IH (EPost p e)). cbn [length]. lia.
Qed.

Lemma not_in_levels_step l ts :
  not_in_levels 0 l ts ->
  (forall o r, ts = SOp o :: r -> op_level o <> Some (S l)) ->
  not_in_levels 0 (S l) ts.
Proof.
  intros H1 H2. destruct ts as [|[z|x|o] r]; try exact I. cbn in *.
  intros j E. specialize (H1 j E). specialize (H2 o r eq_refl).
  destruct (Nat.eq_dec j (S l)); [congruence|lia].
Qed.

(* An expression of level [lvl] takes at least one token, and what follows it is not an
   infix operator of the levels up to [lvl]. *)
Lemma sp_chain_shape g :
  (forall lvl ts e r, sp g lvl ts = Some (e, r) ->
     (length r < length ts)%nat /\ not_in_levels 0 lvl r) /\
  (forall lvl a ts e r, chain g lvl a ts = Some (e, r) ->
     (1 <= lvl)%nat -> (lvl <= 10 \/ 13 <= lvl)%nat -> not_in_levels 0 (lvl - 1) ts ->
     (length r <= length ts)%nat /\ not_in_levels 0 lvl r).
Proof.
  induction g as [|g [IHs IHc]]; [split; intros; discriminate|].
  assert (Hs : forall lvl ts e r, sp (S g) lvl ts = Some (e, r) ->
                 (length r < length ts)%nat /\ not_in_levels 0 lvl r).
  { induction lvl as [|l IHl]; intros ts e r.
    - rewrite sp_0. intros H. split.
      2:{ destruct r as [|[z|x|o] r]; try exact I. intros j E. apply op_level_bound in E. lia. }
      destruct ts as [|[z|x|o] ts]; try discriminate; cbn [length].
      + pose proof (postfix_ops_length (ENum z) ts) as L. injection H as H. rewrite H in L. cbn in L. lia.
      + pose proof (postfix_ops_length (EVar x) ts) as L. injection H as H. rewrite H in L. cbn in L. lia.
      + destruct (prefix_operator o) as [p|] eqn:Ep.
        * rewrite (unary_prefix _ _ o p) in H by exact Ep.
          destruct (sp g 0 ts) as [[e0 r']|] eqn:E; [|discriminate]. injection H as <- <-.
          apply IHs in E. lia.
        * destruct o; try discriminate. cbn [unary] in H.
          destruct (sp g assignment_level ts) as [[e0 r0]|] eqn:E; [|discriminate].
          apply IHs in E. destruct r0 as [|[z|x|o] r0]; try discriminate. destruct o; try discriminate.
          pose proof (postfix_ops_length e0 r0) as L. injection H as H. rewrite H in L. cbn in *. lia.
    - rewrite sp_S. destruct (sp (S g) l ts) as [[a r0]|] eqn:E; [|discriminate].
      apply IHl in E. destruct E as [El E]. unfold stail, tail.
      destruct (Nat.eqb_spec (S l) conditional_level) as [E11|N11].
      + assert (Hkeep : forall o r1, r0 = SOp o :: r1 -> o <> OQuestion -> not_in_levels 0 (S l) r0).
        { intros o r1 -> Ho. apply not_in_levels_step; [exact E|].
          intros o' r' [= <- <-]. rewrite E11. intros H. now apply op_level_question in H. }
        destruct r0 as [|[z|x|o] r0]; try (intros [= <- <-]; split; [exact El|exact I]).
        destruct o; try (intros [= <- <-]; split; [exact El|]; eapply Hkeep; [reflexivity|discriminate]).
        destruct (sp g assignment_level r0) as [[t r1]|] eqn:E1; [|discriminate].
        apply IHs in E1. destruct r1 as [|[z|x|o] r1]; try discriminate. destruct o; try discriminate.
        destruct (sp g conditional_level r1) as [[f r2]|] eqn:E2; [|discriminate].
        apply IHs in E2. intros [= <- <-]. rewrite E11. cbn [length] in *. split; [lia|apply E2].
      + destruct (Nat.eqb_spec (S l) assignment_level) as [E12|N12].
        * destruct r0 as [|[z|x|o] r0]; try (intros [= <- <-]; split; [exact El|exact I]).
          destruct (op_assoc o assignment_operators) eqn:Eo.
          -- destruct (sp g assignment_level r0) as [[v r1]|] eqn:E1; [|discriminate].
             apply IHs in E1. intros [= <- <-]. rewrite E12. cbn [length] in *. split; [lia|apply E1].
          -- intros [= <- <-]. split; [exact El|]. apply not_in_levels_step; [exact E|].
             intros o' r' [= <- <-]. rewrite E12. intros H. apply op_level_assign in H. congruence.
        * intros H. unfold conditional_level, assignment_level in *.
          apply IHc in H; [split; [lia|apply H]|lia|lia|].
          replace (S l - 1)%nat with l by lia. exact E. }
  split; [exact Hs|].
  intros lvl a ts e r. rewrite chain_S. intros H Hl1 Hl2 Hpre.
  destruct ts as [|[z|x|o] ts]; try (injection H as <- <-; split; [lia|exact I]).
  destruct (op_assoc o (binary_level lvl)) eqn:Eo.
  - destruct (sp g (pred lvl) ts) as [[c r1]|] eqn:E; [|discriminate].
    apply IHs in E. destruct E as [El E]. apply IHc in H; auto.
    + cbn [length]. split; [lia|apply H].
    + replace (lvl - 1)%nat with (pred lvl) by lia. exact E.
  - injection H as <- <-. split; [lia|].
    replace lvl with (S (lvl - 1)) at 1 by lia. apply not_in_levels_step; [exact Hpre|].
    intros o' r' [= <- <-] E. replace (S (lvl - 1)) with lvl in E by lia.
    destruct Hl2 as [Hl2|Hl2]; [|apply op_level_bound in E; lia].
    apply (op_level_binary o lvl) in E; [congruence|lia].
Qed.

Lemma sp_length g lvl ts e r : sp g lvl ts = Some (e, r) -> (length r < length ts)%nat.
Proof. intros H. now apply sp_chain_shape in H. Qed.

Lemma sp_follow g lvl ts e r : sp g lvl ts = Some (e, r) -> not_in_levels 0 lvl r.
Proof. intros H. now apply sp_chain_shape in H. Qed.

Lemma erase_op ts o r :
  erase ts = SOp o :: r -> exists loc ts1, ts = (TkOp o, loc) :: ts1 /\ erase ts1 = r.
Proof.
  destruct ts as [|[[[z|x l]|o'] loc] ts]; try discriminate.
  intros [= <- <-]. now exists loc, ts.
Qed.

Lemma erase_length ts : length (erase ts) = length ts.
Proof. apply map_length. Qed.

Lemma tails_fuel0 lo L a ts : (lo + 1 <= 10)%nat -> tails 0 lo (S L) a ts = None.
Proof.
  intros Hlo. replace (S L) with (1 + L)%nat by lia. rewrite tails_split. cbn [tails].
  rewrite stail_chain by lia. reflexivity.
Qed.

Lemma tails_stuck g lo n a o ts e r :
  (1 <= g)%nat -> op_level o = None ->
  tails g lo n a (SOp o :: ts) = Some (e, r) -> e = a /\ r = SOp o :: ts.
Proof.
  intros Hg Ho H. rewrite tails_noop in H; [now injection H as <- <-|assumption|].
  cbn. intros j E. congruence.
Qed.

Lemma chain_stuck g j a o ts e r :
  (1 <= j <= 10)%nat -> op_level o = None ->
  chain g j a (SOp o :: ts) = Some (e, r) -> e = a /\ r = SOp o :: ts.
Proof.
  intros Hj Ho H. destruct g as [|g]; [discriminate|].
  rewrite <- stail_chain in H by lia. rewrite stail_noop in H; [now injection H as <- <-|lia|lia|].
  intros j' E. congruence.
Qed.

Lemma tails_noop_inv g lo n a ts e r :
  (lo + 1 <= 10)%nat -> not_in_levels lo n ts ->
  tails g lo n a ts = Some (e, r) -> e = a /\ r = ts.
Proof.
  intros Hlo Hn H. destruct g as [|g].
  - destruct n as [|n]; [cbn in H; now injection H as <- <-|].
    rewrite tails_fuel0 in H by assumption. discriminate.
  - rewrite tails_noop in H; [now injection H as <- <-|lia|assumption].
Qed.

Lemma prec13_not_nohigh o m : (1 <= m <= 13)%N -> op_level o = None ->
  (precedence o < m)%N -> precedence o = 0%N.
Proof. intros Hm Ho H. pose proof (precedence_level o) as P. rewrite Ho in P. lia. Qed.

(* The grammar function with fuel [g] succeeds only on what the model parser derives.
   [C_loop]: the levels that remain after an operand are the turns of the loop. *)
Definition C_leaf (g : nat) : Prop :=
  forall ts e r, sp g 0 (erase ts) = Some (e, r) ->
  exists ns ts', erase ts' = r /\ Repr e ns /\ Leaf ts ns ts'.

Definition C_tree (g : nat) : Prop :=
  forall m ts e r, (1 <= m <= 13)%N ->
  sp g (lvl_of m) (erase ts) = Some (e, r) -> nohigh m r ->
  exists ns ts', erase ts' = r /\ Repr e ns /\ Tree m ts ns ts'.

Definition C_loop (g : nat) : Prop :=
  forall n m acc ts a e r, (length ts <= n)%nat -> (1 <= m <= 13)%N -> Repr a acc ->
  tails g 0 (lvl_of m) a (erase ts) = Some (e, r) -> nohigh m r ->
  exists ns ts', erase ts' = r /\ Repr e ns /\ Loop m acc ts ns ts'.

Lemma C_loop_of g : (forall g1, (g1 <= g)%nat -> C_leaf g1 /\ C_tree g1) -> C_loop g.
Proof.
  intros IH n. induction n as [n IHn] using lt_wf_ind.
  intros m acc ts a e r Hn Hm HR H Hnh.
  (* the loop stops where no level up to [lvl_of m] takes the next token *)
  assert (Hstop : not_in_levels 0 (lvl_of m) (erase ts) ->
            exists ns ts', erase ts' = r /\ Repr e ns /\ Loop m acc ts ns ts').
  { intros Hni. destruct (tails_noop_inv g 0 _ _ _ _ _ ltac:(lia) Hni H) as [-> ->].
    exists acc, ts. repeat split; [exact HR|now apply Loop_stop]. }
  destruct ts as [|[[[z|x l]|o] loc] ts]; rewrite ?erase_cons in *; cbn [erase_tok fst] in *.
  1-3: exact (Hstop I).
  pose proof (precedence_level o) as Hprec.
  destruct (op_level o) as [j|] eqn:Ej.
  2:{ apply Hstop. intros j E. congruence. }
  destruct Hprec as [Hp Hj].
  destruct (Nat.le_gt_cases j (lvl_of m)) as [HjL|HjL].
  2:{ apply Hstop, op_not_in_levels with j; [exact Ej|lia]. }
  destruct g as [|g].
  { replace (lvl_of m) with (S (lvl_of m - 1)) in H by lia.
    rewrite tails_fuel0 in H by lia. discriminate. }
  rewrite (tails_from_level (S g) (lvl_of m) j) in H by
    (try lia; apply op_not_in_levels with j; assumption || lia).
  destruct (stail (S g) j a (SOp o :: erase ts)) as [[a2 r3]|] eqn:Est; [|discriminate].
  assert (Hge : (m <= precedence o)%N) by (unfold lvl_of in HjL; lia).
  (* an operator that is no infix operator cannot be left in place by a successful parse
     unless the enclosing context accepts it *)
  assert (Hstuck : forall o2 ts2 e',
            tails (S g) j (lvl_of m - j) e' (SOp o2 :: ts2) = Some (e, r) ->
            op_level o2 = None -> (precedence o2 < m)%N).
  { intros o2 ts2 e' Ht Ho2. eapply tails_stuck in Ht; [|lia|exact Ho2].
    destruct Ht as [_ ->]. exact Hnh. }
  cbn [length] in Hn.
  destruct (Nat.leb_spec j 10) as [Hj10|Hj10].
  - (* a left-associative level *)
    rewrite stail_chain, chain_S in Est by assumption.
    destruct (op_assoc o (binary_level j)) as [b|] eqn:Eo.
    2:{ exfalso. apply (op_level_binary o j) in Ej; [congruence|lia]. }
    destruct (sp g (pred j) (erase ts)) as [[c r1]|] eqn:Ec; [|discriminate].
    pose proof (sp_follow _ _ _ _ _ Ec) as Hfol.
    pose proof (sp_length _ _ _ _ _ Ec) as Hlen1.
    assert (Hnh1 : nohigh (precedence o + 1) r1).
    { apply nohigh_follow; [now replace (lvl_of (precedence o + 1)) with (pred j) by (unfold lvl_of; lia)|].
      intros o2 ts2 -> E2. enough (precedence o2 < m)%N by lia.
      eapply chain_stuck in Est; [|lia|exact E2]. destruct Est as [-> ->].
      eapply Hstuck; eauto. }
    destruct (IH g ltac:(lia)) as [_ IHtree].
    replace (pred j) with (lvl_of (precedence o + 1)) in Ec by (unfold lvl_of; lia).
    destruct (IHtree (precedence o + 1)%N ts c r1 ltac:(lia) Ec Hnh1)
      as [nr [ts2 [Hets2 [HRc HT]]]].
    rewrite <- Hets2, !erase_length in Hlen1.
    destruct (IHn (length ts2) ltac:(lia)
                  m (acc ++ nr ++ [ABinary b (length nr) loc]) ts2 (EBin b a c) e r
                  (le_n _) Hm (RBin _ loc _ _ _ _ HR HRc))
      as [ns [ts' [Hets' [HRe HL]]]]; [|exact Hnh|].
    { rewrite Hets2. rewrite (tails_from_level (S g) (lvl_of m) j); try lia.
      - rewrite stail_chain by assumption. rewrite (chain_mono _ _ _ _ _ Est). exact H.
      - replace (j - 1)%nat with (pred j) by lia. exact Hfol. }
    exists ns, ts'. split; [exact Hets'|]. split; [exact HRe|].
    apply Loop_binary with b Left nr ts2; try assumption.
    rewrite as_binary_level, Ej. apply Nat.leb_le in Hj10 as ->. now rewrite Eo.
  - destruct (Nat.eq_dec j 11) as [->|Hj11].
    + (* conditional *)
      apply op_level_question in Ej. subst o.
      rewrite stail_cond in Est.
      destruct (sp (S g) 12 (erase ts)) as [[t r1]|] eqn:Et; [|discriminate].
      destruct r1 as [|[z|x|o2] r1]; try discriminate. destruct o2; try discriminate.
      destruct (sp (S g) 11 r1) as [[fe r2]|] eqn:Ef; [|discriminate].
      injection Est as <- <-.
      pose proof (sp_follow _ _ _ _ _ Ef) as Hfol.
      pose proof (sp_length _ _ _ _ _ Et) as Hlen1.
      pose proof (sp_length _ _ _ _ _ Ef) as Hlen2.
      destruct (IH (S g) (le_n _)) as [_ IHtree].
      change 12%nat with (lvl_of 1) in Et.
      destruct (IHtree 1%N ts t _ ltac:(lia) Et ltac:(cbn; lia))
        as [nt [ts2 [Hets2 [HRt HT1]]]].
      destruct (erase_op _ _ _ Hets2) as [cl [ts3 [-> Ets3]]].
      assert (Hnh2 : nohigh 2 r2).
      { apply nohigh_follow; [exact Hfol|].
        intros o2 ts2 -> E2. enough (precedence o2 < m)%N by (unfold lvl_of in HjL; lia).
        eapply Hstuck; eauto. }
      rewrite <- Ets3 in Ef. change 11%nat with (lvl_of 2) in Ef.
      destruct (IHtree 2%N ts3 fe r2 ltac:(lia) Ef Hnh2)
        as [ne [ts4 [Hets4 [HRf HT2]]]].
      rewrite <- Hets4, <- Ets3, !erase_length in Hlen2. cbn [length] in Hlen1.
      rewrite <- Ets3, !erase_length in Hlen1.
      destruct (IHn (length ts4) ltac:(lia)
                    m (acc ++ nt ++ ne ++ [ACond (length nt) (length ne)]) ts4 (ECond a t fe) e r
                    (le_n _) Hm (RCond _ _ _ _ _ _ HR HRt HRf))
        as [ns [ts' [Hets' [HRe HL]]]]; [|exact Hnh|].
      { rewrite Hets4. rewrite (tails_from_level (S g) (lvl_of m) 11); try lia.
        - rewrite stail_noop; [exact H|lia|lia|]. eapply not_in_levels_sub; [| |exact Hfol]; lia.
        - eapply not_in_levels_sub; [| |exact Hfol]; lia. }
      exists ns, ts'. split; [exact Hets'|]. split; [exact HRe|].
      now apply Loop_cond with nt cl ts3 ne ts4.
    + (* assignment *)
      assert (j = 12%nat) by lia. subst j.
      assert (Hm1 : m = 1%N) by (unfold lvl_of in HjL; lia). subst m.
      rewrite stail_assign in Est.
      destruct (op_assoc o assignment_operators) as [b|] eqn:Eo.
      2:{ exfalso. apply op_level_assign in Ej. congruence. }
      destruct (sp (S g) 12 (erase ts)) as [[v r2]|] eqn:Ev; [|discriminate].
      injection Est as <- <-.
      change (lvl_of 1 - 12)%nat with 0%nat in H. cbn [tails] in H. injection H as <- <-.
      destruct (IH (S g) (le_n _)) as [_ IHtree].
      change 12%nat with (lvl_of 1) in Ev.
      replace 1%N with (precedence o) in Ev, Hnh at 1 by lia.
      destruct (IHtree (precedence o) ts v r2 ltac:(lia) Ev Hnh) as [nr [ts2 [Hets2 [HRv HT]]]].
      exists (acc ++ nr ++ [ABinary b (length nr) loc]), ts2.
      split; [exact Hets2|]. split; [now constructor|].
      apply Loop_binary with b Right nr ts2; try assumption.
      * rewrite as_binary_level, Ej. cbn [Nat.leb Nat.eqb]. now rewrite Eo.
      * apply Loop_stop. rewrite Hets2. now replace 1%N with (precedence o) by lia.
Qed.

Lemma C_leaf_S g : C_leaf g -> C_tree g -> C_leaf (S g).
Proof.
  intros IHleaf IHtree ts e r H. rewrite sp_0 in H.
  destruct ts as [|[[t|o] loc] ts]; try discriminate; rewrite erase_cons in H.
  - destruct t as [z|x l];
      [destruct (parse_postfix_l_spec ts _ _ (RNum z)) as [e' [H1 H2]]
      |destruct (parse_postfix_l_spec ts _ _ (RVar x l)) as [e' [H1 H2]]];
      cbn [erase_tok fst unary] in H; rewrite H1 in H; injection H as <- <-;
      eexists (_ :: _), _; (repeat split; [exact H2|]); constructor; apply surjective_pairing.
  - cbn [erase_tok fst] in H.
    destruct (prefix_operator o) as [p|] eqn:Ep.
    + rewrite (unary_prefix _ _ o p) in H by assumption.
      destruct (sp g 0 (erase ts)) as [[e0 r']|] eqn:E0; [|discriminate]. injection H as <- <-.
      destruct (IHleaf _ _ _ E0) as [ns [ts' [Hets' [HR0 HL]]]].
      exists (ns ++ [APrefix p loc]), ts'. split; [exact Hets'|]. split; [now constructor|].
      apply Leaf_prefix; [|exact HL]. now rewrite (proj1 (prefix_tables o)).
    + destruct o; try discriminate. cbn [unary] in H.
      destruct (sp g assignment_level (erase ts)) as [[e0 r0]|] eqn:E0; [|discriminate].
      destruct r0 as [|[z|x|o] r0]; try discriminate. destruct o; try discriminate.
      change assignment_level with (lvl_of 1) in E0.
      destruct (IHtree 1%N ts e0 _ ltac:(lia) E0 ltac:(cbn; lia)) as [ns0 [ts2 [Hets2 [HR0 HT]]]].
      destruct (erase_op _ _ _ Hets2) as [cl [ts3 [-> Ets3]]].
      destruct (parse_postfix_l_spec ts3 _ _ HR0) as [e' [H1 H2]].
      rewrite <- Ets3, H1 in H. injection H as <- <-.
      exists (ns0 ++ fst (parse_postfix_l ts3)), (snd (parse_postfix_l ts3)).
      repeat split; [exact H2|]. eapply Leaf_paren; [exact HT|apply surjective_pairing].
Qed.

Lemma C_tree_S g : C_leaf (S g) -> C_loop g -> C_tree (S g).
Proof.
  intros Hleaf Hloop m ts e r Hm H Hnh. rewrite sp_tails in H.
  destruct (sp (S g) 0 (erase ts)) as [[a r0]|] eqn:E0; [|discriminate].
  destruct (Hleaf _ _ _ E0) as [ns0 [ts1 [Hets1 [HR0 HL]]]].
  rewrite <- Hets1 in H.
  destruct (Hloop (length ts1) m ns0 ts1 a e r (le_n _) Hm HR0 H Hnh)
    as [ns [ts' [Hets' [HRe HLo]]]].
  exists ns, ts'. split; [exact Hets'|]. split; [exact HRe|]. now apply Tree_loop with ns0 ts1.
Qed.

(* [C_tree (S g)] needs [C_loop g], which needs [C_tree] at [g] (operands of `?:` and
   of an assignment) and below [g] (operand of a turn of [chain]): course-of-values
   induction *)
Lemma C_all g : C_leaf g /\ C_tree g.
Proof.
  induction g as [g IH] using lt_wf_ind.
  destruct g as [|g]; [split; [intros ts e r H|intros m ts e r _ H]; discriminate|].
  assert (Hl : C_leaf (S g)) by (apply C_leaf_S; apply IH; lia).
  split; [exact Hl|]. apply C_tree_S; [exact Hl|]. apply C_loop_of. intros g1 Hg1. apply IH. lia.
Qed.

(* the tokenizer was not cut short; true of every [tokens_of] by [lex_equiv] *)
Definition fin_ok (st : stream) : Prop := match snd st with FFuel => False | _ => True end.

Theorem parse_equiv_lemma st :
  fin_ok st ->
  match parse st with
  | POk ns _ =>
      exists e loc, snd st = FEnd loc /\ spec_parse (ets st) = Some e /\ Repr e ns
  | PErr _ _ => (exists e loc, snd st = FErr e loc) \/ spec_parse (ets st) = None
  | PFuel => False
  end.
Proof.
  intros Hfin. unfold parse, ets, spec_parse. rewrite erase_length.
  pose proof (proj1 (proj2 (parse_runs (parse_fuel st))) 1%N st) as Hrun.
  destruct (parse_tree (parse_fuel st) 1 st) as [ns st1| |] eqn:E; cbn [run_is] in Hrun;
    [| |unfold parse_fuel in Hrun; lia].
  - (* the tree parser accepted *)
    destruct Hrun as [Hsnd HT].
    destruct (proj1 (proj2 derives_sound) _ _ _ _ HT ltac:(lia) (S (length (fst st))) ltac:(lia))
      as [e [He HR]].
    change (lvl_of 1) with assignment_level in He. rewrite He.
    unfold parse_end_of_input.
    destruct st1 as [[|[[t|o] l] ts1] fi1]; cbn [next fst erase map].
    + unfold fin_ok in Hfin. cbn [snd] in Hsnd. rewrite <- Hsnd in Hfin.
      destruct fi1 as [loc|e0 loc|]; [|left; rewrite <- Hsnd; eauto|contradiction].
      exists e, loc. rewrite <- Hsnd. auto.
    + now right.
    + destruct o; now right.
  - (* the tree parser rejected: so does the grammar *)
    right.
    destruct (sp (S (length (fst st))) assignment_level (erase (fst st))) as [[e0 r0]|] eqn:Es; [|reflexivity].
    destruct r0; [|reflexivity]. exfalso.
    destruct (C_all (S (length (fst st)))) as [_ Ct].
    destruct (Ct 1%N (fst st) e0 [] ltac:(lia) Es I) as [ns [ts' [_ [_ HT]]]].
    destruct (proj1 (proj2 (derives_parse (snd st))) _ _ _ _ HT (parse_fuel st)) as [H1|H1];
      rewrite <- surjective_pairing, E in H1; discriminate.
Qed.
