(* C03 — vocabulary shared by MODEL and SPEC: 64-bit range, code points and
   their UTF-8 length, character classes, operator names, decimal rendering of
   integers (i64 Display) and the variable environment (a finite map from
   names to strings, the harness uses HashMap<String,String>).
   Nothing here describes the algorithm of yash-arith. *)
From Yv Require Export Common.Base.
From Coq Require String Ascii.

Definition i64_min : Z := (-9223372036854775808)%Z.
Definition i64_max : Z := 9223372036854775807%Z.
Definition in_i64 (z : Z) : bool := (i64_min <=? z)%Z && (z <=? i64_max)%Z.

Definition b2z (b : bool) : Z := if b then 1%Z else 0%Z.

(* Byte offsets into the UTF-8 text: every location is a half-open range. *)
Definition range := (N * N)%type.
Definition range_eqb (a b : range) : bool := pair_eqb N.eqb N.eqb a b.

Definition utf8_len (c : N) : N :=
  if (c <? 128)%N then 1%N else if (c <? 2048)%N then 2%N
  else if (c <? 65536)%N then 3%N else 4%N.

Fixpoint utf8_bytes (s : str) : N :=
  match s with [] => 0%N | c :: r => (utf8_len c + utf8_bytes r)%N end.

(* Character classes.  [cls] classifies the non-ASCII code points:
   1 = char::is_whitespace, 2 = char::is_alphanumeric, anything else = neither.
   The ASCII part is fixed here (and compared with Rust's by the harness on
   every run); theorems hold for every [cls]. *)
Definition ascii_ws (c : N) : bool := ((9 <=? c) && (c <=? 13) || (c =? 32))%N.
Definition ascii_digit (c : N) : bool := ((48 <=? c) && (c <=? 57))%N.
Definition ascii_upper (c : N) : bool := ((65 <=? c) && (c <=? 90))%N.
Definition ascii_lower (c : N) : bool := ((97 <=? c) && (c <=? 122))%N.
Definition ascii_alnum (c : N) : bool := ascii_digit c || ascii_upper c || ascii_lower c.

Definition is_ws (cls : N -> N) (c : N) : bool :=
  if (c <? 128)%N then ascii_ws c else (cls c =? 1)%N.
Definition is_alnum (cls : N -> N) (c : N) : bool :=
  if (c <? 128)%N then ascii_alnum c else (cls c =? 2)%N.
(* a character of a term token: alphanumeric or underscore *)
Definition is_word (cls : N -> N) (c : N) : bool := is_alnum cls c || (c =? 95)%N.

Inductive oper :=
| OQuestion | OColon | OBar | OBarBar | OBarEqual | OCaret | OCaretEqual
| OAnd | OAndAnd | OAndEqual | OEqual | OEqualEqual | OBang | OBangEqual
| OLess | OLessEqual | OLessLess | OLessLessEqual
| OGreater | OGreaterEqual | OGreaterGreater | OGreaterGreaterEqual
| OPlus | OPlusPlus | OPlusEqual | OMinus | OMinusMinus | OMinusEqual
| OAsterisk | OAsteriskEqual | OSlash | OSlashEqual | OPercent | OPercentEqual
| OTilde | OOpenParen | OCloseParen.

(* The spelling of the operator tokens.  [L]: a string literal as a list of
   code points (ASCII only). *)
Module LDef.
  Import String Ascii.
  Definition L (s : string) : str := map N_of_ascii (list_ascii_of_string s).
  Arguments L s%string.
  Definition lexeme (o : oper) : str :=
    match o with
    | OQuestion => L "?" | OColon => L ":"
    | OBar => L "|" | OBarBar => L "||" | OBarEqual => L "|="
    | OCaret => L "^" | OCaretEqual => L "^="
    | OAnd => L "&" | OAndAnd => L "&&" | OAndEqual => L "&="
    | OEqual => L "=" | OEqualEqual => L "=="
    | OBang => L "!" | OBangEqual => L "!="
    | OLess => L "<" | OLessEqual => L "<=" | OLessLess => L "<<" | OLessLessEqual => L "<<="
    | OGreater => L ">" | OGreaterEqual => L ">=" | OGreaterGreater => L ">>"
    | OGreaterGreaterEqual => L ">>="
    | OPlus => L "+" | OPlusPlus => L "++" | OPlusEqual => L "+="
    | OMinus => L "-" | OMinusMinus => L "--" | OMinusEqual => L "-="
    | OAsterisk => L "*" | OAsteriskEqual => L "*="
    | OSlash => L "/" | OSlashEqual => L "/="
    | OPercent => L "%" | OPercentEqual => L "%="
    | OTilde => L "~" | OOpenParen => L "(" | OCloseParen => L ")"
    end.
End LDef.
Export LDef.

Definition all_opers : list oper :=
  [ OQuestion; OColon; OBar; OBarBar; OBarEqual; OCaret; OCaretEqual;
    OAnd; OAndAnd; OAndEqual; OEqual; OEqualEqual; OBang; OBangEqual;
    OLess; OLessEqual; OLessLess; OLessLessEqual;
    OGreater; OGreaterEqual; OGreaterGreater; OGreaterGreaterEqual;
    OPlus; OPlusPlus; OPlusEqual; OMinus; OMinusMinus; OMinusEqual;
    OAsterisk; OAsteriskEqual; OSlash; OSlashEqual; OPercent; OPercentEqual;
    OTilde; OOpenParen; OCloseParen ].

Definition oper_eq_dec (a b : oper) : {a = b} + {a <> b}.
Proof. decide equality. Defined.
Definition oper_eqb (a b : oper) : bool := if oper_eq_dec a b then true else false.

Inductive preop := PreInc | PreDec | PrePlus | PreNeg | PreNot | PreBitNot.
Inductive postop := PostInc | PostDec.

Inductive aop :=
| AOr | AXor | AAnd | AEq | ANe | ALt | AGt | ALe | AGe | AShl | AShr
| AAdd | ASub | AMul | ADiv | ARem.

Inductive binop :=
| BLogOr | BLogAnd
| BArith (a : aop)             (* a op b *)
| BAssign                      (* a = b *)
| BCompound (a : aop).         (* a op= b;  only | ^ & << >> + - * / % occur *)

Definition aop_eq_dec (a b : aop) : {a = b} + {a <> b}.
Proof. decide equality. Defined.
Definition binop_eq_dec (a b : binop) : {a = b} + {a <> b}.
Proof. decide equality; apply aop_eq_dec. Defined.
Definition preop_eq_dec (a b : preop) : {a = b} + {a <> b}.
Proof. decide equality. Defined.
Definition postop_eq_dec (a b : postop) : {a = b} + {a <> b}.
Proof. decide equality. Defined.

(* least significant digit first; [fuel] digits are enough for n < 10^fuel *)
Fixpoint dec_digits_rev (fuel : nat) (n : N) : list N :=
  match fuel with
  | O => []
  | S f => if (n <? 10)%N then [(48 + n)%N]
           else (48 + n mod 10)%N :: dec_digits_rev f (n / 10)%N
  end.

(* 20 digits: the magnitude of an i64 is at most 2^63 < 10^20 *)
Definition dec_of_N (n : N) : str := rev (dec_digits_rev 20 n).

Definition dec_of_Z (z : Z) : str :=
  if (z <? 0)%Z then 45%N :: dec_of_N (Z.to_N (- z)) else dec_of_N (Z.to_N z).

Definition env := list (str * str).

Fixpoint lookup (x : str) (e : env) : option str :=
  match e with
  | [] => None
  | (y, v) :: r => if str_eqb x y then Some v else lookup x r
  end.

Fixpoint set_var (x v : str) (e : env) : env :=
  match e with
  | [] => [(x, v)]
  | (y, w) :: r => if str_eqb x y then (y, v) :: r else (y, w) :: set_var x v r
  end.

(* same finite map (whatever the order of the bindings) *)
Definition env_sub (a b : env) : bool :=
  forallb (fun p => option_eqb str_eqb (lookup (fst p) a) (lookup (fst p) b)) a.
Definition env_equiv (a b : env) : bool := env_sub a b && env_sub b a.
