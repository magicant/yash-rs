(* C03 — variable values against constants ($((x)) / $(($x))),
   decimal rendering read back. *)
From Yv Require Import Common.Base C03.Defs C03.Model C03.Spec C03.ProofsArith C03.ProofsNum
  C03.ProofsLex C03.ProofsEval C03.ProofsParse C03.ProofsParse2 C03.Proofs.
From Coq Require Import ZArith NArith Lia ZifyBool.

(* The tokenizer's reading of a constant token and expand_variable's reading of
   the same text as a variable value agree. *)
Lemma var_const_core w z :
  plain w -> parse_constant w = Some z -> parse_integer w = Some z.
Proof.
  intros Hp H. destruct (parse_constant_magnitude w z Hp H) as [Em Hz].
  rewrite parse_integer_spec. unfold variable_value.
  destruct w as [|c r]; [discriminate|]. inversion Hp as [|? ? [H45 H43] _]; subst.
  replace (c =? 45)%N with false by lia. replace (c =? 43)%N with false by lia.
  rewrite Em. apply representable_ok. unfold I64, i64_max in *. lia.
Qed.

(* with a sign: the value of the variable is the negated / the plain constant *)
Lemma var_signed_const w z :
  plain w -> parse_constant w = Some z ->
  parse_integer (45%N :: w) = Some (- z)%Z /\ parse_integer (43%N :: w) = Some z.
Proof.
  intros Hp H. destruct (parse_constant_magnitude w z Hp H) as [Em Hz].
  rewrite !parse_integer_spec. unfold variable_value.
  change (45 =? 45)%N with true. change (43 =? 45)%N with false. change (43 =? 43)%N with true.
  cbv iota. rewrite Em. cbn [option_map].
  split; apply representable_ok; unfold I64, i64_max in *; lia.
Qed.

Lemma dec_digits_rev_spec fuel n :
  (n < 10 ^ N.of_nat fuel)%N -> (0 < fuel)%nat ->
  let ds := rev (dec_digits_rev fuel n) in
  positional dec_digit 10 ds = Some (Z.of_N n) /\
  ds <> [] /\
  (hd 0%N ds = 48%N -> n = 0%N) /\
  Forall (fun c => (48 <= c <= 57)%N) ds.
Proof.
  revert n. induction fuel as [|f IH]; intros n Hn Hf; [lia|].
  cbn [dec_digits_rev]. destruct (N.ltb_spec n 10) as [Hlt|Hge].
  - cbn [rev app positional length hd]. unfold dec_digit.
    replace ((48 <=? 48 + n) && (48 + n <=? 57))%N with true by lia.
    split; [f_equal; lia|]. split; [discriminate|]. split; [lia|].
    constructor; [lia|constructor].
  - destruct f as [|f].
    { exfalso. change (10 ^ N.of_nat 1)%N with 10%N in Hn. lia. }
    assert (Hq : (n / 10 < 10 ^ N.of_nat (S f))%N).
    { apply N.div_lt_upper_bound; [lia|].
      rewrite Nat2N.inj_succ, N.pow_succ_r' in Hn. exact Hn. }
    specialize (IH (n / 10)%N Hq ltac:(lia)). cbv zeta in IH.
    destruct IH as [IHv [IHne [IHhd IHall]]].
    set (hi := rev (dec_digits_rev (S f) (n / 10))) in *.
    cbn [rev]. fold hi.
    assert (Hd : (n mod 10 < 10)%N) by (apply N.mod_lt; lia).
    assert (Hb : (48 <= 48 + n mod 10 <= 57)%N).
    { clear - Hd. set (d := (n mod 10)%N) in *. clearbody d. lia. }
    assert (Hdig : dec_digit (48 + n mod 10) = Some (Z.of_N (n mod 10))).
    { unfold dec_digit. replace ((48 <=? 48 + n mod 10) && (48 + n mod 10 <=? 57))%N with true by lia.
      f_equal. lia. }
    split.
    { rewrite (positional_snoc _ _ hi _ _ _ IHv Hdig). f_equal.
      pose proof (N.div_mod n 10 ltac:(lia)) as Hdm. clear - Hdm Hd.
      set (d := (n mod 10)%N) in *. set (q := (n / 10)%N) in *. clearbody d q. lia. }
    split; [destruct hi; discriminate|]. split.
    { destruct hi as [|h hi']; [congruence|]. cbn [app hd] in *. intros H48.
      specialize (IHhd H48). apply N.div_small_iff in IHhd; lia. }
    apply Forall_app. split; [exact IHall|]. constructor; [exact Hb|constructor].
Qed.

Lemma dec_of_N_value n :
  (n < 10 ^ 20)%N ->
  constant_magnitude (dec_of_N n) = Some (Z.of_N n) /\
  (forall c r, dec_of_N n = c :: r -> c <> 45%N /\ c <> 43%N).
Proof.
  intros Hn. pose proof (dec_digits_rev_spec 20 n Hn ltac:(lia)) as H. cbv zeta in H.
  fold (dec_of_N n) in H. destruct H as [Hv [Hne [Hhd Hall]]].
  destruct (dec_of_N n) as [|c r] eqn:E; [congruence|].
  split.
  - unfold constant_magnitude. destruct (N.eqb_spec c 48) as [->|Hc]; [|exact Hv].
    cbn [hd] in Hhd. specialize (Hhd eq_refl). subst n.
    vm_compute in E. injection E as <-. reflexivity.
  - intros c' r' [= <- <-]. inversion Hall; subst. lia.
Qed.

(* i64::to_string followed by parse_integer is the identity *)
Lemma assign_read_lemma z : I64 z -> parse_integer (dec_of_Z z) = Some z.
Proof.
  intros Hz. pose proof (representable_ok z Hz) as Hr.
  rewrite parse_integer_spec. unfold dec_of_Z, variable_value. unfold I64 in Hz.
  destruct (Z.ltb_spec z 0) as [Hneg|Hpos].
  - change (45 =? 45)%N with true. cbv iota.
    destruct (dec_of_N_value (Z.to_N (- z)) ltac:(lia)) as [-> _]. cbn [option_map].
    now rewrite Z2N.id, Z.opp_involutive by lia.
  - destruct (dec_of_N_value (Z.to_N z) ltac:(lia)) as [Hv Hc].
    destruct (dec_of_N (Z.to_N z)) as [|c r] eqn:E; [discriminate|].
    destruct (Hc c r eq_refl) as [H45 H43].
    replace (c =? 45)%N with false by lia. replace (c =? 43)%N with false by lia.
    now rewrite Hv, Z2N.id by lia.
Qed.

(* the value the specification gives is the value yash_arith::eval returns *)
Lemma run_value cls s env z env' : spec_run cls s env = SVal z env' -> run cls s env = RVal z env'.
Proof.
  intros S. pose proof (run_correct cls s env) as H. rewrite S in H.
  destruct (run cls s env); try discriminate; try contradiction. now injection H as -> ->.
Qed.

(* `$((x))` and `$(($x))`: if the value of the variable x is an integer
   constant, both evaluate to that constant and change nothing *)
Theorem var_const_agree_lemma cls x w z env :
  Forall (fun c => is_word cls c = true) x ->
  (exists c r, x = c :: r /\ ascii_digit c = false) ->
  Forall (fun c => is_word cls c = true) w ->
  constant_value w = Some z ->
  lookup x env = Some w ->
  run cls x env = RVal z env /\ run cls w env = RVal z env.
Proof.
  intros Hx [c [r [-> Hc]]] Hw Hz Hl.
  assert (Hvv : variable_value w = Some z).
  { rewrite <- parse_integer_spec. apply var_const_core; [eapply word_plain; eassumption|].
    rewrite parse_constant_spec; [exact Hz|eapply word_plain; eassumption]. }
  split; apply run_value; unfold spec_run, spec_lex.
  - rewrite slex_word by (assumption || (cbn [length]; lia)).
    rewrite Hc. cbn. rewrite Hl, Hvv. reflexivity.
  - destruct w as [|c' r']; [discriminate|].
    rewrite slex_word by (assumption || (cbn [length]; lia)).
    now rewrite (constant_first_digit _ _ _ Hz), Hz.
Qed.

(* where `$((x))` and `$(($x))` differ when the value carries a sign: the most
   negative number is a value a variable can hold (and that assignment stores),
   but its text is not an expression with a value *)
Example min_value_differs :
  let v := dec_of_Z i64_min in
  run (fun _ => 0%N) [120%N] [([120%N], v)] = RVal i64_min [([120%N], v)] /\
  run (fun _ => 0%N) v [] = RErr (CSyntax (SETok InvalidNumericConstant)) (1%N, 20%N) [].
Proof. vm_compute. split; reflexivity. Qed.

(* non-vacuity of var_const_agree: x = "x", value "0x1F" *)
Example var_const_agree_nonvacuous :
  let cls := fun _ : N => 0%N in
  let x := [120%N] in let w := [48; 120; 49; 70]%N in
  Forall (fun c => is_word cls c = true) x /\
  (exists c r, x = c :: r /\ ascii_digit c = false) /\
  Forall (fun c => is_word cls c = true) w /\
  constant_value w = Some 31%Z /\
  lookup x [(x, w)] = Some w /\
  run cls x [(x, w)] = RVal 31 [(x, w)] /\ run cls w [(x, w)] = RVal 31 [(x, w)].
Proof.
  cbv zeta. repeat split; try reflexivity.
  - repeat constructor.
  - exists 120%N, []. split; reflexivity.
  - repeat constructor.
Qed.
