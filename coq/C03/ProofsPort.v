(* C03 — portable mode (Config::portable, ast/portability.rs): the `++` / `--` nodes
   of the vector ast::parse returns are the `++` / `--` tokens of the text, by
   induction on the derivations of ProofsParse.v ([derives_locs]). *)
From Yv Require Import Common.Base C03.Defs C03.Model C03.Spec C03.ModelShell C03.SpecShell C03.ProofsArith C03.ProofsNum
  C03.ProofsLex C03.ProofsEval C03.ProofsParse C03.ProofsParse2 C03.Proofs.
From Coq Require Import ZArith NArith Lia ZifyBool.

Definition tok_incdec (t : tokval * range) : option range :=
  match fst t with
  | TkOp OPlusPlus | TkOp OMinusMinus => Some (snd t)
  | _ => None
  end.

Definition nlocs (ns : list ast) : list range := filter_map incdec_location ns.
Definition tlocs (ts : list (tokval * range)) : list range := filter_map tok_incdec ts.

Lemma filter_map_app {A B} (f : A -> option B) l1 l2 :
  filter_map f (l1 ++ l2) = filter_map f l1 ++ filter_map f l2.
Proof.
  induction l1 as [|a l1 IH]; [reflexivity|]. cbn [app filter_map].
  destruct (f a); [cbn [app]; now rewrite IH|exact IH].
Qed.

(* the tokens a successful parsing function consumed, and their ++ / -- (stated for
   reference; the proofs below go through [derives_locs] and do not use it) *)
Definition consumed_ok (st st' : stream) (ns_locs : list range -> Prop) : Prop :=
  exists used, fst st = used ++ fst st' /\ ns_locs (tlocs used).

Lemma in_filter_map_cons {A B} (f : A -> option B) a l b :
  In b (filter_map f (a :: l)) <-> f a = Some b \/ In b (filter_map f l).
Proof. cbn [filter_map]. destruct (f a); cbn [In]; intuition congruence. Qed.

Lemma in_tlocs_cons t ts l : In l (tlocs (t :: ts)) <-> tok_incdec t = Some l \/ In l (tlocs ts).
Proof. apply in_filter_map_cons. Qed.

Lemma in_nlocs_cons n ns l : In l (nlocs (n :: ns)) <-> incdec_location n = Some l \/ In l (nlocs ns).
Proof. apply in_filter_map_cons. Qed.

Lemma in_nlocs_app a b l : In l (nlocs (a ++ b)) <-> In l (nlocs a) \/ In l (nlocs b).
Proof. unfold nlocs. rewrite filter_map_app. apply in_app_iff. Qed.

(* a `++` / `--` token becomes a node with the location of the token *)
Lemma prefix_incdec o p loc :
  as_prefix o = Some p -> incdec_location (APrefix p loc) = tok_incdec (TkOp o, loc).
Proof. destruct o; try discriminate; intros [= <-]; reflexivity. Qed.

Lemma postfix_incdec o p loc :
  as_postfix o = Some p -> incdec_location (APostfix p loc) = tok_incdec (TkOp o, loc).
Proof. destruct o; try discriminate; intros [= <-]; reflexivity. Qed.

Lemma binary_incdec o b a loc : as_binary o = Some (b, a) -> tok_incdec (TkOp o, loc) = None.
Proof. destruct o; try discriminate; reflexivity. Qed.

Lemma parse_postfix_l_locs ts ps ts' l :
  parse_postfix_l ts = (ps, ts') -> (In l (tlocs ts) <-> In l (nlocs ps) \/ In l (tlocs ts')).
Proof.
  revert ps. induction ts as [|[[t|o] loc] ts IH]; intros ps; cbn [parse_postfix_l];
    try (intros [= <- <-]; cbn; tauto).
  destruct (as_postfix o) as [p|] eqn:Ep; [|intros [= <- <-]; cbn; tauto].
  destruct (parse_postfix_l ts) as [ps0 r]. intros [= <- <-].
  rewrite in_tlocs_cons, in_nlocs_cons, (postfix_incdec o p loc Ep), (IH ps0 eq_refl). tauto.
Qed.

Lemma derives_locs l :
  (forall ts ns ts', Leaf ts ns ts' ->
     (In l (tlocs ts) <-> In l (nlocs ns) \/ In l (tlocs ts'))) /\
  (forall m ts ns ts', Tree m ts ns ts' ->
     (In l (tlocs ts) <-> In l (nlocs ns) \/ In l (tlocs ts'))) /\
  (forall m acc ts ns ts', Loop m acc ts ns ts' ->
     (In l (nlocs acc) \/ In l (tlocs ts) <-> In l (nlocs ns) \/ In l (tlocs ts'))).
Proof.
  apply derivation_ind.
  - intros t loc ts ps ts' Hp. apply (parse_postfix_l_locs _ _ _ l) in Hp.
    exact Hp.
  - intros loc ts ns cl ts2 ps ts' _ IH Hp. apply (parse_postfix_l_locs _ _ _ l) in Hp.
    change (tlocs ((TkOp OCloseParen, cl) :: ts2)) with (tlocs ts2) in IH.
    change (tlocs ((TkOp OOpenParen, loc) :: ts)) with (tlocs ts).
    rewrite in_nlocs_app, IH, Hp. clear. tauto.
  - intros o p loc ts ns ts' Hp _ IH.
    rewrite in_tlocs_cons, in_nlocs_app, in_nlocs_cons, (prefix_incdec o p loc Hp). cbn. tauto.
  - intros m ts ns ts1 ns' ts' _ IH1 _ IH2. now rewrite IH1.
  - tauto.
  - intros m acc loc ts nt cl ts2 ne ts4 ns ts' _ _ IH1 _ IH2 _ IH3.
    rewrite !in_nlocs_app in IH3. change (In l (nlocs [ACond (length nt) (length ne)])) with False in IH3.
    change (tlocs ((TkOp OColon, cl) :: ts2)) with (tlocs ts2) in IH1.
    change (tlocs ((TkOp OQuestion, loc) :: ts)) with (tlocs ts).
    rewrite <- IH3, IH1, IH2. clear. tauto.
  - intros m acc o loc ts b a nr ts2 ns ts' _ Hb _ IH1 _ IH2.
    rewrite !in_nlocs_app in IH2. change (In l (nlocs [ABinary b (length nr) loc])) with False in IH2.
    unfold tlocs at 1. cbn [filter_map]. rewrite (binary_incdec o b a loc Hb). fold (tlocs ts).
    rewrite <- IH2, IH1. clear. tauto.
Qed.

Lemma min_by_start_spec l :
  match min_by_start l with
  | None => l = []
  | Some x => In x l /\ forall y, In y l -> (fst x <= fst y)%N
  end.
Proof.
  induction l as [|a l IH]; [reflexivity|]. cbn [min_by_start].
  destruct (min_by_start l) as [y|].
  - destruct IH as [Hy Hmin]. destruct (N.ltb_spec (fst y) (fst a)).
    + split; [now right|]. intros z [<-|Hz]; [lia|now apply Hmin].
    + split; [now left|]. intros z [<-|Hz]; [lia|]. specialize (Hmin z Hz). lia.
  - subst l. split; [now left|]. intros z [<-|[]]. lia.
Qed.

(* portability::check on what ast::parse returned: it reports a `++` / `--` token of
   the text with the least start offset (the first in source order), whether or not
   the operand would be evaluated, and succeeds iff the text has no such token *)
Theorem portability_check_lemma st ns st' :
  parse st = POk ns st' ->
  match portability_check ns with
  | None => tlocs (fst st) = []
  | Some loc => In loc (tlocs (fst st)) /\ forall l, In l (tlocs (fst st)) -> (fst loc <= fst l)%N
  end.
Proof.
  intros HT. apply parse_ok in HT.
  assert (Hs : forall l, In l (tlocs (fst st)) <-> In l (nlocs ns)).
  { intros l. rewrite (proj1 (proj2 (derives_locs l)) _ _ _ _ HT). cbn. tauto. }
  unfold portability_check. fold (nlocs ns).
  pose proof (min_by_start_spec (nlocs ns)) as Hm.
  destruct (min_by_start (nlocs ns)) as [x|].
  - destruct Hm as [Hin Hmin]. split; [now apply Hs|]. intros l Hl. apply Hmin. now apply Hs.
  - destruct (tlocs (fst st)) as [|y r]; [reflexivity|].
    exfalso. assert (In y (nlocs ns)) by (apply Hs; now left). rewrite Hm in H. exact H.
Qed.

Lemma tlocs_incdec ts : tlocs ts = [] <-> existsb is_incdec (erase ts) = false.
Proof.
  induction ts as [|[[[z|x l]|o] loc] ts IH]; [split; reflexivity| | |];
    unfold tlocs in *; cbn [filter_map tok_incdec fst erase map erase_tok existsb is_incdec orb];
    try exact IH.
  destruct o; cbn [orb]; try exact IH; split; discriminate.
Qed.

Theorem run_portable_correct cls s env :
  match run_portable cls s env with
  | RVal z env' => spec_run_portable cls s env = SVal z env'
  | RErr _ _ _ => spec_run_portable cls s env = SErr
  | RPanic | RFuel => False
  end.
Proof.
  unfold run_portable, spec_run_portable. pose proof (front_end cls s) as H.
  pose proof (portability_check_lemma (tokens_of cls s)) as HC.
  destruct (parse (tokens_of cls s)) as [ns st1|se l|]; [| |contradiction].
  - destruct H as [e [-> [-> [HR Hok]]]]. specialize (HC ns st1 eq_refl).
    destruct (portability_check ns) as [pl|].
    + destruct (existsb is_incdec _) eqn:Ex; [reflexivity|].
      apply tlocs_incdec in Ex. rewrite Ex in HC. destruct HC as [[] _].
    + apply tlocs_incdec in HC. rewrite HC, spec_eval_mode0.
      pose proof (eval_top_m mode0 e ns env HR Hok) as HE. rewrite top_mode0 in HE.
      destruct (spec_eval_m mode0 e env) as [z env'|env']; [now rewrite HE|].
      now destruct HE as [c [l ->]].
  - destruct (spec_lex cls s); [now rewrite H|reflexivity].
Qed.
