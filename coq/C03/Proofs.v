(* C03 — yash_arith::eval (model) against the specification, over the
   shell's environment (any [mode]) and, as the instance [mode0], over the HashMap. *)
From Yv Require Import Common.Base C03.Defs C03.Model C03.Spec C03.ModelShell C03.SpecShell
  C03.ProofsArith C03.ProofsNum C03.ProofsLex C03.ProofsEval C03.ProofsParse C03.ProofsParse2.
From Coq Require Import ZArith NArith Lia ZifyBool.

(* tokenizer and parser together, the part [run], [run_mode] and [run_portable] share *)
Lemma front_end cls s :
  match parse (tokens_of cls s) with
  | POk ns _ =>
      exists e, spec_lex cls s = Some (erase (fst (tokens_of cls s))) /\
                spec_parse (erase (fst (tokens_of cls s))) = Some e /\ Repr e ns /\ expr_ok e
  | PErr _ _ => match spec_lex cls s with Some ts => spec_parse ts = None | None => True end
  | PFuel => False
  end.
Proof.
  pose proof (lex_equiv cls s) as HL.
  destruct (tokens_of cls s) as [ts fi] eqn:Et.
  pose proof (parse_equiv_lemma (ts, fi)) as HP. unfold ets in HP. cbn [fst] in *.
  destruct fi as [loc|te loc|]; [| |contradiction]; specialize (HP I).
  - destruct HL as [-> Hok].
    destruct (parse (ts, FEnd loc)) as [ns st1|se l|] eqn:Ep; [| |contradiction].
    + destruct HP as [e [loc' [_ [Hsp HR]]]]. exists e. repeat split; try assumption.
      apply (Repr_ok e ns HR). apply parse_ok, derives_ok in Ep; [apply Ep|exact Hok].
    + now destruct HP as [[e [loc' HP]]|HP].
  - rewrite HL. destruct (parse (ts, FErr te loc)) as [ns st1|se l|]; [|exact I|contradiction].
    now destruct HP as [e [loc' [HP _]]].
Qed.

(* yash_arith::eval over an environment with nounset / read-only variables: value and
   variables as specified; an error exactly when the specification fails, and then
   with exactly the variables the specification has at the point of failure *)
Theorem run_mode_correct m cls s env :
  match run_mode m cls s env with
  | RVal z env' => spec_run_mode m cls s env = MVal z env'
  | RErr _ _ env' => spec_run_mode m cls s env = MErr env'
  | RPanic | RFuel => False
  end.
Proof.
  unfold run_mode, spec_run_mode. pose proof (front_end cls s) as H.
  destruct (parse (tokens_of cls s)) as [ns st1|se l|]; [| |contradiction].
  - destruct H as [e [-> [-> [HR Hok]]]]. pose proof (eval_top_m m e ns env HR Hok) as HE.
    destruct (spec_eval_m m e env) as [z env'|env']; [now rewrite HE|].
    now destruct HE as [c [l ->]].
  - destruct (spec_lex cls s); [now rewrite H|reflexivity].
Qed.

(* yash_arith::eval over the HashMap is the instance [mode0]; its specification forgets
   the variables at the point of failure *)
Lemma run_mode0 cls s env : run_mode mode0 cls s env = run cls s env.
Proof.
  unfold run_mode, run. destruct (parse (tokens_of cls s)); try reflexivity. now rewrite top_mode0.
Qed.

Lemma spec_run_mode0 cls s env :
  spec_run cls s env =
  match spec_run_mode mode0 cls s env with MVal z env' => SVal z env' | MErr _ => SErr end.
Proof.
  unfold spec_run, spec_run_mode. destruct (spec_lex cls s) as [ts|]; [|reflexivity].
  destruct (spec_parse ts); [apply spec_eval_mode0|reflexivity].
Qed.

Theorem run_correct cls s env :
  match run cls s env with
  | RVal z env' => spec_run cls s env = SVal z env'
  | RErr _ _ _ => spec_run cls s env = SErr
  | RPanic | RFuel => False
  end.
Proof.
  rewrite <- run_mode0, spec_run_mode0. pose proof (run_mode_correct mode0 cls s env) as H.
  destruct (run_mode mode0 cls s env); try contradiction; now rewrite H.
Qed.

(* what the oracle is given when it judges the model's own outcome (the function
   [answer_of] of Run.v, which the proof files do not import) *)
Definition answer_of_outcome (o : outcome) : answer :=
  match o with
  | RVal z e => AnsValue z e
  | RErr _ _ _ => AnsError
  | RPanic | RFuel => AnsPanic
  end.

Lemma env_equiv_refl e : env_equiv e e = true.
Proof.
  unfold env_equiv. assert (H : env_sub e e = true); [|now rewrite H].
  apply forallb_forall. intros p _. destruct (lookup (fst p) e); cbn; [now apply str_eqb_eq|reflexivity].
Qed.
