(* C03 — reading a variable operand early or late (about the
   specification only). *)
From Yv Require Import Common.Base C03.Defs C03.Spec.
From Coq Require Import ZArith NArith Lia.
Local Open Scope Z_scope.

(* The specification reads a variable operand of a binary operator when the
   operator is applied (after both operands have been evaluated).  ISO C leaves
   `x + x++`, `(x = 1) + x`, `x += x++` undefined: the read of x and the side
   effect on x are unsequenced.  On every expression without such a conflict the
   late read is unobservable: the specification agrees with the semantics that
   converts each operand to its value as soon as it has been evaluated. *)

(* the variables an expression may evaluate to (as an lvalue) *)
Fixpoint lvals (x : expr) : list str :=
  match x with
  | EVar v => [v]
  | ECond _ a b => lvals a ++ lvals b
  | _ => []
  end.

(* the variables an expression may assign *)
Fixpoint writes (x : expr) : list str :=
  match x with
  | ENum _ | EVar _ => []
  | EPre o a => match o with PreInc | PreDec => lvals a | _ => [] end ++ writes a
  | EPost _ a => lvals a ++ writes a
  | EBin o a b =>
      match o with BAssign | BCompound _ => lvals a | _ => [] end ++ writes a ++ writes b
  | ECond c a b => writes c ++ writes a ++ writes b
  end.

Definition disjoint (l1 l2 : list str) : Prop := forall v, In v l1 -> In v l2 -> False.

(* no variable is read as the left operand of a strict binary operator and
   assigned by the right operand *)
Fixpoint sequenced (x : expr) : Prop :=
  match x with
  | ENum _ | EVar _ => True
  | EPre _ a | EPost _ a => sequenced a
  | EBin o a b =>
      sequenced a /\ sequenced b /\
      match o with
      | BArith _ | BCompound _ => disjoint (lvals a) (writes b)
      | _ => True
      end
  | ECond c a b => sequenced c /\ sequenced a /\ sequenced b
  end.

(* each operand is converted to its value as soon as it has been evaluated *)
Fixpoint den_eager (x : expr) (e : env) : option (sterm * env) :=
  match x with
  | ENum z => Some (SNumT z, e)
  | EVar v => Some (SVarT v, e)
  | EPre o a => let* (t, e) := den_eager a e in den_prefix o t e
  | EPost o a => let* (t, e) := den_eager a e in den_postfix o t e
  | EBin BLogOr a b =>
      let* (ta, e) := den_eager a e in let* na := rvalue ta e in
      if negb (na =? 0) then Some (SNumT 1, e)
      else let* (tb, e) := den_eager b e in let* nb := rvalue tb e in
           Some (SNumT (b2z (negb (nb =? 0))), e)
  | EBin BLogAnd a b =>
      let* (ta, e) := den_eager a e in let* na := rvalue ta e in
      if na =? 0 then Some (SNumT 0, e)
      else let* (tb, e) := den_eager b e in let* nb := rvalue tb e in
           Some (SNumT (b2z (negb (nb =? 0))), e)
  | EBin (BArith o) a b =>
      let* (ta, e) := den_eager a e in let* na := rvalue ta e in
      let* (tb, e) := den_eager b e in let* nb := rvalue tb e in
      let* r := arith o na nb in Some (SNumT r, e)
  | EBin BAssign a b =>
      let* (ta, e) := den_eager a e in let* (tb, e) := den_eager b e in
      den_binary BAssign ta tb e
  | EBin (BCompound o) a b =>
      let* (ta, e) := den_eager a e in let* v := lvalue ta in let* na := rvalue ta e in
      let* (tb, e) := den_eager b e in let* nb := rvalue tb e in
      let* r := arith o na nb in Some (SNumT r, store v r e)
  | ECond c a b =>
      let* (tc, e) := den_eager c e in let* nc := rvalue tc e in
      if negb (nc =? 0) then den_eager a e else den_eager b e
  end.

Lemma lookup_set_other x y v e : x <> y -> lookup y (set_var x v e) = lookup y e.
Proof.
  intros Hxy. induction e as [|[k w] e IH]; cbn [set_var lookup].
  - destruct (str_eqb y x) eqn:E; [apply str_eqb_eq in E; congruence|reflexivity].
  - destruct (str_eqb x k) eqn:E1; cbn [lookup].
    + apply str_eqb_eq in E1. subst k.
      destruct (str_eqb y x) eqn:E2; [apply str_eqb_eq in E2; congruence|reflexivity].
    + destruct (str_eqb y k); [reflexivity|exact IH].
Qed.

Lemma obind_some {A B} (m : option A) (k : A -> option B) x :
  obind m k = Some x -> exists a, m = Some a /\ k a = Some x.
Proof. destruct m as [a|]; [eauto|discriminate]. Qed.

(* An operator yields a number; it leaves the variables alone, or (an increment, a
   decrement, an assignment) stores into the variable its first operand denotes. *)
Definition op_effect (assigns : bool) (t : sterm) (e : env) (t' : sterm) (e' : env) : Prop :=
  lvalue t' = None /\
  (e' = e \/ assigns = true /\ exists v r, lvalue t = Some v /\ e' = store v r e).

Lemma den_prefix_effect o t e t' e' :
  den_prefix o t e = Some (t', e') ->
  op_effect (match o with PreInc | PreDec => true | _ => false end) t e t' e'.
Proof.
  destruct o; cbn [den_prefix]; intros H.
  1-2: apply obind_some in H as [v [Hv H]]; apply obind_some in H as [n [_ H]];
       apply obind_some in H as [r [_ H]]; injection H as <- <-; split; [reflexivity|]; right; eauto.
  all: apply obind_some in H as [n [_ H]]; try apply obind_some in H as [r [_ H]];
       injection H as <- <-; split; [reflexivity|now left].
Qed.

Lemma den_postfix_effect o t e t' e' : den_postfix o t e = Some (t', e') -> op_effect true t e t' e'.
Proof.
  unfold den_postfix. intros H.
  apply obind_some in H as [v [Hv H]]. apply obind_some in H as [n [_ H]].
  apply obind_some in H as [r [_ H]]. injection H as <- <-. split; [reflexivity|]. right. eauto.
Qed.

Lemma den_binary_effect o ta tb e t' e' :
  den_binary o ta tb e = Some (t', e') ->
  op_effect (match o with BAssign | BCompound _ => true | _ => false end) ta e t' e'.
Proof.
  destruct o as [| |a| |a]; cbn [den_binary]; intros H; try discriminate.
  - apply obind_some in H as [na [_ H]]. apply obind_some in H as [nb [_ H]].
    apply obind_some in H as [r [_ H]]. injection H as <- <-. split; [reflexivity|now left].
  - apply obind_some in H as [v [Hv H]]. apply obind_some in H as [nb [_ H]].
    injection H as <- <-. split; [reflexivity|]. right. eauto.
  - apply obind_some in H as [v [Hv H]]. apply obind_some in H as [na [_ H]].
    apply obind_some in H as [nb [_ H]]. apply obind_some in H as [r [_ H]].
    injection H as <- <-. split; [reflexivity|]. right. eauto.
Qed.

(* the two lazy operators: [stop] says when the right operand is not evaluated *)
Lemma den_lazy_inv (stop : Z -> bool) (z0 : Z) a b e t e' :
  (let* (ta, e) := den a e in let* na := rvalue ta e in
   if stop na then Some (SNumT z0, e)
   else let* (tb, e) := den b e in let* nb := rvalue tb e in
        Some (SNumT (b2z (negb (nb =? 0))), e)) = Some (t, e') ->
  lvalue t = None /\
  exists ta e1, den a e = Some (ta, e1) /\ (e' = e1 \/ exists tb, den b e1 = Some (tb, e')).
Proof.
  intros H. apply obind_some in H as [[ta e1] [Ha H]]. apply obind_some in H as [na [_ H]].
  destruct (stop na).
  - injection H as <- <-. eauto 6.
  - apply obind_some in H as [[tb e2] [Hb H]]. apply obind_some in H as [nb [_ H]].
    injection H as <- <-. eauto 7.
Qed.

(* what an expression evaluates to is one of its lvals *)
Lemma den_lvals x e t e' v : den x e = Some (t, e') -> lvalue t = Some v -> In v (lvals x).
Proof.
  revert e t e'. induction x as [z|w|o a IHa|o a IHa|o a IHa b IHb|c IHc a IHa b IHb]; intros e t e' H Hl.
  - injection H as <- <-. discriminate.
  - injection H as <- <-. injection Hl as <-. now left.
  - cbn [den] in H. apply obind_some in H as [[ta e1] [_ H]].
    apply den_prefix_effect in H as [H _]. congruence.
  - cbn [den] in H. apply obind_some in H as [[ta e1] [_ H]].
    apply den_postfix_effect in H as [H _]. congruence.
  - exfalso. enough (lvalue t = None) by congruence.
    destruct o as [| |o| |o]; cbn [den] in H.
    1: now apply (den_lazy_inv (fun n => negb (n =? 0)) 1) in H as [H _].
    1: now apply (den_lazy_inv (fun n => n =? 0) 0) in H as [H _].
    all: apply obind_some in H as [[ta e1] [_ H]]; apply obind_some in H as [[tb e2] [_ H]];
      now apply den_binary_effect in H as [H _].
  - cbn [den] in H. apply obind_some in H as [[tc e1] [_ H]]. apply obind_some in H as [nc [_ H]].
    cbn [lvals]. apply in_or_app.
    destruct (negb (nc =? 0)); [left; eapply IHa; eauto|right; eapply IHb; eauto].
Qed.

(* an evaluation changes only variables the expression may assign *)
Lemma den_frame x : forall e t e' y,
  den x e = Some (t, e') -> ~ In y (writes x) -> lookup y e' = lookup y e.
Proof.
  assert (Hop : forall assigns ta e1 t e' y,
            op_effect assigns ta e1 t e' ->
            (assigns = true -> forall v, lvalue ta = Some v -> v <> y) ->
            lookup y e' = lookup y e1).
  { intros assigns ta e1 t e' y [_ [->|[Ha [v [r [Hv ->]]]]]] Hne; [reflexivity|].
    apply lookup_set_other. exact (Hne Ha v Hv). }
  induction x as [z|w|o a IHa|o a IHa|o a IHa b IHb|c IHc a IHa b IHb]; intros e t e' y H Hy.
  - now injection H as <- <-.
  - now injection H as <- <-.
  - cbn [den] in H. apply obind_some in H as [[ta e1] [Ea H]].
    cbn [writes] in Hy. rewrite in_app_iff in Hy. apply den_prefix_effect in H.
    rewrite <- (IHa _ _ _ y Ea) by tauto. apply (Hop _ _ _ _ _ y H).
    intros Ho v Hv ->. apply Hy. left. destruct o; try discriminate Ho; eapply den_lvals; eauto.
  - cbn [den] in H. apply obind_some in H as [[ta e1] [Ea H]].
    cbn [writes] in Hy. rewrite in_app_iff in Hy. apply den_postfix_effect in H.
    rewrite <- (IHa _ _ _ y Ea) by tauto. apply (Hop _ _ _ _ _ y H).
    intros _ v Hv ->. apply Hy. left. eapply den_lvals; eauto.
  - cbn [writes] in Hy. rewrite !in_app_iff in Hy.
    assert (Hlazy : lvalue t = None /\
              (exists ta e1, den a e = Some (ta, e1) /\ (e' = e1 \/ exists tb, den b e1 = Some (tb, e'))) ->
              lookup y e' = lookup y e).
    { intros [_ [ta [e1 [Ea [->|[tb Eb]]]]]].
      - eapply IHa; [eassumption|tauto].
      - rewrite (IHb _ _ _ y Eb) by tauto. eapply IHa; [eassumption|tauto]. }
    destruct o as [| |o| |o]; cbn [den] in H.
    1: exact (Hlazy (den_lazy_inv (fun n => negb (n =? 0)) 1 _ _ _ _ _ H)).
    1: exact (Hlazy (den_lazy_inv (fun n => n =? 0) 0 _ _ _ _ _ H)).
    all: apply obind_some in H as [[ta e1] [Ea H]]; apply obind_some in H as [[tb e2] [Eb H]];
      apply den_binary_effect in H;
      rewrite <- (IHa _ _ _ y Ea), <- (IHb _ _ _ y Eb) by tauto;
      apply (Hop _ _ _ _ _ y H); intros Ho v Hv ->; try discriminate Ho;
      apply Hy; left; eapply den_lvals; eauto.
  - cbn [writes] in Hy. rewrite !in_app_iff in Hy. cbn [den] in H.
    apply obind_some in H as [[tc e1] [Ec H]]. apply obind_some in H as [nc [_ H]].
    rewrite <- (IHc _ _ _ y Ec) by tauto.
    destruct (negb (nc =? 0)); [eapply IHa|eapply IHb]; eauto; tauto.
Qed.

Lemma rvalue_frame t e e' :
  (forall v, lvalue t = Some v -> lookup v e' = lookup v e) -> rvalue t e' = rvalue t e.
Proof.
  destruct t as [z|v]; [reflexivity|]. intros H. cbn [rvalue]. now rewrite (H v eq_refl).
Qed.

(* an operand that the right operand does not assign reads the same before and after it *)
Lemma rvalue_after a b ta e e1 tb e2 :
  den a e = Some (ta, e1) -> den b e1 = Some (tb, e2) -> disjoint (lvals a) (writes b) ->
  rvalue ta e2 = rvalue ta e1.
Proof.
  intros Ea Eb Hd. apply rvalue_frame. intros v Hv. eapply den_frame; [exact Eb|].
  intros Hin. eapply Hd; [eapply den_lvals; eauto|exact Hin].
Qed.

(* on expressions without an unsequenced read/write conflict the time at which a
   variable operand is read does not matter *)
Theorem late_read_unobservable x : sequenced x -> forall e, den_eager x e = den x e.
Proof.
  induction x as [z|w|o a IHa|o a IHa|o a IHa b IHb|c IHc a IHa b IHb]; intros Hs e.
  - reflexivity.
  - reflexivity.
  - cbn [den_eager den]. now rewrite IHa.
  - cbn [den_eager den]. now rewrite IHa.
  - destruct Hs as [Hsa [Hsb Hd]].
    destruct o as [| |o| |o]; cbn [den_eager den]; rewrite IHa by assumption.
    + destruct (den a e) as [[ta e1]|]; [|reflexivity]. cbn [obind].
      destruct (rvalue ta e1); [|reflexivity]. cbn [obind].
      destruct (negb (z =? 0)); [reflexivity|]. now rewrite IHb.
    + destruct (den a e) as [[ta e1]|]; [|reflexivity]. cbn [obind].
      destruct (rvalue ta e1); [|reflexivity]. cbn [obind].
      destruct (z =? 0); [reflexivity|]. now rewrite IHb.
    + destruct (den a e) as [[ta e1]|] eqn:Ea; [|reflexivity]. cbn [obind].
      rewrite IHb by assumption.
      destruct (den b e1) as [[tb e2]|] eqn:Eb; cbn [obind den_binary].
      * rewrite (rvalue_after _ _ _ _ _ _ _ Ea Eb Hd). destruct (rvalue ta e1); reflexivity.
      * destruct (rvalue ta e1); reflexivity.
    + destruct (den a e) as [[ta e1]|]; [|reflexivity]. cbn [obind]. now rewrite IHb.
    + destruct (den a e) as [[ta e1]|] eqn:Ea; [|reflexivity]. cbn [obind].
      rewrite IHb by assumption.
      destruct (den b e1) as [[tb e2]|] eqn:Eb; cbn [obind den_binary].
      * rewrite (rvalue_after _ _ _ _ _ _ _ Ea Eb Hd). destruct (lvalue ta); cbn [obind]; [|reflexivity].
        destruct (rvalue ta e1); reflexivity.
      * destruct (lvalue ta); cbn [obind]; [|reflexivity]. destruct (rvalue ta e1); reflexivity.
  - destruct Hs as [Hsc [Hsa Hsb]]. cbn [den_eager den]. rewrite IHc by assumption.
    destruct (den c e) as [[tc e1]|]; [|reflexivity]. cbn [obind].
    destruct (rvalue tc e1); [|reflexivity]. cbn [obind].
    destruct (negb (z =? 0)); [now apply IHa|now apply IHb].
Qed.

(* the condition is not vacuous, and it is needed *)
Example sequenced_example :
  let x := [120%N] in
  sequenced (EBin (BArith AAdd) (EVar x) (EBin BAssign (EVar [121%N]) (ENum 3))) /\
  ~ sequenced (EBin (BArith AAdd) (EVar x) (EPost PostInc (EVar x))) /\
  den_eager (EBin (BArith AAdd) (EVar x) (EPost PostInc (EVar x))) [] <>
  den (EBin (BArith AAdd) (EVar x) (EPost PostInc (EVar x))) [].
Proof.
  cbv zeta. split; [|split].
  - cbn. repeat split; auto. intros v [<-|[]] [E|[]]. discriminate.
  - cbn. intros [_ [_ H]]. apply (H [120%N]); now left.
  - vm_compute. discriminate.
Qed.
