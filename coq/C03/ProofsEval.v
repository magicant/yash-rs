(* C03 — the evaluator on the reverse-Polish vector (eval.rs eval,
   apply_prefix / apply_postfix / apply_binary) computes the denotation of the
   expression tree the vector represents.  Proved for the evaluator over the shell's
   environment ([eval_m], any [mode]); the plain evaluator is its instance [mode0]. *)
From Yv Require Import Common.Base C03.Defs C03.Model C03.Spec C03.ModelShell C03.SpecShell
  C03.ProofsArith C03.ProofsNum.
From Coq Require Import ZArith NArith Lia ZifyBool.
Local Open Scope Z_scope.

(* the reverse-Polish vector of an expression tree (locations are arbitrary) *)
Inductive Repr : expr -> list ast -> Prop :=
| RNum z : Repr (ENum z) [ATerm (TValue z)]
| RVar x loc : Repr (EVar x) [ATerm (TVariable x loc)]
| RPre o loc e ns : Repr e ns -> Repr (EPre o e) (ns ++ [APrefix o loc])
| RPost o loc e ns : Repr e ns -> Repr (EPost o e) (ns ++ [APostfix o loc])
| RBin o loc l r nl nr :
    Repr l nl -> Repr r nr -> Repr (EBin o l r) (nl ++ nr ++ [ABinary o (length nr) loc])
| RCond c t f nc nt nf :
    Repr c nc -> Repr t nt -> Repr f nf ->
    Repr (ECond c t f) (nc ++ nt ++ nf ++ [ACond (length nt) (length nf)]).

Definition tmatch (t : sterm) (m : term) : Prop :=
  match t, m with
  | SNumT z, TValue z' => z = z'
  | SVarT x, TVariable x' _ => x = x'
  | _, _ => False
  end.

Definition term_ok (m : term) : Prop :=
  match m with TValue z => I64 z | TVariable _ _ => True end.

Fixpoint expr_ok (e : expr) : Prop :=
  match e with
  | ENum z => I64 z
  | EVar _ => True
  | EPre _ a | EPost _ a => expr_ok a
  | EBin _ a b => expr_ok a /\ expr_ok b
  | ECond c a b => expr_ok c /\ expr_ok a /\ expr_ok b
  end.

Definition node_ok (n : ast) : Prop := match n with ATerm t => term_ok t | _ => True end.

Lemma Repr_ok e ns : Repr e ns -> Forall node_ok ns -> expr_ok e.
Proof.
  induction 1 as [z|x loc|o loc e ns HR IH|o loc e ns HR IH
                  |o loc l r nl nr HRl IHl HRr IHr|c t fe nc nt nf HRc IHc HRt IHt HRf IHf];
    rewrite ?Forall_app; cbn [expr_ok]; intros Hall.
  - now inversion Hall.
  - exact I.
  - apply IH, Hall.
  - apply IH, Hall.
  - destruct Hall as [Hl [Hr _]]. auto.
  - destruct Hall as [Hc [Ht [Hf _]]]. auto.
Qed.

Lemma split_last_app {A} (l : list A) (x : A) : split_last (l ++ [x]) = Some (x, l).
Proof.
  induction l as [|y l IH]; [reflexivity|].
  cbn [app split_last]. rewrite IH. destruct (l ++ [x]) eqn:E; [destruct l; discriminate|reflexivity].
Qed.

Lemma split_off_app {A} (l1 l2 : list A) : split_off (l1 ++ l2) (length l2) = Some (l1, l2).
Proof.
  unfold split_off. rewrite app_length.
  replace (Nat.ltb (length l1 + length l2) (length l2)) with false
    by (symmetry; apply Nat.ltb_ge; lia).
  replace (length l1 + length l2 - length l2)%nat with (length l1) by lia.
  f_equal. f_equal.
  - induction l1; cbn; [now destruct l2|now f_equal].
  - induction l1; cbn; auto.
Qed.

(* The specification [d] and the model [r] succeed together, with the same variables and
   results related by [R], or fail together with the same variables. *)
Definition agrees_by {A B} (R : A -> B -> Prop) (d : dres A) (r : eres B) : Prop :=
  match d with
  | DOk a e' => exists b, r = EOk b e' /\ R a b
  | DFail e' => exists c l, r = EErr c l e'
  end.

Lemma agrees_bind {A B A' B'} (R : A -> B -> Prop) (R' : A' -> B' -> Prop) d r k k' :
  agrees_by R d r -> (forall a b e, R a b -> agrees_by R' (k a e) (k' b e)) ->
  agrees_by R' (dbind d k) (ebind r k').
Proof.
  destruct d as [a e'|e']; cbn.
  - intros [b [-> H]] Hk. now apply Hk.
  - intros [c [l ->]] _. cbn. eauto.
Qed.

Lemma agrees_map {A A' B} (R : A -> B -> Prop) (R' : A' -> B -> Prop) d r f :
  agrees_by R d r -> (forall a b, R a b -> R' (f a) b) ->
  agrees_by R' (try a, e <- d; DOk (f a) e) r.
Proof. destruct d; cbn; [intros [b [-> H]] Hf; eauto|auto]. Qed.

(* a number of the specification and the i64 of the model *)
Definition num (n z : Z) : Prop := n = z /\ I64 z.
(* [agrees_op]: an operator function of the model returns an i64 where the
   specification returns a term that is a number; [agrees_m]: eval returns a term
   on both sides, a number or a variable that has not been read yet *)
Definition agrees_op := agrees_by (fun t z => t = SNumT z /\ I64 z).
Definition agrees_m := agrees_by (fun t mm => tmatch t mm /\ term_ok mm).

Lemma rvalue_step m t mm e :
  tmatch t mm -> term_ok mm -> agrees_by num (lift (rvalue_m m t e) e) (into_value_m m mm e).
Proof.
  destruct t as [z|x], mm as [z'|x' loc]; cbn [tmatch term_ok]; try contradiction.
  - intros <- H. exists z. split; [reflexivity|now split].
  - intros <- _. cbn [rvalue_m into_value_m]. unfold expand_variable_m.
    destruct (lookup x e) as [v|].
    + rewrite parse_integer_spec. destruct (variable_value v) eqn:E; cbn; [|eauto].
      eexists. split; [reflexivity|]. split; [reflexivity|]. eapply variable_value_I64; eassumption.
    + destruct (nounset m); cbn; [eauto|]. exists 0. unfold num, I64. repeat split; lia.
Qed.

Lemma lvalue_step t mm loc e :
  tmatch t mm ->
  agrees_by (fun x nl => t = SVarT x /\ mm = TVariable x (snd nl) /\ fst nl = x)
            (lift (lvalue t) e) (require_variable mm loc e).
Proof. destruct t, mm; cbn [tmatch]; try contradiction; intros <-; cbn; eauto 6. Qed.

Lemma checked_step z loc e :
  agrees_by num (lift (representable z) e) (unwrap_or_overflow (checked z) loc e).
Proof.
  change checked with representable. destruct (representable z) as [r|] eqn:E; cbn; [|eauto].
  apply representable_I64 in E. destruct E as [-> E]. exists r. split; [reflexivity|now split].
Qed.

Lemma store_step m x z loc e : I64 z -> agrees_by num (store_m m x z e) (assign_m m x z loc e).
Proof.
  intros Hz. unfold store_m, assign_m. destruct (existsb _ _); cbn; [eauto|]. exists z. split; [reflexivity|now split].
Qed.

Lemma arith_step a l r o loc e :
  I64 l -> I64 r -> o = BArith a \/ o = BCompound a ->
  agrees_by num (lift (arith a l r) e) (binary_result l r o loc e).
Proof.
  intros Hl Hr Ho. pose proof (arith_result_exact a l r Hl Hr) as H.
  replace (binary_result l r o loc e)
    with (match arith_result a l r with inl z => EOk z e | inr c => EErr c loc e end)
    by (destruct Ho as [-> | ->]; reflexivity).
  destruct (arith_result a l r) as [z|c]; rewrite H; cbn; [|eauto].
  exists z. split; [reflexivity|]. split; [reflexivity|]. exact (arith_I64 a l r z Hl Hr H).
Qed.

Lemma num_term n z : num n z -> SNumT n = SNumT z /\ I64 z.
Proof. now intros [-> H]. Qed.

Lemma pre_incdec m t mm loc e d :
  tmatch t mm ->
  agrees_op (incdec_m m t d false e)
    (do nl, e <- require_variable mm loc e;
     do value, e <- expand_variable_m m (fst nl) (snd nl) e;
     do nv, e <- unwrap_or_overflow (checked (value + d)) loc e;
     assign_m m (fst nl) nv (snd nl) e).
Proof.
  intros Ht. unfold incdec_m.
  apply agrees_bind with (1 := lvalue_step t mm loc e Ht). intros x nl e1 [-> [-> <-]].
  apply agrees_bind with (1 := rvalue_step m (SVarT (fst nl)) (TVariable (fst nl) (snd nl)) e1 eq_refl I).
  intros n z e2 [-> Hz].
  apply agrees_bind with (1 := checked_step (z + d) loc e2). intros ? r e3 [-> Hr].
  apply agrees_map with (1 := store_step m (fst nl) r (snd nl) e3 Hr). exact num_term.
Qed.

Lemma apply_prefix_spec_m m o t mm loc e :
  tmatch t mm -> term_ok mm -> agrees_op (den_prefix_m m o t e) (apply_prefix_m m mm o loc e).
Proof.
  intros Ht Hm. pose proof (rvalue_step m t mm e Ht Hm) as Hr.
  destruct o; cbn [den_prefix_m apply_prefix_m].
  - exact (pre_incdec m t mm loc e 1 Ht).
  - exact (pre_incdec m t mm loc e (-1) Ht).
  - apply agrees_map with (1 := Hr). exact num_term.
  - apply agrees_bind with (1 := Hr). intros n z e1 [-> Hz].
    apply agrees_map with (1 := checked_step (- z) loc e1). exact num_term.
  - apply agrees_bind with (1 := Hr). intros n z e1 [-> Hz].
    eexists. split; [reflexivity|]. split; [reflexivity|apply I64_b2z].
  - apply agrees_bind with (1 := Hr). intros n z e1 [-> Hz]. rewrite bits_lnot by assumption.
    eexists. split; [reflexivity|]. split; [reflexivity|now apply I64_lnot].
Qed.

Lemma apply_postfix_spec_m m o t mm loc e :
  tmatch t mm -> agrees_op (den_postfix_m m o t e) (apply_postfix_m m mm o loc e).
Proof.
  intros Ht. unfold den_postfix_m, apply_postfix_m, incdec_m.
  apply agrees_bind with (1 := lvalue_step t mm loc e Ht). intros x nl e1 [-> [-> <-]].
  apply agrees_bind with (1 := rvalue_step m (SVarT (fst nl)) (TVariable (fst nl) (snd nl)) e1 eq_refl I).
  intros n z e2 [-> Hz]. cbv zeta.
  replace (match o with PostInc => checked (z + 1) | PostDec => checked (z - 1) end)
    with (checked (z + match o with PostInc => 1 | PostDec => -1 end)) by now destruct o.
  apply agrees_bind with (1 := checked_step _ loc e2). intros ? r e3 [-> Hr].
  apply agrees_bind with (1 := store_step m (fst nl) r (snd nl) e3 Hr). intros ? r' e4 _.
  exists z. auto.
Qed.

Lemma apply_binary_spec_m m o ta ma tb mb loc e :
  tmatch ta ma -> term_ok ma -> tmatch tb mb -> term_ok mb ->
  o <> BLogOr -> o <> BLogAnd ->
  agrees_op (den_binary_m m o ta tb e) (apply_binary_m m ma mb o loc e).
Proof.
  intros Hta Hma Htb Hmb Ho1 Ho2.
  destruct o as [| |a| |a]; try congruence; cbn [den_binary_m apply_binary_m].
  - apply agrees_bind with (1 := rvalue_step m ta ma e Hta Hma). intros ? na e1 [-> Hna].
    apply agrees_bind with (1 := rvalue_step m tb mb e1 Htb Hmb). intros ? nb e2 [-> Hnb].
    apply agrees_map with (1 := arith_step a na nb _ loc e2 Hna Hnb (or_introl eq_refl)). exact num_term.
  - apply agrees_bind with (1 := lvalue_step ta ma loc e Hta). intros x nl e1 [-> [-> <-]].
    apply agrees_bind with (1 := rvalue_step m tb mb e1 Htb Hmb). intros ? nb e2 [-> Hnb].
    apply agrees_map with (1 := store_step m (fst nl) nb (snd nl) e2 Hnb). exact num_term.
  - apply agrees_bind with (1 := lvalue_step ta ma loc e Hta). intros x nl e1 [-> [-> <-]].
    apply agrees_bind with (1 := rvalue_step m (SVarT (fst nl)) (TVariable (fst nl) (snd nl)) e1 eq_refl I).
    intros ? na e2 [-> Hna].
    apply agrees_bind with (1 := rvalue_step m tb mb e2 Htb Hmb). intros ? nb e3 [-> Hnb].
    apply agrees_bind with (1 := arith_step a na nb _ loc e3 Hna Hnb (or_intror eq_refl)).
    intros ? r e4 [-> Hr].
    apply agrees_map with (1 := store_step m (fst nl) r (snd nl) e4 Hr). exact num_term.
Qed.

Lemma agrees_value_m d r :
  agrees_op d r -> agrees_m d (do v, e <- r; evalue v e).
Proof.
  destruct d as [t e'|e']; cbn.
  - intros [z [-> [-> Hz]]]. cbn. exists (TValue z). auto.
  - intros [c [l ->]]. cbn. eauto.
Qed.

Lemma eval_repr_m m e ns :
  Repr e ns -> expr_ok e ->
  forall f env, (length ns <= f)%nat -> agrees_m (den_m m e env) (eval_m m f ns env).
Proof.
  induction 1 as [z|x loc|o loc e ns HR IH|o loc e ns HR IH
                  |o loc l r nl nr HRl IHl HRr IHr|c t fe nc nt nf HRc IHc HRt IHt HRf IHf];
    intros Hok f env Hf.
  - destruct f; [cbn in Hf; lia|]. cbn. exists (TValue z). auto.
  - destruct f; [cbn in Hf; lia|]. cbn. exists (TVariable x loc). cbn. auto.
  - rewrite app_length in Hf. cbn [length] in Hf. destruct f as [|f]; [lia|].
    cbn [eval_m]. rewrite split_last_app. cbn [den_m].
    apply agrees_bind with (1 := IH Hok f env ltac:(lia)). intros t mm e' [Ht Hm].
    apply agrees_value_m, apply_prefix_spec_m; assumption.
  - rewrite app_length in Hf. cbn [length] in Hf. destruct f as [|f]; [lia|].
    cbn [eval_m]. rewrite split_last_app. cbn [den_m].
    apply agrees_bind with (1 := IH Hok f env ltac:(lia)). intros t mm e' [Ht Hm].
    apply agrees_value_m, apply_postfix_spec_m; assumption.
  - destruct Hok as [Hokl Hokr].
    rewrite app_assoc, app_length in Hf. cbn [length] in Hf. rewrite app_length in Hf.
    destruct f as [|f]; [lia|].
    rewrite app_assoc. cbn [eval_m]. rewrite split_last_app.
    specialize (IHl Hokl f env ltac:(lia)).
    assert (IHr' := fun env => IHr Hokr f env ltac:(lia)). clear IHr.
    destruct o as [| |a| |a]; cbn [den_m]; rewrite split_off_app;
      apply agrees_bind with (1 := IHl); intros ta ma e1 [Hta Hma].
    3-5: (apply agrees_bind with (1 := IHr' e1); intros tb mb e2 [Htb Hmb];
          apply agrees_value_m, apply_binary_spec_m; assumption || discriminate).
    + (* || *)
      apply agrees_bind with (1 := rvalue_step m ta ma e1 Hta Hma). intros ? na e2 [-> Hna].
      destruct (negb (na =? 0)) eqn:Ena; [exists (TValue 1); cbn; unfold I64; repeat split; lia|].
      apply agrees_bind with (1 := IHr' e2). intros tb mb e3 [Htb Hmb].
      apply agrees_bind with (1 := rvalue_step m tb mb e3 Htb Hmb). intros ? nb e4 [-> Hnb].
      cbn [ebind binary_result]. rewrite Ena. cbn.
      eexists. split; [reflexivity|]. split; [reflexivity|apply I64_b2z].
    + (* && *)
      apply agrees_bind with (1 := rvalue_step m ta ma e1 Hta Hma). intros ? na e2 [-> Hna].
      destruct (na =? 0) eqn:Ena; [exists (TValue 0); cbn; unfold I64; repeat split; lia|].
      apply agrees_bind with (1 := IHr' e2). intros tb mb e3 [Htb Hmb].
      apply agrees_bind with (1 := rvalue_step m tb mb e3 Htb Hmb). intros ? nb e4 [-> Hnb].
      cbn [ebind binary_result]. rewrite Ena. cbn.
      eexists. split; [reflexivity|]. split; [reflexivity|apply I64_b2z].
  - destruct Hok as [Hokc [Hokt Hokf]].
    replace (nc ++ nt ++ nf ++ [ACond (length nt) (length nf)])
      with (((nc ++ nt) ++ nf) ++ [ACond (length nt) (length nf)]) in *
      by (now rewrite <- !app_assoc).
    rewrite !app_length in Hf. cbn [length] in Hf.
    destruct f as [|f]; [lia|].
    cbn [eval_m]. rewrite split_last_app, split_off_app, split_off_app. cbn [den_m].
    apply agrees_bind with (1 := IHc Hokc f env ltac:(lia)). intros tc mc e1 [Htc Hmc].
    apply agrees_bind with (1 := rvalue_step m tc mc e1 Htc Hmc). intros ? nc' e2 [-> Hnc].
    destruct (negb (nc' =? 0)); [apply IHt|apply IHf]; assumption || lia.
Qed.

Lemma eval_top_m m e ns env :
  Repr e ns -> expr_ok e ->
  match spec_eval_m m e env with
  | MVal z env' => (do t, e <- eval_m m (length ns) ns env; into_value_m m t e) = EOk z env'
  | MErr env' => exists c l, (do t, e <- eval_m m (length ns) ns env; into_value_m m t e) = EErr c l env'
  end.
Proof.
  intros HR Hok. pose proof (eval_repr_m m e ns HR Hok (length ns) env (le_n _)) as H.
  unfold spec_eval_m. destruct (den_m m e env) as [t e'|e'].
  - destruct H as [mm [-> [Ht Hm]]]. cbn [ebind].
    pose proof (rvalue_step m t mm e' Ht Hm) as Hr.
    destruct (rvalue_m m t e') as [z|]; cbn in Hr.
    + now destruct Hr as [z' [-> [-> _]]].
    + exact Hr.
  - destruct H as [c [l ->]]. cbn. eauto.
Qed.

Lemma ebind_ext {A B} (r : eres A) (k k' : A -> env -> eres B) :
  (forall a e, k a e = k' a e) -> ebind r k = ebind r k'.
Proof. intros H. destruct r; cbn; auto. Qed.

(* [apply_prefix_m mode0] etc. are [apply_prefix] etc. by computation *)
Lemma eval_mode0 f : forall a e, eval_m mode0 f a e = eval f a e.
Proof.
  induction f as [|f IH]; intros a e; [reflexivity|]. cbn [eval_m eval].
  destruct (split_last a) as [[[t|o loc|o loc|o n loc|n1 n2] children]|]; try reflexivity.
  - now rewrite IH.
  - now rewrite IH.
  - destruct (split_off children n) as [[lhs rhs]|]; [|now destruct o].
    destruct o; rewrite IH; apply ebind_ext; intros lt e1.
    3-5: now rewrite IH.
    + apply ebind_ext; intros lv e2. destruct (negb (lv =? 0)); [reflexivity|now rewrite IH].
    + apply ebind_ext; intros lv e2. destruct (lv =? 0); [reflexivity|now rewrite IH].
  - destruct (split_off children n2) as [[c2 el]|]; [|reflexivity].
    destruct (split_off c2 n1) as [[co th]|]; [|reflexivity].
    rewrite IH. apply ebind_ext; intros ct e1. apply ebind_ext; intros cv e2.
    destruct (negb (cv =? 0)); apply IH.
Qed.

(* the specification without modes forgets the variables at the point of failure;
   this turns the binds of SpecShell.v into those of Spec.v *)
Definition forget {A} (d : dres A) : option (A * env) :=
  match d with DOk a e => Some (a, e) | DFail _ => None end.

(* [agrees_m] with the variables of a failure forgotten on the side of the specification *)
Definition agrees (d : option (sterm * env)) (r : eres term) : Prop :=
  match d with
  | Some (t, e') => exists m, r = EOk m e' /\ tmatch t m /\ term_ok m
  | None => exists c l e', r = EErr c l e'
  end.

Lemma agrees_forget d r : agrees_m d r -> agrees (forget d) r.
Proof. destruct d; cbn [forget agrees]; [exact (fun H => H)|]. intros [c [l H]]. eauto. Qed.

Lemma forget_bind {A B} (d : dres A) (k : A -> env -> dres B) k' :
  (forall a e, forget (k a e) = k' (a, e)) -> forget (dbind d k) = obind (forget d) k'.
Proof. intros H. destruct d; [apply H|reflexivity]. Qed.

Lemma forget_lift {A B} (o : option A) e (k : A -> env -> dres B) k' :
  (forall a, forget (k a e) = k' a) -> forget (dbind (lift o e) k) = obind o k'.
Proof. intros H. destruct o; [apply H|reflexivity]. Qed.

(* The operators are chains of [lift]; with [mode0] reading and storing are those of Spec.v
   by computation. *)
Lemma den_prefix_mode0 o t e : forget (den_prefix_m mode0 o t e) = den_prefix o t e.
Proof.
  destruct o; cbn [den_prefix_m den_prefix]; unfold incdec_m;
    repeat (apply forget_lift; intros ?); reflexivity.
Qed.

Lemma den_postfix_mode0 o t e : forget (den_postfix_m mode0 o t e) = den_postfix o t e.
Proof.
  destruct o; unfold den_postfix_m, den_postfix, incdec_m;
    repeat (apply forget_lift; intros ?); reflexivity.
Qed.

Lemma den_binary_mode0 o ta tb e : forget (den_binary_m mode0 o ta tb e) = den_binary o ta tb e.
Proof.
  destruct o; cbn [den_binary_m den_binary]; repeat (apply forget_lift; intros ?); reflexivity.
Qed.

Lemma den_mode0 x : forall e, forget (den_m mode0 x e) = den x e.
Proof.
  induction x as [z|v|o a IH|o a IH|o a IHa b IHb|c IHc a IHa b IHb]; intros e; try reflexivity.
  - cbn [den_m den]. rewrite <- IH. apply forget_bind. intros t e1. apply den_prefix_mode0.
  - cbn [den_m den]. rewrite <- IH. apply forget_bind. intros t e1. apply den_postfix_mode0.
  - destruct o; cbn [den_m den]; rewrite <- IHa; apply forget_bind; intros ta e1.
    + apply forget_lift; intros na. destruct (negb (na =? 0)); [reflexivity|].
      rewrite <- IHb. apply forget_bind; intros tb e2. apply forget_lift; intros nb. reflexivity.
    + apply forget_lift; intros na. destruct (na =? 0); [reflexivity|].
      rewrite <- IHb. apply forget_bind; intros tb e2. apply forget_lift; intros nb. reflexivity.
    + rewrite <- IHb. apply forget_bind; intros tb e2. apply den_binary_mode0.
    + rewrite <- IHb. apply forget_bind; intros tb e2. apply den_binary_mode0.
    + rewrite <- IHb. apply forget_bind; intros tb e2. apply den_binary_mode0.
  - cbn [den_m den]. rewrite <- IHc. apply forget_bind; intros tc e1. apply forget_lift; intros nc.
    destruct (negb (nc =? 0)); [apply IHa|apply IHb].
Qed.

(* the whole evaluation of eval_with_config after parsing, on both sides *)
Lemma top_mode0 f a e :
  (do t, e <- eval_m mode0 f a e; into_value_m mode0 t e) = (do t, e <- eval f a e; into_value t e).
Proof. now rewrite eval_mode0. Qed.

Lemma spec_eval_mode0 x e :
  spec_eval x e = match spec_eval_m mode0 x e with MVal z e' => SVal z e' | MErr _ => SErr end.
Proof.
  unfold spec_eval, spec_eval_m. rewrite <- den_mode0.
  destruct (den_m mode0 x e) as [t e'|e']; cbn [forget]; [|reflexivity].
  change (rvalue_m mode0 t e') with (rvalue t e'). now destruct (rvalue t e').
Qed.
