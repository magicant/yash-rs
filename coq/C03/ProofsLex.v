(* C03 — the tokenizer.  First match in the order of OPERATORS is
   maximal munch; Tokens::next_token iterated yields the specified tokens. *)
From Yv Require Import Common.Base C03.Defs C03.Model C03.Spec C03.ProofsArith C03.ProofsNum.
From Coq Require Import ZArith NArith Lia ZifyBool.

Lemma strip_prefix_spec p s :
  strip_prefix p s = if is_prefix p s then Some (skipn (length p) s) else None.
Proof.
  revert s. induction p as [|a p IH]; intros s; [reflexivity|].
  destruct s as [|b s]; [reflexivity|]. cbn [strip_prefix is_prefix length skipn].
  destruct (a =? b)%N; [apply IH|reflexivity].
Qed.

Lemma is_prefix_length p s : is_prefix p s = true -> (length p <= length s)%nat.
Proof.
  revert s. induction p as [|a p IH]; intros [|b s]; cbn; try lia; try discriminate.
  intros H. apply andb_prop in H. destruct H as [_ H]. apply IH in H. lia.
Qed.

Lemma is_prefix_comparable p q s :
  is_prefix p s = true -> is_prefix q s = true -> (length p <= length q)%nat ->
  is_prefix p q = true.
Proof.
  revert q s. induction p as [|a p IH]; intros q s Hp Hq Hl; [reflexivity|].
  destruct s as [|c s]; [discriminate|]. destruct q as [|b q]; [cbn in Hl; lia|].
  cbn in *. apply andb_prop in Hp. apply andb_prop in Hq.
  destruct Hp as [Hac Hp], Hq as [Hbc Hq].
  apply N.eqb_eq in Hac, Hbc. subst. rewrite N.eqb_refl. cbn.
  eapply IH; eauto. lia.
Qed.

Lemma is_prefix_same_length p q :
  is_prefix p q = true -> length p = length q -> p = q.
Proof.
  revert q. induction p as [|a p IH]; intros [|b q]; cbn; try discriminate; auto.
  intros H Hl. apply andb_prop in H. destruct H as [Hab H]. apply N.eqb_eq in Hab.
  subst. f_equal. apply IH; [assumption|lia].
Qed.

Definition op_order : list oper := map snd operators.

Lemma operators_map : operators = map (fun o => (lexeme o, o)) op_order.
Proof. reflexivity. Qed.

Lemma find_operator_first l s :
  find_operator (map (fun o => (lexeme o, o)) l) s =
  match find (fun o => is_prefix (lexeme o) s) l with
  | Some o => Some (lexeme o, o, skipn (length (lexeme o)) s)
  | None => None
  end.
Proof.
  induction l as [|o l IH]; [reflexivity|].
  cbn [map find_operator find]. rewrite strip_prefix_spec.
  destruct (is_prefix (lexeme o) s); [reflexivity|apply IH].
Qed.

Lemma find_split {A} (p : A -> bool) l x :
  find p l = Some x ->
  exists l1 l2, l = l1 ++ x :: l2 /\ p x = true /\ forall y, In y l1 -> p y = false.
Proof.
  induction l as [|a l IH]; [discriminate|]. cbn. destruct (p a) eqn:E.
  - intros [= <-]. exists [], l. repeat split; auto. intros y [].
  - intros H. destruct (IH H) as [l1 [l2 [-> [Hx Hl1]]]].
    exists (a :: l1), l2. repeat split; auto. intros y [<-|Hy]; auto.
Qed.

Lemma find_none {A} (p : A -> bool) l : find p l = None -> forall y, In y l -> p y = false.
Proof.
  induction l as [|a l IH]; [intros _ y []|]. cbn. destruct (p a) eqn:E; [discriminate|].
  intros H y [<-|Hy]; auto.
Qed.

Definition matches (s : str) (o : oper) : Prop := is_prefix (lexeme o) s = true.
Definition len (o : oper) : nat := length (lexeme o).

(* by induction from the right, so that each step is one application of [longer] to the
   best operator so far *)
Lemma longer_fold s l :
  match fold_left (longer s) l None with
  | Some b => matches s b /\ forall o, In o l -> matches s o -> (len o <= len b)%nat
  | None => forall o, In o l -> ~ matches s o
  end.
Proof.
  induction l as [|x l IH] using rev_ind; [intros o []|].
  rewrite fold_left_app. cbn [fold_left]. set (r := fold_left (longer s) l None) in *. unfold longer.
  assert (Hx : forall b, (forall o, In o l -> matches s o -> (len o <= len b)%nat) ->
                         (matches s x -> (len x <= len b)%nat) ->
                         forall o, In o (l ++ [x]) -> matches s o -> (len o <= len b)%nat).
  { intros b Hl Hb o Ho Hm. apply in_app_or in Ho as [Ho|[<-|[]]]; auto. }
  destruct (is_prefix (lexeme x) s) eqn:E.
  - destruct r as [b|].
    + destruct IH as [Hb Hmax].
      destruct (Nat.ltb_spec (length (lexeme b)) (length (lexeme x))) as [Hlt|Hge].
      * split; [exact E|]. apply Hx; [|lia].
        intros o Ho Hm. specialize (Hmax o Ho Hm). unfold len in *. lia.
      * split; [exact Hb|]. apply Hx; [exact Hmax|]. intros _. exact Hge.
    + split; [exact E|]. apply Hx; [|lia]. intros o Ho Hm. now destruct (IH o Ho).
  - assert (Hnx : ~ matches s x) by (unfold matches; congruence).
    destruct r as [b|].
    + destruct IH as [Hb Hmax]. split; [exact Hb|]. apply Hx; [exact Hmax|]. intros Hm. now destruct Hnx.
    + intros o Ho. apply in_app_or in Ho as [Ho|[<-|[]]]; [now apply IH|exact Hnx].
Qed.

Definition proper_prefix_b (p q : str) : bool :=
  is_prefix p q && Nat.ltb (length p) (length q).

(* No lexeme is a proper prefix of the lexeme of a later entry: what makes the first
   match the longest one.  Checked for OPERATORS by computation ([op_order_ordered]),
   as are the completeness of the two lists and the injectivity of [lexeme]. *)
Fixpoint ordered_b (l : list oper) : bool :=
  match l with
  | [] => true
  | x :: r => forallb (fun y => negb (proper_prefix_b (lexeme x) (lexeme y))) r && ordered_b r
  end.

Lemma ordered_b_spec l :
  ordered_b l = true ->
  forall l1 x l2 y, l = l1 ++ x :: l2 -> In y l2 ->
    proper_prefix_b (lexeme x) (lexeme y) = false.
Proof.
  induction l as [|a l IH]; intros H l1 x l2 y E Hy.
  - destruct l1; discriminate.
  - cbn [ordered_b] in H. apply andb_prop in H. destruct H as [Ha Hl].
    destruct l1 as [|b l1]; cbn [app] in E; injection E as -> ->.
    + rewrite forallb_forall in Ha. specialize (Ha y Hy). now apply negb_true_iff in Ha.
    + eapply IH; eauto.
Qed.

Lemma op_order_ordered : ordered_b op_order = true.
Proof. vm_compute. reflexivity. Qed.

Lemma oper_eqb_eq a b : oper_eqb a b = true -> a = b.
Proof. unfold oper_eqb. now destruct (oper_eq_dec a b). Qed.

Lemma in_by_eqb o l : existsb (oper_eqb o) l = true -> In o l.
Proof.
  intros H. apply existsb_exists in H. destruct H as [x [Hx E]]. now apply oper_eqb_eq in E as ->.
Qed.

Lemma op_order_complete o : In o op_order.
Proof. apply in_by_eqb. destruct o; vm_compute; reflexivity. Qed.

Lemma all_opers_complete o : In o all_opers.
Proof. apply in_by_eqb. destruct o; vm_compute; reflexivity. Qed.

Definition lexeme_inj_b : bool :=
  forallb (fun a => forallb (fun b => oper_eqb a b || negb (str_eqb (lexeme a) (lexeme b)))
                            all_opers) all_opers.

Lemma lexeme_inj a b : lexeme a = lexeme b -> a = b.
Proof.
  intros H. assert (Hb : lexeme_inj_b = true) by (vm_compute; reflexivity).
  unfold lexeme_inj_b in Hb. rewrite forallb_forall in Hb.
  specialize (Hb a (all_opers_complete a)). rewrite forallb_forall in Hb.
  specialize (Hb b (all_opers_complete b)).
  apply orb_prop in Hb. destruct Hb as [Hb|Hb].
  - now apply oper_eqb_eq.
  - apply negb_true_iff in Hb. assert (str_eqb (lexeme a) (lexeme b) = true) by (now apply str_eqb_eq).
    congruence.
Qed.

Lemma longest_operator_spec s :
  match longest_operator s with
  | Some b => matches s b /\ forall o, matches s o -> (len o <= len b)%nat
  | None => forall o, ~ matches s o
  end.
Proof.
  unfold longest_operator. pose proof (longer_fold s all_opers) as HL.
  destruct (fold_left (longer s) all_opers None) as [b|].
  - destruct HL as [Hb Hmax]. split; [exact Hb|]. intros o. apply Hmax, all_opers_complete.
  - intros o. apply HL, all_opers_complete.
Qed.

(* The first lexeme of OPERATORS (in table order) that is a prefix of the text
   is the longest operator lexeme that is a prefix of the text.  The first match [o]
   and the longest match [b] are both prefixes of the text, so [o] is a prefix of
   [b]; [b] does not stand before [o] (it matches), and if it stood after [o] it
   would by [ordered_b] not be longer: same length, same lexeme, same operator. *)
Lemma first_match_is_longest s :
  match find_operator operators s with
  | Some (lx, o, rest) =>
      longest_operator s = Some o /\ lx = lexeme o /\ rest = skipn (length (lexeme o)) s
  | None => longest_operator s = None
  end.
Proof.
  rewrite operators_map, find_operator_first.
  pose proof (longest_operator_spec s) as HL.
  destruct (find (fun o => is_prefix (lexeme o) s) op_order) as [o|] eqn:Ef.
  - split; [|split; reflexivity].
    destruct (find_split _ _ _ Ef) as [l1 [l2 [Eorder [Ho Hl1]]]].
    destruct (longest_operator s) as [b|].
    + destruct HL as [Hb Hmax]. f_equal.
      assert (Hle : (len o <= len b)%nat) by (apply Hmax; exact Ho).
      assert (Hpre : is_prefix (lexeme o) (lexeme b) = true)
        by (eapply is_prefix_comparable; eauto).
      pose proof (op_order_complete b) as Hin. rewrite Eorder in Hin.
      apply in_app_or in Hin. destruct Hin as [Hin|[Hin|Hin]].
      * apply Hl1 in Hin. unfold matches in Hb. congruence.
      * symmetry. exact Hin.
      * pose proof (ordered_b_spec _ op_order_ordered l1 o l2 b Eorder Hin) as Hnp.
        unfold proper_prefix_b in Hnp. rewrite Hpre in Hnp. cbn [andb] in Hnp.
        apply Nat.ltb_ge in Hnp. unfold len in Hle.
        apply lexeme_inj. symmetry. apply is_prefix_same_length; [exact Hpre|lia].
    + exfalso. apply (HL o). exact Ho.
  - destruct (longest_operator s) as [b|]; [|reflexivity].
    destruct HL as [Hb _]. pose proof (find_none _ _ Ef b (op_order_complete b)) as H.
    unfold matches in Hb. cbn beta in H. congruence.
Qed.

Definition erase_tok (t : tokval * range) : stok :=
  match fst t with
  | TkTerm (TValue z) => SNum z
  | TkTerm (TVariable x _) => SVar x
  | TkOp o => SOp o
  end.

Definition erase (ts : list (tokval * range)) : list stok := map erase_tok ts.

Lemma trim_start_drop cls s : fst (trim_start cls s) = drop_while (is_ws cls) s.
Proof.
  induction s as [|c r IH]; [reflexivity|]. cbn [trim_start drop_while].
  destruct (is_ws cls c); [|reflexivity]. destruct (trim_start cls r). exact IH.
Qed.

Lemma drop_while_length p s : (length (drop_while p s) <= length s)%nat.
Proof. induction s as [|c r IH]; cbn; [lia|]. destruct (p c); cbn; lia. Qed.

Lemma span_take_drop p s : span p s = (take_while p s, drop_while p s).
Proof.
  induction s as [|c r IH]; [reflexivity|]. cbn [span take_while drop_while].
  destruct (p c); [|reflexivity]. now rewrite IH.
Qed.

Lemma take_while_Forall p s : Forall (fun c => p c = true) (take_while p s).
Proof.
  induction s as [|c r IH]; cbn; [constructor|]. destruct (p c) eqn:E; constructor; auto.
Qed.

Lemma take_drop_length p s : (length (take_while p s) + length (drop_while p s) = length s)%nat.
Proof. induction s as [|c r IH]; cbn; [lia|]. destruct (p c); cbn; lia. Qed.

Lemma take_while_whole p s : Forall (fun c => p c = true) s -> take_while p s = s /\ drop_while p s = [].
Proof.
  induction 1 as [|c s Hc _ [IH1 IH2]]; [auto|]. cbn. rewrite Hc, IH1, IH2. auto.
Qed.

Lemma utf8_len_pos c : (1 <= utf8_len c)%N.
Proof. unfold utf8_len. repeat destruct (_ <? _)%N; lia. Qed.

Lemma utf8_bytes_zero s : (utf8_bytes s =? 0)%N = true <-> s = [].
Proof.
  destruct s as [|c r]; cbn [utf8_bytes]; [split; auto|].
  pose proof (utf8_len_pos c). split; [lia|discriminate].
Qed.

Lemma word_plain cls w : Forall (fun c => is_word cls c = true) w -> plain w.
Proof.
  unfold plain. apply Forall_impl. intros c H. split; intros ->; discriminate H.
Qed.

Definition tok_ok (t : tokval * range) : Prop :=
  match fst t with TkTerm (TValue z) => I64 z | _ => True end.

Lemma lexeme_nonempty o : (0 < length (lexeme o))%nat.
Proof. destruct o; cbn; lia. Qed.

(* one more token in front of a tokenized rest *)
Lemma tokenize_cons (t : tokval * range) (r : stream) (o : option (list stok)) :
  tok_ok t ->
  match r with
  | (ts, FEnd _) => o = Some (erase ts) /\ Forall tok_ok ts
  | (ts, FErr _ _) => o = None
  | (_, FFuel) => False
  end ->
  match (let '(ts, fi) := r in (t :: ts, fi)) with
  | (ts, FEnd _) => option_map (cons (erase_tok t)) o = Some (erase ts) /\ Forall tok_ok ts
  | (ts, FErr _ _) => option_map (cons (erase_tok t)) o = None
  | (_, FFuel) => False
  end.
Proof.
  destruct r as [ts [loc|e loc|]]; intros Ht H; [|now rewrite H|exact H].
  destruct H as [-> Hok]. split; [reflexivity|now constructor].
Qed.

(* Both sides run on the same fuel.  Every token takes at least one character, so
   fuel above the length of the text is never exhausted: the FFuel case is False. *)
Lemma tokenize_slex cls f : forall s idx,
  (length s < f)%nat ->
  match tokenize f cls s idx with
  | (ts, FEnd _) => slex f cls s = Some (erase ts) /\ Forall tok_ok ts
  | (ts, FErr _ _) => slex f cls s = None
  | (_, FFuel) => False
  end.
Proof.
  induction f as [|f IH]; intros s idx Hf; [lia|].
  cbn [tokenize slex]. unfold next_token.
  pose proof (trim_start_drop cls s) as Htrim.
  pose proof (drop_while_length (is_ws cls) s) as Hlen.
  destruct (trim_start cls s) as [source dropped]. cbn [fst] in Htrim. rewrite <- Htrim in *.
  clear Htrim.
  destruct source as [|c rest0] eqn:Esrc.
  - split; [reflexivity|constructor].
  - rewrite <- Esrc in *.
    pose proof (first_match_is_longest source) as Hop.
    destruct (find_operator operators source) as [[[lx o] rest]|].
    + destruct Hop as [Hlo [-> ->]].
      assert (Hpre : is_prefix (lexeme o) source = true).
      { pose proof (longest_operator_spec source) as H. rewrite Hlo in H.
        destruct H as [H _]. exact H. }
      rewrite Hlo.
      assert (Hl2 : (length (skipn (length (lexeme o)) source) < f)%nat).
      { pose proof (is_prefix_length _ _ Hpre). pose proof (lexeme_nonempty o).
        rewrite skipn_length. lia. }
      specialize (IH (skipn (length (lexeme o)) source)
                     (idx + dropped + utf8_bytes (lexeme o))%N Hl2).
      rewrite Esrc in *.
      exact (tokenize_cons (TkOp o, _) _ _ I IH).
    + rewrite Hop. rewrite span_take_drop.
      pose proof (take_while_Forall (is_word cls) source) as Hall.
      pose proof (take_drop_length (is_word cls) source) as Htd.
      rewrite Esrc in *.
      destruct (utf8_bytes (take_while (is_word cls) (c :: rest0)) =? 0)%N eqn:Ez.
      * apply utf8_bytes_zero in Ez. rewrite Ez. reflexivity.
      * destruct (take_while (is_word cls) (c :: rest0)) as [|w0 w] eqn:Ew.
        { exfalso. assert (utf8_bytes (@nil N) =? 0 = true)%N by reflexivity. congruence. }
        rewrite <- Ew in *.
        assert (Hl2 : (length (drop_while (is_word cls) (c :: rest0)) < f)%nat).
        { rewrite Ew in Htd. cbn [length] in Htd, Hlen. lia. }
        specialize (IH (drop_while (is_word cls) (c :: rest0))
                       (idx + dropped + utf8_bytes (take_while (is_word cls) (c :: rest0)))%N Hl2).
        destruct (ascii_digit c).
        -- rewrite (parse_constant_spec _ (word_plain cls _ Hall)).
           pose proof (parse_constant_I64 (take_while (is_word cls) (c :: rest0))) as HI.
           rewrite (parse_constant_spec _ (word_plain cls _ Hall)) in HI.
           rewrite Ew in *.
           destruct (constant_value (w0 :: w)) as [z|]; [|reflexivity].
           exact (tokenize_cons (TkTerm (TValue z), _) _ _ (HI z eq_refl) IH).
        -- rewrite Ew in *.
           exact (tokenize_cons (TkTerm (TVariable _ _), _) _ _ I IH).
Qed.

Lemma lex_equiv cls s :
  match tokens_of cls s with
  | (ts, FEnd _) => spec_lex cls s = Some (erase ts) /\ Forall tok_ok ts
  | (ts, FErr _ _) => spec_lex cls s = None
  | (_, FFuel) => False
  end.
Proof. apply tokenize_slex. lia. Qed.

Lemma word_not_ws cls c : is_word cls c = true -> is_ws cls c = false.
Proof.
  unfold is_word, is_alnum, is_ws, ascii_alnum, ascii_digit, ascii_upper, ascii_lower, ascii_ws.
  destruct (c <? 128)%N eqn:E; lia.
Qed.

Lemma op_first_not_word cls o c r : is_prefix (lexeme o) (c :: r) = true -> is_word cls c = false.
Proof.
  destruct o; cbn [lexeme L map String.list_ascii_of_string is_prefix];
    intros H; apply andb_prop in H; destruct H as [H _]; apply N.eqb_eq in H; subst c; reflexivity.
Qed.

Lemma longest_operator_word cls c r : is_word cls c = true -> longest_operator (c :: r) = None.
Proof.
  intros Hw. pose proof (longest_operator_spec (c :: r)) as H.
  destruct (longest_operator (c :: r)) as [b|]; [|reflexivity].
  destruct H as [H _]. apply (op_first_not_word cls) in H. congruence.
Qed.

(* a text of word characters is one token of the specification's lexer *)
Lemma slex_word cls f c r :
  Forall (fun c => is_word cls c = true) (c :: r) -> (2 <= f)%nat ->
  slex f cls (c :: r) =
  if ascii_digit c then option_map (fun z => [SNum z]) (constant_value (c :: r))
  else Some [SVar (c :: r)].
Proof.
  intros Hall Hf. destruct f as [|[|f]]; try lia.
  inversion Hall as [|? ? Hc Hr]; subst.
  assert (Hd : drop_while (is_ws cls) (c :: r) = c :: r)
    by (cbn [drop_while]; now rewrite (word_not_ws cls c Hc)).
  cbn [slex]. rewrite Hd.
  rewrite (longest_operator_word cls c r Hc).
  destruct (take_while_whole (is_word cls) (c :: r) Hall) as [-> ->].
  destruct (ascii_digit c).
  - destruct (constant_value (c :: r)); reflexivity.
  - reflexivity.
Qed.
